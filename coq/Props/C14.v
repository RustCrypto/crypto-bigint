(** C14 — every signed division flavour satisfies n = q*d + r with its sign convention.
    Short proofs stand here; the others are lemmas of Proofs/IntDivP.v and Proofs/IntTablesP.v cited by [exact].
    [seval] = signed value, [to_limbs_s k x] = k-limb two's-complement encoding of x, [isp_fits k x] decides
    MIN <= x <= MAX for k limbs.  Truncating flavour: Z.quot / Z.rem; flooring flavour: Z.div / Z.modulo.
    Dividend and divisor may have different widths (the _vartime forms); the quotient has the width of
    the dividend, the remainder the width of the divisor.
    The UNSIGNED division called by the Int code is modelled at the value level (Z.div / Z.modulo on eval);
    its limb-level correctness is property C02.
    One statement is REFUTED for the code of /repo as it stands (open defect, see the _refuted theorem):
    the width of the remainder of div_rem_uint_vartime / rem_uint_vartime when the divisor type is narrower
    than the dividend type.  (The remainder sign of checked_div_rem_floor(_vartime), refuted on the original
    tree with the witness (-8) div_floor 3 -> r = -1, was repaired in /repo by e95f693: the remainder is now
    negated by the sign of the divisor, and the full statement below is proved for that code.) *)
From CB Require Import Model.Limbs Model.AddSub Model.IntArith Model.IntDiv
  Proofs.WordP Proofs.LimbsP Proofs.AddSubP Proofs.IntArithP Proofs.IntDivP Proofs.IntTablesP.
From Coq Require Import ZArith Lia List Bool String.
Open Scope string_scope.
Open Scope Z_scope.
Notation length := List.length.

(** the identities of the two conventions, in Z *)
Theorem C14_trunc_identity : forall N D, D <> 0 ->
  N = Z.quot N D * D + Z.rem N D /\ Z.abs (Z.rem N D) < Z.abs D /\
  (Z.rem N D = 0 \/ Z.sgn (Z.rem N D) = Z.sgn N).
Proof.
  intros N D HD. split; [|split].
  - rewrite Z.mul_comm. apply Z.quot_rem'.
  - apply Z.rem_bound_abs. assumption.
  - destruct (Z.eq_dec (Z.rem N D) 0); [left; assumption | right; apply Z.rem_sign_nz; assumption].
Qed.
Print Assumptions C14_trunc_identity.

Theorem C14_floor_identity : forall N D, D <> 0 ->
  N = (N / D) * D + N mod D /\ Z.abs (N mod D) < Z.abs D /\
  (N mod D = 0 \/ Z.sgn (N mod D) = Z.sgn D).
Proof.
  intros N D HD.
  assert (Hb : (D < 0 /\ D < N mod D <= 0) \/ (0 < D /\ 0 <= N mod D < D)).
  { destruct (Z_lt_ge_dec D 0); [left | right]; (split; [lia|]); [apply Z.mod_neg_bound | apply Z.mod_pos_bound]; lia. }
  split; [|split].
  - rewrite Z.mul_comm. apply Z.div_mod. assumption.
  - lia.
  - destruct (Z.eq_dec (N mod D) 0); [left; assumption | right]. lia.
Qed.
Print Assumptions C14_floor_identity.

(** truncating division by an Int: checked_div_rem(_vartime), rem(_vartime) *)
Theorem C14_checked_div_rem : forall n d, wf n -> wf d -> seval d <> 0 ->
  int_checked_div_rem n d =
    (if isp_fits (length n) (Z.quot (seval n) (seval d))
     then Some (to_limbs_s (length n) (Z.quot (seval n) (seval d))) else None,
     to_limbs_s (length d) (Z.rem (seval n) (seval d))).
Proof. exact int_checked_div_rem_spec. Qed.
Print Assumptions C14_checked_div_rem.

Theorem C14_trunc_remainder_fits : forall n d, wf d -> seval d <> 0 ->
  - Bn (length d) <= 2 * Z.rem (seval n) (seval d) < Bn (length d).
Proof. exact trunc_rem_fits. Qed.
Print Assumptions C14_trunc_remainder_fits.

(** the quotient is none exactly for MIN / -1 ... *)
Theorem C14_trunc_quotient_none_iff : forall n d, wf n -> seval d <> 0 -> n <> [] ->
  (isp_fits (length n) (Z.quot (seval n) (seval d)) = false <->
   (2 * seval n = - Bn (length n) /\ seval d = -1)).
Proof.
  intros n d Hn Hnz Hne. apply (quot_fits_iff n (seval d) _ (Z.rem (seval n) (seval d))); auto.
  - apply Z.quot_rem'.
  - apply Z.rem_bound_abs. assumption.
Qed.
Print Assumptions C14_trunc_quotient_none_iff.

(** ... or for a zero divisor (checked_div / checked_div_floor take a plain Int) *)
Theorem C14_zero_divisor : forall n d, wf d -> eval d = 0 ->
  int_checked_div n d = None /\ int_checked_div_floor n d = None.
Proof. exact checked_div_zero. Qed.
Print Assumptions C14_zero_divisor.

Theorem C14_checked_div : forall n d, wf n -> wf d -> seval d <> 0 ->
  int_checked_div n d =
    if isp_fits (length n) (Z.quot (seval n) (seval d))
    then Some (to_limbs_s (length n) (Z.quot (seval n) (seval d))) else None.
Proof.
  intros n d Hn Hd Hnz. unfold int_checked_div, nz_and_then.
  rewrite (nz_is_zero d Hd Hnz), int_checked_div_rem_spec by assumption. reflexivity.
Qed.
Print Assumptions C14_checked_div.

Theorem C14_rem : forall n d, wf n -> wf d -> seval d <> 0 ->
  int_rem n d = to_limbs_s (length d) (Z.rem (seval n) (seval d)).
Proof. intros n d Hn Hd Hnz. unfold int_rem. rewrite int_checked_div_rem_spec by assumption. reflexivity. Qed.
Print Assumptions C14_rem.

(** flooring division by an Int: checked_div_rem_floor(_vartime), checked_div_floor(_vartime):
    quotient = floor(n / d), remainder = n mod d (sign of the divisor) *)
Theorem C14_checked_div_rem_floor : forall n d, wf n -> wf d -> n <> [] -> seval d <> 0 ->
  int_checked_div_rem_floor n d =
    (if isp_fits (length n) (seval n / seval d) then Some (to_limbs_s (length n) (seval n / seval d)) else None,
     to_limbs_s (length d) (seval n mod seval d)).
Proof. exact int_checked_div_rem_floor_spec. Qed.
Print Assumptions C14_checked_div_rem_floor.

Theorem C14_floor_quotient : forall n d, wf n -> wf d -> n <> [] -> seval d <> 0 ->
  fst (int_checked_div_rem_floor n d) =
    if isp_fits (length n) (seval n / seval d) then Some (to_limbs_s (length n) (seval n / seval d)) else None.
Proof. intros. rewrite int_checked_div_rem_floor_spec by assumption. reflexivity. Qed.
Print Assumptions C14_floor_quotient.

Theorem C14_floor_remainder : forall n d, wf n -> wf d -> n <> [] -> seval d <> 0 ->
  snd (int_checked_div_rem_floor n d) = to_limbs_s (length d) (seval n mod seval d).
Proof. intros. rewrite int_checked_div_rem_floor_spec by assumption. reflexivity. Qed.
Print Assumptions C14_floor_remainder.

Theorem C14_checked_div_floor : forall n d, wf n -> wf d -> n <> [] -> seval d <> 0 ->
  int_checked_div_floor n d =
    if isp_fits (length n) (seval n / seval d) then Some (to_limbs_s (length n) (seval n / seval d)) else None.
Proof.
  intros n d Hn Hd Hne Hnz. unfold int_checked_div_floor, nz_and_then.
  rewrite (nz_is_zero d Hd Hnz), int_checked_div_rem_floor_spec by assumption. reflexivity.
Qed.
Print Assumptions C14_checked_div_floor.

Theorem C14_floor_quotient_none_iff : forall n d, wf n -> wf d -> n <> [] -> seval d <> 0 ->
  (isp_fits (length n) (seval n / seval d) = false <-> (2 * seval n = - Bn (length n) /\ seval d = -1)).
Proof.
  intros n d Hn _ Hne Hnz. apply (quot_fits_iff n (seval d) _ (seval n mod seval d)); auto.
  - apply Z.div_mod. assumption.
  - destruct (Z_lt_ge_dec (seval d) 0).
    + pose proof (Z.mod_neg_bound (seval n) (seval d) ltac:(lia)). lia.
    + pose proof (Z.mod_pos_bound (seval n) (seval d) ltac:(lia)). lia.
Qed.
Print Assumptions C14_floor_quotient_none_iff.

Theorem C14_floor_remainder_fits : forall n d, wf d -> seval d <> 0 ->
  - Bn (length d) <= 2 * (seval n mod seval d) < Bn (length d).
Proof. exact floor_rem_fits. Qed.
Print Assumptions C14_floor_remainder_fits.

(** truncating division by a Uint: div_rem_uint(_vartime), div_uint, rem_uint *)
Theorem C14_div_rem_uint : forall n d, wf n -> wf d -> eval d <> 0 ->
  int_div_rem_uint n d =
    (to_limbs_s (length n) (Z.quot (seval n) (eval d)), to_limbs_s (length d) (Z.rem (seval n) (eval d))).
Proof. exact int_div_rem_uint_spec. Qed.
Print Assumptions C14_div_rem_uint.

Theorem C14_div_uint_quotient_fits : forall n d, wf n -> wf d -> eval d <> 0 ->
  - Bn (length n) <= 2 * Z.quot (seval n) (eval d) < Bn (length n).
Proof. exact uquot_fits. Qed.
Print Assumptions C14_div_uint_quotient_fits.

(** the signed remainder is representable when the divisor type is at least as wide as the dividend type *)
Theorem C14_rem_uint_fits_partial : forall n d, wf n -> wf d -> eval d <> 0 -> (length n <= length d)%nat ->
  - Bn (length d) <= 2 * Z.rem (seval n) (eval d) < Bn (length d).
Proof. exact urem_fits. Qed.
Print Assumptions C14_rem_uint_fits_partial.

(** OPEN DEFECT (finding F14): with a narrower divisor type the remainder can exceed Int<RHS_LIMBS>::MAX and is returned
    reinterpreted (witness: Int<2> 2^64-2 rem Uint<1> 2^64-1 reads back as -2) *)
Theorem C14_rem_uint_mixed_refuted :
  exists n d, wf n /\ wf d /\ eval d <> 0 /\
    seval (snd (int_div_rem_uint n d)) <> Z.rem (seval n) (eval d).
Proof.
  exists [2 ^ 64 - 2; 0], [2 ^ 64 - 1].
  split; [wf_by_compute|]. split; [wf_by_compute|].
  vm_compute. split; discriminate.
Qed.
Print Assumptions C14_rem_uint_mixed_refuted.

(** flooring division by a Uint: div_rem_floor_uint(_vartime), div_floor_uint, normalized_rem *)
Theorem C14_div_rem_floor_uint : forall n d, wf n -> wf d -> n <> [] -> eval d <> 0 ->
  int_div_rem_floor_uint n d =
    (to_limbs_s (length n) (seval n / eval d), to_limbs (length d) (seval n mod eval d)).
Proof. exact int_div_rem_floor_uint_spec. Qed.
Print Assumptions C14_div_rem_floor_uint.

Theorem C14_div_floor_uint_fits : forall n d, wf n -> wf d -> eval d <> 0 ->
  - Bn (length n) <= 2 * (seval n / eval d) < Bn (length n).
Proof. exact ufloor_fits. Qed.
Print Assumptions C14_div_floor_uint_fits.

Theorem C14_normalized_rem_range : forall n d, wf d -> eval d <> 0 ->
  0 <= seval n mod eval d < eval d.
Proof. intros n d Hd Hnz. apply Z.mod_pos_bound. exact (udiv_pos d Hd Hnz). Qed.
Print Assumptions C14_normalized_rem_range.

(** the two op tables evaluated by the correspondence check agree key by key on all well-formed arguments
    (a zero divisor is outside the domain of the forms taking NonZero: both entries say so) *)
Theorem C14_tables_agree_int_divisor : forall dbg n d, wf n -> wf d -> n <> [] ->
  let M := run_op ops_intdiv_model in let S := run_op ops_intdiv_spec in
  M "sdiv.checked_div_rem" dbg [n; d] = S "sdiv.checked_div_rem" dbg [n; d] /\
  M "sdiv.checked_div" dbg [n; d] = S "sdiv.checked_div" dbg [n; d] /\
  M "sdiv.rem" dbg [n; d] = S "sdiv.rem" dbg [n; d] /\
  M "sdiv.div_expect" dbg [n; d] = S "sdiv.div_expect" dbg [n; d] /\
  M "sdiv.checked_div_floor" dbg [n; d] = S "sdiv.checked_div_floor" dbg [n; d].
Proof.
  (* one bullet per key, in the order of the statement (the order of the tables) *)
  intros dbg n d Hn Hd Hne M S. unfold M, S. repeat apply conj.
  - table_open. nz_split d Hd. rewrite int_checked_div_rem_spec by assumption.
    unfold voptq_r, dsp_optq_r. cbn [fst snd].
    rewrite (isp_fits_true (length d)) by (apply trunc_rem_fits; assumption).
    destruct (isp_fits (length n) _); reflexivity.
  - table_open. nz_split d Hd.
    + destruct (checked_div_zero n d Hd Hz) as [-> _]. reflexivity.
    + rewrite C14_checked_div by assumption. fits_cases.
  - table_open. nz_split d Hd. rewrite C14_rem by assumption. unfold dsp_one.
    rewrite (isp_fits_true (length d)) by (apply trunc_rem_fits; assumption).
    reflexivity.
  - apply tbl_div_expect; assumption.
  - table_open. nz_split d Hd.
    + destruct (checked_div_zero n d Hd Hz) as [_ ->]. reflexivity.
    + rewrite C14_checked_div_floor by assumption. fits_cases.
Qed.
Print Assumptions C14_tables_agree_int_divisor.

Theorem C14_tables_agree_floor : forall dbg n d, wf n -> wf d -> n <> [] ->
  run_op ops_intdiv_model "sdiv.checked_div_rem_floor" dbg [n; d] =
  run_op ops_intdiv_spec "sdiv.checked_div_rem_floor" dbg [n; d].
Proof.
  intros dbg n d Hn Hd Hne. table_open. nz_split d Hd.
  rewrite int_checked_div_rem_floor_spec by assumption.
  unfold voptq_r, dsp_optq_r. cbn [fst snd].
  rewrite (isp_fits_true (length d)) by (apply floor_rem_fits; assumption).
  destruct (isp_fits (length n) _); reflexivity.
Qed.
Print Assumptions C14_tables_agree_floor.

Theorem C14_tables_agree_uint_divisor : forall dbg n d, wf n -> wf d -> n <> [] ->
  let M := run_op ops_intdiv_model in let S := run_op ops_intdiv_spec in
  M "sdiv.div_uint" dbg [n; d] = S "sdiv.div_uint" dbg [n; d] /\
  M "sdiv.div_rem_floor_uint" dbg [n; d] = S "sdiv.div_rem_floor_uint" dbg [n; d] /\
  M "sdiv.div_floor_uint" dbg [n; d] = S "sdiv.div_floor_uint" dbg [n; d] /\
  M "sdiv.normalized_rem" dbg [n; d] = S "sdiv.normalized_rem" dbg [n; d].
Proof.
  (* one bullet per key, in the order of the statement (the order of the tables) *)
  intros dbg n d Hn Hd Hne M S. unfold M, S. split.
  - table_open. destruct (Z.eqb_spec (eval d) 0) as [Hz|Hz]; cbn [negb]; [reflexivity|].
    rewrite int_div_rem_uint_spec by assumption. cbn [fst]. unfold dsp_one.
    rewrite (isp_fits_true (length n)) by (apply uquot_fits; assumption).
    reflexivity.
  - repeat split; table_open; (destruct (Z.eqb_spec (eval d) 0) as [Hz|Hz]; cbn [negb]; [reflexivity|]);
    rewrite int_div_rem_floor_uint_spec by assumption; unfold vpair_ll, dsp_one, usp_val; cbn [fst snd];
    rewrite ?(isp_fits_true (length n)) by (apply ufloor_fits; assumption); reflexivity.
Qed.
Print Assumptions C14_tables_agree_uint_divisor.

(** div_rem_uint / rem_uint: agreement whenever the divisor type is at least as wide as the dividend type
    (outside the reported remainder-width defect class) *)
Theorem C14_tables_agree_rem_uint_partial : forall dbg n d, wf n -> wf d -> (length n <= length d)%nat ->
  run_op ops_intdiv_model "sdiv.div_rem_uint" dbg [n; d] = run_op ops_intdiv_spec "sdiv.div_rem_uint" dbg [n; d] /\
  run_op ops_intdiv_model "sdiv.rem_uint" dbg [n; d] = run_op ops_intdiv_spec "sdiv.rem_uint" dbg [n; d].
Proof.
  intros dbg n d Hn Hd Hle. split; table_open; (destruct (Z.eqb_spec (eval d) 0) as [Hz|Hz]; cbn [negb]; [reflexivity|]);
    rewrite int_div_rem_uint_spec by assumption; unfold vpair_ll, dsp_pair, dsp_one; cbn [fst snd];
    rewrite (isp_fits_true (length d)) by (apply urem_fits; assumption);
    [|reflexivity].
  rewrite (isp_fits_true (length n)) by (apply uquot_fits; assumption).
  reflexivity.
Qed.
Print Assumptions C14_tables_agree_rem_uint_partial.

(** non-vacuity: 8 / 3 in the four sign combinations (truncating), MIN / -1, floor quotients *)
Example C14_nonvacuous :
  int_checked_div_rem [8] [3] = (Some [2], [2]) /\
  int_checked_div_rem [2 ^ 64 - 8] [3] = (Some [2 ^ 64 - 2], [2 ^ 64 - 2]) /\
  int_checked_div_rem [8] [2 ^ 64 - 3] = (Some [2 ^ 64 - 2], [2]) /\
  int_checked_div_rem [2 ^ 64 - 8] [2 ^ 64 - 3] = (Some [2], [2 ^ 64 - 2]) /\
  fst (int_checked_div_rem [0; 2 ^ 63] [MAXW; MAXW]) = None /\
  int_checked_div_rem_floor [2 ^ 64 - 8] [3] = (Some [2 ^ 64 - 3], [1]) /\
  int_checked_div_rem_floor [2 ^ 64 - 8] [2 ^ 64 - 3] = (Some [2], [2 ^ 64 - 2]) /\
  int_checked_div_rem_floor [8] [2 ^ 64 - 3] = (Some [2 ^ 64 - 3], [2 ^ 64 - 1]) /\
  int_div_rem_floor_uint [2 ^ 64 - 8] [3] = ([2 ^ 64 - 3], [1]).
Proof. vm_compute. repeat split; reflexivity. Qed.
