(** C10: modular inversion and gcd (safegcd / Bernstein-Yang, inv_mod2k, CRT inv_mod, Uint::gcd, Int wrappers,
    Montgomery inverters).  Short proofs stand here; longer ones are lemmas of Proofs/SafeGcd*P.v, InvMod2kP.v, LimbConvertP.v
    cited by [exact].
    PARTIAL: convergence of the divsteps iteration within iterations(f_bits, g_bits) jumps (Bernstein-Yang 2019,
    Theorem 11.2) is not proved; it is the named hypothesis of every `_partial` theorem, in one of three equivalent forms:
      [converged vartime boxed adj m a]   the driver of this very call ended with g = 0 (Some (d, f, true));
      [sg_converged boxed f g L = true]   the flag the model computes for (f, g) (implies the former: C10_converged_of_reported_flag);
      [conv_ok key args]                  the op "conv:<key>" of the model table reports 1 (the table theorem).
    ./check evaluates the flag on every generated case.  Everything else (is_some -> inverse correct, gcd preserved, limb
    arithmetic, normalisation, CRT, inv_mod2k) is proved outright. *)
From CB Require Import Model.Limbs Model.AddSub Model.SafeGcd Proofs.WordP Proofs.LimbsP Proofs.BitsP
  Proofs.SafeGcdArithP Proofs.SafeGcdJumpP Proofs.SafeGcdUnsatP Proofs.SafeGcdStepP Proofs.SafeGcdDivstepsP
  Proofs.SafeGcdCoreP Proofs.InvMod2kP Proofs.LimbConvertP Proofs.SafeGcdInvP Proofs.SafeGcdConvP Proofs.SafeGcdUintP
  Proofs.SafeGcdWrapP Proofs.SafeGcdTablesP Proofs.SafeGcdMainP.
From Coq Require Import ZArith Lia List Bool String.
Open Scope Z_scope.
Notation length := List.length.

Theorem C10_inv_mod2_62_correct :
  forall v : Z,
  0 <= v < P64 -> Z.odd v = true -> 0 <= inv_mod2_62 v < P62 /\ (v * inv_mod2_62 v) mod P62 = 1.
Proof. exact inv_mod2_62_correct. Qed.
Print Assumptions C10_inv_mod2_62_correct.

Theorem C10_spec_modinv_is_inverse :
  forall a m : Z, 0 < m -> 0 <= modinv a m < m /\ (a * modinv a m) mod m = Z.gcd a m mod m.
Proof. exact modinv_spec. Qed.
Print Assumptions C10_spec_modinv_is_inverse.

Theorem C10_spec_inverse_unique :
  forall m a c x y : Z,
  0 < m ->
  Z.gcd a m = 1 ->
  (a * x) mod m = c mod m -> (a * y) mod m = c mod m -> 0 <= x < m -> 0 <= y < m -> x = y.
Proof. exact inv_unique. Qed.
Print Assumptions C10_spec_inverse_unique.

Theorem C10_unsat_add :
  forall a b : list Z,
  wf62 a ->
  wf62 b ->
  length a = length b ->
  wf62 (u_add a b) /\
  length (u_add a b) = length a /\
  uval (u_add a b) = (uval a + uval b) mod M62 (length a).
Proof. exact u_add_spec. Qed.
Print Assumptions C10_unsat_add.

Theorem C10_unsat_mul :
  forall (a : list Z) (c : Z),
  wf62 a ->
  - P63 < c < P63 ->
  wf62 (u_mul a c) /\
  length (u_mul a c) = length a /\
  uval (u_mul a c) = (uval a * c) mod M62 (length a).
Proof. exact u_mul_spec. Qed.
Print Assumptions C10_unsat_mul.

Theorem C10_unsat_neg :
  forall a : list Z,
  wf62 a ->
  wf62 (u_neg a) /\
  length (u_neg a) = length a /\
  uval (u_neg a) = - uval a mod M62 (length a).
Proof. exact u_neg_spec. Qed.
Print Assumptions C10_unsat_neg.

Theorem C10_unsat_shr :
  forall a : list Z,
  wf62 a ->
  (0 < length a)%nat ->
  wf62 (u_shr a) /\
  length (u_shr a) = length a /\ sval (u_shr a) = sval a / P62.
Proof. exact u_shr_spec. Qed.
Print Assumptions C10_unsat_shr.

Theorem C10_unsat_is_negative :
  forall a : list Z, wf62 a -> a <> [] -> u_is_negative a = (sval a <? 0).
Proof. exact u_is_negative_sval. Qed.
Print Assumptions C10_unsat_is_negative.

Theorem C10_unsat_eq :
  forall a b : list Z,
  wf62 a -> wf62 b -> length a = length b -> u_eq a b = (sval a =? sval b).
Proof. exact u_eq_sval. Qed.
Print Assumptions C10_unsat_eq.

Theorem C10_from_uint_exact :
  forall (L : nat) (x : list Z),
  wf x ->
  64 * lenZ x <= 62 * Z.of_nat L ->
  wf62 (from_uint L x) /\ length (from_uint L x) = L /\ uval (from_uint L x) = eval x.
Proof. exact from_uint_spec. Qed.
Print Assumptions C10_from_uint_exact.

Theorem C10_to_uint_exact :
  forall (n : nat) (u : list Z),
  wf62 u ->
  64 * Z.of_nat n <= 62 * lenZ u ->
  wf (to_uint n u) /\ length (to_uint n u) = n /\ eval (to_uint n u) = uval u mod Bn n.
Proof. exact to_uint_spec. Qed.
Print Assumptions C10_to_uint_exact.

Theorem C10_unsat_roundtrip :
  forall (x : list Z) (n : nat),
  wf x -> length x = n -> to_uint n (from_uint (unsat_nlimbs n) x) = x.
Proof. exact unsat_roundtrip. Qed.
Print Assumptions C10_unsat_roundtrip.

Theorem C10_jump_matrix :
  forall f0 g0 delta d' t00 t01 t10 t11 : Z,
  0 <= f0 < P62 ->
  0 <= g0 < P62 ->
  Z.odd f0 = true \/ 0 < delta /\ Z.odd g0 = true ->
  Z.abs delta + 62 <= P62 ->
  jump f0 g0 delta = (d', (t00, t01, t10, t11)) ->
  exists f' g' : Z,
  t00 * f0 + t01 * g0 = P62 * f' /\
  t10 * f0 + t11 * g0 = P62 * g' /\
  Z.abs t00 + Z.abs t01 <= P62 /\
  Z.abs t10 + Z.abs t11 <= P62 /\
  t00 * t11 - t01 * t10 = P62 /\
  Z.even t00 = true /\ Z.even t01 = true /\ Z.odd f' = true /\ Z.abs d' <= Z.abs delta + 62.
Proof. exact jump_matrix_eq. Qed.
Print Assumptions C10_jump_matrix.

Theorem C10_jump_g_zero :
  forall f0 delta : Z, - P62 <= delta <= P62 -> jump f0 0 delta = (delta + 62, (P62, 0, 0, 1)).
Proof. exact jump_g0. Qed.
Print Assumptions C10_jump_g_zero.

Theorem C10_divstep_gcd_inv :
  forall F G delta Bd : Z,
  PRE F G delta ->
  Z.abs delta + 62 <= P62 ->
  Z.abs F <= Bd ->
  Z.abs G <= Bd ->
  let
  '(delta', (t00, t01, t10, t11)) := jump (F mod P62) (G mod P62) delta in
  exists F' G' : Z,
  t00 * F + t01 * G = P62 * F' /\
  t10 * F + t11 * G = P62 * G' /\
  Z.abs t00 + Z.abs t01 <= P62 /\
  Z.abs t10 + Z.abs t11 <= P62 /\
  (Z.odd F' = true \/ G' = 0) /\
  Z.abs F' <= Bd /\ Z.abs G' <= Bd /\ Z.gcd F' G' = Z.gcd F G /\ Z.abs delta' <= Z.abs delta + 62.
Proof. exact divstep_gcd_inv. Qed.
Print Assumptions C10_divstep_gcd_inv.

Theorem C10_fg_update :
  forall (f g : list Z) (t00 t01 t10 t11 F' G' : Z),
  wf62 f ->
  wf62 g ->
  length f = length g ->
  (0 < length f)%nat ->
  Z.abs t00 + Z.abs t01 <= P62 ->
  Z.abs t10 + Z.abs t11 <= P62 ->
  t00 * sval f + t01 * sval g = P62 * F' ->
  t10 * sval f + t11 * sval g = P62 * G' ->
  - M62 (length f) <= 2 * (P62 * F') < M62 (length f) ->
  - M62 (length f) <= 2 * (P62 * G') < M62 (length f) ->
  wf62 (fst (fg f g (t00, t01, t10, t11))) /\
  wf62 (snd (fg f g (t00, t01, t10, t11))) /\
  length (fst (fg f g (t00, t01, t10, t11))) = length f /\
  length (snd (fg f g (t00, t01, t10, t11))) = length f /\
  sval (fst (fg f g (t00, t01, t10, t11))) = F' /\ sval (snd (fg f g (t00, t01, t10, t11))) = G'.
Proof. exact fg_spec. Qed.
Print Assumptions C10_fg_update.

Theorem C10_de_update :
  forall (mL : list Z) (inverse m a A ub : Z),
  wf62 mL ->
  (0 < length mL)%nat ->
  sval mL = m ->
  0 < m ->
  Z.odd m = true ->
  4 * P62 * m <= M62 (length mL) ->
  (hd 0 mL * inverse) mod P62 = 1 ->
  m - 1 <= ub <= m ->
  forall (t00 t01 t10 t11 : Z) (d e : list Z) (F G F' G' : Z),
  wf62 d ->
  wf62 e ->
  length d = length mL ->
  length e = length mL ->
  Z.abs t00 + Z.abs t01 <= P62 ->
  Z.abs t10 + Z.abs t11 <= P62 ->
  t00 * F + t01 * G = P62 * F' ->
  t10 * F + t11 * G = P62 * G' ->
  -2 * m < sval d <= ub ->
  -2 * m < sval e <= ub ->
  cg m (sval d * a) (F * A) ->
  cg m (sval e * a) (G * A) ->
  let d' := fst (de mL inverse (t00, t01, t10, t11) d e) in
  let e' := snd (de mL inverse (t00, t01, t10, t11) d e) in
  wf62 d' /\
  wf62 e' /\
  length d' = length mL /\
  length e' = length mL /\
  -2 * m < sval d' <= ub /\
  -2 * m < sval e' <= ub /\ cg m (sval d' * a) (F' * A) /\ cg m (sval e' * a) (G' * A).
Proof. exact de_spec. Qed.
Print Assumptions C10_de_update.

Theorem C10_divstep_state_inv :
  forall (mL : list Z) (inverse m a A ub : Z) (L : nat),
  wf62 mL ->
  length mL = L ->
  (0 < L)%nat ->
  sval mL = m ->
  0 < m ->
  Z.odd m = true ->
  4 * P62 * m <= M62 L ->
  (hd 0 mL * inverse) mod P62 = 1 ->
  m - 1 <= ub <= m ->
  forall G0 Bd : Z,
  2 * P62 * Bd < M62 L ->
  forall (K delta : Z) (d e f g : list Z) (delta' : Z) (d' e' f' g' : list Z),
  K + 62 <= P62 ->
  FGI G0 Bd K L delta f g ->
  DEI m a A ub L d e f g ->
  divstep1 mL inverse (delta, d, e, f, g) = (delta', d', e', f', g') ->
  FGI G0 Bd (K + 62) L delta' f' g' /\ DEI m a A ub L d' e' f' g'.
Proof. exact divstep1_de. Qed.
Print Assumptions C10_divstep_state_inv.

Theorem C10_divsteps_loop_inv :
  forall (mL : list Z) (inverse m a A ub : Z) (L : nat),
  wf62 mL ->
  length mL = L ->
  (0 < L)%nat ->
  sval mL = m ->
  0 < m ->
  Z.odd m = true ->
  4 * P62 * m <= M62 L ->
  (hd 0 mL * inverse) mod P62 = 1 ->
  m - 1 <= ub <= m ->
  forall G0 Bd : Z,
  2 * P62 * Bd < M62 L ->
  forall (n : nat) (K delta : Z) (d e f g : list Z) (delta' : Z) (d' e' f' g' : list Z),
  K + 62 * Z.of_nat n <= P62 ->
  FGI G0 Bd K L delta f g ->
  DEI m a A ub L d e f g ->
  divsteps_loop n mL inverse (delta, d, e, f, g) = (delta', d', e', f', g') ->
  FGI G0 Bd (K + 62 * Z.of_nat n) L delta' f' g' /\ DEI m a A ub L d' e' f' g'.
Proof. exact divsteps_loop_de. Qed.
Print Assumptions C10_divsteps_loop_inv.

Theorem C10_final_normalisation :
  forall (mL v : list Z) (negate : bool) (m ub : Z),
  wf62 mL ->
  wf62 v ->
  length v = length mL ->
  (0 < length mL)%nat ->
  sval mL = m ->
  0 < m ->
  8 * m <= M62 (length mL) ->
  m - 1 <= ub <= m ->
  -2 * m < sval v <= ub ->
  let r := sg_norm mL v negate in
  wf62 r /\
  length r = length mL /\
  0 <= sval r <= ub /\ u_is_negative r = false /\ cg m (sval r) (if negate then - sval v else sval v).
Proof. exact sg_norm_spec. Qed.
Print Assumptions C10_final_normalisation.

Theorem C10_safegcd_inv_partial :
  forall (dbg vartime boxed : bool) (adj m a : list Z) (n : nat),
  wf m ->
  wf a ->
  wf adj ->
  length m = n ->
  length a = n ->
  length adj = n ->
  (0 < n)%nat ->
  Z.of_nat n <= 2 ^ 32 ->
  Z.odd (eval m) = true ->
  eval adj < eval m ->
  converged vartime boxed adj m a ->
  exists (x : list Z) (is_some : bool),
  sg_inv dbg vartime boxed adj m a = SgOk x is_some /\
  wf x /\
  length x = n /\
  (is_some = true <-> Z.gcd (eval a) (eval m) = 1) /\
  (is_some = true -> (eval a * eval x) mod eval m = eval adj mod eval m /\ 0 <= eval x < eval m).
Proof. exact safegcd_inv_partial. Qed.
Print Assumptions C10_safegcd_inv_partial.

(* the same for modulus 1 and adjuster 1 <= m (every a is invertible modulo 1; the value is 0 or 1) *)
Theorem C10_safegcd_inv_is_some_partial :
  forall (dbg vartime boxed : bool) (adj m a : list Z) (n : nat),
  wf m ->
  wf a ->
  wf adj ->
  length m = n ->
  length a = n ->
  length adj = n ->
  (0 < n)%nat ->
  Z.of_nat n <= 2 ^ 32 ->
  Z.odd (eval m) = true ->
  eval adj <= eval m ->
  converged vartime boxed adj m a ->
  exists (x : list Z) (is_some : bool),
  sg_inv dbg vartime boxed adj m a = SgOk x is_some /\
  (is_some = true <-> Z.gcd (eval a) (eval m) = 1).
Proof.
  intros dbg vartime boxed adj m a n Wm Wa Wadj Lm La Ladj Hn Hn32 Om HA Hc. unfold converged in Hc. rewrite Lm in Hc.
  destruct (sg_inv_partial m a adj n (eval m) Wm Wa Wadj Lm La Ladj Hn Hn32 Om ltac:(lia) ltac:(lia) dbg vartime boxed Hc)
    as (x & some & E & Wx & Lx & Rx & Hs & Hv).
  exists x, some. split; assumption.
Qed.
Print Assumptions C10_safegcd_inv_is_some_partial.

(* no convergence assumption at all: a returned inverse IS an inverse, and it is returned only for coprime inputs *)
Theorem C10_safegcd_inv_sound :
  forall (dbg vartime boxed : bool) (adj m a : list Z) (n : nat) (x : list Z),
  wf m ->
  wf a ->
  wf adj ->
  length m = n ->
  length a = n ->
  length adj = n ->
  (0 < n)%nat ->
  Z.of_nat n <= 2 ^ 32 ->
  Z.odd (eval m) = true ->
  eval adj < eval m ->
  sg_inv dbg vartime boxed adj m a = SgOk x true ->
  Z.gcd (eval a) (eval m) = 1 /\
  (eval a * eval x) mod eval m = eval adj mod eval m /\
  0 <= eval x < eval m /\ wf x /\ length x = n.
Proof.
  intros dbg vartime boxed adj m a n x Wm Wa Wadj Lm La Ladj Hn Hn32 Om HA E.
  pose proof (eval_bounds adj Wadj).
  destruct (sg_inv_sound m a adj n (eval m - 1) Wm Wa Wadj Lm La Ladj Hn Hn32 Om ltac:(lia) ltac:(lia) dbg vartime boxed x E)
    as (Wx & Lx & Rx & G & C).
  repeat split; try assumption; lia.
Qed.
Print Assumptions C10_safegcd_inv_sound.

(* SafeGcdInverter::gcd / gcd_vartime, safegcd::boxed::gcd / gcd_vartime: f odd, or g odd, or g = 0 *)
Theorem C10_safegcd_gcd_partial :
  forall (dbg vartime boxed : bool) (f g : list Z) (n : nat),
  wf f ->
  wf g ->
  length f = n ->
  length g = n ->
  (0 < n)%nat ->
  Z.of_nat n <= 2 ^ 32 ->
  Z.odd (eval f) = true \/ Z.odd (eval g) = true \/ eval g = 0 ->
  gcd_converged vartime boxed f g ->
  sg_gcd dbg vartime boxed f g = SgOk (to_limbs n (Z.gcd (eval f) (eval g))) true.
Proof.
  intros dbg vartime boxed f g n Wf Wg Lf Lg Hn Hn32 Hpre Hc. unfold gcd_converged in Hc. rewrite Lf in Hc.
  apply sg_gcd_partial; assumption.
Qed.
Print Assumptions C10_safegcd_gcd_partial.

Theorem C10_gcd_partial :
  forall (dbg boxed : bool) (a b : list Z) (n : nat),
  wf a ->
  wf b ->
  length a = n ->
  length b = n ->
  (0 < n)%nat ->
  Z.of_nat n <= 2 ^ 32 ->
  uint_gcd_converged boxed a b = true ->
  uint_gcd dbg boxed a b = SgOk (to_limbs n (Z.gcd (eval a) (eval b))) true.
Proof. exact gcd_partial. Qed.
Print Assumptions C10_gcd_partial.

Theorem C10_gcd_vartime_partial :
  forall (a b : list Z) (n : nat) (dbg boxed : bool),
  wf a ->
  wf b ->
  length a = n ->
  length b = n ->
  (0 < n)%nat ->
  Z.of_nat n <= 2 ^ 32 ->
  (if Z.odd (eval a) then sg_converged boxed a b (unsat_nlimbs n) else uint_gcd_converged boxed a b) =
  true -> uint_gcd_vartime dbg boxed a b = SgOk (to_limbs n (Z.gcd (eval a) (eval b))) true.
Proof. exact uint_gcd_vartime_partial. Qed.
Print Assumptions C10_gcd_vartime_partial.

(* constant-time and vartime gcd return identical results *)
Theorem C10_gcd_ct_vartime_agree_partial :
  forall (dbg boxed : bool) (a b : list Z) (n : nat),
  wf a ->
  wf b ->
  length a = n ->
  length b = n ->
  (0 < n)%nat ->
  Z.of_nat n <= 2 ^ 32 ->
  uint_gcd_converged boxed a b = true ->
  conv_gcd_vt boxed a b = true -> uint_gcd_vartime dbg boxed a b = uint_gcd dbg boxed a b.
Proof.
  intros dbg boxed a b n Wa Wb La Lb Hn Hn32 H1 H2. unfold conv_gcd_vt in H2. rewrite La in H2.
  rewrite (uint_gcd_vartime_partial a b n dbg boxed Wa Wb La Lb Hn Hn32 H2).
  symmetry. apply uint_gcd_partial; assumption.
Qed.
Print Assumptions C10_gcd_ct_vartime_agree_partial.

Theorem C10_inv_mod2k_correct :
  forall (n : nat) (a k : Z),
  (0 < n)%nat ->
  0 <= a ->
  0 <= k <= 64 * Z.of_nat n ->
  inv_mod2k_ct n a k = inv_mod2k_vartime n a k /\
  inv_mod2k_full_vartime n a k =
  (if snd (inv_mod2k_vartime n a k) then Some (fst (inv_mod2k_vartime n a k)) else None) /\
  (snd (inv_mod2k_vartime n a k) = true <-> Z.gcd a (2 ^ k) = 1) /\
  (snd (inv_mod2k_vartime n a k) = true ->
  let x := fst (inv_mod2k_vartime n a k) in
  0 <= x < 2 ^ k /\ (a * x) mod 2 ^ k = 1 mod 2 ^ k /\ x = modinv a (2 ^ k)).
Proof. exact inv_mod2k_correct. Qed.
Print Assumptions C10_inv_mod2k_correct.

Theorem C10_inv_mod_crt_recombination :
  forall s k ai b mi av T mv : Z,
  Z.odd s = true ->
  0 < s ->
  0 <= k ->
  mv = s * 2 ^ k ->
  2 <= mv ->
  0 <= ai <= s ->
  0 <= T < 2 ^ k ->
  cg s (av * ai) 1 ->
  cg (2 ^ k) (av * b) 1 ->
  cg (2 ^ k) (s * mi) 1 ->
  cg (2 ^ k) T ((b - ai) * mi) -> 0 <= ai + s * T < mv /\ cg mv (av * (ai + s * T)) 1.
Proof. exact crt_value. Qed.
Print Assumptions C10_inv_mod_crt_recombination.

(* Uint::inv_mod / BoxedUint::inv_mod, every modulus >= 1 (CRT over s 2^k) *)
Theorem C10_inv_mod_partial :
  forall (dbg boxed : bool) (a m : list Z) (n : nat),
  wf a ->
  wf m ->
  length a = n ->
  length m = n ->
  (0 < n)%nat ->
  Z.of_nat n <= 2 ^ 32 ->
  0 < eval m ->
  conv_inv boxed (odd_part m) a = true ->
  exists (x : list Z) (is_some : bool),
  uint_inv_mod dbg boxed a m = SgOk x is_some /\
  wf x /\
  length x = n /\
  (is_some = true <-> Z.gcd (eval a) (eval m) = 1) /\
  (is_some = true -> 2 <= eval m -> (eval a * eval x) mod eval m = 1 /\ 0 <= eval x < eval m).
Proof.
  intros dbg boxed a m n Wa Wm La Lm Hn Hn32 Hm Hc. unfold conv_inv in Hc. rewrite (odd_part_eq m n Lm), length_to_limbs in Hc.
  destruct (uint_inv_mod_partial a m n Wa Wm La Lm Hn Hn32 Hm dbg boxed Hc) as (X & some & E & Hs & Hv).
  exists (to_limbs n X), some. split; [assumption|]. split; [apply wf_to_limbs|]. split; [apply length_to_limbs|]. split; [assumption|].
  intros S Hm2. rewrite (Hv S Hm2). pose proof (eval_bounds m Wm) as Bm. rewrite Lm in Bm.
  destruct (SafeGcdArithP.modinv_spec (eval a) (eval m) Hm) as (R & C).
  rewrite eval_to_limbs, (Z.mod_small (modinv _ _)) by lia. rewrite C, (proj1 Hs S). split; [apply Z.mod_small; lia | assumption].
Qed.
Print Assumptions C10_inv_mod_partial.

Theorem C10_int_inv_sign_fix :
  forall (mv sa : Z) (n : nat),
  2 <= mv < Bn n ->
  Z.gcd (Z.abs sa) mv = 1 ->
  (if sa <? 0 then (mv - modinv (Z.abs sa) mv) mod Bn n else modinv (Z.abs sa) mv) = modinv sa mv.
Proof. exact int_fix_value. Qed.
Print Assumptions C10_int_inv_sign_fix.

Theorem C10_int_inv_sign_wrapper :
  forall (r : sgres) (m : list Z) (n : nat) (sa : Z),
  wf m ->
  length m = n ->
  2 <= eval m ->
  out_sg r = spec_inv n (Z.abs sa) (eval m) ->
  out_sg (int_fix_sign (sa <? 0) m r) = spec_inv n sa (eval m).
Proof. exact out_int_fix. Qed.
Print Assumptions C10_int_inv_sign_wrapper.

Theorem C10_monty_inv_partial :
  forall (dbg vartime boxed : bool) (a m : list Z) (n : nat),
  wf a ->
  wf m ->
  length m = n ->
  (0 < n)%nat ->
  Z.of_nat n <= 2 ^ 32 ->
  Z.odd (eval m) = true ->
  1 < eval m ->
  conv_inv boxed m (monty_arg a m) = true ->
  out_sg (monty_inv dbg vartime boxed a m) = spec_inv n (eval a) (eval m).
Proof. exact out_monty_inv. Qed.
Print Assumptions C10_monty_inv_partial.

Theorem C10_converged_of_reported_flag :
  forall (vartime boxed : bool) (adj m a : list Z),
  sg_converged boxed m a (unsat_nlimbs (length m)) = true ->
  converged vartime boxed adj m a.
Proof. exact converged_of_flag. Qed.
Print Assumptions C10_converged_of_reported_flag.

Theorem C10_gcd_converged_of_reported_flag :
  forall (vartime boxed : bool) (f g : list Z),
  sg_converged boxed f g (unsat_nlimbs (length f)) = true ->
  gcd_converged vartime boxed f g.
Proof. intros vartime boxed f g H. unfold gcd_converged. apply sg_converged_conv. assumption. Qed.
Print Assumptions C10_gcd_converged_of_reported_flag.

Theorem C10_convergence_independent_of_de :
  forall (boxed : bool) (e0 : list Z) (inv0 : Z) (vartime : bool) (e f0 g : list Z) (inverse : Z),
  (exists d f : list Z, sg_core false boxed e0 f0 g inv0 = Some (d, f, true)) ->
  sg_conv vartime boxed e f0 g inverse.
Proof. exact sg_conv_of_flag. Qed.
Print Assumptions C10_convergence_independent_of_de.

Theorem C10_tables_agree_partial :
  forall (k : string) (dbg : bool) (a : list (list Z)),
  In k safegcd_keys ->
  wf_args a ->
  typed10 a ->
  modulus_nonzero k a -> conv_ok k a -> S10 k dbg a <> Unsupported -> M10 k dbg a = S10 k dbg a.
Proof. exact safegcd_tables_agree_partial. Qed.
Print Assumptions C10_tables_agree_partial.

Theorem C10_table_keys :
  safegcd_keys =
  ["uint.inv_odd_mod"; "uint.inv_odd_mod_vartime"; "uint.inv_adj"; "uint.inv_adj_vartime";
  "uint.inv_mod"; "uint.inv_odd_is_some"; "uint.inv_is_some"; "boxed.inv_odd_is_some";
  "boxed.inv_is_some"; "int.inv_odd_is_some"; "int.inv_is_some"; "uint.inv_mod2k";
  "uint.inv_mod2k_vartime"; "uint.inv_mod2k_full64"; "uint.gcd"; "uint.gcd_vartime"; "odd.gcd_vartime";
  "uint.safegcd_converged"; "uint.gcd_converged"; "boxed.gcd_converged"; "int.inv_odd_mod";
  "int.inv_mod"; "int.gcd"; "int.gcd_vartime"; "int.gcd_uint"; "int.gcd_uint_vartime"; "uint.gcd_int";
  "uint.gcd_int_vartime"; "boxed.inv_odd_mod"; "boxed.inv_odd_mod_vartime"; "boxed.inv_mod";
  "boxed.inv_mod2k"; "boxed.inv_mod2k_vartime"; "boxed.inv_mod2k_full64"; "boxed.gcd";
  "boxed.gcd_vartime"; "boxed_odd.gcd"; "boxed_odd.gcd_vartime"; "boxed.safegcd_converged";
  "monty.inv"; "monty.inv_vartime"; "boxedmonty.inv"; "boxedmonty.inv_vartime"].
Proof. exact safegcd_keys_eq. Qed.
Print Assumptions C10_table_keys.

(* F4: the original Uint::inv_mod panics for a zero modulus although gcd(2, 0) <> 1 calls for none *)
Theorem C10_inv_mod_zero_modulus_original_refuted :
  exists a m : list Z,
  uint_inv_mod_original false false a m = SgPanic /\
  out_sg (uint_inv_mod false false a m) = NoneV /\ Z.gcd (eval a) (eval m) <> 1.
Proof. exists [2], [0]. vm_compute. repeat split; try reflexivity. discriminate. Qed.
Print Assumptions C10_inv_mod_zero_modulus_original_refuted.

(* Non-vacuity: concrete multi-limb values.  The fixed-count driver runs iterations(f_bits, g_bits) jumps (196 for two limbs)
   although g = 0 after a few, and a zero g stays zero: the reported flag is evaluated after k jumps only. *)
Definition zero_after (boxed : bool) (fl gl : list Z) (L k : nat) : bool :=
  let f0 := from_uint L fl in let g0 := from_uint L gl in
  let n := iterations ((if boxed then bu_bits else u_bits) f0) ((if boxed then bu_bits else u_bits) g0) in
  let '(delta, _, _, _, g) := divsteps_loop k f0 (inv_mod2_62 (hd 0 fl)) (1, u_zero (length f0), u_one L, f0, g0) in
  (k <=? n)%nat && u_is_zero g && (- P62 <=? delta) && (delta + 62 * Z.of_nat (n - k) <=? P62).
Lemma sg_converged_early boxed fl gl L k : zero_after boxed fl gl L k = true -> sg_converged boxed fl gl L = true.
Proof.
  unfold zero_after, sg_converged. set (f0 := from_uint L fl). set (g0 := from_uint L gl).
  destruct (sg_core_ct_flag boxed (u_one L) f0 g0 (inv_mod2_62 (hd 0 fl))) as (d' & f' & E). rewrite E.
  set (n := iterations _ _).
  destruct (divsteps_loop k f0 _ _) as [[[[delta d] e] f] g] eqn:Ek. intros H.
  rewrite !andb_true_iff, Nat.leb_le, !Z.leb_le in H. destruct H as (((Hk & Hz) & Hl) & Hu).
  replace n with (k + (n - k))%nat by lia. rewrite divsteps_loop_add, Ek. apply divsteps_loop_g0; assumption.
Qed.

(* 2 limbs: m = 7 * 2^64 + 13 (odd), a = 3 * 2^64 + 5: the reported flag is 1, an inverse is returned, and it is one *)
Example C10_ex_inv_two_limbs :
  sg_converged false [13; 7] [5; 3] (unsat_nlimbs 2) = true /\
  sg_inv true false false (ones_limbs 2) [13; 7] [5; 3] = SgOk [4611686018427387912; 5] true /\
  (eval [5; 3] * eval [4611686018427387912; 5]) mod eval [13; 7] = 1 /\ eval [4611686018427387912; 5] < eval [13; 7].
Proof.
  set (m := [13; 7]). set (a := [5; 3]). set (y := [4611686018427387912; 5]).
  assert (C : sg_converged false m a (unsat_nlimbs 2) = true)
    by (apply (sg_converged_early false m a _ 3); vm_compute; reflexivity).
  assert (N : Z.odd (eval m) = true /\ eval (ones_limbs 2) < eval m /\ 0 < eval m /\ Z.gcd (eval a) (eval m) = 1 /\
              (eval a * eval y) mod eval m = eval (ones_limbs 2) mod eval m /\ 0 <= eval y < eval m)
    by (vm_compute; repeat split; congruence).
  destruct N as (Om & Hadj & Hm & G & Ey & Ry).
  split; [exact C|]. split; [|vm_compute; split; reflexivity].
  (* the model returns some x with a x = adj (mod m), 0 <= x < m; inverses are unique *)
  destruct (safegcd_inv_partial true false false (ones_limbs 2) m a 2 (wfb_wf m eq_refl) (wfb_wf a eq_refl)
              (wf_to_limbs 2 1) eq_refl eq_refl eq_refl ltac:(lia) ltac:(lia) Om Hadj (converged_of_flag _ _ _ _ _ C))
    as (x & some & E & Wx & Lx & Hs & Hv).
  destruct (Hv (proj2 Hs G)) as [Ex Rx]. rewrite E, (proj2 Hs G). f_equal.
  apply eval_inj; [assumption | apply wfb_wf; reflexivity | exact Lx |].
  exact (inv_unique _ _ _ _ _ Hm G Ex Ey Rx Ry).
Qed.
(* a non-invertible input: gcd(3 * 5, 5 * (2^64 + 1)) = 5 *)
Example C10_ex_not_invertible :
  sg_converged false [5; 5] [15; 0] (unsat_nlimbs 2) = true /\
  sg_inv true true false (ones_limbs 2) [5; 5] [15; 0] = SgOk [6148914691236517209; 3] false /\ Z.gcd (eval [15; 0]) (eval [5; 5]) = 5.
Proof.
  split; [|vm_compute; split; reflexivity].
  apply (sg_converged_early false [5; 5] [15; 0] _ 3). vm_compute. reflexivity.
Qed.
(* Uint::gcd with a common power of two, 3 limbs: gcd(6 * 2^64, 4 * 2^128 + 10 * 2^64) = 2 * 2^64 *)
Example C10_ex_gcd_three_limbs :
  uint_gcd_converged false [0; 6; 0] [0; 10; 4] = true /\
  uint_gcd true false [0; 6; 0] [0; 10; 4] = SgOk [0; 2; 0] true /\ Z.gcd (eval [0; 6; 0]) (eval [0; 10; 4]) = eval [0; 2; 0].
Proof.
  set (a := [0; 6; 0]). set (b := [0; 10; 4]).
  assert (C : uint_gcd_converged false a b = true).
  { unfold uint_gcd_converged.
    replace (uint_gcd_pre a b) with (65, [3; 0; 0], [5; 2; 0]) by (vm_compute; reflexivity).
    apply (sg_converged_early false [3; 0; 0] [5; 2; 0] _ 3). vm_compute. reflexivity. }
  split; [exact C|].
  rewrite (gcd_partial true false a b 3 (wfb_wf a eq_refl) (wfb_wf b eq_refl) eq_refl eq_refl ltac:(lia) ltac:(lia) C).
  vm_compute. split; reflexivity.
Qed.
Example C10_ex_gcd_zeros : uint_gcd true false [0; 0] [0; 0] = SgOk [0; 0] true /\ uint_gcd true false [0; 0] [0; 9] = SgOk [0; 9] true.
Proof. vm_compute. split; reflexivity. Qed.
(* even modulus 8 * 2^64 through the table: the inverse of 3, and a value sharing the factor 2 *)
Example C10_ex_table_inv_mod :
  conv_ok "uint.inv_mod" [[3; 0]; [0; 8]] /\
  M10 "uint.inv_mod" true [[3; 0]; [0; 8]] = Val [[12297829382473034411; 2]] /\
  S10 "uint.inv_mod" true [[3; 0]; [0; 8]] = Val [[12297829382473034411; 2]] /\
  (3 * eval [12297829382473034411; 2]) mod eval [0; 8] = 1 /\
  M10 "uint.inv_mod" true [[6; 0]; [0; 8]] = NoneV.
Proof.
  assert (C : conv_ok "uint.inv_mod" [[3; 0]; [0; 8]]) by (vm_compute; reflexivity).
  assert (S : S10 "uint.inv_mod" true [[3; 0]; [0; 8]] = Val [[12297829382473034411; 2]]) by (vm_compute; reflexivity).
  split; [exact C|]. split; [|split; [exact S | vm_compute; split; reflexivity]].
  rewrite (C10_tables_agree_partial "uint.inv_mod" true [[3; 0]; [0; 8]]); [exact S | | | | | exact C | rewrite S; discriminate].
  - rewrite safegcd_keys_eq. cbn. tauto.
  - repeat (apply Forall_cons; [apply wfb_wf; reflexivity|]). apply Forall_nil.
  - vm_compute. discriminate.
  - intros _. vm_compute. discriminate.
Qed.
(* the hypotheses of the table theorem are satisfiable and it yields the concrete equation: gcd(-12, 18) = 6 *)
Example C10_ex_table_theorem_applies :
  M10 "int.gcd" false [[18446744073709551604; 18446744073709551615]; [18; 0]] = Val [[6; 0]].
Proof.
  rewrite (C10_tables_agree_partial "int.gcd" false [[18446744073709551604; 18446744073709551615]; [18; 0]]).
  - vm_compute. reflexivity.
  - rewrite safegcd_keys_eq. cbn. tauto.
  - repeat (apply Forall_cons; [apply wfb_wf; reflexivity|]). apply Forall_nil.
  - vm_compute. discriminate.
  - intros [H|H]; discriminate.
  - vm_compute. reflexivity.
  - vm_compute. discriminate.
Qed.
