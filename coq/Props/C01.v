(** C01 — secret-independent execution of every operation not marked vartime.
    Short proofs stand here; longer ones are lemmas of Proofs/LeakP.v cited by [exact].

    What is proved: NONINTERFERENCE OF THE LEAKAGE TWINS (Model/Leak.v). A twin returns the source-level
    event list (conditions evaluated on data [Br], non-constant indices [Ix], division operands [Dv], trip
    counts [Ln]) of one call; [same_shape a b] (equal limb counts) is the public part of a limb-list
    operand. For every twin of a constant-time routine: operands of the same shape (and inside the
    documented domain: NonZero divisors, in-range shifts for the panicking forms) give the SAME trace.
    For the `_vartime` twins the documented-public operand is shared by both sides. For safegcd's
    [jump] / [divsteps] the statement is REFUTED with a machine-checked witness (genuine finding F10).
    What is NOT proved here: that the optimized binary leaks no more than the twin — that link is the
    sampled trace comparison of tools/vlib/c01.py (ct/ crate). *)
From CB Require Import Model.Leak Proofs.LeakP.
From Coq Require Import ZArith List Lia.
Import ListNotations.
Open Scope Z_scope.

(** ** mask / select primitives, comparison, carry chains *)
Theorem C01_select_word_ni : forall c1 a1 b1 c2 a2 b2, lk_select_word c1 a1 b1 = lk_select_word c2 a2 b2.
Proof. intros c1 a1 b1 c2 a2 b2. reflexivity. Qed.
Print Assumptions C01_select_word_ni.

Theorem C01_limb_select_ni : forall a1 b1 c1 a2 b2 c2, lk_limb_select a1 b1 c1 = lk_limb_select a2 b2 c2.
Proof. intros a1 b1 c1 a2 b2 c2. reflexivity. Qed.
Print Assumptions C01_limb_select_ni.

Theorem C01_uint_select_ni : forall a1 b1 c1 a2 b2 c2,
  same_shape a1 a2 -> lk_uint_select a1 b1 c1 = lk_uint_select a2 b2 c2.
Proof. exact lk_uint_select_ni. Qed.
Print Assumptions C01_uint_select_ni.

Theorem C01_eq_ni : forall a1 b1 a2 b2, same_shape a1 a2 -> lk_eq a1 b1 = lk_eq a2 b2.
Proof. intros a1 b1 a2 b2. unfold same_shape, lk_eq. intros ->. reflexivity. Qed.
Print Assumptions C01_eq_ni.

Theorem C01_lt_ni : forall a1 b1 a2 b2, same_shape a1 a2 -> lk_lt a1 b1 = lk_lt a2 b2.
Proof. intros. apply lk_sbb_ni; assumption. Qed.
Print Assumptions C01_lt_ni.

Theorem C01_gt_ni : forall a1 b1 a2 b2, same_shape b1 b2 -> lk_gt a1 b1 = lk_gt a2 b2.
Proof. exact lk_gt_ni. Qed.
Print Assumptions C01_gt_ni.

Theorem C01_cmp_ni : forall a1 b1 a2 b2, same_shape a1 a2 -> lk_cmp a1 b1 = lk_cmp a2 b2.
Proof. intros a1 b1 a2 b2. unfold same_shape, lk_cmp. intros ->. reflexivity. Qed.
Print Assumptions C01_cmp_ni.

Theorem C01_adc_ni : forall a1 b1 c1 a2 b2 c2, same_shape a1 a2 -> lk_adc a1 b1 c1 = lk_adc a2 b2 c2.
Proof. exact lk_adc_ni. Qed.
Print Assumptions C01_adc_ni.

Theorem C01_sbb_ni : forall a1 b1 c1 a2 b2 c2, same_shape a1 a2 -> lk_sbb a1 b1 c1 = lk_sbb a2 b2 c2.
Proof. exact lk_sbb_ni. Qed.
Print Assumptions C01_sbb_ni.

(** ** shifts: the ladder is constant in the value AND in the (secret) shift amount *)
Theorem C01_overflowing_shl_ni : forall x1 s1 x2 s2,
  same_shape x1 x2 -> lk_overflowing_shl x1 s1 = lk_overflowing_shl x2 s2.
Proof. exact lk_overflowing_shl_ni. Qed.
Print Assumptions C01_overflowing_shl_ni.

Theorem C01_overflowing_shr_ni : forall x1 s1 x2 s2,
  same_shape x1 x2 -> lk_overflowing_shr x1 s1 = lk_overflowing_shr x2 s2.
Proof. exact lk_overflowing_shr_ni. Qed.
Print Assumptions C01_overflowing_shr_ni.

Theorem C01_wrapping_shl_ni : forall x1 s1 x2 s2,
  same_shape x1 x2 -> lk_wrapping_shl x1 s1 = lk_wrapping_shl x2 s2.
Proof.
  intros x1 s1 x2 s2 H. unfold lk_wrapping_shl. rewrite (lk_overflowing_shl_ni x1 s1 x2 s2 H).
  rewrite (lk_uint_select_ni x1 x1 0 x2 x2 0 H). reflexivity.
Qed.
Print Assumptions C01_wrapping_shl_ni.

(** the panicking forms: constant on their documented domain (shift < BITS) *)
Theorem C01_shl_ni : forall x1 s1 x2 s2, same_shape x1 x2 ->
  s1 < BITSn (length x1) -> s2 < BITSn (length x2) -> lk_shl x1 s1 = lk_shl x2 s2.
Proof.
  intros x1 s1 x2 s2 H H1 H2. rewrite !lk_shl_in_range, (lk_overflowing_shl_ni x1 s1 x2 s2 H) by assumption.
  reflexivity.
Qed.
Print Assumptions C01_shl_ni.

Theorem C01_shr_ni : forall x1 s1 x2 s2, same_shape x1 x2 ->
  s1 < BITSn (length x1) -> s2 < BITSn (length x2) -> lk_shr x1 s1 = lk_shr x2 s2.
Proof.
  intros x1 s1 x2 s2 H H1 H2. rewrite !lk_shr_in_range, (lk_overflowing_shr_ni x1 s1 x2 s2 H) by assumption.
  reflexivity.
Qed.
Print Assumptions C01_shr_ni.

(** sub-limb shift with zero-shift masking: no test on the shift amount at source level *)
Theorem C01_shl_limb_ni : forall x1 s1 x2 s2, same_shape x1 x2 -> lk_shl_limb x1 s1 = lk_shl_limb x2 s2.
Proof. exact lk_shl_limb_ni. Qed.
Print Assumptions C01_shl_limb_ni.

(** `_vartime` shift: the shift amount is the shared, public operand *)
Theorem C01_shl_vartime_ni : forall x1 x2 s, same_shape x1 x2 -> lk_shl_vartime x1 s = lk_shl_vartime x2 s.
Proof. intros x1 x2 s. unfold same_shape, lk_shl_vartime, lk_overflowing_shl_vartime. intros ->. reflexivity. Qed.
Print Assumptions C01_shl_vartime_ni.

Theorem C01_shl_vartime_varies_with_shift : exists x s1 s2,
  lk_overflowing_shl_vartime x s1 <> lk_overflowing_shl_vartime x s2.
Proof. exists [1; 2], 0, 64. vm_compute. discriminate. Qed.
Print Assumptions C01_shl_vartime_varies_with_shift.

(** BoxedUint: select / assign / swap and the shift ladder (precision = limb count is public) *)
Theorem C01_boxed_ct_select_ni : forall a1 b1 c1 a2 b2 c2,
  same_shape a1 a2 -> lk_boxed_ct_select a1 b1 c1 = lk_boxed_ct_select a2 b2 c2.
Proof. intros a1 b1 c1 a2 b2 c2. unfold same_shape, lk_boxed_ct_select. intros ->. reflexivity. Qed.
Print Assumptions C01_boxed_ct_select_ni.

Theorem C01_boxed_ct_swap_ni : forall a1 b1 c1 a2 b2 c2,
  same_shape a1 a2 -> lk_boxed_ct_swap a1 b1 c1 = lk_boxed_ct_swap a2 b2 c2.
Proof. intros a1 b1 c1 a2 b2 c2. unfold same_shape, lk_boxed_ct_swap. intros ->. reflexivity. Qed.
Print Assumptions C01_boxed_ct_swap_ni.

Theorem C01_boxed_overflowing_shl_ni : forall x1 s1 x2 s2, same_shape x1 x2 ->
  lk_boxed_overflowing_shl x1 s1 = lk_boxed_overflowing_shl x2 s2.
Proof. exact lk_boxed_overflowing_shl_ni. Qed.
Print Assumptions C01_boxed_overflowing_shl_ni.

Theorem C01_boxed_shl_ni : forall x1 s1 x2 s2, same_shape x1 x2 ->
  s1 < BITSn (length x1) -> s2 < BITSn (length x2) -> lk_boxed_shl x1 s1 = lk_boxed_shl x2 s2.
Proof.
  intros x1 s1 x2 s2 H H1 H2. unfold lk_boxed_shl. rewrite (lk_boxed_overflowing_shl_ni x1 s1 x2 s2 H).
  apply Z.ltb_lt in H1, H2. rewrite H1, H2. reflexivity.
Qed.
Print Assumptions C01_boxed_shl_ni.

Theorem C01_bits_ni : forall x1 x2, same_shape x1 x2 -> lk_bits x1 = lk_bits x2.
Proof. exact lk_bits_ni. Qed.
Print Assumptions C01_bits_ni.

Theorem C01_leading_zeros_ni : forall x1 x2, same_shape x1 x2 -> lk_leading_zeros x1 = lk_leading_zeros x2.
Proof. exact lk_leading_zeros_ni. Qed.
Print Assumptions C01_leading_zeros_ni.

Theorem C01_trailing_zeros_ni : forall x1 x2, same_shape x1 x2 -> lk_trailing_zeros x1 = lk_trailing_zeros x2.
Proof. intros x1 x2. unfold same_shape, lk_trailing_zeros. intros ->. reflexivity. Qed.
Print Assumptions C01_trailing_zeros_ni.

Theorem C01_bit_ni : forall x1 i1 x2 i2, same_shape x1 x2 -> lk_bit x1 i1 = lk_bit x2 i2.
Proof. intros x1 i1 x2 i2. unfold same_shape, lk_bit. intros ->. reflexivity. Qed.
Print Assumptions C01_bit_ni.

Theorem C01_bit_vartime_ni : forall x1 x2 i, same_shape x1 x2 -> lk_bit_vartime x1 i = lk_bit_vartime x2 i.
Proof. intros x1 x2 i. unfold same_shape, lk_bit_vartime, lenZ. intros ->. reflexivity. Qed.
Print Assumptions C01_bit_vartime_ni.

Theorem C01_bits_vartime_varies : exists x1 x2, same_shape x1 x2 /\ lk_bits_vartime x1 <> lk_bits_vartime x2.
Proof. exists [1; 0], [1; 1]. split; [reflexivity|]. vm_compute. discriminate. Qed.
Print Assumptions C01_bits_vartime_varies.

Theorem C01_cmp_vartime_varies : exists a b1 b2, same_shape b1 b2 /\ lk_cmp_vartime a b1 <> lk_cmp_vartime a b2.
Proof. exists [1; 1], [1; 1], [1; 2]. split; [reflexivity|]. vm_compute. discriminate. Qed.
Print Assumptions C01_cmp_vartime_varies.

Theorem C01_div2by1_ni : forall a1 b1 a2 b2, lk_div2by1 a1 b1 = lk_div2by1 a2 b2.
Proof. intros a1 b1 a2 b2. reflexivity. Qed.
Print Assumptions C01_div2by1_ni.

Theorem C01_div3by2_ni : forall a1 b1 c1 d1 a2 b2 c2 d2, lk_div3by2 a1 b1 c1 d1 = lk_div3by2 a2 b2 c2 d2.
Proof. exact lk_div3by2_ni. Qed.
Print Assumptions C01_div3by2_ni.

Theorem C01_rem_limb_ni : forall u1 d1 u2 d2, same_shape u1 u2 -> lk_rem_limb u1 d1 = lk_rem_limb u2 d2.
Proof.
  intros u1 d1 u2 d2. unfold same_shape, lk_rem_limb, lk_rem_limb_with_reciprocal, lk_shl_limb. intros ->.
  reflexivity.
Qed.
Print Assumptions C01_rem_limb_ni.

(** Uint::div_rem / rem / wrapping_div: constant in dividend AND divisor, for NonZero divisors. The tests on data
    ([assert!(dbits > 0)], the [expect]s after normalisation, the final [shr]s) are shown to have one outcome. *)
Theorem C01_div_rem_ni : forall x1 y1 x2 y2,
  same_shape x1 x2 -> same_shape x1 y1 -> same_shape x2 y2 ->
  wf y1 -> wf y2 -> 0 < eval y1 -> 0 < eval y2 ->
  lk_div_rem x1 y1 = lk_div_rem x2 y2.
Proof. exact lk_div_rem_ni. Qed.
Print Assumptions C01_div_rem_ni.

Theorem C01_neg_mod_ni : forall a1 p1 a2 p2, same_shape a1 a2 -> same_shape p1 p2 -> lk_neg_mod a1 p1 = lk_neg_mod a2 p2.
Proof. intros a1 p1 a2 p2. unfold same_shape, lk_neg_mod, lk_is_nonzero, lk_sbb. intros -> ->. reflexivity. Qed.
Print Assumptions C01_neg_mod_ni.

Theorem C01_add_mod_ni : forall a1 b1 p1 a2 b2 p2, same_shape a1 a2 -> same_shape p1 p2 ->
  lk_add_mod a1 b1 p1 = lk_add_mod a2 b2 p2.
Proof.
  intros a1 b1 p1 a2 b2 p2. unfold same_shape, lk_add_mod, lk_adc, lk_sbb, lk_bitand_limb, lk_wrapping_add, lk_adc.
  intros -> ->. reflexivity.
Qed.
Print Assumptions C01_add_mod_ni.

Theorem C01_sub_mod_ni : forall a1 b1 p1 a2 b2 p2, same_shape a1 a2 -> same_shape p1 p2 ->
  lk_sub_mod a1 b1 p1 = lk_sub_mod a2 b2 p2.
Proof.
  intros a1 b1 p1 a2 b2 p2. unfold same_shape, lk_sub_mod, lk_sbb, lk_bitand_limb, lk_wrapping_add, lk_adc.
  intros -> ->. reflexivity.
Qed.
Print Assumptions C01_sub_mod_ni.

(** inv_mod2k: constant in the value and in k (dummy iterations); the vartime form only in the value *)
Theorem C01_inv_mod2k_ni : forall x1 k1 x2 k2, same_shape x1 x2 -> lk_inv_mod2k x1 k1 = lk_inv_mod2k x2 k2.
Proof.
  intros x1 k1 x2 k2.
  unfold same_shape, lk_inv_mod2k, lk_inv_mod2k_round, lk_wrapping_sub, lk_sbb, lk_uint_select, lk_shr1, lk_set_bit.
  intros ->. reflexivity.
Qed.
Print Assumptions C01_inv_mod2k_ni.

Theorem C01_inv_mod2k_vartime_ni : forall x1 x2 k, same_shape x1 x2 ->
  lk_inv_mod2k_vartime x1 k = lk_inv_mod2k_vartime x2 k.
Proof.
  intros x1 x2 k.
  unfold same_shape, lk_inv_mod2k_vartime, lk_wrapping_sub, lk_sbb, lk_uint_select, lk_shr1,
    lk_overflowing_shl_vartime, lk_eq.
  intros ->. reflexivity.
Qed.
Print Assumptions C01_inv_mod2k_vartime_ni.

Theorem C01_inv_mod2k_vartime_varies_with_k : exists x k1 k2, lk_inv_mod2k_vartime x k1 <> lk_inv_mod2k_vartime x k2.
Proof. exists [1], 1, 2. vm_compute. discriminate. Qed.
Print Assumptions C01_inv_mod2k_vartime_varies_with_k.

(** sqrt: fixed rounds; each round divides by a selected non-zero divisor *)
Theorem C01_sqrt_ni : forall s1 s2, same_shape s1 s2 -> wf s1 -> wf s2 -> lk_sqrt s1 = lk_sqrt s2.
Proof. exact lk_sqrt_ni. Qed.
Print Assumptions C01_sqrt_ni.

(** Montgomery reduction and the 4-bit window ladder with constant-time table scan *)
Theorem C01_montgomery_reduction_ni : forall l1 u1 m1 l2 u2 m2, same_shape u1 u2 -> same_shape m1 m2 ->
  lk_montgomery_reduction l1 u1 m1 = lk_montgomery_reduction l2 u2 m2.
Proof. exact lk_montgomery_reduction_ni. Qed.
Print Assumptions C01_montgomery_reduction_ni.

Theorem C01_pow_ni : forall x1 e1 m1 x2 e2 m2 bits, same_shape x1 x2 -> same_shape m1 m2 ->
  lk_pow x1 e1 m1 bits = lk_pow x2 e2 m2 bits.
Proof.
  intros x1 e1 m1 x2 e2 m2 bits.
  unfold same_shape, lk_pow, lk_compute_powers, lk_pow_window, lk_table_scan, lk_mul_montgomery_form, lk_mul_wide,
    lk_montgomery_reduction, lk_uint_select, lk_sbb, lk_bitand_limb, lk_wrapping_add, lk_adc.
  intros -> ->. reflexivity.
Qed.
Print Assumptions C01_pow_ni.

(** ** safegcd — refuted: the inner loop of [jump] and the trip count of [divsteps] depend on the secret g *)
Theorem C01_leak_jump_refuted : exists f g1 g2 delta,
  same_shape g1 g2 /\ lk_jump f g1 delta <> lk_jump f g2 delta.
Proof. exists [5], [0], [3], 1. split; [reflexivity|]. intros E. apply lk_jump_even_odd. rewrite E. reflexivity. Qed.
Print Assumptions C01_leak_jump_refuted.

Theorem C01_divsteps_trip_refuted : exists f g1 g2, lk_divsteps_trip f g1 <> lk_divsteps_trip f g2.
Proof. exists 3, 1, (2 ^ 100). vm_compute. discriminate. Qed.
Print Assumptions C01_divsteps_trip_refuted.

Theorem C01_divsteps_trip_ni_below_modulus : forall f g1 g2,
  lk_bits_of g1 <= lk_bits_of f -> lk_bits_of g2 <= lk_bits_of f -> lk_divsteps_trip f g1 = lk_divsteps_trip f g2.
Proof.
  intros f g1 g2 H1 H2. unfold lk_divsteps_trip, lk_iterations.
  destruct (lk_bits_of f <? lk_bits_of g1) eqn:E1; [apply Z.ltb_lt in E1; lia|].
  destruct (lk_bits_of f <? lk_bits_of g2) eqn:E2; [apply Z.ltb_lt in E2; lia|]. reflexivity.
Qed.
Print Assumptions C01_divsteps_trip_ni_below_modulus.

(** ** non-vacuity: the hypotheses are satisfiable on non-trivial values and the traces are not empty;
       without the preconditions the twins DO distinguish (they look at data that reaches a condition) *)
Example C01_div_rem_nonvacuous :
  let x1 := [5; 7; 9] in let y1 := [3; 0; 0] in let x2 := [MAXW; MAXW; MAXW] in let y2 := [0; 0; 2 ^ 63] in
  lk_div_rem x1 y1 = lk_div_rem x2 y2 /\ Nat.ltb 100 (length (lk_div_rem x1 y1)) = true.
Proof.
  split; [|vm_compute; reflexivity].
  apply lk_div_rem_ni; try reflexivity; repeat constructor; discriminate.
Qed.

Example C01_div_rem_zero_divisor_differs :
  exists x y1 y2, same_shape y1 y2 /\ lk_div_rem x y1 <> lk_div_rem x y2.
Proof. exists [5; 0], [0; 0], [1; 0]. split; [reflexivity|]. vm_compute. discriminate. Qed.

Example C01_shl_out_of_range_differs : exists x s1 s2, lk_shl x s1 <> lk_shl x s2.
Proof. exists [0], 0, 64. vm_compute. discriminate. Qed.

Example C01_sqrt_nonvacuous :
  lk_sqrt [0; 0] = lk_sqrt [MAXW; MAXW] /\ Nat.ltb 1000 (length (lk_sqrt [0; 0])) = true.
Proof.
  split; [|vm_compute; reflexivity].
  apply lk_sqrt_ni; [reflexivity | |]; repeat constructor; discriminate.
Qed.

Example C01_jump_witness :
  lk_jump [5] [2] 1 <> lk_jump [5] [3] 1 /\ length (lk_jump [5] [2] 1) <> length (lk_jump [5] [3] 1).
Proof.
  assert (H : length (lk_jump [5] [2] 1) <> length (lk_jump [5] [3] 1)) by (vm_compute; discriminate).
  split; [|exact H]. intros E. apply H. rewrite E. reflexivity.
Qed.
