(** C16 (continued) -- the two op tables of Model/Conv.v that the correspondence check evaluates agree on EVERY key.
    For each of the 37 keys of [ops_conv_model] / [ops_conv_spec] (Limb / Uint / Int / BoxedUint to and from big- and
    little-endian bytes, strict hex decoding, Display / LowerHex / UpperHex / Binary / Debug formatting, word and limb
    views, conversions from and to primitive integers, concat / split / resize, BoxedUint widen / shorten, the boxed
    byte and hex decoders with their InputSize / Precision errors, the serde payload, the NonZero and Odd decoders),
    in both profiles and for all well-formed argument lists, wherever the spec entry is defined (not [Unsupported]),
    the model entry (the loops of the Rust code: limb-wise (de)serialisation, the branch-free nibble decoder with
    its error accumulator, copy loops, length / precision assertions and the option / error / panic plumbing of the
    entry) returns exactly what the spec entry (positional formulas on plain integers) returns.
    [run_tab t k dbg a] = the table lookup of Model/Api.v; [wf_args a] = every limb of every argument is a 64-bit word;
    [typedb conv_tbl_ty k a] = the typing side condition of key k (Proofs/ConvTablesP.v): 35 keys have none; for
    "uint.from_prim" / "int.from_prim" the tag that names the Rust source type of the conversion names a type
    (unsigned: at most 64 bits, Word, u128, WideWord; signed: i2 .. i64, i128).  That bytes are < 256, sizes match,
    values fit the named type ... are domain tests of the SPEC entries, not hypotheses.
    Short proofs stand here; the table theorem and the per-key lemmas are in Proofs/ConvTablesP.v. *)
From CB Require Import Model.Limbs Model.Conv Proofs.TotalityP Proofs.ConvTablesP.
From Coq Require Import ZArith List String.
Import ListNotations.
Open Scope Z_scope.
Open Scope string_scope.

(** every key of the table (the key list is [map fst] of the table itself: nothing is left out) *)
Theorem C16_tables_agree : forall k dbg a,
  In k (map fst ops_conv_model) -> wf_args a -> typedb conv_tbl_ty k a = true ->
  run_tab ops_conv_spec k dbg a <> Unsupported ->
  run_tab ops_conv_model k dbg a = run_tab ops_conv_spec k dbg a.
Proof. exact conv_tables_agree. Qed.
Print Assumptions C16_tables_agree.

(** the same over the key list [conv_keys] of C11, which is the same set of 37 keys *)
Theorem C16_tables_agree_c11_keys : forall k dbg a,
  In k conv_keys -> wf_args a -> typedb conv_tbl_ty k a = true ->
  run_tab ops_conv_spec k dbg a <> Unsupported ->
  run_tab ops_conv_model k dbg a = run_tab ops_conv_spec k dbg a.
Proof. intros k dbg a Hin. apply conv_tables_agree. apply conv_keys_in_table. exact Hin. Qed.
Print Assumptions C16_tables_agree_c11_keys.

Theorem C16_tables_key_set :
  map fst ops_conv_spec = map fst ops_conv_model /\ List.length (map fst ops_conv_model) = 37%nat /\
  (forall k, In k conv_keys <-> In k (map fst ops_conv_model)).
Proof.
  split; [exact conv_table_keys_spec|]. split; [exact conv_table_keys_count|].
  intros k. split; [apply conv_keys_in_table | apply table_in_conv_keys].
Qed.
Print Assumptions C16_tables_key_set.

(** only the two tagged from_prim keys have a side condition *)
Theorem C16_tables_typing_trivial : forall k a, k <> "uint.from_prim" -> k <> "int.from_prim" ->
  typedb conv_tbl_ty k a = true.
Proof.
  intros k a H1 H2. unfold typedb, conv_tbl_ty. cbn [lookup].
  destruct (String.eqb_spec k "uint.from_prim"); [contradiction|].
  destruct (String.eqb_spec k "int.from_prim"); [contradiction|]. reflexivity.
Qed.
Print Assumptions C16_tables_typing_trivial.

(** ... and there it is not decoration: with a tag that names no source type the two entries differ *)
Theorem C16_tables_typing_needed :
  run_tab ops_conv_spec "uint.from_prim" false [[0; 1]; [100]; [2]] <> Unsupported /\
  run_tab ops_conv_model "uint.from_prim" false [[0; 1]; [100]; [2]] <> run_tab ops_conv_spec "uint.from_prim" false [[0; 1]; [100]; [2]] /\
  run_tab ops_conv_spec "int.from_prim" false [[2 ^ 63]; [65]; [2]] <> Unsupported /\
  run_tab ops_conv_model "int.from_prim" false [[2 ^ 63]; [65]; [2]] <> run_tab ops_conv_spec "int.from_prim" false [[2 ^ 63]; [65]; [2]].
Proof. repeat split; vm_compute; discriminate. Qed.
Print Assumptions C16_tables_typing_needed.

(** non-vacuity: the lookups find functions and return non-trivial values: "0123456789aBcDeF" decodes to
    0x0123456789abcdef in both tables; a 3-byte input for a one-limb Uint panics in both; eight zero bytes are none
    for NonZero; 0x0200 at precision 9 is a Precision error; i8 -2 sign-extends to two limbs (side condition true);
    a 'g' in a boxed hex string of the right size is none; from_u128 into one limb panics; the spec is undefined on a
    byte value 256 and on an unknown key *)
Example C16_tables_nonvacuous :
  run_tab ops_conv_model "uint.from_be_hex" false [[48; 49; 50; 51; 52; 53; 54; 55; 56; 57; 97; 66; 99; 68; 101; 70]; [1]] = Val [[81985529216486895]] /\
  run_tab ops_conv_spec "uint.from_be_hex" false [[48; 49; 50; 51; 52; 53; 54; 55; 56; 57; 97; 66; 99; 68; 101; 70]; [1]] = Val [[81985529216486895]] /\
  run_tab ops_conv_model "uint.from_be_slice" false [[1; 2; 3]; [1]] = PanicV /\
  run_tab ops_conv_spec "uint.from_be_slice" false [[1; 2; 3]; [1]] = PanicV /\
  run_tab ops_conv_model "nonzero.from_le_bytes" false [[0; 0; 0; 0; 0; 0; 0; 0]; [1]] = NoneV /\
  run_tab ops_conv_spec "nonzero.from_le_bytes" false [[0; 0; 0; 0; 0; 0; 0; 0]; [1]] = NoneV /\
  run_tab ops_conv_model "boxed.from_be_slice" false [[2; 0]; [9]] = ErrV 3 /\
  run_tab ops_conv_spec "boxed.from_be_slice" false [[2; 0]; [9]] = ErrV 3 /\
  run_tab ops_conv_model "int.from_prim" false [[254]; [8]; [2]] = Val [[MAXW - 1; MAXW]] /\
  run_tab ops_conv_spec "int.from_prim" false [[254]; [8]; [2]] = Val [[MAXW - 1; MAXW]] /\
  typedb conv_tbl_ty "int.from_prim" [[254]; [8]; [2]] = true /\
  run_tab ops_conv_model "boxed.from_be_hex" false [[48; 49; 50; 51; 52; 53; 54; 55; 56; 57; 97; 66; 99; 68; 101; 103]; [64]] = NoneV /\
  run_tab ops_conv_spec "boxed.from_be_hex" false [[48; 49; 50; 51; 52; 53; 54; 55; 56; 57; 97; 66; 99; 68; 101; 103]; [64]] = NoneV /\
  run_tab ops_conv_model "uint.from_prim" false [[5; 7]; [128]; [1]] = PanicV /\
  run_tab ops_conv_spec "uint.from_prim" false [[5; 7]; [128]; [1]] = PanicV /\
  run_tab ops_conv_model "uint.split" false [[1; 2; 3]; [1]] = Val [[1]; [2; 3]] /\
  run_tab ops_conv_spec "limb.from_be_bytes" false [[0; 0; 0; 0; 0; 0; 0; 256]] = Unsupported /\
  run_tab ops_conv_model "no.such.key" false [[1]] = Unsupported.
Proof. vm_compute. repeat split; reflexivity. Qed.
