(** C02 (tables) — the op tables that the correspondence check evaluates agree on EVERY key of the two division areas:
    area div (Model/Div.v, [ops_div_model] / [ops_div_spec], 26 keys: Reciprocal::new; division of a Uint / BoxedUint
    by a Limb; Uint::div_rem / rem / div in constant time, the operator and checked forms with their zero test; the
    variable-time forms for mixed widths; rem_wide_vartime; rem2k_vartime; the BoxedUint constant-time forms with their
    equal-precision assertion and the variable-time forms for mixed precisions) and area divl0 (Model/DivL0.v,
    [ops_divl0_model] / [ops_divl0_spec], 2 keys: the same constant-time division calling the limb-level bits / shl / shr
    of Model/Bits.v).  In both profiles and for all well-formed argument lists that meet the typing side condition of
    the key, the model entry (limb-level model of the Rust code together with the glue of the entry: option plumbing,
    the zero-divisor test of the operator / checked forms, PanicV / NoneV placement, Limb argument decoding, the
    precision assertion, resizing of the remainder to the divisor's width) returns exactly what the spec entry
    (floor(n / d) and n mod d on the represented integers, as limb lists of the documented widths) returns, wherever the
    spec entry is defined; C02_tables_spec_defined says that this is everywhere except the zero divisor.
    [run_tab t k dbg a] = the table lookup of Model/Api.v; [wf_args a] = every limb of every argument is a 64-bit word;
    [typedb div_tbl_ty k a] = what Rust's types enforce for key k (Proofs/DivTablesP.v): a Limb divisor is one word
    (5 keys), the two operands of the Uint<N> forms have one N (8 keys), (lo, hi) and the divisor of rem_wide_vartime
    have one N, rem2k_vartime is given at least one limb; the other 11 keys (recip.new, the mixed-width vartime forms,
    all BoxedUint forms) have no side condition.  For "uint.div_rem_l0": one N and BITS = 64 N < 2^32.
    Short proofs stand here; the per-key lemmas and longer proofs are in Proofs/DivTablesP.v. *)
From CB Require Import Model.Limbs Model.Div Model.DivL0 Proofs.TotalityP Proofs.DivTablesP.
From Coq Require Import ZArith List String Bool.
Open Scope Z_scope.
Open Scope string_scope.

(** every key of the table of area div (the key list is [map fst] of the table itself: nothing is left out) *)
Theorem C02_tables_agree : forall k dbg a,
  In k (map fst ops_div_model) -> wf_args a -> typedb div_tbl_ty k a = true ->
  run_tab ops_div_spec k dbg a <> Unsupported ->
  run_tab ops_div_model k dbg a = run_tab ops_div_spec k dbg a.
Proof. exact div_tables_agree. Qed.
Print Assumptions C02_tables_agree.

(** the same over the key list [div_keys] of C11, which is the same set of 26 keys *)
Theorem C02_tables_agree_c11_keys : forall k dbg a,
  In k div_keys -> wf_args a -> typedb div_tbl_ty k a = true ->
  run_tab ops_div_spec k dbg a <> Unsupported ->
  run_tab ops_div_model k dbg a = run_tab ops_div_spec k dbg a.
Proof. intros k dbg a Hin. apply div_tables_agree. apply div_keys_in_table. exact Hin. Qed.
Print Assumptions C02_tables_agree_c11_keys.

Theorem C02_tables_key_set :
  map fst ops_div_spec = map fst ops_div_model /\ List.length (map fst ops_div_model) = 26%nat /\
  (forall k, In k div_keys <-> In k (map fst ops_div_model)).
Proof.
  split; [exact div_table_keys_spec|]. split; [exact div_table_keys_count|].
  intros k. split; [apply div_keys_in_table | apply table_in_div_keys].
Qed.
Print Assumptions C02_tables_key_set.

(** area divl0: both keys *)
Theorem C02_tables_agree_l0 : forall k dbg a,
  In k divl0_keys -> wf_args a -> typedb divl0_tbl_ty k a = true ->
  run_tab ops_divl0_spec k dbg a <> Unsupported ->
  run_tab ops_divl0_model k dbg a = run_tab ops_divl0_spec k dbg a.
Proof.
  intros k dbg a Hin. cbn [divl0_keys In] in Hin.
  destruct Hin as [<- | [<- | []]]; [exact (tbl_uint_div_rem_l0 dbg a) | exact (tbl_boxed_div_rem_l0 dbg a)].
Qed.
Print Assumptions C02_tables_agree_l0.

Theorem C02_tables_key_set_l0 :
  map fst ops_divl0_model = divl0_keys /\ map fst ops_divl0_spec = divl0_keys /\ List.length divl0_keys = 2%nat.
Proof. split; [exact divl0_keys_model|]. split; [exact divl0_keys_spec | reflexivity]. Qed.
Print Assumptions C02_tables_key_set_l0.

(** the side conditions, spelled out (one boolean predicate per key class; a key without an entry has none) *)
Theorem C02_tables_side_conditions :
  div_tbl_ty =
  [("uint.div_rem_limb", ty_limb_divisor); ("uint.rem_limb", ty_limb_divisor); ("uint.div_limb", ty_limb_divisor);
   ("boxed.div_rem_limb", ty_limb_divisor); ("boxed.rem_limb", ty_limb_divisor);
   ("uint.div_rem", ty_same2); ("uint.rem", ty_same2); ("uint.div", ty_same2); ("uint.div_plain", ty_same2);
   ("uint.rem_plain", ty_same2); ("uint.checked_div", ty_same2); ("uint.checked_rem", ty_same2);
   ("uint.wrapping_rem_vartime", ty_same2);
   ("uint.rem_wide_vartime", ty_same3); ("uint.rem2k_vartime", ty_some_limb)] /\
  divl0_tbl_ty = [("uint.div_rem_l0", ty_same2_u32)] /\
  (forall a, ty_limb_divisor a = (List.length (arg 1 a) =? 1)%nat) /\
  (forall a, ty_same2 a = (List.length (arg 0 a) =? List.length (arg 1 a))%nat) /\
  (forall a, ty_same3 a = ((List.length (arg 1 a) =? List.length (arg 0 a))%nat &&
                           (List.length (arg 2 a) =? List.length (arg 0 a))%nat)) /\
  (forall a, ty_some_limb a = negb (List.length (arg 0 a) =? 0)%nat) /\
  (forall a, ty_same2_u32 a = ((List.length (arg 0 a) =? List.length (arg 1 a))%nat &&
                               (64 * Z.of_nat (List.length (arg 0 a)) <? 2 ^ 32)%Z)).
Proof. repeat split. Qed.
Print Assumptions C02_tables_side_conditions.

(** the domain hypothesis excludes only the zero divisor (and operands of two precisions for "boxed.checked_div", whose
    model entry panics there): [div_in_domain k a] is `0 < the limb` for "recip.new", `the third argument <> 0` for
    "uint.rem_wide_vartime", `equal precisions` for "boxed.checked_div", `true` for rem2k_vartime and for the operator /
    checked forms with their own zero test, `the divisor <> 0` for all other keys *)
Theorem C02_tables_spec_defined : forall k dbg a,
  In k (map fst ops_div_model) -> div_in_domain k a = true -> run_tab ops_div_spec k dbg a <> Unsupported.
Proof. exact div_spec_defined. Qed.
Print Assumptions C02_tables_spec_defined.

Theorem C02_tables_spec_defined_l0 : forall k dbg a,
  In k divl0_keys -> ev 1 a <> 0 -> run_tab ops_divl0_spec k dbg a <> Unsupported.
Proof.
  intros k dbg a Hin Hnz. apply Z.eqb_neq in Hnz. cbn [divl0_keys In] in Hin.
  destruct Hin as [<- | [<- | []]]; open_tabs ops_divl0_model ops_divl0_spec; unfold nz_dom; rewrite Hnz; nu.
Qed.
Print Assumptions C02_tables_spec_defined_l0.

(** the side conditions are not decoration: outside them the two tables differ *)
Theorem C02_tables_typing_needed :
  run_tab ops_div_model "uint.rem_limb" false [[7]; [0; 1]] <> run_tab ops_div_spec "uint.rem_limb" false [[7]; [0; 1]] /\
  run_tab ops_div_model "uint.wrapping_rem_vartime" false [[7; 0]; [5]]
    <> run_tab ops_div_spec "uint.wrapping_rem_vartime" false [[7; 0]; [5]] /\
  run_tab ops_div_model "uint.div" false [[7]; [0; 1]] <> run_tab ops_div_spec "uint.div" false [[7]; [0; 1]] /\
  run_tab ops_div_model "uint.rem2k_vartime" false [[]; [3]] <> run_tab ops_div_spec "uint.rem2k_vartime" false [[]; [3]].
Proof. repeat split; vm_compute; discriminate. Qed.
Print Assumptions C02_tables_typing_needed.

(** non-vacuity: the lookups find functions, the side conditions hold and the values are non-trivial: a 3-limb
    constant-time division whose Knuth step needs the add-back (model and spec); a 3-limb dividend by a 2-limb divisor
    in variable time (quotient at the dividend's width, remainder at the divisor's); division by a limb; the wide
    remainder; the documented panics (operator form by zero, boxed constant-time form with two precisions) in both
    tables; checked_div by zero is none; the limb-level twin; an unknown key is Unsupported *)
Example C02_tables_nonvacuous :
  let M := run_tab ops_div_model in let S := run_tab ops_div_spec in
  typedb div_tbl_ty "uint.div_rem" [[MAXW; MAXW; MAXW - 1]; [MAXW; MAXW; 0]] = true /\
  M "uint.div_rem" false [[MAXW; MAXW; MAXW - 1]; [MAXW; MAXW; 0]] = Val [[MAXW; 0; 0]; [MAXW - 1; 0; 0]] /\
  S "uint.div_rem" false [[MAXW; MAXW; MAXW - 1]; [MAXW; MAXW; 0]] = Val [[MAXW; 0; 0]; [MAXW - 1; 0; 0]] /\
  M "uint.div_rem_vartime" false [[0; 0; 2 ^ 63]; [1; 2 ^ 63]] = Val [[MAXW; 0; 0]; [1; 2 ^ 63 - 1]] /\
  S "uint.div_rem_vartime" false [[0; 0; 2 ^ 63]; [1; 2 ^ 63]] = Val [[MAXW; 0; 0]; [1; 2 ^ 63 - 1]] /\
  typedb div_tbl_ty "uint.div_rem_limb" [[5; 7; 11]; [3]] = true /\
  M "uint.div_rem_limb" false [[5; 7; 11]; [3]] = Val [[1; 12297829382473034413; 3]; [2]] /\
  S "uint.div_rem_limb" false [[5; 7; 11]; [3]] = Val [[1; 12297829382473034413; 3]; [2]] /\
  typedb div_tbl_ty "uint.rem_wide_vartime" [[5; 0]; [0; 1]; [0; 3]] = true /\
  M "uint.rem_wide_vartime" false [[5; 0]; [0; 1]; [0; 3]] = Val [[5; 1]] /\
  S "uint.rem_wide_vartime" false [[5; 0]; [0; 1]; [0; 3]] = Val [[5; 1]] /\
  M "uint.div_plain" false [[5; 7]; [0; 0]] = PanicV /\ S "uint.div_plain" false [[5; 7]; [0; 0]] = PanicV /\
  M "boxed.div_rem" false [[5; 7; 9]; [1; 0]] = PanicV /\ S "boxed.div_rem" false [[5; 7; 9]; [1; 0]] = PanicV /\
  M "uint.checked_div" false [[5; 7]; [0; 0]] = NoneV /\ S "uint.checked_div" false [[5; 7]; [0; 0]] = NoneV /\
  M "uint.div_rem" false [[5; 7]; [0; 0]] = PanicV /\ S "uint.div_rem" false [[5; 7]; [0; 0]] = Unsupported /\
  typedb divl0_tbl_ty "uint.div_rem_l0" [[5; 7; 9; 11; 13]; [3; 1; 1; 0; 0]] = true /\
  run_tab ops_divl0_model "uint.div_rem_l0" false [[5; 7; 9; 11; 13]; [3; 1; 1; 0; 0]]
    = Val [[MAXW - 27; MAXW - 2; 12; 0; 0]; [89; 41; 0; 0; 0]] /\
  run_tab ops_divl0_spec "uint.div_rem_l0" false [[5; 7; 9; 11; 13]; [3; 1; 1; 0; 0]]
    = Val [[MAXW - 27; MAXW - 2; 12; 0; 0]; [89; 41; 0; 0; 0]] /\
  run_tab ops_divl0_model "boxed.div_rem_l0" false [[5; 7; 9]; [1; 0]] = PanicV /\
  run_tab ops_divl0_spec "boxed.div_rem_l0" false [[5; 7; 9]; [1; 0]] = PanicV /\
  M "no.such.key" false [[1]] = Unsupported.
Proof.
  (* a model entry that returns a value: from the spec entry, through the table theorem of its key; the rest evaluates *)
  intros M S. subst M S.
  repeat apply conj;
    first [ eapply tbl_ok_val;
              [ first [exact tbl_uint_div_rem | exact tbl_uint_div_rem_vartime | exact tbl_uint_div_rem_limb
                      | exact tbl_uint_rem_wide_vartime | exact tbl_uint_div_rem_l0] | vm_compute; reflexivity ..]
          | vm_compute; reflexivity ].
Qed.
