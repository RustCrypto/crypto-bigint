(** C06 — comparison, equality, hashing and conditional selection are mutually coherent.
    Short proofs stand here; longer ones are lemmas of Proofs/ cited by name.  Every statement quantifies over all
    word values and all limb counts (list lengths).  Truth values: ConstChoice = [choice_of_bool _] (0 / MAXW),
    subtle::Choice = [b2z _] (0 / 1), Ordering = [ordz _ _] (-1 / 0 / 1); [eval] = unsigned value of a limb
    list, [seval] = its two's complement value.  The single forms are separate lemmas in Proofs/
    (WordPredP, CmpWordP, CmpP, CmpIntP, CmpBoxedP); here they are grouped by type. *)
From CB Require Import Model.Limbs Model.AddSub Model.Cmp Proofs.WordP Proofs.LimbsP Proofs.AddSubP
  Proofs.CmpWordP Proofs.CmpP Proofs.CmpIntP Proofs.CmpBoxedP Proofs.CmpAllP.
From Coq Require Import ZArith List Bool.
Open Scope Z_scope.

Theorem C06_word_predicates : forall x y, is_word x -> is_word y ->
  from_word_nonzero x = choice_of_bool (negb (x =? 0)) /\
  from_word_msb x = choice_of_bool (2 ^ 63 <=? x) /\
  from_word_eq x y = choice_of_bool (x =? y) /\
  from_word_lt x y = choice_of_bool (x <? y) /\
  from_word_gt x y = choice_of_bool (y <? x) /\
  from_word_le x y = choice_of_bool (x <=? y).
Proof.
  intros x y Hx Hy. repeat split; auto using from_word_nonzero_spec, from_word_msb_spec, from_word_eq_spec,
    from_word_lt_spec, from_word_gt_spec, from_word_le_spec.
Qed.
Print Assumptions C06_word_predicates.

(** select_word returns exactly one of its operands, never a mixture *)
Theorem C06_select_word : forall c a b, is_word a -> is_word b ->
  select_word (choice_of_bool c) a b = if c then b else a.
Proof. exact select_word_choice. Qed.
Print Assumptions C06_select_word.

(** ct_eq / ct_ne / ct_lt / ct_gt / is_zero / is_odd / conditional_select on a word *)
Theorem C06_limb_predicates : forall x y (c : bool), is_word x -> is_word y ->
  limb_ct_eq x y = b2z (x =? y) /\ limb_ct_ne x y = b2z (negb (x =? y)) /\
  limb_ct_lt x y = b2z (x <? y) /\ limb_ct_gt x y = b2z (y <? x) /\
  limb_is_zero x = b2z (x =? 0) /\ limb_is_odd x = b2z (Z.odd x) /\
  st_select x y (b2z c) = (if c then y else x).
Proof.
  intros x y c Hx Hy. repeat split; auto using limb_ct_eq_spec, limb_ct_ne_spec, limb_ct_lt_spec, limb_ct_gt_spec,
    limb_is_zero_spec, limb_is_odd_spec, st_select_spec.
Qed.
Print Assumptions C06_limb_predicates.

(** Ord / PartialOrd on Limb: the order of the words; the debug assertion inside never fires *)
Theorem C06_limb_cmp : forall dbg x y, is_word x -> is_word y -> limb_cmp dbg x y = Some (ordz x y).
Proof. exact limb_cmp_spec. Qed.
Print Assumptions C06_limb_cmp.

(** Uint::eq (xor-accumulate) *)
Theorem C06_uint_eq : forall a b, wf a -> wf b -> length a = length b ->
  uint_eq a b = choice_of_bool (eval a =? eval b).
Proof. exact uint_eq_spec. Qed.
Print Assumptions C06_uint_eq.

(** borrow-based lt / gt / lte *)
Theorem C06_uint_order : forall a b, wf a -> wf b -> length a = length b ->
  uint_lt a b = choice_of_bool (eval a <? eval b) /\
  uint_gt a b = choice_of_bool (eval b <? eval a) /\
  uint_lte a b = choice_of_bool (eval a <=? eval b).
Proof. intros. repeat split; [apply uint_lt_spec | apply uint_gt_spec | apply uint_lte_spec]; assumption. Qed.
Print Assumptions C06_uint_order.

(** three-way cmp (final borrow and OR of the differences) *)
Theorem C06_uint_cmp : forall a b, wf a -> wf b -> length a = length b ->
  uint_cmp a b = ordz (eval a) (eval b).
Proof. exact uint_cmp_spec. Qed.
Print Assumptions C06_uint_cmp.

Theorem C06_uint_cmp_vartime : forall a b, wf a -> wf b -> length a = length b ->
  uint_cmp_vartime a b = ordz (eval a) (eval b).
Proof. exact uint_cmp_vartime_spec. Qed.
Print Assumptions C06_uint_cmp_vartime.

(** all forms describe one total order: exactly one of lt / eq / gt holds and cmp, cmp_vartime name it *)
Theorem C06_uint_coherent : forall a b, wf a -> wf b -> length a = length b ->
  let r := uint_cmp a b in
  uint_cmp_vartime a b = r /\
  (r = -1 <-> cc_true (uint_lt a b) = true) /\
  (r = 0 <-> cc_true (uint_eq a b) = true) /\
  (r = 1 <-> cc_true (uint_gt a b) = true) /\
  (r <> 1 <-> cc_true (uint_lte a b) = true) /\
  (r = -1 \/ r = 0 \/ r = 1).
Proof.
  intros a b Ha Hb Hl. cbv zeta.
  rewrite uint_cmp_vartime_spec, uint_cmp_spec, uint_lt_spec, uint_eq_spec, uint_gt_spec, uint_lte_spec by assumption.
  rewrite !cc_true_choice. unfold ordz.
  destruct (Z.ltb_spec (eval a) (eval b)), (Z.eqb_spec (eval a) (eval b)), (Z.ltb_spec (eval b) (eval a)),
    (Z.leb_spec (eval a) (eval b)); try lia; repeat split; intros; try lia; try discriminate; auto.
Qed.
Print Assumptions C06_uint_coherent.

(** is_nonzero (to_nz), Zero::is_zero, One::is_one, Integer::is_odd (Choice) and the inherent is_odd (to_odd) *)
Theorem C06_uint_tests : forall a, wf a ->
  uint_is_nonzero a = choice_of_bool (negb (eval a =? 0)) /\
  uint_is_zero a = b2z (eval a =? 0) /\
  (a <> [] -> uint_is_one a = b2z (eval a =? 1)) /\
  integer_is_odd a = b2z (Z.odd (eval a)) /\
  uint_is_odd a = choice_of_bool (Z.odd (eval a)).
Proof.
  intros a Ha. repeat split; auto using uint_is_nonzero_spec, uint_is_zero_spec, uint_is_one_spec,
    integer_is_odd_spec, uint_is_odd_spec.
Qed.
Print Assumptions C06_uint_tests.

(** conditional_select / ct_select / conditional_assign / ct_assign (Choice): the chosen operand itself *)
Theorem C06_ct_select : forall a b (c : bool), wf a -> wf b -> length a = length b ->
  ct_select_limbs a b (b2z c) = spec_select c a b.
Proof. exact ct_select_limbs_spec. Qed.
Print Assumptions C06_ct_select.

(** conditional_swap / ct_swap: both operands exchanged or both untouched *)
Theorem C06_ct_swap : forall a b (c : bool), wf a -> wf b -> length a = length b ->
  ct_swap_limbs a b (b2z c) = (spec_select c a b, spec_select c b a).
Proof. exact ct_swap_limbs_spec. Qed.
Print Assumptions C06_ct_swap.

(** Uint::select with a ConstChoice; this is also ConstCtOption::unwrap_or(def) = select(def, value, is_some) *)
Theorem C06_uint_select : forall a b (c : bool), wf a -> wf b -> length a = length b ->
  uint_select a b (choice_of_bool c) = spec_select c a b.
Proof. exact uint_select_spec. Qed.
Print Assumptions C06_uint_select.

Theorem C06_uint_neg_if : forall a (c : bool), wf a ->
  eval (uint_neg_if a (choice_of_bool c)) = (if c then - eval a else eval a) mod Bn (length a)
  /\ wf (uint_neg_if a (choice_of_bool c)) /\ length (uint_neg_if a (choice_of_bool c)) = length a.
Proof. exact uint_neg_if_spec. Qed.
Print Assumptions C06_uint_neg_if.

Theorem C06_conditional_negate : forall a (c : bool), wf a ->
  let r := ct_select_limbs a (uint_wrapping_neg a) (b2z c) in
  eval r = (if c then - eval a else eval a) mod Bn (length a) /\ wf r /\ length r = length a.
Proof. exact conditional_negate_spec. Qed.
Print Assumptions C06_conditional_negate.

(** values of one fixed width that compare equal feed identical data to the (derived) Hash *)
Theorem C06_uint_eq_hash : forall a b, wf a -> wf b -> length a = length b ->
  uint_ct_eq a b = 1 -> hash_input a = hash_input b.
Proof.
  intros a b Ha Hb Hl E. rewrite uint_ct_eq_spec in E by assumption.
  destruct (Z.eqb_spec (eval a) (eval b)) as [Ev|]; [|discriminate].
  apply eval_inj in Ev; auto. subst. reflexivity.
Qed.
Print Assumptions C06_uint_eq_hash.

(** eq, and lt / gt / cmp / cmp_vartime by flipping the sign bit *)
Theorem C06_int_order : forall a b, wf a -> wf b -> length a = length b -> a <> [] ->
  uint_eq a b = choice_of_bool (seval a =? seval b) /\
  int_lt a b = choice_of_bool (seval a <? seval b) /\
  int_gt a b = choice_of_bool (seval b <? seval a) /\
  int_cmp a b = ordz (seval a) (seval b) /\
  int_cmp_vartime a b = ordz (seval a) (seval b).
Proof. exact int_order_spec. Qed.
Print Assumptions C06_int_order.

(** is_negative / is_positive / is_min / is_max / to_nz / to_odd *)
Theorem C06_int_tests : forall a, wf a -> a <> [] ->
  int_is_negative a = choice_of_bool (seval a <? 0) /\
  int_is_positive a = choice_of_bool (0 <? seval a) /\
  int_is_min a = choice_of_bool (seval a =? - half (length a)) /\
  int_is_max a = choice_of_bool (seval a =? half (length a) - 1) /\
  uint_is_nonzero a = choice_of_bool (negb (seval a =? 0)) /\
  uint_is_odd a = choice_of_bool (Z.odd (seval a)).
Proof.
  intros a Ha Hn. repeat split; auto using int_is_negative_spec, int_is_positive_spec, int_is_min_spec,
    int_is_max_spec, int_to_nz_spec, int_to_odd_spec.
Qed.
Print Assumptions C06_int_tests.

(** abs_sign / abs: sign = (value < 0), magnitude = |value| exactly (|MIN| = 2^(BITS-1) fits the Uint) *)
Theorem C06_int_abs_sign : forall a m sg, wf a -> a <> [] -> int_abs_sign a = (m, sg) ->
  sg = choice_of_bool (seval a <? 0) /\ eval m = Z.abs (seval a) /\ wf m /\ length m = length a.
Proof. exact int_abs_sign_spec. Qed.
Print Assumptions C06_int_abs_sign.

(** new_from_abs_sign: is_some exactly when (+-)abs lies in [-2^(BITS-1), 2^(BITS-1)), and then that value *)
Theorem C06_int_new_from_abs_sign : forall ab (c : bool) v fits, wf ab -> ab <> [] ->
  int_new_from_abs_sign ab (choice_of_bool c) = (v, fits) ->
  let n := length ab in
  let s := if c then - eval ab else eval ab in
  fits = choice_of_bool ((- half n <=? s) && (s <? half n)) /\
  wf v /\ length v = n /\ eval v = s mod Bn n /\
  ((- half n <=? s) && (s <? half n) = true -> seval v = s).
Proof. exact int_new_from_abs_sign_spec. Qed.
Print Assumptions C06_int_new_from_abs_sign.

(** ct_eq / ct_lt / ct_gt and Ord / PartialOrd / the comparison operators (also in debug builds): the order
    of the represented integers, whatever the two precisions *)
Theorem C06_boxed_order : forall dbg a b, wf a -> wf b ->
  boxed_ct_eq a b = b2z (eval a =? eval b) /\
  boxed_ct_lt a b = b2z (eval a <? eval b) /\
  boxed_ct_gt a b = b2z (eval b <? eval a) /\
  boxed_cmp dbg a b = Some (ordz (eval a) (eval b)).
Proof. exact boxed_order_spec. Qed.
Print Assumptions C06_boxed_order.

(** cmp_vartime (zero-padding both operands): the three-way order of the values for ALL precision pairs *)
Theorem C06_boxed_cmp_vartime : forall a b, wf a -> wf b ->
  boxed_cmp_vartime a b = ordz (eval a) (eval b).
Proof. exact boxed_cmp_vartime_spec. Qed.
Print Assumptions C06_boxed_cmp_vartime.

(** is_zero / is_nonzero / is_one / is_odd *)
Theorem C06_boxed_tests : forall a, wf a ->
  boxed_is_zero a = b2z (eval a =? 0) /\
  boxed_is_nonzero a = b2z (negb (eval a =? 0)) /\
  boxed_is_one a = b2z (eval a =? 1) /\
  integer_is_odd a = b2z (Z.odd (eval a)).
Proof.
  intros a Ha. repeat split; auto using boxed_is_zero_spec, boxed_is_nonzero_spec, boxed_is_one_spec,
    integer_is_odd_spec.
Qed.
Print Assumptions C06_boxed_tests.

(** ct_select / ct_assign / ct_swap on operands of the same precision ... *)
Theorem C06_boxed_select_swap_partial : forall dbg a b (c : bool), wf a -> wf b -> length a = length b ->
  boxed_ct_select dbg a b (b2z c) = Some (spec_select c a b) /\
  boxed_ct_swap dbg a b (b2z c) = Some (spec_select c a b, spec_select c b a).
Proof. exact boxed_select_swap_partial. Qed.
Print Assumptions C06_boxed_select_swap_partial.

(** ... on different precisions the release build returns a truncated operand / a mixture
    (GENUINE DEFECT, open finding F16) *)
Theorem C06_boxed_ct_select_refuted :
  exists a b r, wf a /\ wf b /\ boxed_ct_select false a b 1 = Some r /\ r <> b.
Proof.
  exists [1], [2; 3], [2]. split; [wf_by_compute|]. split; [wf_by_compute|].
  split; [vm_compute; reflexivity | discriminate].
Qed.
Print Assumptions C06_boxed_ct_select_refuted.

Theorem C06_boxed_ct_swap_refuted :
  exists a b a' b', wf a /\ wf b /\ boxed_ct_swap false a b 1 = Some (a', b') /\ b' <> a /\ b' <> b.
Proof.
  exists [1], [2; 3], [2], [1; 3]. split; [wf_by_compute|]. split; [wf_by_compute|].
  split; [vm_compute; reflexivity|]. split; discriminate.
Qed.
Print Assumptions C06_boxed_ct_swap_refuted.

Theorem C06_boxed_conditional_negate : forall a (c : bool), wf a ->
  let r := boxed_conditional_negate a (b2z c) in
  eval r = (if c then - eval a else eval a) mod Bn (length a) /\ wf r /\ length r = length a.
Proof. exact boxed_conditional_negate_spec. Qed.
Print Assumptions C06_boxed_conditional_negate.

(** Hash vs Eq for ALL precision pairs: a == b exactly when the manual Hash (limbs below the most significant
    non-zero one, with their count) feeds identical data to the hasher; so equal values hash equally and equal
    hasher input means equal values *)
Theorem C06_boxed_eq_hash : forall a b, wf a -> wf b ->
  (boxed_ct_eq a b = 1 <-> boxed_hash_input a = boxed_hash_input b).
Proof. exact boxed_eq_iff_hash. Qed.
Print Assumptions C06_boxed_eq_hash.

(** non-vacuity: borrow through equal high limbs, the signed order around the sign bit, zero-padded boxed
    operands, both choice values of select / swap *)
Example C06_nonvacuous :
  uint_lt [MAXW; 7; 7] [0; 8; 7] = MAXW /\ uint_cmp [1; 7; 7] [0; 7; 7] = 1 /\
  uint_cmp_vartime [0; 0; 1] [MAXW; MAXW; 0] = 1 /\ uint_eq [5; 6] [5; 6] = MAXW /\
  int_lt [0; 2 ^ 63] [MAXW; 2 ^ 63 - 1] = MAXW /\ int_cmp [MAXW; MAXW] [0; 0] = -1 /\
  boxed_ct_eq [1] [1; 0; 0] = 1 /\ boxed_ct_lt [MAXW] [0; 1] = 1 /\ boxed_cmp true [0; 1] [MAXW] = Some 1 /\
  boxed_cmp_vartime [1] [0; 1] = -1 /\ boxed_cmp_vartime [0; 0; 1] [MAXW] = 1 /\
  boxed_hash_input [1; 0; 0] = boxed_hash_input [1] /\ boxed_hash_input [0; 0] = [0] /\
  ct_select_limbs [1; 2] [3; 4] 1 = [3; 4] /\ ct_swap_limbs [1; 2] [3; 4] 1 = ([3; 4], [1; 2]) /\
  ct_swap_limbs [1; 2] [3; 4] 0 = ([1; 2], [3; 4]).
Proof. vm_compute. repeat split; reflexivity. Qed.
