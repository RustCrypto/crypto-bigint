(** C13 — signed integers behave as two's-complement mathematical integers.
    Short proofs stand here; the others are lemmas of Proofs/IntArithP.v and Proofs/IntTablesP.v cited by [exact].
    Notation of the statements: [seval a] is the signed value of the limb list [a] (two's complement),
    [to_limbs_s n x] is the n-limb two's-complement encoding of [x mod 2^(64 n)], [isp_fits n x] decides
    MIN <= x <= MAX for n limbs ([- Bn n <= 2 x < Bn n]), [choice_of_bool] is a ConstChoice.
    All statements hold for every limb count (list length) and every word value.
    The unsigned multiplication the Int code calls is modelled at the value level (see Model/IntArith.v). *)
From CB Require Import Model.Limbs Model.AddSub Model.IntArith Model.IntDiv Proofs.WordP Proofs.WordPredP Proofs.LimbsP Proofs.AddSubP
  Proofs.IntArithP Proofs.IntDivP Proofs.IntTablesP.
From Coq Require Import ZArith Lia List Bool String.
Open Scope string_scope.
Open Scope Z_scope.
Notation length := List.length.

(** meaning of the encoding used in every statement below: reading back gives x whenever x is in range,
    and gives x modulo 2^BITS in any case *)
Theorem C13_encoding_exact : forall n x, - Bn n <= 2 * x < Bn n -> seval (to_limbs_s n x) = x.
Proof. exact seval_to_limbs_s. Qed.
Print Assumptions C13_encoding_exact.

Theorem C13_encoding_mod : forall n x,
  eval (to_limbs_s n x) = x mod Bn n /\ wf (to_limbs_s n x) /\ length (to_limbs_s n x) = n.
Proof. intros. repeat split. apply eval_to_limbs_s. apply wf_to_limbs_s. apply length_to_limbs_s. Qed.
Print Assumptions C13_encoding_mod.

Theorem C13_signed_range : forall a, wf a -> - Bn (length a) <= 2 * seval a < Bn (length a).
Proof. exact seval_range. Qed.
Print Assumptions C13_signed_range.

(** sign predicates *)
Theorem C13_is_negative : forall a, wf a -> int_is_negative a = choice_of_bool (seval a <? 0).
Proof. exact int_is_negative_spec. Qed.
Print Assumptions C13_is_negative.

Theorem C13_is_positive : forall a, wf a -> int_is_positive a = choice_of_bool (0 <? seval a).
Proof. exact int_is_positive_spec. Qed.
Print Assumptions C13_is_positive.

Theorem C13_is_min : forall a, wf a -> a <> [] ->
  int_is_min a = choice_of_bool (2 * seval a =? - Bn (length a)).
Proof. exact int_is_min_spec. Qed.
Print Assumptions C13_is_min.

Theorem C13_is_max : forall a, wf a -> a <> [] ->
  int_is_max a = choice_of_bool (2 * seval a =? Bn (length a) - 2).
Proof. exact int_is_max_spec. Qed.
Print Assumptions C13_is_max.

(** the constants Int::MIN and Int::MAX are -2^(BITS-1) and 2^(BITS-1) - 1 *)
Theorem C13_min_max_constants : forall n, n <> 0%nat ->
  2 * seval (int_min_limbs n) = - Bn n /\ 2 * seval (int_max_limbs n) = Bn n - 2.
Proof.
  intros n Hn. destruct (int_min_limbs_spec n Hn) as (Emin & Wmin & Lmin).
  destruct (int_max_limbs_spec n Hn) as (Emax & Wmax & Lmax).
  destruct (Bn_half n Hn) as [HM HH].
  destruct (seval_cases _ Wmin) as [[? E1]|[? E1]]; destruct (seval_cases _ Wmax) as [[? E2]|[? E2]];
    rewrite ?Lmin, ?Lmax, ?Emin, ?Emax in *; lia.
Qed.
Print Assumptions C13_min_max_constants.

(** addition: wrapped result and exact overflow flag *)
Theorem C13_overflowing_add : forall a b, wf a -> wf b -> length a = length b ->
  int_overflowing_add a b =
    (to_limbs_s (length a) (seval a + seval b),
     choice_of_bool (negb (isp_fits (length a) (seval a + seval b)))).
Proof. exact int_overflowing_add_spec. Qed.
Print Assumptions C13_overflowing_add.

Theorem C13_checked_add : forall a b, wf a -> wf b -> length a = length b ->
  int_checked_add a b =
    if isp_fits (length a) (seval a + seval b) then Some (to_limbs_s (length a) (seval a + seval b)) else None.
Proof. exact int_checked_add_spec. Qed.
Print Assumptions C13_checked_add.

Theorem C13_wrapping_add : forall a b, wf a -> wf b -> length a = length b ->
  int_wrapping_add a b = to_limbs_s (length a) (seval a + seval b).
Proof.
  exact wrapping_add_signed.
Qed.
Print Assumptions C13_wrapping_add.

(** subtraction *)
Theorem C13_checked_sub : forall a b, wf a -> wf b -> length a = length b ->
  int_checked_sub a b =
    if isp_fits (length a) (seval a - seval b) then Some (to_limbs_s (length a) (seval a - seval b)) else None.
Proof. exact int_checked_sub_spec. Qed.
Print Assumptions C13_checked_sub.

Theorem C13_wrapping_sub : forall a b, wf a -> wf b -> length a = length b ->
  int_wrapping_sub a b = to_limbs_s (length a) (seval a - seval b).
Proof. exact int_wrapping_sub_spec. Qed.
Print Assumptions C13_wrapping_sub.

(** negation: overflow exactly for MIN *)
Theorem C13_overflowing_neg : forall a, wf a ->
  int_overflowing_neg a =
    (to_limbs_s (length a) (- seval a), choice_of_bool (negb (isp_fits (length a) (- seval a)))).
Proof. exact int_overflowing_neg_spec. Qed.
Print Assumptions C13_overflowing_neg.

Theorem C13_neg_overflow_iff_min : forall a, wf a -> a <> [] ->
  (isp_fits (length a) (- seval a) = false <-> 2 * seval a = - Bn (length a)).
Proof. intros a H Hne. pose proof (seval_range a H). rewrite isp_fits_false. lia. Qed.
Print Assumptions C13_neg_overflow_iff_min.

Theorem C13_checked_neg : forall a, wf a ->
  int_checked_neg a = if isp_fits (length a) (- seval a) then Some (to_limbs_s (length a) (- seval a)) else None.
Proof.
  intros. unfold int_checked_neg. rewrite int_overflowing_neg_spec by assumption.
  rewrite cc_not_bool, negb_involutive, ctopt_new_bool. reflexivity.
Qed.
Print Assumptions C13_checked_neg.

Theorem C13_wrapping_neg : forall a, wf a -> int_wrapping_neg a = to_limbs_s (length a) (- seval a).
Proof.
  intros. unfold int_wrapping_neg. rewrite int_overflowing_neg_spec by assumption. reflexivity.
Qed.
Print Assumptions C13_wrapping_neg.

Theorem C13_wrapping_neg_if : forall a (b : bool), wf a ->
  int_wrapping_neg_if a (choice_of_bool b) = to_limbs_s (length a) (if b then - seval a else seval a).
Proof. exact int_wrapping_neg_if_spec. Qed.
Print Assumptions C13_wrapping_neg_if.

(** sign / magnitude decomposition (|MIN| = 2^(BITS-1) is returned exactly) and reconstruction
    (exact for MIN and for negative zero) *)
Theorem C13_abs_sign : forall a, wf a ->
  int_abs_sign a = (to_limbs (length a) (Z.abs (seval a)), choice_of_bool (seval a <? 0)) /\
  eval (to_limbs (length a) (Z.abs (seval a))) = Z.abs (seval a).
Proof. intros a H. split; [apply int_abs_sign_spec | apply eval_abs]; assumption. Qed.
Print Assumptions C13_abs_sign.

Theorem C13_new_from_abs_sign : forall ab (b : bool), wf ab ->
  let x := if b then - eval ab else eval ab in
  int_new_from_abs_sign ab (choice_of_bool b) =
    if isp_fits (length ab) x then Some (to_limbs_s (length ab) x) else None.
Proof. exact int_new_from_abs_sign_spec. Qed.
Print Assumptions C13_new_from_abs_sign.

(** multiplication, equal and mixed widths (the result has the width of the first factor) *)
Theorem C13_split_mul : forall a b, wf a -> wf b ->
  let p := Z.abs (seval a) * Z.abs (seval b) in
  int_split_mul a b = (to_limbs (length a) p, to_limbs (length b) (p / Bn (length a)),
                       choice_of_bool (xorb (seval a <? 0) (seval b <? 0))).
Proof. exact int_split_mul_spec. Qed.
Print Assumptions C13_split_mul.

Theorem C13_checked_mul : forall a b, wf a -> wf b ->
  int_checked_mul a b =
    if isp_fits (length a) (seval a * seval b) then Some (to_limbs_s (length a) (seval a * seval b)) else None.
Proof. exact int_checked_mul_spec. Qed.
Print Assumptions C13_checked_mul.

Theorem C13_checked_mul_uint : forall a b, wf a -> wf b ->
  int_checked_mul_uint a b =
    if isp_fits (length a) (seval a * eval b) then Some (to_limbs_s (length a) (seval a * eval b)) else None.
Proof. exact int_checked_mul_uint_spec. Qed.
Print Assumptions C13_checked_mul_uint.

Theorem C13_checked_mul_uint_right : forall a b, wf a -> wf b ->
  int_checked_mul_uint_right a b =
    if isp_fits (length b) (seval a * eval b) then Some (to_limbs_s (length b) (seval a * eval b)) else None.
Proof.
  intros a b Ha Hb. unfold int_checked_mul_uint_right.
  rewrite int_split_mul_uint_right_spec, fit_product_spec
    by (assumption || (rewrite (Z.mul_comm (Bn (length b))); apply abs_umul_bound; assumption)).
  rewrite mul_sign_u. reflexivity.
Qed.
Print Assumptions C13_checked_mul_uint_right.

Theorem C13_widening_mul : forall a b, wf a -> wf b ->
  int_widening_mul a b = to_limbs_s (length a + length b) (seval a * seval b).
Proof.
  intros a b Ha Hb. unfold int_widening_mul. rewrite !int_abs_sign_spec by assumption.
  unfold ux_split_mul. rewrite !length_to_limbs, !eval_abs, cc_xor_bool by assumption.
  rewrite widen_neg_if by (apply abs_mul_bound; assumption). rewrite mul_sign. reflexivity.
Qed.
Print Assumptions C13_widening_mul.

Theorem C13_widening_mul_uint : forall a b, wf a -> wf b ->
  int_widening_mul_uint a b = to_limbs_s (length a + length b) (seval a * eval b).
Proof.
  intros a b Ha Hb. unfold int_widening_mul_uint. rewrite !int_abs_sign_spec by assumption.
  unfold ux_split_mul. rewrite !length_to_limbs, !eval_abs by assumption.
  rewrite widen_neg_if by (apply abs_umul_bound; assumption). rewrite mul_sign_u. reflexivity.
Qed.
Print Assumptions C13_widening_mul_uint.

(** the widening product never wraps *)
Theorem C13_widening_mul_fits : forall a b, wf a -> wf b -> a <> [] -> b <> [] ->
  - Bn (length a + length b) <= 2 * (seval a * seval b) < Bn (length a + length b).
Proof. exact widening_fits. Qed.
Print Assumptions C13_widening_mul_fits.

(** squares (unsigned results) *)
Theorem C13_widening_square : forall a, wf a ->
  int_widening_square a = to_limbs (length a + length a) (seval a * seval a).
Proof. exact int_widening_square_spec. Qed.
Print Assumptions C13_widening_square.

Theorem C13_checked_square : forall a, wf a ->
  int_checked_square a =
    if seval a * seval a <? Bn (length a) then Some (to_limbs (length a) (seval a * seval a)) else None.
Proof.
  intros a Ha. unfold int_checked_square. rewrite ux_square_wide_abs by assumption.
  rewrite ux_eq_spec; auto using wf_to_limbs, wf_zeros; [|rewrite !length_to_limbs, length_zeros; reflexivity].
  rewrite eval_zeros, ctopt_new_bool, hi_limbs_zero_iff by (apply sq_bound; assumption). reflexivity.
Qed.
Print Assumptions C13_checked_square.

Theorem C13_wrapping_square : forall a, wf a ->
  int_wrapping_square a = to_limbs (length a) ((seval a * seval a) mod Bn (length a)).
Proof.
  intros a Ha. unfold int_wrapping_square. rewrite ux_square_wide_abs by assumption. cbn [fst].
  symmetry. apply to_limbs_mod.
Qed.
Print Assumptions C13_wrapping_square.

Theorem C13_saturating_square : forall a, wf a ->
  int_saturating_square a =
    to_limbs (length a) (if seval a * seval a <? Bn (length a) then seval a * seval a else Bn (length a) - 1).
Proof. exact int_saturating_square_spec. Qed.
Print Assumptions C13_saturating_square.

(** resize to any width: sign extension when widening, reduction modulo 2^BITS when narrowing *)
Theorem C13_resize : forall t a, wf a -> int_resize t a = to_limbs_s t (seval a).
Proof. exact int_resize_spec. Qed.
Print Assumptions C13_resize.

(** conversion from the signed primitives i8 .. i64 (bits in 8/16/32/64, x = bit pattern) and i128 *)
Theorem C13_from_prim : forall bits t x, 1 <= bits <= 64 -> 0 <= x < 2 ^ bits ->
  int_from_prim bits t x = to_limbs_s t (prim_sval bits x).
Proof. exact int_from_prim_spec. Qed.
Print Assumptions C13_from_prim.

Theorem C13_from_i128 : forall t lo hi, is_word lo -> is_word hi ->
  int_from_i128 t lo hi = to_limbs_s t (seval [lo; hi]).
Proof. exact int_from_i128_spec. Qed.
Print Assumptions C13_from_i128.

(** Checked<Int> arithmetic: a binary + - * on two Checked values is none iff an operand is none or the exact
    result leaves [MIN, MAX] ([opt_enc n o s]: the model option o encodes the mathematical option s) ... *)
Theorem C13_checked_bin : forall n op xo xs yo ys, opt_enc n xo xs -> opt_enc n yo ys ->
  opt_enc n (int_checked_bin op xo yo) (isp_checked_bin n op xs ys).
Proof. exact int_checked_bin_spec. Qed.
Print Assumptions C13_checked_bin.

(** ... hence both nestings (a op1 b) op2 c and a op2 (b op1 c) are none iff some intermediate result overflowed *)
Theorem C13_checked_expr : forall shape op1 op2 a b c,
  wf a -> wf b -> wf c -> length a = length b -> length a = length c ->
  opt_enc (length a) (int_checked_expr shape op1 op2 a b c)
                     (isp_checked_expr (length a) shape op1 op2 (seval a) (seval b) (seval c)).
Proof. exact int_checked_expr_spec. Qed.
Print Assumptions C13_checked_expr.

(** the two op tables evaluated by the correspondence check (model entry = limb-level model of the Rust code,
    spec entry = plain arithmetic on the signed values) agree, key by key, on all well-formed arguments;
    [run_op t key dbg args] is the table lookup of Model/Api.v *)
Theorem C13_tables_agree_binary : forall dbg a b, wf a -> wf b -> length a = length b ->
  let M := run_op ops_intarith_model in let S := run_op ops_intarith_spec in
  M "sint.checked_add" dbg [a; b] = S "sint.checked_add" dbg [a; b] /\
  M "sint.overflowing_add" dbg [a; b] = S "sint.overflowing_add" dbg [a; b] /\
  M "sint.wrapping_add" dbg [a; b] = S "sint.wrapping_add" dbg [a; b] /\
  M "sint.add" dbg [a; b] = S "sint.add" dbg [a; b] /\
  M "sint.checked_sub" dbg [a; b] = S "sint.checked_sub" dbg [a; b] /\
  M "sint.wrapping_sub" dbg [a; b] = S "sint.wrapping_sub" dbg [a; b] /\
  M "sint.sub" dbg [a; b] = S "sint.sub" dbg [a; b].
Proof.
  (* one bullet per key, in the order of the statement (the order of the tables) *)
  intros dbg a b Ha Hb Hl M S. unfold M, S. repeat apply conj.
  - table_open. rewrite int_checked_add_spec by assumption. fits_cases.
  - table_open. rewrite int_overflowing_add_spec by assumption. fits_cases.
  - table_open. rewrite C13_wrapping_add by assumption. reflexivity.
  - apply tbl_add; assumption.
  - table_open. rewrite int_checked_sub_spec by assumption. fits_cases.
  - table_open. rewrite int_wrapping_sub_spec by assumption. reflexivity.
  - apply tbl_sub; assumption.
Qed.
Print Assumptions C13_tables_agree_binary.

Theorem C13_tables_agree_unary : forall dbg a c t, wf a -> a <> [] -> 0 <= t ->
  let M := run_op ops_intarith_model in let S := run_op ops_intarith_spec in
  M "sint.overflowing_neg" dbg [a] = S "sint.overflowing_neg" dbg [a] /\
  M "sint.wrapping_neg" dbg [a] = S "sint.wrapping_neg" dbg [a] /\
  M "sint.checked_neg" dbg [a] = S "sint.checked_neg" dbg [a] /\
  M "sint.wrapping_neg_if" dbg [a; [c]] = S "sint.wrapping_neg_if" dbg [a; [c]] /\
  M "sint.abs_sign" dbg [a] = S "sint.abs_sign" dbg [a] /\
  M "sint.abs" dbg [a] = S "sint.abs" dbg [a] /\
  M "sint.is_negative" dbg [a] = S "sint.is_negative" dbg [a] /\
  M "sint.is_positive" dbg [a] = S "sint.is_positive" dbg [a] /\
  M "sint.is_min" dbg [a] = S "sint.is_min" dbg [a] /\
  M "sint.is_max" dbg [a] = S "sint.is_max" dbg [a] /\
  M "sint.new_from_abs_sign" dbg [a; [c]] = S "sint.new_from_abs_sign" dbg [a; [c]] /\
  M "sint.widening_square" dbg [a] = S "sint.widening_square" dbg [a] /\
  M "sint.checked_square" dbg [a] = S "sint.checked_square" dbg [a] /\
  M "sint.wrapping_square" dbg [a] = S "sint.wrapping_square" dbg [a] /\
  M "sint.saturating_square" dbg [a] = S "sint.saturating_square" dbg [a] /\
  M "sint.resize" dbg [a; [t]] = S "sint.resize" dbg [a; [t]] /\
  M "sint.to_prim" dbg [a] = S "sint.to_prim" dbg [a].
Proof.
  (* one bullet per key, in the order of the statement (the order of the tables) *)
  intros dbg a c t Ha Hne Ht M S. unfold M, S. repeat apply conj.
  - table_open. rewrite int_overflowing_neg_spec by assumption. fits_cases.
  - table_open. rewrite C13_wrapping_neg by assumption. reflexivity.
  - table_open. rewrite C13_checked_neg by assumption. fits_cases.
  - table_open. rewrite int_wrapping_neg_if_spec by assumption. unfold isp_val.
    destruct (c =? 0); reflexivity.
  - table_open. rewrite int_abs_sign_spec by assumption. unfold vflag. cbn [fst snd]. rewrite choice_to_bool_choice. reflexivity.
  - table_open. rewrite int_abs_spec by assumption. reflexivity.
  - table_open. rewrite int_is_negative_spec by assumption. unfold vchoice. rewrite choice_to_bool_choice. reflexivity.
  - table_open. rewrite int_is_positive_spec by assumption. unfold vchoice. rewrite choice_to_bool_choice. reflexivity.
  - table_open. rewrite int_is_min_spec by assumption. unfold vchoice. rewrite choice_to_bool_choice. reflexivity.
  - table_open. rewrite int_is_max_spec by assumption. unfold vchoice. rewrite choice_to_bool_choice. reflexivity.
  - table_open. pose proof (int_new_from_abs_sign_spec a (negb (c =? 0)) Ha) as E. cbv zeta in E. rewrite E.
    destruct (c =? 0); cbn [negb]; fits_cases.
  - table_open. rewrite int_widening_square_spec by assumption. reflexivity.
  - table_open. rewrite C13_checked_square by assumption. unfold usp_fits, usp_val, vopt.
    pose proof (sq_bound a Ha) as [H0 _]. replace (0 <=? seval a * seval a) with true by (symmetry; apply Z.leb_le; assumption).
    cbn [andb]. destruct (seval a * seval a <? Bn (length a)); reflexivity.
  - table_open. rewrite C13_wrapping_square by assumption. reflexivity.
  - table_open. rewrite int_saturating_square_spec by assumption. unfold usp_fits, usp_val.
    pose proof (sq_bound a Ha) as [H0 _]. replace (0 <=? seval a * seval a) with true by (symmetry; apply Z.leb_le; assumption).
    reflexivity.
  - table_open. rewrite int_resize_spec by assumption. reflexivity.
  - table_open. unfold isp_val. rewrite to_limbs_s_seval by assumption. reflexivity.
Qed.
Print Assumptions C13_tables_agree_unary.

Theorem C13_tables_agree_mul : forall dbg a b, wf a -> wf b ->
  let M := run_op ops_intarith_model in let S := run_op ops_intarith_spec in
  M "sint.split_mul" dbg [a; b] = S "sint.split_mul" dbg [a; b] /\
  M "sint.split_mul_uint" dbg [a; b] = S "sint.split_mul_uint" dbg [a; b] /\
  M "sint.split_mul_uint_right" dbg [a; b] = S "sint.split_mul_uint_right" dbg [a; b] /\
  M "sint.widening_mul" dbg [a; b] = S "sint.widening_mul" dbg [a; b] /\
  M "sint.widening_mul_uint" dbg [a; b] = S "sint.widening_mul_uint" dbg [a; b] /\
  M "sint.checked_mul" dbg [a; b] = S "sint.checked_mul" dbg [a; b] /\
  M "sint.checked_mul_uint" dbg [a; b] = S "sint.checked_mul_uint" dbg [a; b] /\
  M "sint.checked_mul_uint_right" dbg [a; b] = S "sint.checked_mul_uint_right" dbg [a; b] /\
  M "sint.mul" dbg [a; b] = S "sint.mul" dbg [a; b] /\
  M "sint.mul_uint" dbg [a; b] = S "sint.mul_uint" dbg [a; b].
Proof.
  (* one bullet per key, in the order of the statement (the order of the tables) *)
  intros dbg a b Ha Hb M S. unfold M, S. repeat apply conj.
  - table_open. pose proof (int_split_mul_spec a b Ha Hb) as E. cbv zeta in E. rewrite E.
    unfold vtriple. rewrite choice_to_bool_choice. reflexivity.
  - table_open. rewrite int_split_mul_uint_spec by assumption.
    unfold vtriple. rewrite choice_to_bool_choice. reflexivity.
  - table_open. rewrite int_split_mul_uint_right_spec by assumption.
    unfold vtriple. rewrite choice_to_bool_choice. reflexivity.
  - table_open. rewrite C13_widening_mul by assumption. reflexivity.
  - table_open. rewrite C13_widening_mul_uint by assumption. reflexivity.
  - table_open. rewrite int_checked_mul_spec by assumption. fits_cases.
  - table_open. rewrite int_checked_mul_uint_spec by assumption. fits_cases.
  - table_open. rewrite C13_checked_mul_uint_right by assumption. fits_cases.
  - apply tbl_mul; assumption.
  - apply tbl_mul_uint; assumption.
Qed.
Print Assumptions C13_tables_agree_mul.

(** conversions from primitives (x = bit pattern, t = target limb count), constants, Checked<Int> expressions *)
Theorem C13_tables_agree_from : forall dbg x t, 0 <= t ->
  let M := run_op ops_intarith_model in let S := run_op ops_intarith_spec in
  (0 <= x < 2 ^ 8 -> M "sint.from_i8" dbg [[x]; [t]] = S "sint.from_i8" dbg [[x]; [t]]) /\
  (0 <= x < 2 ^ 16 -> M "sint.from_i16" dbg [[x]; [t]] = S "sint.from_i16" dbg [[x]; [t]]) /\
  (0 <= x < 2 ^ 32 -> M "sint.from_i32" dbg [[x]; [t]] = S "sint.from_i32" dbg [[x]; [t]]) /\
  (0 <= x < 2 ^ 64 -> M "sint.from_i64" dbg [[x]; [t]] = S "sint.from_i64" dbg [[x]; [t]]) /\
  (1 <= t -> M "sint.consts" dbg [[t]] = S "sint.consts" dbg [[t]]).
Proof.
  intros dbg x t Ht M S. unfold M, S.
  repeat split; intros; [apply tbl_from_i8 | apply tbl_from_i16 | apply tbl_from_i32 | apply tbl_from_i64 | apply tbl_consts];
    assumption.
Qed.
Print Assumptions C13_tables_agree_from.

(** from_i128 / From<i128>: both entries panic (assertion) for a target of fewer than two limbs and agree otherwise *)
Theorem C13_tables_agree_from_i128 : forall dbg lo hi t, is_word lo -> is_word hi ->
  run_op ops_intarith_model "sint.from_i128" dbg [[lo; hi]; [t]] = run_op ops_intarith_spec "sint.from_i128" dbg [[lo; hi]; [t]] /\
  run_op ops_intarith_model "sint.from_i128_trait" dbg [[lo; hi]; [t]] = run_op ops_intarith_spec "sint.from_i128_trait" dbg [[lo; hi]; [t]].
Proof.
  intros dbg lo hi t Hl Hh. split; table_open; unfold int_from_i128_op, nat_arg, sarg, arg; cbn [nth];
    change (resize 2 [lo; hi]) with [lo; hi];
    (destruct (Z.to_nat t <? 2)%nat; [reflexivity|]);
    rewrite int_from_i128_spec by assumption; reflexivity.
Qed.
Print Assumptions C13_tables_agree_from_i128.

Theorem C13_tables_agree_checked_expr : forall dbg a b c o1 o2 f shape,
  wf a -> wf b -> wf c -> length a = length b -> length a = length c ->
  run_op ops_intarith_model "sint.checked_expr" dbg [a; b; c; [o1]; [o2]; [f]; [shape]] =
  run_op ops_intarith_spec "sint.checked_expr" dbg [a; b; c; [o1]; [o2]; [f]; [shape]].
Proof.
  intros dbg a b c o1 o2 f shape Ha Hb Hc Hl1 Hl2. table_open.
  pose proof (int_checked_expr_spec shape o1 o2 a b c Ha Hb Hc Hl1 Hl2) as H2.
  destruct (int_checked_expr shape o1 o2 a b c) as [r|],
           (isp_checked_expr (length a) shape o1 o2 (seval a) (seval b) (seval c)) as [v|];
    cbn in H2; try contradiction; [|reflexivity].
  destruct H2 as [-> _]. reflexivity.
Qed.
Print Assumptions C13_tables_agree_checked_expr.

(** non-vacuity: MAX + 1 overflows, -MIN overflows, MIN = -(2^127) is reconstructed from (2^127, negative),
    (2^127, positive) is rejected, negative zero is zero, (-2^64) * 2^63 = MIN fits while 2^64 * 2^63 does not *)
Example C13_nonvacuous :
  int_checked_add [MAXW; 2 ^ 63 - 1] [1; 0] = None /\
  int_overflowing_neg [0; 2 ^ 63] = ([0; 2 ^ 63], MAXW) /\
  int_new_from_abs_sign [0; 2 ^ 63] MAXW = Some [0; 2 ^ 63] /\
  int_new_from_abs_sign [0; 2 ^ 63] 0 = None /\
  int_new_from_abs_sign [0; 0] MAXW = Some [0; 0] /\
  int_checked_mul [0; MAXW] [2 ^ 63; 0] = Some [0; 2 ^ 63] /\
  int_checked_mul [0; 1] [2 ^ 63; 0] = None /\
  int_resize 3 [5; 2 ^ 63] = [5; 2 ^ 63; MAXW] /\
  seval [0; 2 ^ 63] = - 2 ^ 127.
Proof. vm_compute. repeat split; reflexivity. Qed.
