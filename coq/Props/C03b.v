(** C03 (continued) — the two op tables of Model/Mul.v that the correspondence check evaluates agree on EVERY key.
    For each of the 20 keys of [ops_mul_model] / [ops_mul_spec] (Limb wrapping / saturating / checked / panicking `*`;
    Uint split_mul / widening_mul / wrapping / checked / saturating / panicking `*` for ANY pair of widths N, M, routed
    through schoolbook or fixed Karatsuba; Uint square_wide / widening / wrapping / checked / saturating square;
    BoxedUint mul / wrapping_mul / checked_mul / panicking `*` for any pair of precisions and square, routed through
    schoolbook or the boxed Karatsuba recursion), in both profiles and for ALL well-formed argument lists (any number
    of arguments of any lengths) that meet the typing side condition of the key, the model entry (limb-level model of
    the Rust code including the glue: (lo, hi) splitting / concatenation, the all-zero test of the high half that selects
    Some / None / MAX / panic, Limb argument decoding, truncation of the boxed product to the receiver's precision)
    returns exactly what the spec entry (plain Z arithmetic on the represented integers) returns.
    [run_tab t k dbg a] = the table lookup of Model/Api.v; [wf_args a] = every limb of every argument is a 64-bit word;
    [typedb mul_tbl_ty k a] = what Rust's types enforce for key k (Proofs/MulTablesP.v): for the 4 Limb keys each of the
    two arguments is ONE word; the other 16 keys have no side condition at all.
    Short proofs stand here; the others are lemmas of Proofs/MulTablesP.v (on top of MulApiP / MulBaseP / MulKaraP /
    MulBoxedP / MulSqP) cited by [exact]. *)
From CB Require Import Model.Limbs Model.AddSub Model.Mul Proofs.TotalityP Proofs.MulTablesP.
From Coq Require Import ZArith List String.
Open Scope Z_scope.
Open Scope string_scope.

(** every key of the table (the key list is [map fst] of the table itself: nothing is left out) *)
Theorem C03_tables_agree : forall k dbg a,
  In k (map fst ops_mul_model) -> wf_args a -> typedb mul_tbl_ty k a = true ->
  run_tab ops_mul_spec k dbg a <> Unsupported ->
  run_tab ops_mul_model k dbg a = run_tab ops_mul_spec k dbg a.
Proof. exact mul_tables_agree. Qed.
Print Assumptions C03_tables_agree.

(** the same over the key list [mul_keys] of C11, which is the same set of 20 keys *)
Theorem C03_tables_agree_c11_keys : forall k dbg a,
  In k mul_keys -> wf_args a -> typedb mul_tbl_ty k a = true ->
  run_tab ops_mul_spec k dbg a <> Unsupported ->
  run_tab ops_mul_model k dbg a = run_tab ops_mul_spec k dbg a.
Proof. intros k dbg a Hin. apply mul_tables_agree. apply mul_keys_in_table. exact Hin. Qed.
Print Assumptions C03_tables_agree_c11_keys.

Theorem C03_tables_key_set :
  map fst ops_mul_spec = map fst ops_mul_model /\ List.length (map fst ops_mul_model) = 20%nat /\
  (forall k, In k mul_keys <-> In k (map fst ops_mul_model)).
Proof.
  split; [exact mul_table_keys_spec|]. split; [exact mul_table_keys_count|].
  intros k. split; [apply mul_keys_in_table | apply table_in_mul_keys].
Qed.
Print Assumptions C03_tables_key_set.

(** the spec table of this area is defined everywhere (no Unsupported answer), so the domain hypothesis of
    C03_tables_agree never excludes anything ... *)
Theorem C03_tables_spec_always_defined : forall k dbg a,
  In k (map fst ops_mul_model) -> run_tab ops_mul_spec k dbg a <> Unsupported.
Proof. exact mul_spec_always_defined. Qed.
Print Assumptions C03_tables_spec_always_defined.

(** ... and the agreement is unconditional on well-formed, typed argument lists *)
Theorem C03_tables_agree_total : forall k dbg a,
  In k (map fst ops_mul_model) -> wf_args a -> typedb mul_tbl_ty k a = true ->
  run_tab ops_mul_model k dbg a = run_tab ops_mul_spec k dbg a.
Proof. intros k dbg a Hin Hwf Hty. apply mul_tables_agree; auto. apply mul_spec_always_defined. exact Hin. Qed.
Print Assumptions C03_tables_agree_total.

(** the side condition is not decoration: a "Limb" of two words makes the two tables differ *)
Theorem C03_tables_typing_needed :
  run_tab ops_mul_model "limb.checked_mul" false [[0; 1]; [1]] <> run_tab ops_mul_spec "limb.checked_mul" false [[0; 1]; [1]] /\
  run_tab ops_mul_model "limb.mul" false [[1]; [0; 1]] <> run_tab ops_mul_spec "limb.mul" false [[1]; [0; 1]].
Proof. repeat split; vm_compute; discriminate. Qed.
Print Assumptions C03_tables_typing_needed.

(** non-vacuity: the lookups find functions and return non-trivial values: a mixed-width split_mul (2 limbs by 1 limb,
    a surplus third argument is ignored) in both tables; the panicking `*` on 2^64 * 2^64 at two limbs panics in both
    tables; checked_square of 2^64 at two limbs is none; saturating_mul gives MAX; the boxed panicking form with a
    one-limb receiver panics; boxed.mul at mixed precision; Limb saturating / panicking forms at 2^63 * 2; the boxed
    square of 2^128 - 1; the typing predicate holds on a Limb pair; an unknown key is Unsupported *)
Example C03_tables_nonvacuous :
  run_tab ops_mul_model "uint.split_mul" false [[MAXW; MAXW]; [MAXW]; [7]] = Val [[1; MAXW]; [MAXW - 1]] /\
  run_tab ops_mul_spec "uint.split_mul" false [[MAXW; MAXW]; [MAXW]; [7]] = Val [[1; MAXW]; [MAXW - 1]] /\
  run_tab ops_mul_model "uint.mul" true [[0; 1]; [0; 1]] = PanicV /\
  run_tab ops_mul_spec "uint.mul" true [[0; 1]; [0; 1]] = PanicV /\
  run_tab ops_mul_model "uint.checked_square" false [[0; 1]] = NoneV /\
  run_tab ops_mul_spec "uint.checked_square" false [[0; 1]] = NoneV /\
  run_tab ops_mul_model "uint.saturating_mul" false [[0; 1]; [5; 1]] = Val [[MAXW; MAXW]] /\
  run_tab ops_mul_model "boxed.mul_panicking" false [[3]; [5; 1]] = PanicV /\
  run_tab ops_mul_model "boxed.mul" false [[MAXW; 3]; [MAXW]] = Val [[1; MAXW - 4; 3]] /\
  run_tab ops_mul_model "limb.saturating_mul" false [[2 ^ 63]; [2]] = Val [[MAXW]] /\
  run_tab ops_mul_model "limb.mul" false [[2 ^ 63]; [2]] = PanicV /\
  run_tab ops_mul_spec "limb.mul" false [[2 ^ 63]; [2]] = PanicV /\
  run_tab ops_mul_model "boxed.square" false [[MAXW; MAXW]] = Val [[1; 0; MAXW - 1; MAXW]] /\
  typedb mul_tbl_ty "limb.mul" [[2 ^ 63]; [2]] = true /\
  run_tab ops_mul_model "no.such.key" false [[1]] = Unsupported.
Proof. vm_compute. repeat split; reflexivity. Qed.
