(** C05 (tables) — the two op tables of Model/Bits.v that the correspondence check evaluates agree on the whole
    documented domain, for EVERY key: the model entry (the limb-level model of the Rust code together with the glue of
    the entry: ConstCtOption / flag plumbing, `expect`, the u32 conversion of the operator forms << >>, the wrapping /
    panicking / overflowing selection, argument decoding, the sign fill, mixed boxed precisions) returns the same
    outcome (value, None, or panic) as the spec entry (plain Z arithmetic on the represented integers).
    [run_tab t k dbg a] is the lookup of Model/Api.v restricted to one table; [bits_keys] (65 keys) is the whole key
    set of the table; [typedb bits_tbl_ty k a] is the typing side condition of the key class of [k] (only what Rust's
    types enforce: BITS and a u32 shift / index below 2^32, equal limb counts of two Uint<N>); [wf_args]: limbs are words. *)
From CB Require Import Model.Limbs Model.AddSub Model.Bits Proofs.TotalityP Proofs.TotalityBitsP Proofs.BitsTablesP.
From Coq Require Import ZArith List String Bool.
Open Scope Z_scope.

Theorem C05_tables_agree : forall k dbg a, In k bits_keys -> wf_args a -> typedb bits_tbl_ty k a = true ->
  run_tab ops_bits_spec k dbg a <> Unsupported ->
  run_tab ops_bits_model k dbg a = run_tab ops_bits_spec k dbg a.
Proof. intros k dbg a Hin. exact (bits_all_keys_ok k Hin dbg a). Qed.
Print Assumptions C05_tables_agree.

(** the key list of the theorem is the whole key set of both tables (65 keys) *)
Theorem C05_tables_keys_complete :
  map fst ops_bits_model = map fst ops_bits_spec /\
  (forall k, In k (map fst ops_bits_model) <-> In k bits_keys) /\
  List.length bits_keys = 65%nat /\ List.length ops_bits_model = 65%nat.
Proof. exact (conj bits_tables_same_keys (conj bits_keys_iff bits_keys_count)). Qed.
Print Assumptions C05_tables_keys_complete.

(** the side conditions, spelled out (one boolean predicate per key class; a key without an entry has none) *)
Theorem C05_tables_side_conditions :
  bits_tbl_ty =
  [("uint.overflowing_shl", u32_bits_shift); ("uint.wrapping_shl", u32_bits_shift);
   ("uint.overflowing_shr", u32_bits_shift); ("uint.wrapping_shr", u32_bits_shift);
   ("int.overflowing_shr", u32_bits_shift); ("int.wrapping_shr", u32_bits_shift);
   ("uint.shl", u32_bits); ("uint.shr", u32_bits); ("int.shr", u32_bits); ("boxed.shl", u32_bits); ("boxed.shr", u32_bits);
   ("bits.bit", u32_index); ("bits.set_bit", u32_index);
   ("uint.shl_vartime_wide", halves_eq); ("uint.shr_vartime_wide", halves_eq);
   ("uint.and", same_lenb); ("uint.or", same_lenb); ("uint.xor", same_lenb)]%string /\
  (forall a, u32_bits a = (64 * Z.of_nat (List.length (arg 0 a)) <? 2 ^ 32)) /\
  (forall a, u32_bits_shift a = (u32_bits a && (sarg 1 a <? 2 ^ 32))) /\
  (forall a, u32_index a = ((Z.of_nat (List.length (arg 0 a)) <? 2 ^ 32) && (sarg 1 a <? 2 ^ 32))) /\
  (forall a, halves_eq a = (List.length (arg 1 a) =? List.length (arg 0 a))%nat) /\
  (forall a, same_lenb a = (List.length (arg 0 a) =? List.length (arg 1 a))%nat).
Proof. repeat split. Qed.
Print Assumptions C05_tables_side_conditions.

(** non-vacuity: lookups that find a function, satisfy the side condition and return a non-trivial value (a 3-limb
    shift across a limb boundary through the operator form, the sign-filling wrapping shift of a negative Int beyond its
    width, a boxed OR of mixed precisions), NoneV (overflowing_shl by BITS) and PanicV (<< by BITS; << by 2^32, which is
    no u32; set_bit_vartime outside the value) — in both tables *)
Open Scope string_scope. Open Scope Z_scope.
Example C05_tables_nonvacuous :
  let M := run_tab ops_bits_model in let S := run_tab ops_bits_spec in
  typedb bits_tbl_ty "uint.shl" [[MAXW; 1; 0]; [65]] = true /\
  M "uint.shl" false [[MAXW; 1; 0]; [65]] = Val [[0; MAXW - 1; 3]] /\
  S "uint.shl" false [[MAXW; 1; 0]; [65]] = Val [[0; MAXW - 1; 3]] /\
  M "uint.shl" false [[1; 0; 0]; [192]] = PanicV /\ S "uint.shl" false [[1; 0; 0]; [192]] = PanicV /\
  M "uint.shl" false [[1; 0; 0]; [2 ^ 32]] = PanicV /\ S "uint.shl" false [[1; 0; 0]; [2 ^ 32]] = PanicV /\
  typedb bits_tbl_ty "uint.overflowing_shl" [[1; 0; 0]; [192]] = true /\
  M "uint.overflowing_shl" false [[1; 0; 0]; [192]] = NoneV /\ S "uint.overflowing_shl" false [[1; 0; 0]; [192]] = NoneV /\
  M "int.wrapping_shr" false [[0; 2 ^ 63]; [200]] = Val [[MAXW; MAXW]] /\
  S "int.wrapping_shr" false [[0; 2 ^ 63]; [200]] = Val [[MAXW; MAXW]] /\
  M "boxed.or" false [[1]; [0; 2]] = Val [[1; 2]] /\ S "boxed.or" false [[1]; [0; 2]] = Val [[1; 2]] /\
  M "bits.set_bit_vartime" false [[0; 0]; [128]; [1]] = PanicV /\ S "bits.set_bit_vartime" false [[0; 0]; [128]; [1]] = PanicV /\
  S "uint.shl" false [[]; [0]] = Unsupported.
Proof. vm_compute. repeat split; reflexivity. Qed.
