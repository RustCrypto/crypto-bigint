(** C15 (continued, 2) -- the glue routes around the Montgomery forms (harness/src/ops/c15s.rs). The correspondence
    check maps every such route (params() / Monty::params, as_montgomery_mut, is_zero / is_nonzero, bits_precision,
    ConstantTimeEq, serde, Zeroize, the Debug front of the inverters) to a model op; where no model op of another area
    describes the route it maps to a key of Model/Glue2.v. For each of the 10 keys of [ops_glue2_model] /
    [ops_glue2_spec], in both profiles and for all well-formed argument lists that meet the typing side condition of
    the key, the model entry (what the Rust code does) returns exactly what the spec entry (the documented result in
    plain Z / list terms) returns.
    [run_tab t k dbg a] = the table lookup of Model/Api.v; [wf_args a] = every limb of every argument is a 64-bit word;
    [gtypedb glue2_tbl_ty k a] = the side condition of key k (Proofs/Glue2TablesP.v): "glue2.cmf_serde_de": the
    MODULUS argument has LIMBS limbs; "glue2.params_ct_eq_lz": the two mod_leading_zeros arguments are u32 values (until
    finding F34 was repaired in /repo d240cb2 the key needed "same mod_leading_zeros"); the other 8 keys have no side condition.
    Per-key lemmas in Proofs/Glue2TablesP.v. *)
From CB Require Import Model.Limbs Model.Glue2 Proofs.TotalityP Proofs.GlueTablesP Proofs.Glue2TablesP.
From Coq Require Import ZArith List String.
Open Scope Z_scope.
Open Scope string_scope.

Theorem C15_glue2_tables_agree : forall k dbg a,
  In k (map fst ops_glue2_model) -> wf_args a -> gtypedb glue2_tbl_ty k a = true ->
  run_tab ops_glue2_spec k dbg a <> Unsupported ->
  run_tab ops_glue2_model k dbg a = run_tab ops_glue2_spec k dbg a.
Proof. intros k dbg a Hin. exact (glue2_all_keys_ok k Hin dbg a). Qed.
Print Assumptions C15_glue2_tables_agree.

Theorem C15_glue2_tables_key_set :
  map fst ops_glue2_spec = map fst ops_glue2_model /\ List.length (map fst ops_glue2_model) = 10%nat.
Proof. split; reflexivity. Qed.
Print Assumptions C15_glue2_tables_key_set.

(** `ConstantTimeEq for MontyParams` compares mod_leading_zeros too (repaired code, finding F34): two parameter sets of the
    modulus 3 that differ only there (62 and 61) are neither ct_eq nor ==; with equal fields they are ct_eq *)
Theorem C15_glue2_params_ct_eq_sees_lz :
  run_tab ops_glue2_model "glue2.params_ct_eq_lz" false [[3]; [62]; [61]] = Val [[0]] /\
  run_tab ops_glue2_spec "glue2.params_ct_eq_lz" false [[3]; [62]; [61]] = Val [[0]] /\
  run_tab ops_glue2_model "glue2.params_eq_lz" false [[3]; [62]; [61]] = Val [[0]] /\
  run_tab ops_glue2_model "glue2.params_ct_eq_lz" false [[3]; [62]; [62]] = Val [[1]].
Proof. vm_compute. repeat split; reflexivity. Qed.
Print Assumptions C15_glue2_params_ct_eq_sees_lz.

(** the ConstMontyForm decoder rejects a representative >= MODULUS (MODULUS = 5: 4 decodes, 5 / 6 / 2^64 - 1 are errors) *)
Theorem C15_glue2_cmf_serde_de_boundary :
  let pay v := ([8; 0; 0; 0; 0; 0; 0; 0] ++ v)%list in
  let run t v := run_tab t "glue2.cmf_serde_de" false [pay v; [1]; [5]] in
  run ops_glue2_model [4; 0; 0; 0; 0; 0; 0; 0] = Val [[4]] /\ run ops_glue2_spec [4; 0; 0; 0; 0; 0; 0; 0] = Val [[4]] /\
  run ops_glue2_model [5; 0; 0; 0; 0; 0; 0; 0] = ErrV 0 /\ run ops_glue2_spec [5; 0; 0; 0; 0; 0; 0; 0] = ErrV 0 /\
  run ops_glue2_model [6; 0; 0; 0; 0; 0; 0; 0] = ErrV 0 /\ run ops_glue2_spec [6; 0; 0; 0; 0; 0; 0; 0] = ErrV 0 /\
  run ops_glue2_model [255; 255; 255; 255; 255; 255; 255; 255] = ErrV 0 /\
  run ops_glue2_spec [255; 255; 255; 255; 255; 255; 255; 255] = ErrV 0.
Proof. vm_compute. repeat split; reflexivity. Qed.
Print Assumptions C15_glue2_cmf_serde_de_boundary.

(** non-vacuity: the lookups find functions and return non-trivial values *)
Example C15_glue2_tables_nonvacuous :
  run_tab ops_glue2_model "glue2.params_ct_eq" false [[3]; [3]] = Val [[1]] /\
  run_tab ops_glue2_spec "glue2.params_ct_eq" false [[3]; [3]] = Val [[1]] /\
  run_tab ops_glue2_model "glue2.params_ct_eq" false [[3]; [5]] = Val [[0]] /\
  run_tab ops_glue2_spec "glue2.params_ct_eq" false [[3]; [5]] = Val [[0]] /\
  run_tab ops_glue2_model "glue2.monty_ct_eq" false [[7; 0]; [2; 0]; [7; 0]; [2; 0]] = Val [[1]] /\
  run_tab ops_glue2_model "glue2.monty_ct_eq" false [[7; 0]; [2; 0]; [7; 0]; [2; 1]] = Val [[0]] /\
  run_tab ops_glue2_spec "glue2.monty_ct_eq" false [[7; 0]; [2; 0]; [9; 0]; [2; 0]] = Val [[0]] /\
  run_tab ops_glue2_model "glue2.zeroize_monty_form" false [[7; 0]; [2; 0]] = Val [[0; 0]; [0; 0]; [0; 0]; [0; 0]; [0; 0]; [0]; [0]] /\
  run_tab ops_glue2_model "glue2.zeroize_boxed_form" false [[3]; [2]] = Val [[0]; [3]; [1]; [1]; [1]; [6148914691236517205]; [62]] /\
  run_tab ops_glue2_spec "glue2.zeroize_boxed_form" false [[3]; [2]] = Val [[0]; [3]; [1]; [1]; [1]; [6148914691236517205]; [62]] /\
  run_tab ops_glue2_model "glue2.form_bits_precision" false [[1; 2; 3]; [0; 0; 0]] = Val [[192]] /\
  run_tab ops_glue2_spec "glue2.cmf_serde_de" false [[8; 0; 0]; [1]; [5]] = ErrV 0 /\
  run_tab ops_glue2_model "no.such.key" false [[1]] = Unsupported.
Proof. vm_compute. repeat split; reflexivity. Qed.
