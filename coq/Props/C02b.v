(** C02 (continued) — the constant-time division WITHOUT the value-level shortcut.
    Model/Div.v evaluates three sub-operations of Uint::div_rem / BoxedUint::div_rem at the value level (`rhs.bits()`,
    `rhs.shl(BITS - dbits)`, the two final `.shr(..)`), because they belong to property C05.  Model/DivL0.v is the same
    algorithm text calling the limb-level models of Model/Bits.v (leading-zero scan, constant-time shift ladder with
    its overflow mask, and the panicking wrappers Uint::shl / shr, BoxedUint::shl / shr; a panic = None).
    Short proofs stand here, longer ones are lemmas of Proofs/DivL0P.v: the two models are equal on every input, so the wrappers never panic
    and the limb-level model is exact.  [eval] = the represented integer, [wf] = every limb is a 64-bit word;
    `64 * length x < 2^32` states that the width in bits is a u32, as `Uint::BITS : u32` is. *)
From CB Require Import Model.Limbs Model.Div Model.DivL0 Proofs.WordP Proofs.LimbsP Proofs.DivFinalP Proofs.DivL0P
  Proofs.DivTablesP.
From Coq Require Import ZArith List.
Open Scope Z_scope.

(** Uint::div_rem with limb-level bits / shl / shr returns exactly what the model of Div.v returns (None = panic
    included, e.g. for a zero divisor): the value-level shortcut is harmless *)
Theorem C02_uint_div_rem_limb_level_shifts : forall x y,
  wf x -> wf y -> length y = length x -> x <> [] -> 64 * Z.of_nat (length x) < 2 ^ 32 ->
  uint_div_rem_l0 x y = uint_div_rem x y.
Proof. exact uint_div_rem_l0_eq. Qed.
Print Assumptions C02_uint_div_rem_limb_level_shifts.

(** the same for BoxedUint::div_rem, for all pairs of precisions (unequal precisions: both panic) *)
Theorem C02_boxed_div_rem_limb_level_shifts : forall x y,
  wf x -> wf y -> x <> [] -> boxed_div_rem_l0 x y = boxed_div_rem x y.
Proof. exact boxed_div_rem_l0_eq. Qed.
Print Assumptions C02_boxed_div_rem_limb_level_shifts.

(** the lists handed to the two final shifts are well-formed full-width values, whatever the shifted divisor is *)
Theorem C02_div_rem_l0_shift_inputs_wf : forall y x0 dbits, wf x0 -> (1 <= length x0)%nat ->
  wf (fst (ct_mid y x0 dbits)) /\ length (fst (ct_mid y x0 dbits)) = length x0 /\
  wf (snd (ct_mid y x0 dbits)) /\ length (snd (ct_mid y x0 dbits)) = length x0.
Proof. exact l0_ct_mid_wf. Qed.
Print Assumptions C02_div_rem_l0_shift_inputs_wf.

(** Uint::div_rem, limb-level model: total correctness (the statement of C02_uint_div_rem) *)
Theorem C02_uint_div_rem_l0 : forall x0 y0,
  wf x0 -> wf y0 -> length y0 = length x0 -> 64 * Z.of_nat (length x0) < 2 ^ 32 -> eval y0 <> 0 ->
  exists q r, uint_div_rem_l0 x0 y0 = Some (q, r) /\
  eval x0 = eval q * eval y0 + eval r /\ 0 <= eval r < eval y0 /\
  length q = length x0 /\ length r = length x0 /\ wf q /\ wf r.
Proof. exact uint_div_rem_l0_total. Qed.
Print Assumptions C02_uint_div_rem_l0.

(** a zero divisor is rejected by the limb-level model too *)
Theorem C02_uint_div_rem_l0_zero : forall x0 y0,
  wf x0 -> wf y0 -> length y0 = length x0 -> x0 <> [] -> 64 * Z.of_nat (length x0) < 2 ^ 32 -> eval y0 = 0 ->
  uint_div_rem_l0 x0 y0 = None.
Proof.
  intros x0 y0 Hx Hy Hl Hne Hb Hz. rewrite uint_div_rem_l0_eq by assumption. apply DivCtP.uint_div_rem_zero; assumption.
Qed.
Print Assumptions C02_uint_div_rem_l0_zero.

(** BoxedUint::div_rem, limb-level model: total correctness (exactly the statement of C02_boxed_div_rem) *)
Theorem C02_boxed_div_rem_l0 : forall x0 y0,
  wf x0 -> wf y0 -> length y0 = length x0 -> eval y0 <> 0 ->
  exists q r, boxed_div_rem_l0 x0 y0 = Some (q, r) /\
  eval x0 = eval q * eval y0 + eval r /\ 0 <= eval r < eval y0 /\
  length q = length x0 /\ length r = length x0 /\ wf q /\ wf r.
Proof.
  intros x0 y0 Hx Hy Hl Hnz.
  rewrite boxed_div_rem_l0_eq by (try assumption; eapply l0_nonzero_ne; eassumption).
  apply boxed_div_rem_total; assumption.
Qed.
Print Assumptions C02_boxed_div_rem_l0.

(** non-vacuity: a 3-limb division whose Knuth step needs the add-back, a 5-limb one with a 3-limb divisor (both final
    shifts non-trivial), the boxed twin, and the zero divisor *)
Example C02b_nonvacuous :
  uint_div_rem_l0 [MAXW; MAXW; MAXW - 1] [MAXW; MAXW; 0] = Some ([MAXW; 0; 0], [MAXW - 1; 0; 0]) /\
  uint_div_rem_l0 [5; 7; 9; 11; 13] [3; 1; 1; 0; 0] = Some ([MAXW - 27; MAXW - 2; 12; 0; 0], [89; 41; 0; 0; 0]) /\
  boxed_div_rem_l0 [MAXW; MAXW; MAXW - 1] [MAXW; MAXW; 0] = Some ([MAXW; 0; 0], [MAXW - 1; 0; 0]) /\
  boxed_div_rem_l0 [5; 7; 9] [0; 0; 0] = None /\ boxed_div_rem_l0 [5; 7; 9] [1; 0] = None.
Proof.
  split; [|split; [|split; [|split; vm_compute; reflexivity]]].
  - rewrite uint_div_rem_l0_entry by (try apply wfb_wf; first [reflexivity | discriminate]). vm_compute. reflexivity.
  - rewrite uint_div_rem_l0_entry by (try apply wfb_wf; first [reflexivity | discriminate]). vm_compute. reflexivity.
  - rewrite boxed_div_rem_l0_entry by (try apply wfb_wf; first [reflexivity | discriminate]). vm_compute. reflexivity.
Qed.
