(** C04 — addition, subtraction, negation: exact result and exact carry/overflow report.
    Statements of C04. Short proofs stand here; longer ones are lemmas of Proofs/WordP.v and Proofs/AddSubP.v cited by [exact].
    All statements quantify over every limb count (list length) and every word value. *)
From CB Require Import Model.Limbs Model.AddSub Proofs.WordP Proofs.LimbsP Proofs.AddSubP.
From Coq Require Import ZArith List.
Open Scope Z_scope.

(** carry-in primitive: exact for every carry word, including carries larger than one *)
Theorem C04_adc_word_exact : forall a b c r co,
  is_word a -> is_word b -> is_word c -> adc a b c = (r, co) ->
  r + B * co = a + b + c /\ is_word r /\ 0 <= co <= 2.
Proof. exact adc_exact. Qed.
Print Assumptions C04_adc_word_exact.

(** borrow-in primitive: the incoming borrow counts iff its top bit is set; outgoing borrow is 0 or MAX *)
Theorem C04_sbb_word_exact : forall a b bw r bo,
  is_word a -> is_word b -> is_word bw -> sbb a b bw = (r, bo) ->
  is_word r /\ ((bo = 0 /\ a - b - bin bw = r) \/ (bo = MAXW /\ a - b - bin bw = r - B)).
Proof. exact sbb_exact. Qed.
Print Assumptions C04_sbb_word_exact.

(** multiply-accumulate primitive: exact, the high word never overflows *)
Theorem C04_mac_word_exact : forall a b c carry lo hi,
  is_word a -> is_word b -> is_word c -> is_word carry -> mac a b c carry = (lo, hi) ->
  lo + B * hi = a + b * c + carry /\ is_word lo /\ is_word hi.
Proof. exact mac_exact. Qed.
Print Assumptions C04_mac_word_exact.

(** Uint::adc over any number of limbs *)
Theorem C04_uint_adc_exact : forall a b c r co,
  wf a -> wf b -> length a = length b -> is_word c -> uint_adc a b c = (r, co) ->
  eval r + Bn (length a) * co = eval a + eval b + c /\ wf r /\ length r = length a /\ is_word co.
Proof.
  intros a b c r co Ha Hb Hl Hc E. pose proof (adc_limbs_correct a b c r co Ha Hb Hl Hc E). tauto.
Qed.
Print Assumptions C04_uint_adc_exact.

(** Uint::sbb over any (non-zero) number of limbs *)
Theorem C04_uint_sbb_exact : forall a b bw r bo,
  wf a -> wf b -> length a = length b -> length a <> 0%nat -> is_word bw -> uint_sbb a b bw = (r, bo) ->
  eval r - Bn (length a) * bout bo = eval a - eval b - bin bw /\ wf r /\ length r = length a /\ is_borrow bo.
Proof.
  intros a b bw r bo Ha Hb Hl Hn Hc E. pose proof (sbb_limbs_correct a b bw r bo Ha Hb Hl Hc E) as (Hw & Hlr & [(Hz & _)|(_ & Hib & He)]);
    [contradiction | tauto].
Qed.
Print Assumptions C04_uint_sbb_exact.

Theorem C04_wrapping_add : forall a b,
  wf a -> wf b -> length a = length b ->
  eval (uint_wrapping_add a b) = (eval a + eval b) mod Bn (length a) /\ wf (uint_wrapping_add a b)
  /\ length (uint_wrapping_add a b) = length a.
Proof. exact wrapping_add_spec. Qed.
Print Assumptions C04_wrapping_add.

(** checked forms are [Some] exactly when the true result fits *)
Theorem C04_checked_add : forall a b,
  wf a -> wf b -> length a = length b ->
  match uint_checked_add a b with
  | Some r => eval r = eval a + eval b /\ wf r /\ length r = length a
  | None => Bn (length a) <= eval a + eval b
  end.
Proof. exact checked_add_spec. Qed.
Print Assumptions C04_checked_add.

Theorem C04_checked_sub : forall a b,
  wf a -> wf b -> length a = length b ->
  match uint_checked_sub a b with
  | Some r => eval r = eval a - eval b /\ wf r /\ length r = length a
  | None => eval a < eval b
  end.
Proof. exact checked_sub_spec. Qed.
Print Assumptions C04_checked_sub.

Theorem C04_saturating_add : forall a b,
  wf a -> wf b -> length a = length b ->
  eval (uint_saturating_add a b) = Z.min (eval a + eval b) (Bn (length a) - 1).
Proof.
  intros a b Ha Hb Hl. unfold uint_saturating_add. destruct (adc_limbs a b 0) as [r co] eqn:E.
  destruct (adc0_cases a b r co Ha Hb Hl E) as (Hw & Hlr & Hbr & Hc).
  destruct Hc as [[-> He]|[-> He]]; rewrite from_word_lsb_01 by lia;
    (rewrite select_limbs_choice; auto using wf_maxs; [|rewrite length_maxs; assumption]); cbn [Z.eqb Pos.eqb].
  - lia.
  - rewrite eval_maxs. pose proof (eval_bounds a Ha). pose proof (eval_bounds b Hb). rewrite <- Hl in *. lia.
Qed.
Print Assumptions C04_saturating_add.

Theorem C04_saturating_sub : forall a b,
  wf a -> wf b -> length a = length b ->
  eval (uint_saturating_sub a b) = Z.max 0 (eval a - eval b).
Proof.
  intros a b Ha Hb Hl. unfold uint_saturating_sub. destruct (sbb_limbs a b 0) as [r bo] eqn:E.
  destruct (sbb0_cases a b r bo Ha Hb Hl E) as (Hw & Hlr & Hbr & Hc).
  destruct Hc as [[-> He]|[-> He]].
  - change 0 with (choice_of_bool false) at 1.
    rewrite select_limbs_choice; auto using wf_zeros; [lia | rewrite length_zeros; assumption].
  - change MAXW with (choice_of_bool true) at 1.
    rewrite select_limbs_choice; auto using wf_zeros; [rewrite eval_zeros; lia | rewrite length_zeros; assumption].
Qed.
Print Assumptions C04_saturating_sub.

Theorem C04_carrying_neg : forall a r c,
  wf a -> uint_carrying_neg a = (r, c) ->
  eval r = (- eval a) mod Bn (length a) /\ wf r /\ length r = length a /\
  choice_to_bool c = (eval a =? 0).
Proof. exact carrying_neg_spec. Qed.
Print Assumptions C04_carrying_neg.

(** BoxedUint: operands of different precisions are zero-extended to the wider one *)
Theorem C04_boxed_adc_exact : forall a b c r co,
  wf a -> wf b -> is_word c -> boxed_adc a b c = (r, co) ->
  let n := Nat.max (length a) (length b) in
  eval r + Bn n * co = eval a + eval b + c /\ wf r /\ length r = n /\ is_word co.
Proof. exact boxed_adc_spec. Qed.
Print Assumptions C04_boxed_adc_exact.

Theorem C04_boxed_sbb_exact : forall a b bw r bo,
  wf a -> wf b -> is_word bw -> (length a <> 0 \/ length b <> 0)%nat -> boxed_sbb a b bw = (r, bo) ->
  let n := Nat.max (length a) (length b) in
  eval r - Bn n * bout bo = eval a - eval b - bin bw /\ wf r /\ length r = n /\ is_borrow bo.
Proof. exact boxed_sbb_spec. Qed.
Print Assumptions C04_boxed_sbb_exact.

(** non-vacuity: a 3-limb full-width carry propagation (MAX + 1) and a 0 - 1 borrow *)
Example C04_nonvacuous :
  uint_adc [MAXW; MAXW; MAXW] [1; 0; 0] 0 = ([0; 0; 0], 1) /\
  uint_sbb [0; 0; 0] [1; 0; 0] 0 = ([MAXW; MAXW; MAXW], MAXW) /\
  uint_checked_add [MAXW; MAXW] [1; 0] = None /\ uint_checked_sub [5; 7] [6; 7] = None.
Proof. vm_compute. repeat split; reflexivity. Qed.
