(** C15 — all routes agree. Where two DIFFERENT algorithms serve the same operation, their agreement is a corollary
    of both being proved equal to the specification.  Short proofs stand here, over the uniqueness lemmas of
    Proofs/RoutesP.v. *)
From CB Require Import Model.Limbs Model.AddSub Model.Mul Model.Div Model.Sqrt Model.Cmp Proofs.WordP Proofs.LimbsP Proofs.AddSubP
  Proofs.MulBaseP Proofs.MulSqP Proofs.MulKaraP Proofs.MulBoxedP Proofs.MulApiP
  Proofs.DivP Proofs.DivFinalP Proofs.SqrtP Proofs.CmpP Proofs.CmpBoxedP Proofs.CmpAllP Proofs.RoutesP.
From Coq Require Import ZArith List Lia.
Open Scope Z_scope.

(** BoxedUint carry chains on equal precisions are the fixed-width chains *)
Lemma boxed_adc_eq_uint a b c : length a = length b -> boxed_adc a b c = uint_adc a b c.
Proof.
  intros H. unfold boxed_adc, uint_adc. rewrite <- H, Nat.max_id, resize_same. rewrite H at 1. rewrite resize_same. reflexivity.
Qed.
Lemma boxed_sbb_eq_uint a b c : length a = length b -> boxed_sbb a b c = uint_sbb a b c.
Proof.
  intros H. unfold boxed_sbb, uint_sbb. rewrite <- H, Nat.max_id, resize_same. rewrite H at 1. rewrite resize_same. reflexivity.
Qed.

Theorem C15_boxed_adc_is_uint_adc : forall a b c, length a = length b -> boxed_adc a b c = uint_adc a b c.
Proof. exact boxed_adc_eq_uint. Qed.
Print Assumptions C15_boxed_adc_is_uint_adc.

Theorem C15_boxed_sbb_is_uint_sbb : forall a b c, length a = length b -> boxed_sbb a b c = uint_sbb a b c.
Proof. exact boxed_sbb_eq_uint. Qed.
Print Assumptions C15_boxed_sbb_is_uint_sbb.

(* ---------------- different algorithms, same operation: corollaries of the owning model = spec theorems ---------------- *)

(** Uint::div_rem (constant time) and Uint::div_rem_vartime return the same quotient and remainder limbs *)
Theorem C15_div_ct_is_vartime : forall x y, wf x -> wf y -> length y = length x -> eval y <> 0 ->
  uint_div_rem x y = Some (div_rem_vartime x y).
Proof. exact div_ct_eq_vartime. Qed.
Print Assumptions C15_div_ct_is_vartime.

(** BoxedUint::div_rem = Uint::div_rem at equal precision *)
Theorem C15_boxed_div_is_uint_div : forall x y, wf x -> wf y -> length y = length x -> eval y <> 0 ->
  boxed_div_rem x y = uint_div_rem x y.
Proof.
  intros x y Hx Hy Hl Hn. destruct (uint_div_rem_total x y Hx Hy Hl Hn) as (q & r & -> & D).
  destruct (boxed_div_rem_total x y Hx Hy Hl Hn) as (q2 & r2 & -> & D2).
  destruct (divmod_at_unique _ _ _ _ _ _ _ _ D D2) as [-> ->]. reflexivity.
Qed.
Print Assumptions C15_boxed_div_is_uint_div.

(** BoxedUint::div_rem_vartime = Uint::div_rem_vartime for every pair of widths *)
Theorem C15_boxed_div_vartime_is_uint_div_vartime : forall x y, wf x -> wf y -> eval y <> 0 ->
  boxed_div_rem_vartime x y = Some (div_rem_vartime x y).
Proof.
  intros x y Hx Hy Hn. destruct (boxed_div_rem_vartime_total x y Hx Hy Hn) as (q & r & -> & D).
  destruct (div_rem_vartime x y) as [q2 r2] eqn:E2.
  destruct (divmod_at_unique _ _ _ _ _ _ _ _ D (div_rem_vartime_total x y q2 r2 Hx Hy Hn E2)) as [-> ->]. reflexivity.
Qed.
Print Assumptions C15_boxed_div_vartime_is_uint_div_vartime.

Theorem C15_boxed_rem_vartime_is_rem : forall x y, wf x -> wf y -> eval y <> 0 ->
  boxed_rem_vartime x y = Some (snd (div_rem_vartime x y)).
Proof.
  intros x y Hx Hy Hn.
  destruct (boxed_rem_vartime_total x y Hx Hy Hn) as (r & E & Ev & Lr & Wr).
  destruct (div_rem_vartime x y) as [q2 r2] eqn:E2.
  destruct (div_rem_vartime_total x y q2 r2 Hx Hy Hn E2) as (Ev2 & Rr2 & Lq2 & Lr2 & Wq2 & Wr2).
  destruct (div_rem_vartime_divmod x y q2 r2 Hx Hy Hn E2) as (_ & M).
  rewrite E. f_equal. cbn [snd]. apply eval_inj; auto; congruence.
Qed.
Print Assumptions C15_boxed_rem_vartime_is_rem.

(** rem_wide_vartime with a zero high half = the ordinary remainder *)
Theorem C15_rem_wide_zero_hi_is_rem : forall lo y, wf lo -> wf y -> length y = length lo -> eval y <> 0 ->
  rem_wide_vartime lo (zeros (length lo)) y = snd (div_rem_vartime lo y).
Proof.
  intros lo y Hx Hy Hl Hn.
  assert (Wz : wf (zeros (length lo))) by apply wf_zeros.
  assert (Lz : length (zeros (length lo)) = length lo) by apply length_zeros.
  destruct (rem_wide_vartime_total lo (zeros (length lo)) y Hx Wz Hy Lz Hl Hn) as (Ev & Lr & Wr).
  destruct (div_rem_vartime lo y) as [q2 r2] eqn:E2.
  destruct (div_rem_vartime_total lo y q2 r2 Hx Hy Hn E2) as (Ev2 & Rr2 & Lq2 & Lr2 & Wq2 & Wr2).
  destruct (div_rem_vartime_divmod lo y q2 r2 Hx Hy Hn E2) as (_ & M).
  cbn [snd]. apply eval_inj; auto; try congruence.
  rewrite Ev, eval_zeros, M. f_equal. lia.
Qed.
Print Assumptions C15_rem_wide_zero_hi_is_rem.

(** fixed-size Karatsuba at every level = schoolbook; the Uint dispatch = schoolbook; boxed Karatsuba = schoolbook = fixed *)
Theorem C15_karatsuba_is_schoolbook : forall l x y m, wf x -> wf y -> length x = (2 ^ l * m)%nat -> length y = length x ->
  kmul l x y = split_at (length x) (schoolbook_mul x y).
Proof.
  intros l x y m Hx Hy Hl Hly.
  destruct (kmul l x y) as [lo hi] eqn:E.
  destruct (kmul_correct l x y lo hi m Hx Hy Hl Hly E) as (Ev & Wlo & Whi & Llo & Lhi).
  destruct (split_at (length x) (schoolbook_mul x y)) as [lo2 hi2] eqn:E2.
  destruct (schoolbook_split_correct x y lo2 hi2 Hx Hy E2) as (Ev2 & Wlo2 & Whi2 & Llo2 & Lhi2).
  apply (halves_unique (length x) (eval x * eval y)); auto; congruence.
Qed.
Print Assumptions C15_karatsuba_is_schoolbook.

Theorem C15_uint_mul_is_schoolbook : forall x y, wf x -> wf y ->
  uint_split_mul x y = split_at (length x) (schoolbook_mul x y).
Proof.
  intros x y Hx Hy.
  destruct (uint_split_mul x y) as [lo hi] eqn:E.
  destruct (uint_split_mul_eval x y lo hi Hx Hy E) as (Ev & Wlo & Whi & Llo & Lhi).
  destruct (split_at (length x) (schoolbook_mul x y)) as [lo2 hi2] eqn:E2.
  destruct (schoolbook_split_correct x y lo2 hi2 Hx Hy E2) as (Ev2 & Wlo2 & Whi2 & Llo2 & Lhi2).
  apply (halves_unique (length x) (eval x * eval y)); auto; congruence.
Qed.
Print Assumptions C15_uint_mul_is_schoolbook.

Theorem C15_boxed_mul_is_schoolbook : forall x y, wf x -> wf y -> boxed_mul x y = schoolbook_mul x y.
Proof.
  intros x y Hx Hy.
  destruct (boxed_mul_correct x y Hx Hy) as (E1 & W1 & L1).
  destruct (schoolbook_mul_correct x y Hx Hy) as (E2 & W2 & L2).
  apply eval_inj; auto; congruence.
Qed.
Print Assumptions C15_boxed_mul_is_schoolbook.

Theorem C15_boxed_mul_is_fixed_mul : forall x y lo hi, wf x -> wf y -> uint_split_mul x y = (lo, hi) ->
  boxed_mul x y = lo ++ hi.
Proof. exact boxed_mul_eq_fixed. Qed.
Print Assumptions C15_boxed_mul_is_fixed_mul.

Theorem C15_squares_agree : forall x, wf x ->
  schoolbook_sq x = schoolbook_mul x x /\ boxed_square x = schoolbook_mul x x.
Proof.
  intros x Hx.
  destruct (schoolbook_sq_correct x Hx) as (E1 & W1 & L1).
  destruct (schoolbook_mul_correct x x Hx Hx) as (E2 & W2 & L2).
  destruct (boxed_square_correct x Hx) as (E3 & W3 & L3).
  split; apply eval_inj; auto; try congruence; lia.
Qed.
Print Assumptions C15_squares_agree.

(** the four square-root routes (fixed / boxed, constant-time / vartime) return the same limbs *)
Theorem C15_sqrt_routes_agree : forall a, wf a -> length a <> 0%nat ->
  uint_sqrt_vartime a = uint_sqrt a /\ boxed_sqrt a = uint_sqrt a /\ boxed_sqrt_vartime a = uint_sqrt a.
Proof.
  intros a Ha Hl.
  destruct (uint_sqrt_exact a Ha Hl) as (r1 & E1 & W1 & L1 & F1).
  destruct (uint_sqrt_vartime_exact a Ha Hl) as (r2 & E2 & W2 & L2 & F2).
  destruct (boxed_sqrt_exact a Ha Hl) as (r3 & E3 & W3 & L3 & F3).
  destruct (boxed_sqrt_vartime_exact a Ha Hl) as (r4 & E4 & W4 & L4 & F4).
  rewrite E1, E2, E3, E4.
  repeat split; f_equal; apply eval_inj; auto; try congruence;
    eapply is_floor_sqrt_unique; eassumption.
Qed.
Print Assumptions C15_sqrt_routes_agree.

(** cmp, cmp_vartime and the boxed cmp_vartime agree *)
Theorem C15_cmp_routes_agree : forall a b, wf a -> wf b -> length a = length b ->
  uint_cmp_vartime a b = uint_cmp a b /\ boxed_cmp_vartime a b = uint_cmp a b.
Proof.
  intros a b Ha Hb Hl.
  rewrite (uint_cmp_spec a b Ha Hb Hl), (uint_cmp_vartime_spec a b Ha Hb Hl), (boxed_cmp_vartime_spec a b Ha Hb).
  split; reflexivity.
Qed.
Print Assumptions C15_cmp_routes_agree.

(** non-vacuity: the routes really are different algorithms that meet on concrete inputs (Karatsuba level 1 with a
    negative middle term; a division that needs the add-back) *)
Example C15_nonvacuous :
  kmul 1 [1; MAXW] [MAXW; 1] = split_at 2 (schoolbook_mul [1; MAXW] [MAXW; 1]) /\
  uint_div_rem [MAXW; MAXW; MAXW - 1] [MAXW; MAXW; 0] = Some (div_rem_vartime [MAXW; MAXW; MAXW - 1] [MAXW; MAXW; 0]) /\
  uint_sqrt [0; 1] = uint_sqrt_vartime [0; 1].
Proof. vm_compute. repeat split; reflexivity. Qed.
