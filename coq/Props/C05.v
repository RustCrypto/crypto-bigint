(** C05 — shifts and bit queries agree with the binary expansion for every shift amount.
    Statements only: each is closed by [exact] of lemmas of Proofs/ and followed by its [Print Assumptions].
    All statements quantify over every limb count (list length), every word value and every shift
    amount / bit index.  [eval] = the represented unsigned integer, [seval] = the two's complement reading,
    [Bn n] = 2^(64 n).  Hypotheses of the form [64 * length a < U32] / [s < U32] state that widths and shift
    amounts are u32 values, as in the Rust signatures. *)
From CB Require Import Model.Limbs Model.AddSub Model.Bits Proofs.WordP Proofs.LimbsP Proofs.AddSubP
  Proofs.BitsWordP Proofs.ShiftP Proofs.LadderP Proofs.BitQueryP Proofs.IntShiftP Proofs.WideP Proofs.BitsAllP.
From Coq Require Import ZArith List Bool.
Open Scope Z_scope.

(** Uint::overflowing_shl_vartime (limb move + intra-limb carry): x * 2^s mod 2^BITS, `none` (value 0) iff s >= BITS *)
Theorem C05_shl_vartime : forall a s, wf a -> 0 <= s ->
  let r := uint_overflowing_shl_vartime a s in
  let bits := 64 * Z.of_nat (length a) in
  snd r = choice_of_bool (s <? bits) /\ wf (fst r) /\ length (fst r) = length a /\
  eval (fst r) = if s <? bits then (eval a * 2 ^ s) mod Bn (length a) else 0.
Proof. exact shl_vartime_correct. Qed.
Print Assumptions C05_shl_vartime.

(** Uint::overflowing_shr_vartime: floor(x / 2^s), `none` (value 0) iff s >= BITS *)
Theorem C05_shr_vartime : forall a s, wf a -> 0 <= s ->
  let r := uint_overflowing_shr_vartime a s in
  let bits := 64 * Z.of_nat (length a) in
  snd r = choice_of_bool (s <? bits) /\ wf (fst r) /\ length (fst r) = length a /\
  eval (fst r) = if s <? bits then eval a / 2 ^ s else 0.
Proof. exact shr_vartime_correct. Qed.
Print Assumptions C05_shr_vartime.

(** the overflow mask ConstChoice::from_u32_lt is exact on all of u32 x u32 *)
Theorem C05_from_u32_lt : forall x y, 0 <= x < U32 -> 0 <= y < U32 ->
  from_u32_lt x y = choice_of_bool (x <? y).
Proof. exact from_u32_lt_bool. Qed.
Print Assumptions C05_from_u32_lt.

(** Uint::overflowing_shl (constant-time ladder over ceil(log2 BITS) fixed shifts + overflow mask), any
    number of limbs (power of two or not), any u32 shift: never panics, is_some iff s < BITS *)
Theorem C05_overflowing_shl : forall a s,
  wf a -> a <> [] -> 64 * Z.of_nat (length a) < U32 -> 0 <= s < U32 ->
  let bits := 64 * Z.of_nat (length a) in
  exists v, uint_overflowing_shl a s = Some (v, choice_of_bool (s <? bits)) /\
            wf v /\ length v = length a /\
            eval v = if s <? bits then (eval a * 2 ^ s) mod Bn (length a) else 0.
Proof. exact uint_overflowing_shl_correct. Qed.
Print Assumptions C05_overflowing_shl.

Theorem C05_overflowing_shr : forall a s,
  wf a -> a <> [] -> 64 * Z.of_nat (length a) < U32 -> 0 <= s < U32 ->
  let bits := 64 * Z.of_nat (length a) in
  exists v, uint_overflowing_shr a s = Some (v, choice_of_bool (s <? bits)) /\
            wf v /\ length v = length a /\
            eval v = if s <? bits then eval a / 2 ^ s else 0.
Proof. exact uint_overflowing_shr_correct. Qed.
Print Assumptions C05_overflowing_shr.

(** constant-time and variable-time shifts return identical results (value and is_some), for every u32 shift *)
Theorem C05_ct_eq_vartime :
  (forall a s,
  wf a -> a <> [] -> 64 * Z.of_nat (length a) < U32 -> 0 <= s < U32 ->
  uint_overflowing_shl a s = Some (uint_overflowing_shl_vartime a s)) /\
  (forall a s,
  wf a -> a <> [] -> 64 * Z.of_nat (length a) < U32 -> 0 <= s < U32 ->
  uint_overflowing_shr a s = Some (uint_overflowing_shr_vartime a s)).
Proof. exact (conj uint_shl_ct_eq_vartime uint_shr_ct_eq_vartime). Qed.
Print Assumptions C05_ct_eq_vartime.

(** every API form built on them (overflowing_* -> Option, shl/shr/<< >> -> panic, wrapping_* -> zero),
    as the outcome the op table of Model/Bits.v reports *)
Theorem C05_shl_all_forms : forall a s,
  wf a -> a <> [] -> 64 * Z.of_nat (length a) < U32 -> 0 <= s < U32 ->
  let spec := to_limbs (length a) ((eval a * 2 ^ s) mod Bn (length a)) in
  let inr := s <? 64 * Z.of_nat (length a) in
  out_ctopt (uint_overflowing_shl a s) = (if inr then Val [spec] else NoneV) /\
  out_ctopt (Some (uint_overflowing_shl_vartime a s)) = (if inr then Val [spec] else NoneV) /\
  out_expect (uint_overflowing_shl a s) = (if inr then Val [spec] else PanicV) /\
  out_expect (Some (uint_overflowing_shl_vartime a s)) = (if inr then Val [spec] else PanicV) /\
  out_unwrap_or (uint_overflowing_shl a s) (zeros (length a)) = Val [if inr then spec else zeros (length a)] /\
  out_unwrap_or (Some (uint_overflowing_shl_vartime a s)) (zeros (length a)) = Val [if inr then spec else zeros (length a)].
Proof. exact uint_shl_forms. Qed.
Print Assumptions C05_shl_all_forms.

Theorem C05_shr_all_forms : forall a s,
  wf a -> a <> [] -> 64 * Z.of_nat (length a) < U32 -> 0 <= s < U32 ->
  let spec := to_limbs (length a) (eval a / 2 ^ s) in
  let inr := s <? 64 * Z.of_nat (length a) in
  out_ctopt (uint_overflowing_shr a s) = (if inr then Val [spec] else NoneV) /\
  out_ctopt (Some (uint_overflowing_shr_vartime a s)) = (if inr then Val [spec] else NoneV) /\
  out_expect (uint_overflowing_shr a s) = (if inr then Val [spec] else PanicV) /\
  out_expect (Some (uint_overflowing_shr_vartime a s)) = (if inr then Val [spec] else PanicV) /\
  out_unwrap_or (uint_overflowing_shr a s) (zeros (length a)) = Val [if inr then spec else zeros (length a)] /\
  out_unwrap_or (Some (uint_overflowing_shr_vartime a s)) (zeros (length a)) = Val [if inr then spec else zeros (length a)].
Proof. exact uint_shr_forms. Qed.
Print Assumptions C05_shr_all_forms.

(** Uint::overflowing_shl_vartime_wide / shr_vartime_wide on (lo, hi), every 0 <= s < 2*BITS (all three branches of
    the case split, including the zero shift, which returns the input) *)
Theorem C05_shl_wide : forall lo hi, wf lo -> wf hi -> length hi = length lo -> lo <> [] ->
  forall s, 0 <= s < 2 * (64 * Z.of_nat (length lo)) ->
  exists l h, uint_shl_vartime_wide lo hi s = Some (Some (l, h)) /\
    wf l /\ wf h /\ length l = length lo /\ length h = length lo /\
    eval l + Bn (length lo) * eval h =
    ((eval lo + Bn (length lo) * eval hi) * 2 ^ s) mod (Bn (length lo) * Bn (length lo)).
Proof. exact uint_shl_vartime_wide_correct. Qed.
Print Assumptions C05_shl_wide.

Theorem C05_shr_wide : forall lo hi, wf lo -> wf hi -> length hi = length lo -> lo <> [] ->
  forall s, 0 <= s < 2 * (64 * Z.of_nat (length lo)) ->
  exists l h, uint_shr_vartime_wide lo hi s = Some (Some (l, h)) /\
    wf l /\ wf h /\ length l = length lo /\ length h = length lo /\
    eval l + Bn (length lo) * eval h = (eval lo + Bn (length lo) * eval hi) / 2 ^ s.
Proof. exact uint_shr_vartime_wide_correct. Qed.
Print Assumptions C05_shr_wide.

(** `none` for every s >= 2*BITS *)
Theorem C05_wide_overflow : forall lo hi, length hi = length lo ->
  forall s, 2 * (64 * Z.of_nat (length lo)) <= s ->
  uint_shl_vartime_wide lo hi s = Some None /\ uint_shr_vartime_wide lo hi s = Some None.
Proof. exact uint_wide_overflow. Qed.
Print Assumptions C05_wide_overflow.

(** the zero shift returns the input unchanged *)
Theorem C05_wide_shift_zero : forall lo hi, wf lo -> wf hi -> length hi = length lo -> lo <> [] ->
  uint_shl_vartime_wide lo hi 0 = Some (Some (lo, hi)) /\ uint_shr_vartime_wide lo hi 0 = Some (Some (lo, hi)).
Proof. exact uint_wide_shift_zero. Qed.
Print Assumptions C05_wide_shift_zero.

(** Int::overflowing_shr_vartime: floor(x / 2^s) of the SIGNED value for every s; `none` iff s >= BITS, and the
    value returned then (0 or -1) is still that floor *)
Theorem C05_int_shr_vartime : forall a s, wf a -> a <> [] -> 0 <= s ->
  let r := int_overflowing_shr_vartime a s in
  snd r = choice_of_bool (s <? 64 * Z.of_nat (length a)) /\ wf (fst r) /\ length (fst r) = length a /\
  seval (fst r) = seval a / 2 ^ s.
Proof. exact int_shr_vartime_correct. Qed.
Print Assumptions C05_int_shr_vartime.

(** Int::overflowing_shr (constant-time ladder) *)
Theorem C05_int_overflowing_shr : forall a s,
  wf a -> a <> [] -> 64 * Z.of_nat (length a) < U32 -> 0 <= s < U32 ->
  exists v, int_overflowing_shr a s = Some (v, choice_of_bool (s <? 64 * Z.of_nat (length a))) /\
            wf v /\ length v = length a /\
            (s < 64 * Z.of_nat (length a) -> seval v = seval a / 2 ^ s).
Proof. exact int_overflowing_shr_correct. Qed.
Print Assumptions C05_int_overflowing_shr.

(** Int::wrapping_shr / wrapping_shr_vartime: floor(x / 2^s) of the signed value for EVERY shift (the sign fill beyond the width is that floor); the sign test used for the fill *)
Theorem C05_int_wrapping_shr :
  (forall a s,
  wf a -> a <> [] -> 64 * Z.of_nat (length a) < U32 -> 0 <= s < U32 ->
  exists v, int_overflowing_shr a s = Some v /\
    let r := ct_unwrap_or v (int_sign_fill a) in
    wf r /\ length r = length a /\ seval r = seval a / 2 ^ s) /\
  (forall a s, wf a -> a <> [] -> 0 <= s ->
  let r := ct_unwrap_or (int_overflowing_shr_vartime a s) (int_sign_fill a) in
  wf r /\ length r = length a /\ seval r = seval a / 2 ^ s) /\
  (forall a, wf a -> a <> [] ->
  int_is_negative a = choice_of_bool (seval a <? 0)).
Proof. exact (conj int_wrapping_shr_correct (conj int_wrapping_shr_vartime_correct int_is_negative_seval)). Qed.
Print Assumptions C05_int_wrapping_shr.

(** BoxedUint::overflowing_shl / overflowing_shr (ladder + conditional_set_zero): (value, overflow) *)
Theorem C05_boxed_overflowing_shift :
  (forall a s, wf a -> a <> [] -> 0 <= s ->
  let bits := 64 * Z.of_nat (length a) in
  exists v, boxed_overflowing_shl a s = Some (v, negb (s <? bits)) /\ wf v /\ length v = length a /\
            eval v = if s <? bits then (eval a * 2 ^ s) mod Bn (length a) else 0) /\
  (forall a s, wf a -> a <> [] -> 0 <= s ->
  let bits := 64 * Z.of_nat (length a) in
  exists v, boxed_overflowing_shr a s = Some (v, negb (s <? bits)) /\ wf v /\ length v = length a /\
            eval v = if s <? bits then eval a / 2 ^ s else 0).
Proof. exact boxed_overflowing_shift_all. Qed.
Print Assumptions C05_boxed_overflowing_shift.

(** BoxedUint::shl_vartime / shr_vartime / wrapping_*_vartime (shr uses its own pairwise loop) *)
Theorem C05_boxed_shift_vartime :
  (forall a s, wf a -> 0 <= s ->
  let r := boxed_shl_vartime_into a s in
  let bits := 64 * Z.of_nat (length a) in
  snd r = choice_of_bool (s <? bits) /\ wf (fst r) /\ length (fst r) = length a /\
  eval (fst r) = if s <? bits then (eval a * 2 ^ s) mod Bn (length a) else 0) /\
  (forall a s, wf a -> 0 <= s ->
  let r := boxed_shr_vartime_into a s in
  let bits := 64 * Z.of_nat (length a) in
  snd r = choice_of_bool (s <? bits) /\ wf (fst r) /\ length (fst r) = length a /\
  eval (fst r) = if s <? bits then eval a / 2 ^ s else 0).
Proof. exact (conj (step_correct _ _ shl_kernel) (step_correct _ _ boxed_shr_kernel)). Qed.
Print Assumptions C05_boxed_shift_vartime.

(** Limb: shl / shr / << >> <<= >>= give the shifted word for s < 64 and PANIC for every s >= 64 in both build
    profiles ([dbg] arbitrary); bit length, trailing zeros / ones (u64 intrinsics) against the binary expansion *)
Theorem C05_limb :
  (forall lft dbg x s, is_word x -> 0 <= s ->
     limb_shift lft dbg x s = if s <? 64 then Val [[if lft then (x * 2 ^ s) mod B else x / 2 ^ s]] else PanicV) /\
  (forall (lft : bool) x s, is_word x -> 0 <= s < 64 -> is_word (if lft then (x * 2 ^ s) mod B else x / 2 ^ s)) /\
  (forall x, is_word x -> 64 - wlz x = spec_bits x) /\
  (forall x, is_word x -> wtz x = spec_trailing_zeros 64 x) /\
  (forall x, is_word x -> wto x = spec_trailing_ones 64 x).
Proof. exact limb_all. Qed.
Print Assumptions C05_limb.

(** bit / bit_vartime return the bit of the binary expansion (false for every index outside the value); bit i of the value is bit (i mod 64) of limb (i / 64) *)
Theorem C05_bit :
  (forall ls, wf ls -> forall i, 0 <= i ->
  Z.testbit (eval ls) i = Z.testbit (nthz ls (Z.to_nat (i / 64))) (i mod 64)) /\
  (forall ls index, wf ls -> Z.of_nat (length ls) < U32 -> 0 <= index < U32 ->
  limbs_bit ls index = choice_of_bool (Z.testbit (eval ls) index)) /\
  (forall ls index, wf ls -> 0 <= index ->
  limbs_bit_vartime ls index = Z.testbit (eval ls) index).
Proof. exact (conj testbit_eval (conj limbs_bit_correct limbs_bit_vartime_correct)). Qed.
Print Assumptions C05_bit.

(** leading_zeros = BITS - bit length; bits_vartime = bit length; constant-time = variable-time; spec_bits v is one more than the index of the highest set bit *)
Theorem C05_bit_length :
  (forall ls, wf ls ->
  limbs_leading_zeros ls = 64 * Z.of_nat (length ls) - spec_bits (eval ls)) /\
  (forall ls, wf ls -> ls <> [] -> limbs_bits_vartime ls = Some (spec_bits (eval ls))) /\
  (forall ls, wf ls -> ls <> [] ->
  limbs_bits_vartime ls = Some (64 * Z.of_nat (length ls) - limbs_leading_zeros ls)) /\
  (forall v, 0 < v ->
  Z.testbit v (spec_bits v - 1) = true /\ forall i, spec_bits v <= i -> Z.testbit v i = false).
Proof. exact bit_length_all. Qed.
Print Assumptions C05_bit_length.

(** trailing zeros / ones, constant-time and variable-time: the least index whose bit is 1 / 0 (BITS if there is none); the meaning of the spec function first_bit *)
Theorem C05_trailing :
  (forall ls, wf ls ->
  limbs_trailing_zeros ls = spec_trailing_zeros (64 * length ls) (eval ls)) /\
  (forall ls, wf ls ->
  limbs_trailing_zeros_vartime ls = spec_trailing_zeros (64 * length ls) (eval ls)) /\
  (forall ls, wf ls ->
  limbs_trailing_ones ls = spec_trailing_ones (64 * length ls) (eval ls)) /\
  (forall ls, wf ls ->
  limbs_trailing_ones_vartime ls = spec_trailing_ones (64 * length ls) (eval ls)) /\
  (forall b v k i, 0 <= i ->
  let t := first_bit b k i v in
  i <= t <= i + Z.of_nat k /\ (forall j, i <= j < t -> Z.testbit v j = negb b) /\
  (t < i + Z.of_nat k -> Z.testbit v t = b)).
Proof.
  exact (conj limbs_trailing_zeros_correct (conj limbs_trailing_zeros_vartime_correct
          (conj limbs_trailing_ones_correct (conj limbs_trailing_ones_vartime_correct first_bit_spec)))).
Qed.
Print Assumptions C05_trailing.

(** set_bit (constant-time; unchanged for an index outside the value) / set_bit_vartime (panics outside): bit [index] becomes b, all other bits are unchanged *)
Theorem C05_set_bit :
  (forall ls index b,
  wf ls -> Z.of_nat (length ls) < U32 -> 0 <= index < 64 * Z.of_nat (length ls) ->
  let r := limbs_set_bit ls index (choice_of_bool b) in
  wf r /\ length r = length ls /\ eval r = spec_set_bit (eval ls) index b) /\
  (forall ls index b,
  wf ls -> Z.of_nat (length ls) < U32 -> 64 * Z.of_nat (length ls) <= index < U32 ->
  limbs_set_bit ls index (choice_of_bool b) = ls) /\
  (forall ls index b, wf ls -> 0 <= index ->
  if index <? 64 * Z.of_nat (length ls)
  then exists r, limbs_set_bit_vartime ls index b = Some r /\ wf r /\ length r = length ls /\
                 eval r = spec_set_bit (eval ls) index b
  else limbs_set_bit_vartime ls index b = None) /\
  (forall v i b j, 0 <= v -> 0 <= i -> 0 <= j ->
  Z.testbit (spec_set_bit v i b) j = if j =? i then b else Z.testbit v j).
Proof. exact set_bit_all. Qed.
Print Assumptions C05_set_bit.

(** & | ^ ! and bitand_limb on Uint / Int limbs *)
Theorem C05_bitwise :
  (forall a b, wf a -> wf b -> length a = length b ->
  wf (limbs_and a b) /\ length (limbs_and a b) = length a /\ eval (limbs_and a b) = Z.land (eval a) (eval b)) /\
  (forall a b, wf a -> wf b -> length a = length b ->
  wf (limbs_or a b) /\ length (limbs_or a b) = length a /\ eval (limbs_or a b) = Z.lor (eval a) (eval b)) /\
  (forall a b, wf a -> wf b -> length a = length b ->
  wf (limbs_xor a b) /\ length (limbs_xor a b) = length a /\ eval (limbs_xor a b) = Z.lxor (eval a) (eval b)) /\
  (forall a, wf a ->
  wf (limbs_not a) /\ length (limbs_not a) = length a /\ eval (limbs_not a) = Bn (length a) - 1 - eval a) /\
  (forall a i, wf a -> 0 <= i < 64 * Z.of_nat (length a) ->
  Z.testbit (eval (limbs_not a)) i = negb (Z.testbit (eval a) i)) /\
  (forall a l, wf a -> is_word l ->
  wf (limbs_and_limb a l) /\ length (limbs_and_limb a l) = length a /\
  eval (limbs_and_limb a l) = Z.land (eval a) (eval (repeat l (length a)))).
Proof.
  exact (conj limbs_and_correct (conj limbs_or_correct (conj limbs_xor_correct
          (conj limbs_not_correct (conj limbs_not_testbit uint_and_limb_correct))))).
Qed.
Print Assumptions C05_bitwise.

(** BoxedUint & | ^ with operands of different precisions: zero-extension to the wider one *)
Theorem C05_boxed_bitwise :
  (forall a b, wf a -> wf b ->
  let n := Nat.max (length a) (length b) in
  wf (boxed_map2 limbs_and a b) /\ length (boxed_map2 limbs_and a b) = n /\
  eval (boxed_map2 limbs_and a b) = Z.land (eval a) (eval b)) /\
  (forall a b, wf a -> wf b ->
  let n := Nat.max (length a) (length b) in
  wf (boxed_map2 limbs_or a b) /\ length (boxed_map2 limbs_or a b) = n /\
  eval (boxed_map2 limbs_or a b) = Z.lor (eval a) (eval b)) /\
  (forall a b, wf a -> wf b ->
  let n := Nat.max (length a) (length b) in
  wf (boxed_map2 limbs_xor a b) /\ length (boxed_map2 limbs_xor a b) = n /\
  eval (boxed_map2 limbs_xor a b) = Z.lxor (eval a) (eval b)).
Proof. exact (conj boxed_and_correct (conj boxed_or_correct boxed_xor_correct)). Qed.
Print Assumptions C05_boxed_bitwise.

(** BoxedUint |= (by value, by reference, on Wrapping) is `*self = self | rhs`: for ALL pairs of precisions it
    equals | , i.e. it widens to the larger precision and holds the value x | y *)
Theorem C05_boxed_or_assign : forall a b, wf a -> wf b ->
  let n := Nat.max (length a) (length b) in
  boxed_or_assign a b = boxed_map2 limbs_or a b /\
  wf (boxed_or_assign a b) /\ length (boxed_or_assign a b) = n /\
  eval (boxed_or_assign a b) = Z.lor (eval a) (eval b).
Proof. exact boxed_or_assign_correct. Qed.
Print Assumptions C05_boxed_or_assign.

(** non-vacuity: a 3-limb (non-power-of-two width) shift across a limb boundary in all forms, shift = BITS,
    the sign-filling shift of a negative value, the wide shift's upper and zero branches, |= with a wider right-hand side, a Limb shift by 64, and bit queries *)
Example C05_nonvacuous :
  uint_overflowing_shl [MAXW; 1; 0] 65 = Some ([0; MAXW - 1; 3], MAXW) /\
  uint_overflowing_shl_vartime [MAXW; 1; 0] 65 = ([0; MAXW - 1; 3], MAXW) /\
  uint_overflowing_shr [0; 0; 6] 129 = Some ([3; 0; 0], MAXW) /\
  uint_overflowing_shl [1; 0; 0] 192 = Some ([0; 0; 0], 0) /\
  int_overflowing_shr_vartime [0; 2 ^ 63] 127 = ([MAXW; MAXW], MAXW) /\
  uint_shl_vartime_wide [1; 0] [0; 0] 129 = Some (Some ([0; 0], [2; 0])) /\
  uint_shr_vartime_wide [5; 0] [7; 0] 0 = Some (Some ([5; 0], [7; 0])) /\
  boxed_or_assign [0] [0; 1] = [0; 1] /\ limb_shift true false MAXW 64 = PanicV /\
  limbs_leading_zeros [5; 0; 0] = 189 /\ limbs_trailing_zeros [0; 8; 0] = 67 /\
  limbs_trailing_ones [MAXW; 7; 0] = 67 /\ choice_to_bool (limbs_bit [0; 4] 66) = true /\
  limbs_set_bit [0; 0] 65 MAXW = [0; 2].
Proof. vm_compute. repeat split; reflexivity. Qed.
