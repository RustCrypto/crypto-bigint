(** C20 — the integer square root is the exact floor for every input.
    Proofs are lemmas of Proofs/ cited by [exact], but for a few one-liners and the concrete runs. All statements quantify over every
    limb count (list length <> 0) and every word value.  Models: Model/Sqrt.v (the inner division and the
    squaring of the checked forms are value-level; everything else follows the Rust code limb by limb). *)
From CB Require Import Model.Limbs Model.AddSub Model.Sqrt Proofs.WordP Proofs.LimbsP Proofs.SqrtMathP
  Proofs.SqrtLimbsP Proofs.SqrtP.
From Coq Require Import ZArith List.
Open Scope Z_scope.

(** Newton's iteration on the integers: newton n x = floor((x + floor(n / x)) / 2) *)

(** a Newton step never goes below floor(sqrt n), whatever the (positive) starting point *)
Theorem C20_newton_never_below_root : forall n x, 0 <= n -> 0 < x -> Z.sqrt n <= newton n x.
Proof. exact newton_ge. Qed.
Print Assumptions C20_newton_never_below_root.

(** strict decrease above the root *)
Theorem C20_newton_decreases_above_root : forall n x, 0 <= n -> Z.sqrt n < x -> newton n x < x.
Proof. exact newton_lt. Qed.
Print Assumptions C20_newton_decreases_above_root.

(** from the root itself the step yields the root or root + 1 (the oscillation the final min() resolves) *)
Theorem C20_newton_at_root : forall n, 0 < n -> Z.sqrt n <= newton n (Z.sqrt n) <= Z.sqrt n + 1.
Proof. exact newton_root. Qed.
Print Assumptions C20_newton_at_root.

(** quadratic convergence in integers: with e = x - s - 2 and e' = newton n x - s - 2,  2 x e' <= e^2 *)
Theorem C20_newton_quadratic : forall n x, 0 <= n -> Z.sqrt n <= x -> 0 < x ->
  2 * x * (newton n x - Z.sqrt n - 2) <= (x - Z.sqrt n - 2) * (x - Z.sqrt n - 2).
Proof. exact newton_quad. Qed.
Print Assumptions C20_newton_quadratic.

(** the initial estimate 2^ceil(bits/2) lies in (s, 2 s] *)
Theorem C20_initial_estimate : forall n, 0 < n ->
  Z.sqrt n < 2 ^ ((bitlen n + 1) / 2) <= 2 * Z.sqrt n.
Proof. exact init_bounds. Qed.
Print Assumptions C20_initial_estimate.

(** the iteration count: if s < 2^h and h <= 2^k - 1 then k + 1 rounds from any start in [s, 2s + 2] end
    within 1 of the root (for BITS-bit inputs h = BITS/2 and k = floor(log2 BITS) qualify, next theorem) *)
Theorem C20_rounds_suffice : forall n x0 h k,
  0 < n -> 0 <= h -> Z.sqrt n < 2 ^ h -> h <= 2 ^ Z.of_nat k - 1 ->
  Z.sqrt n <= x0 <= 2 * Z.sqrt n + 2 ->
  Z.sqrt n <= SqrtMathP.iter (S k) n x0 <= Z.sqrt n + 1.
Proof. exact ct_rounds_enough. Qed.
Print Assumptions C20_rounds_suffice.

Theorem C20_log2_bits_rounds : forall bits, 0 < bits -> Z.even bits = true ->
  bits / 2 <= 2 ^ Z.log2 bits - 1.
Proof. exact log2_rounds. Qed.
Print Assumptions C20_log2_bits_rounds.

(** min(x_n, x_{n+1}) is the root once x_n is within 1 of it *)
Theorem C20_final_min : forall n xp, 0 < n -> Z.sqrt n <= xp <= Z.sqrt n + 1 ->
  Z.min xp (newton n xp) = Z.sqrt n.
Proof. exact ct_result. Qed.
Print Assumptions C20_final_min.

Theorem C20_bits_exact : forall a, wf a -> bits_limbs a = bitlen (eval a).
Proof. exact bits_limbs_spec. Qed.
Print Assumptions C20_bits_exact.

Theorem C20_overflowing_shl_exact : forall a shift,
  wf a -> length a <> 0%nat -> 0 <= shift < 64 * Z.of_nat (length a) ->
  exists r, overflowing_shl_limbs a shift = Some (r, 0) /\ wf r /\ length r = length a /\
            eval r = (eval a * 2 ^ shift) mod Bn (length a).
Proof. exact overflowing_shl_limbs_spec. Qed.
Print Assumptions C20_overflowing_shl_exact.

Theorem C20_shr1_exact : forall a, wf a ->
  eval (shr1_limbs a) = eval a / 2 /\ wf (shr1_limbs a) /\ length (shr1_limbs a) = length a.
Proof. exact shr1_limbs_spec. Qed.
Print Assumptions C20_shr1_exact.

(** the property: s = sqrt(x) is the unique s with s^2 <= x < (s+1)^2 *)
Theorem C20_floor_unique : forall x s t,
  (0 <= s /\ s * s <= x < (s + 1) * (s + 1)) -> (0 <= t /\ t * t <= x < (t + 1) * (t + 1)) -> s = t.
Proof. exact is_floor_sqrt_unique. Qed.
Print Assumptions C20_floor_unique.

(** Uint::sqrt / wrapping_sqrt / SquareRoot::sqrt (constant time, LOG2_BITS + 2 rounds): no panic, exact floor *)
Theorem C20_uint_sqrt_exact : forall a, wf a -> length a <> 0%nat ->
  exists r, uint_sqrt a = SOk r /\ wf r /\ length r = length a /\
            (0 <= eval r /\ eval r * eval r <= eval a < (eval r + 1) * (eval r + 1)).
Proof. exact uint_sqrt_exact. Qed.
Print Assumptions C20_uint_sqrt_exact.

(** Uint::sqrt_vartime / wrapping_sqrt_vartime: the loop terminates within the fuel 64 * LIMBS, exact floor *)
Theorem C20_uint_sqrt_vartime_exact : forall a, wf a -> length a <> 0%nat ->
  exists r, uint_sqrt_vartime a = SOk r /\ wf r /\ length r = length a /\
            (0 <= eval r /\ eval r * eval r <= eval a < (eval r + 1) * (eval r + 1)).
Proof. exact uint_sqrt_vartime_exact. Qed.
Print Assumptions C20_uint_sqrt_vartime_exact.

(** BoxedUint::sqrt (in-place variant), any precision *)
Theorem C20_boxed_sqrt_exact : forall a, wf a -> length a <> 0%nat ->
  exists r, boxed_sqrt a = SOk r /\ wf r /\ length r = length a /\
            (0 <= eval r /\ eval r * eval r <= eval a < (eval r + 1) * (eval r + 1)).
Proof. exact boxed_sqrt_exact. Qed.
Print Assumptions C20_boxed_sqrt_exact.

Theorem C20_boxed_sqrt_vartime_exact : forall a, wf a -> length a <> 0%nat ->
  exists r, boxed_sqrt_vartime a = SOk r /\ wf r /\ length r = length a /\
            (0 <= eval r /\ eval r * eval r <= eval a < (eval r + 1) * (eval r + 1)).
Proof. exact boxed_sqrt_vartime_exact. Qed.
Print Assumptions C20_boxed_sqrt_vartime_exact.

(** the in-place boxed loop computes limb for limb what the Uint loop computes (under the loop invariant P) *)
Theorem C20_boxed_loop_is_uint_loop : forall nl (P : Z -> Prop), wf nl -> length nl <> 0%nat ->
  (forall X, P X -> fits (length nl) (eval nl) X /\ P (stepz (eval nl) X)) ->
  forall k x xp nzx, good (length nl) x -> good (length nl) nzx -> P (eval x) ->
  boxed_sqrt_loop k nl x xp nzx = sqrt_ct_loop k nl x xp.
Proof. exact boxed_loop_eq. Qed.
Print Assumptions C20_boxed_loop_is_uint_loop.

(** checked forms: the root, and is_some exactly when the input is a perfect square *)
Theorem C20_uint_checked_sqrt_exact : forall a, wf a -> length a <> 0%nat ->
  exists r b, uint_checked_sqrt a = (SOk r, b) /\ (b = true <-> exists t, eval a = t * t) /\
              wf r /\ length r = length a /\
              (0 <= eval r /\ eval r * eval r <= eval a < (eval r + 1) * (eval r + 1)).
Proof. apply checked_sqrt_exact_of, uint_checked_sqrt_correct. Qed.
Print Assumptions C20_uint_checked_sqrt_exact.

Theorem C20_uint_checked_sqrt_vartime_exact : forall a, wf a -> length a <> 0%nat ->
  exists r b, uint_checked_sqrt_vartime a = (SOk r, b) /\ (b = true <-> exists t, eval a = t * t) /\
              wf r /\ length r = length a /\
              (0 <= eval r /\ eval r * eval r <= eval a < (eval r + 1) * (eval r + 1)).
Proof. apply checked_sqrt_exact_of, uint_checked_sqrt_vartime_correct. Qed.
Print Assumptions C20_uint_checked_sqrt_vartime_exact.

Theorem C20_boxed_checked_sqrt_exact : forall a, wf a -> length a <> 0%nat ->
  exists r b, boxed_checked_sqrt a = (SOk r, b) /\ (b = true <-> exists t, eval a = t * t) /\
              wf r /\ length r = length a /\
              (0 <= eval r /\ eval r * eval r <= eval a < (eval r + 1) * (eval r + 1)).
Proof. apply checked_sqrt_exact_of, boxed_checked_sqrt_correct. Qed.
Print Assumptions C20_boxed_checked_sqrt_exact.

Theorem C20_boxed_checked_sqrt_vartime_exact : forall a, wf a -> length a <> 0%nat ->
  exists r b, boxed_checked_sqrt_vartime a = (SOk r, b) /\ (b = true <-> exists t, eval a = t * t) /\
              wf r /\ length r = length a /\
              (0 <= eval r /\ eval r * eval r <= eval a < (eval r + 1) * (eval r + 1)).
Proof. apply checked_sqrt_exact_of, boxed_checked_sqrt_vartime_correct. Qed.
Print Assumptions C20_boxed_checked_sqrt_vartime_exact.

(** the round count has exactly one round of slack: the source's TODO (#378) suggests that LOG2_BITS rounds
    "may be enough"; for the 448-bit input 2^414 + 2^212 + 255 (LOG2_BITS = 8) eight rounds return root + 1
    (fixed and boxed variant alike), nine rounds return the root.  (Not a defect of the code as written.) *)
Theorem C20_log2_bits_rounds_would_not_suffice :
  log2_bits 7 = 8 /\
  (exists r, uint_sqrt_rounds 8 slow_input_448 = SOk r /\ eval r = Z.sqrt (eval slow_input_448) + 1) /\
  (exists r, boxed_sqrt_rounds 8 slow_input_448 = SOk r /\ eval r = Z.sqrt (eval slow_input_448) + 1) /\
  (exists r, uint_sqrt_rounds 9 slow_input_448 = SOk r /\ eval r = Z.sqrt (eval slow_input_448)).
Proof. exact log2_bits_rounds_not_enough. Qed.
Print Assumptions C20_log2_bits_rounds_would_not_suffice.

(** the model table and the specification table (Z.sqrt on the represented integer) of the correspondence
    check give the same outcome, entry by entry, on every well-formed argument *)
Theorem C20_model_table_equals_spec_table :
  Forall2 (fun m s => fst m = fst s /\ forall dbg args, wf (arg 0 args) -> snd m dbg args = snd s dbg args)
          ops_sqrt_model ops_sqrt_spec.
Proof. exact sqrt_tables_agree. Qed.
Print Assumptions C20_model_table_equals_spec_table.

(** non-vacuity: the worst-case input of the crate's own test ((r+1)^2 - 583, 192 bits), a radicand one below
    a square at full width, the oscillating case t^2 + 2t, zero, and a non-square / square pair for checked *)
Example C20_nonvacuous :
  uint_sqrt [15850601984282720829; 1685072410847819194; 387207949610491688]
    = SOk [3049934400608706081; 622260355; 0] /\
  uint_sqrt_vartime [0; MAXW - 1] = SOk [MAXW - 1; 0] /\
  boxed_sqrt [MAXW; MAXW] = SOk [MAXW; 0] /\
  boxed_sqrt_vartime [24; 0; 0] = SOk [4; 0; 0] /\
  uint_sqrt [0] = SOk [0] /\ boxed_sqrt_vartime [0; 0] = SOk [0; 0] /\
  uint_checked_sqrt [15] = (SOk [3], false) /\ boxed_checked_sqrt_vartime [0; 1] = (SOk [4294967296; 0], true).
Proof.
  (* each run follows from the correctness theorem of its function; only Z.sqrt of the value is evaluated *)
  repeat apply conj;
    [ apply (computes_sqrt_run _ _ _ uint_sqrt_correct) | apply (computes_sqrt_run _ _ _ uint_sqrt_vartime_correct)
    | apply (computes_sqrt_run _ _ _ boxed_sqrt_correct) | apply (computes_sqrt_run _ _ _ boxed_sqrt_vartime_correct)
    | apply (computes_sqrt_run _ _ _ uint_sqrt_correct) | apply (computes_sqrt_run _ _ _ boxed_sqrt_vartime_correct)
    | apply (computes_checked_sqrt_run _ _ _ _ uint_checked_sqrt_correct)
    | apply (computes_checked_sqrt_run _ _ _ _ boxed_checked_sqrt_vartime_correct) ];
    first [ apply wfb_wf; reflexivity | discriminate | vm_compute; reflexivity ].
Qed.
