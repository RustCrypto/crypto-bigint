(** C16 -- byte, hex, word and primitive conversions are lossless, positional and strict.
    Short proofs stand here; longer ones are lemmas of Proofs/Conv*P.v cited by [exact]. All statements quantify over
    every limb count (list length), every word / byte value and every string length.
    Notation: [eval] little-endian limbs -> Z, [evalb b] little-endian digits in base b -> Z,
    [wfd b] "all digits in [0, b)", byte and hex strings are lists of byte values. *)
From CB Require Import Model.Limbs Model.Conv Proofs.WordP Proofs.LimbsP Proofs.ConvDigitsP Proofs.ConvBytesP
  Proofs.ConvHexP Proofs.ConvBoxedP Proofs.ConvCopyP Proofs.ConvP.
From Coq Require Import ZArith Lia List.
Import ListNotations.
Open Scope Z_scope.
Open Scope list_scope.

(** the branch-free i16 nibble decoder, on ALL 256 byte values: the digit for [0-9A-Fa-f], 0xFFFF otherwise
    (in particular for '/', ':', '@', 'G', '`', 'g' and every byte >= 0x80) *)
Theorem C16_decode_nibble_all_bytes : forall c, 0 <= c < 256 ->
  decode_nibble c = match hexval c with Some d => d | None => 65535 end.
Proof. exact decode_nibble_spec. Qed.
Print Assumptions C16_decode_nibble_all_bytes.

(** ... and none of its intermediate i16 values overflows (so debug and release builds agree) *)
Theorem C16_decode_nibble_no_i16_overflow : forall c, 0 <= c < 256 -> nibble_i16_ok c = true.
Proof. exact decode_nibble_no_overflow. Qed.
Print Assumptions C16_decode_nibble_no_i16_overflow.

(** decode_hex_byte on all 65536 character pairs: error word 0 and byte 16 h + l exactly for two hex digits *)
Theorem C16_decode_hex_byte : forall c0 c1 r e, 0 <= c0 < 256 -> 0 <= c1 < 256 -> decode_hex_byte c0 c1 = (r, e) ->
  0 <= r < 256 /\
  match hexval c0, hexval c1 with
  | Some h, Some l => r = 16 * h + l /\ e = 0
  | _, _ => 0 < e
  end.
Proof. exact decode_hex_byte_spec. Qed.
Print Assumptions C16_decode_hex_byte.

(** positional: big-endian byte i of the 8n-byte encoding is floor(x / 256^(8n-1-i)) mod 256 *)
Theorem C16_be_positional : forall ls i, wf ls -> (i < 8 * length ls)%nat ->
  nth i (uint_to_be_bytes ls) 0 = (eval ls / 256 ^ (Z.of_nat (8 * length ls) - 1 - Z.of_nat i)) mod 256.
Proof. exact be_positional. Qed.
Print Assumptions C16_be_positional.

Theorem C16_le_positional : forall ls i, wf ls -> (i < 8 * length ls)%nat ->
  nth i (uint_to_le_bytes ls) 0 = (eval ls / 256 ^ Z.of_nat i) mod 256.
Proof. exact le_positional. Qed.
Print Assumptions C16_le_positional.

Theorem C16_be_is_reversed_le : forall ls, uint_to_be_bytes ls = rev (uint_to_le_bytes ls).
Proof. intros ls. apply uint_to_be_bytes_rev. Qed.
Print Assumptions C16_be_is_reversed_le.

(** the "value of a big-endian digit string" (Horner form) used by the specification table is the positional value *)
Theorem C16_horner_is_positional_value : forall b ds, horner b ds = evalb b (rev ds).
Proof. exact horner_evalb. Qed.
Print Assumptions C16_horner_is_positional_value.

(** decoders: accepted exactly at the stated size; the value is the positional value of the bytes *)
Theorem C16_from_be_slice : forall n bs r, wfd 256 bs -> uint_from_be_slice n bs = Some r ->
  length bs = (8 * n)%nat /\ wf r /\ length r = n /\ eval r = evalb 256 (rev bs).
Proof. exact from_be_slice_spec. Qed.
Print Assumptions C16_from_be_slice.

Theorem C16_from_le_slice : forall n bs r, wfd 256 bs -> uint_from_le_slice n bs = Some r ->
  length bs = (8 * n)%nat /\ wf r /\ length r = n /\ eval r = evalb 256 bs.
Proof. exact from_le_slice_spec. Qed.
Print Assumptions C16_from_le_slice.

Theorem C16_from_be_slice_strict : forall n bs, uint_from_be_slice n bs = None <-> length bs <> (8 * n)%nat.
Proof. exact from_be_slice_len. Qed.
Print Assumptions C16_from_be_slice_strict.

Theorem C16_from_le_slice_strict : forall n bs, uint_from_le_slice n bs = None <-> length bs <> (8 * n)%nat.
Proof. exact from_le_slice_len. Qed.
Print Assumptions C16_from_le_slice_strict.

(** mutually inverse, both directions, both byte orders *)
Theorem C16_be_roundtrip : forall ls, wf ls -> uint_from_be_slice (length ls) (uint_to_be_bytes ls) = Some ls.
Proof. exact be_roundtrip. Qed.
Print Assumptions C16_be_roundtrip.

Theorem C16_le_roundtrip : forall ls, wf ls -> uint_from_le_slice (length ls) (uint_to_le_bytes ls) = Some ls.
Proof. exact le_roundtrip. Qed.
Print Assumptions C16_le_roundtrip.

Theorem C16_be_roundtrip_bytes : forall n bs r, wfd 256 bs -> uint_from_be_slice n bs = Some r -> uint_to_be_bytes r = bs.
Proof.
  intros n bs r. intros Hw E. destruct (from_be_slice_spec _ _ _ Hw E) as (Hl & Hwr & Hlr & Her).
  rewrite uint_to_be_bytes_rev, uint_to_le_bytes_digits, Hlr, Her by assumption.
  rewrite <- Hl, <- (rev_length bs), digits_evalb by (reflexivity || apply wfd_rev; assumption).
  apply rev_involutive.
Qed.
Print Assumptions C16_be_roundtrip_bytes.

Theorem C16_le_roundtrip_bytes : forall n bs r, wfd 256 bs -> uint_from_le_slice n bs = Some r -> uint_to_le_bytes r = bs.
Proof.
  intros n bs r. intros Hw E. destruct (from_le_slice_spec _ _ _ Hw E) as (Hl & Hwr & Hlr & Her).
  rewrite uint_to_le_bytes_digits, Hlr, Her, <- Hl by assumption. apply digits_evalb; [reflexivity | assumption].
Qed.
Print Assumptions C16_le_roundtrip_bytes.

(** strict hex decoding (Uint / Int from_be_hex, from_le_hex): exactly three outcomes, characterised by
    the length and by "every character is a hex digit"; the value is positional *)
Theorem C16_hex_decode_strict_be : forall n cs, wfd 256 cs ->
  match uint_from_be_hex n cs with
  | HexLen => length cs <> (16 * n)%nat
  | HexInvalid => length cs = (16 * n)%nat /\ hexvals cs = None
  | HexOk r => length cs = (16 * n)%nat /\
               exists ds, hexvals cs = Some ds /\ wf r /\ length r = n /\ eval r = evalb 16 (rev ds)
  end.
Proof. exact from_be_hex_spec. Qed.
Print Assumptions C16_hex_decode_strict_be.

Theorem C16_hex_decode_strict_le : forall n cs, wfd 256 cs ->
  match uint_from_le_hex n cs with
  | HexLen => length cs <> (16 * n)%nat
  | HexInvalid => length cs = (16 * n)%nat /\ hexvals cs = None
  | HexOk r => length cs = (16 * n)%nat /\
               exists ds, hexvals cs = Some ds /\ wf r /\ length r = n /\ eval r = evalb 256 (nib_pairs ds)
  end.
Proof. exact from_le_hex_spec. Qed.
Print Assumptions C16_hex_decode_strict_le.

(** Display / LowerHex / UpperHex / Binary are positional, and hex formatting (either case) is inverted by from_be_hex *)
Theorem C16_fmt_hex_positional : forall u ls i, wf ls -> (i < 16 * length ls)%nat ->
  nth i (uint_fmt_hex u ls) 0 = hexchar u ((eval ls / 16 ^ (Z.of_nat (16 * length ls) - 1 - Z.of_nat i)) mod 16).
Proof.
  intros u ls i. intros Hw Hi. rewrite uint_fmt_hex_digits by assumption. apply nth_map_rev_digits; [reflexivity | assumption].
Qed.
Print Assumptions C16_fmt_hex_positional.

Theorem C16_fmt_bin_positional : forall ls i, wf ls -> (i < 64 * length ls)%nat ->
  nth i (uint_fmt_bin ls) 0 = 48 + (eval ls / 2 ^ (Z.of_nat (64 * length ls) - 1 - Z.of_nat i)) mod 2.
Proof.
  intros ls i. intros Hw Hi. rewrite uint_fmt_bin_digits by assumption.
  apply (nth_map_rev_digits (fun d => 48 + d)); [reflexivity | assumption].
Qed.
Print Assumptions C16_fmt_bin_positional.

Theorem C16_hex_roundtrip : forall u ls, wf ls -> uint_from_be_hex (length ls) (uint_fmt_hex u ls) = HexOk ls.
Proof. exact hex_roundtrip. Qed.
Print Assumptions C16_hex_roundtrip.

(** BoxedUint::from_be_slice / from_le_slice, closed form for every precision >= 0 and every byte string:
    InputSize exactly when the input is longer than the precision rounded up to bytes, Precision exactly
    when the value is >= 2^bits_precision, otherwise the value at the precision rounded up to limbs *)
Theorem C16_boxed_decode_err_iff : forall (be : bool) bs p, wfd 256 bs -> 0 <= p ->
  let v := evalb 256 (if be then rev bs else bs) in
  boxed_from_slice be bs p =
    if Nat.eqb (length bs) 0 && (p =? 0) then Val [[0]]
    else if (p + 7) / 8 <? Z.of_nat (length bs) then ErrV E_InputSize
    else if 2 ^ p <=? v then ErrV E_Precision
    else Val [to_limbs (limbs_for_precision p) v].
Proof. exact boxed_from_slice_spec. Qed.
Print Assumptions C16_boxed_decode_err_iff.

Theorem C16_boxed_be_roundtrip : forall ls, wf ls -> (1 <= length ls)%nat ->
  boxed_from_slice true (uint_to_be_bytes ls) (64 * Z.of_nat (length ls)) = Val [ls].
Proof. intros ls. apply (boxed_roundtrip true). Qed.
Print Assumptions C16_boxed_be_roundtrip.

(** bits_precision < bits() (the precision test of the boxed decoders) iff the value is >= 2^precision *)
Theorem C16_boxed_bits_test : forall ls p, wf ls -> 0 <= p -> (p <? boxed_bits ls) = (2 ^ p <=? eval ls).
Proof. exact bits_spec. Qed.
Print Assumptions C16_boxed_bits_test.

(** concat / split: pure limb concatenation, mutually inverse, value = lo + 2^(64 L) hi *)
Theorem C16_concat : forall lo hi,
  uint_concat_mixed lo hi (length lo + length hi) = lo ++ hi /\
  eval (uint_concat_mixed lo hi (length lo + length hi)) = eval lo + Bn (length lo) * eval hi.
Proof. exact concat_spec. Qed.
Print Assumptions C16_concat.

Theorem C16_split : forall a l lo hi, wf a -> (l <= length a)%nat -> uint_split_mixed a l (length a - l) = (lo, hi) ->
  length lo = l /\ length hi = (length a - l)%nat /\ wf lo /\ wf hi /\
  eval lo = eval a mod Bn l /\ eval hi = eval a / Bn l /\ lo ++ hi = a.
Proof. exact split_spec. Qed.
Print Assumptions C16_split.

Theorem C16_split_concat_inverse : forall lo hi, uint_split_mixed (lo ++ hi) (length lo) (length hi) = (lo, hi).
Proof.
  intros lo hi. replace (length hi) with (length (lo ++ hi) - length lo)%nat by (rewrite app_length; lia).
  rewrite uint_split_mixed_eq by (rewrite app_length; lia).
  rewrite firstn_app_len, skipn_app_len by reflexivity. reflexivity.
Qed.
Print Assumptions C16_split_concat_inverse.

Theorem C16_concat_split_inverse : forall a l lo hi, (l <= length a)%nat ->
  uint_split_mixed a l (length a - l) = (lo, hi) -> uint_concat_mixed lo hi (length lo + length hi) = a.
Proof.
  intros a l lo hi. intros Hl E. rewrite uint_split_mixed_eq in E by assumption. inv_pair E.
  rewrite uint_concat_mixed_app. apply firstn_skipn.
Qed.
Print Assumptions C16_concat_split_inverse.

(** resize: value modulo 2^(64 T) (so preserved when widening) *)
Theorem C16_resize : forall a t, wf a ->
  wf (uint_resize a t) /\ length (uint_resize a t) = t /\ eval (uint_resize a t) = eval a mod Bn t.
Proof. exact uint_resize_spec. Qed.
Print Assumptions C16_resize.

(** Int::resize: the signed value modulo 2^(64 T); widening preserves the signed value (sign extension),
    narrowing keeps the low limbs *)
Theorem C16_int_resize : forall a t, wf a -> (1 <= length a)%nat ->
  wf (int_resize a t) /\ length (int_resize a t) = t /\ eval (int_resize a t) = seval a mod Bn t.
Proof. exact int_resize_spec. Qed.
Print Assumptions C16_int_resize.

Theorem C16_int_resize_sign_extends : forall a t, wf a -> (1 <= length a <= t)%nat -> seval (int_resize a t) = seval a.
Proof.
  intros a t. intros Hw Hn. destruct (int_resize_spec a t Hw ltac:(lia)) as (Hwr & Hlr & Her).
  pose proof (eval_bounds a Hw) as Hb. pose proof (Bn_le (length a) t ltac:(lia)) as Hle.
  pose proof (Bn_pos (length a)) as Hp.
  unfold seval at 1. rewrite Hlr, Her.
  unfold seval. destruct (Z.ltb_spec (2 * eval a) (Bn (length a))) as [Hnn|Hneg].
  - rewrite Z.mod_small by lia. destruct (Z.ltb_spec (2 * eval a) (Bn t)); lia.
  - assert (E : (eval a - Bn (length a)) mod Bn t = eval a - Bn (length a) + Bn t).
    { symmetry. apply (Z.mod_unique_pos _ _ (-1)); lia. }
    rewrite E. destruct (Z.ltb_spec (2 * (eval a - Bn (length a) + Bn t)) (Bn t)); lia.
Qed.
Print Assumptions C16_int_resize_sign_extends.

Theorem C16_int_resize_truncates : forall a t, wf a -> (1 <= length a)%nat -> (t <= length a)%nat ->
  eval (int_resize a t) = eval a mod Bn t.
Proof.
  intros a t. intros Hw Hn Ht. destruct (int_resize_spec a t Hw Hn) as (_ & _ & ->).
  unfold seval. destruct (Z.ltb_spec (2 * eval a) (Bn (length a))); [reflexivity|].
  assert (Hn' : Bn (length a) = Bn t * Bn (length a - t)) by (rewrite <- Bn_add; f_equal; lia).
  rewrite Hn'. replace (eval a - Bn t * Bn (length a - t)) with (eval a + (- Bn (length a - t)) * Bn t) by ring.
  apply Z_mod_plus_full.
Qed.
Print Assumptions C16_int_resize_truncates.

(** BoxedUint::widen / shorten: panic exactly outside the documented range, otherwise value preserved /
    reduced modulo the new width, precision rounded up to limbs *)
Theorem C16_widen : forall a p r, wf a -> (1 <= length a)%nat -> boxed_widen a p = Some r ->
  64 * Z.of_nat (length a) <= p /\ wf r /\ length r = limbs_for_precision p /\ eval r = eval a.
Proof. exact boxed_widen_spec. Qed.
Print Assumptions C16_widen.

Theorem C16_widen_panics_iff : forall a p, (1 <= length a)%nat -> boxed_widen a p = None <-> p < 64 * Z.of_nat (length a).
Proof. exact boxed_widen_panics. Qed.
Print Assumptions C16_widen_panics_iff.

Theorem C16_shorten : forall a p r, wf a -> 1 <= p -> boxed_shorten a p = Some r ->
  p <= 64 * Z.of_nat (length a) /\ wf r /\ length r = limbs_for_precision p /\
  eval r = eval a mod Bn (limbs_for_precision p).
Proof. exact boxed_shorten_spec. Qed.
Print Assumptions C16_shorten.

Theorem C16_shorten_panics_iff : forall a p, 1 <= p -> boxed_shorten a p = None <-> 64 * Z.of_nat (length a) < p.
Proof. exact boxed_shorten_panics. Qed.
Print Assumptions C16_shorten_panics_iff.

(** primitive conversions *)
Theorem C16_from_small_prim : forall n v r, is_word v -> uint_from_small n v = Some r ->
  (1 <= n)%nat /\ wf r /\ length r = n /\ eval r = v.
Proof. exact uint_from_small_spec. Qed.
Print Assumptions C16_from_small_prim.

Theorem C16_from_u128 : forall n v r, 0 <= v < B * B -> uint_from_u128 n v = Some r ->
  (2 <= n)%nat /\ wf r /\ length r = n /\ eval r = v.
Proof. exact uint_from_u128_spec. Qed.
Print Assumptions C16_from_u128.

Theorem C16_from_u128_panics_iff : forall n v, uint_from_u128 n v = None <-> (n < 2)%nat.
Proof. exact uint_from_u128_panics. Qed.
Print Assumptions C16_from_u128_panics_iff.

Theorem C16_u128_roundtrip : forall v, 0 <= v < B * B ->
  match uint_from_u128 2 v with Some r => u128_of_limbs r = v | None => False end.
Proof.
  intros v. intros Hv. unfold uint_from_u128. cbn [Nat.ltb Nat.leb Nat.sub zeros repeat].
  rewrite land_MAXW_mod. pose proof B_pos.
  pose proof (Z.div_mod v B ltac:(lia)). pose proof (Z.mod_pos_bound v B ltac:(lia)).
  assert (0 <= v / B < B) by (split; [apply Z.div_pos; lia | apply Z.div_lt_upper_bound; lia]).
  rewrite u128_of_limbs_spec by (unfold is_word; lia). lia.
Qed.
Print Assumptions C16_u128_roundtrip.

Theorem C16_int_from_small_prim : forall k n v r, 1 <= k <= 64 -> 0 <= v < 2 ^ k -> int_from_small k n v = Some r ->
  (1 <= n)%nat /\ wf r /\ length r = n /\ eval r = sp_signed k v mod Bn n.
Proof. exact int_from_small_spec. Qed.
Print Assumptions C16_int_from_small_prim.

(** from_i128: panics exactly for fewer than two limbs; otherwise the two's complement encoding of the signed
    value at the target width, and the signed value is preserved *)
Theorem C16_int_from_i128 : forall n v r, 0 <= v < 2 ^ 128 -> int_from_i128 n v = Some r ->
  (2 <= n)%nat /\ wf r /\ length r = n /\ eval r = sp_signed 128 v mod Bn n.
Proof. exact int_from_i128_spec. Qed.
Print Assumptions C16_int_from_i128.

Theorem C16_int_from_i128_panics_iff : forall n v, int_from_i128 n v = None <-> (n < 2)%nat.
Proof.
  intros n v. unfold int_from_i128. destruct (Nat.ltb_spec n 2); split; intros; (reflexivity || discriminate || lia).
Qed.
Print Assumptions C16_int_from_i128_panics_iff.

Theorem C16_int_from_i128_value : forall n v r, 0 <= v < 2 ^ 128 -> int_from_i128 n v = Some r ->
  seval r = sp_signed 128 v.
Proof. exact int_from_i128_value. Qed.
Print Assumptions C16_int_from_i128_value.

(** serde payload (bincode framing of the little-endian bytes): deserialize inverts serialize *)
Theorem C16_serde_roundtrip : forall ls, wf ls -> Z.of_nat (8 * length ls) < B ->
  uint_serde_de (length ls) (uint_serde_ser ls) = Val [ls].
Proof. exact serde_roundtrip. Qed.
Print Assumptions C16_serde_roundtrip.

Theorem C16_serde_de_strict : forall n bs r, wfd 256 bs -> uint_serde_de n bs = Val [r] ->
  (8 + 8 * n <= length bs)%nat /\ evalb 256 (firstn 8 bs) = Z.of_nat (8 * n) /\
  wf r /\ length r = n /\ eval r = evalb 256 (firstn (8 * n) (skipn 8 bs)).
Proof. exact serde_de_strict. Qed.
Print Assumptions C16_serde_de_strict.

(** BoxedUint::from_be_hex at ANY precision p: exactly 16 * ceil(p/64) hex characters are accepted; the result
    has ceil(p/64) limbs and the positional value; at whole-limb precisions it is the fixed-width decoder *)
Theorem C16_boxed_hex_decode_strict : forall p cs, wfd 256 cs ->
  let n := Z.to_nat ((p + 63) / 64) in
  match boxed_from_be_hex p cs with
  | HexLen => length cs <> (16 * n)%nat
  | HexInvalid => length cs = (16 * n)%nat /\ hexvals cs = None
  | HexOk r => length cs = (16 * n)%nat /\
               exists ds, hexvals cs = Some ds /\ wf r /\ length r = n /\ eval r = evalb 16 (rev ds)
  end.
Proof. exact boxed_from_be_hex_spec. Qed.
Print Assumptions C16_boxed_hex_decode_strict.

Theorem C16_boxed_hex_whole_limbs : forall n cs, boxed_from_be_hex (64 * Z.of_nat n) cs = uint_from_be_hex n cs.
Proof. intros n cs. unfold boxed_from_be_hex. rewrite limbs_for_whole. reflexivity. Qed.
Print Assumptions C16_boxed_hex_whole_limbs.

Theorem C16_boxed_le_roundtrip : forall ls, wf ls -> (1 <= length ls)%nat ->
  boxed_from_slice false (uint_to_le_bytes ls) (64 * Z.of_nat (length ls)) = Val [ls].
Proof. intros ls. apply (boxed_roundtrip false). Qed.
Print Assumptions C16_boxed_le_roundtrip.

(** NonZero decoders (from_{be,le}_bytes, from_{be,le}_byte_array): positional decoding in the named byte
    order; panic exactly at a wrong size, none exactly for the value zero *)
Theorem C16_nonzero_from_le : forall n bs, wfd 256 bs ->
  match nonzero_from_le n bs with
  | PanicV => length bs <> (8 * n)%nat
  | NoneV => length bs = (8 * n)%nat /\ evalb 256 bs = 0
  | Val [r] => length bs = (8 * n)%nat /\ wf r /\ length r = n /\ eval r = evalb 256 bs /\ eval r <> 0
  | _ => False
  end.
Proof.
  intros n bs. intros Hw. unfold nonzero_from_le, nonzero_new.
  destruct (uint_from_le_slice n bs) as [r|] eqn:E; [|apply from_le_slice_len; assumption].
  destruct (from_le_slice_spec n bs r Hw E) as (Hl & Hwr & Hlr & Her).
  pose proof (is_zero_limbs_eval r Hwr) as Z0.
  destruct (is_zero_limbs r).
  - split; [assumption|]. rewrite <- Her. apply Z0. reflexivity.
  - repeat split; try assumption. intros E0. apply Z0 in E0. discriminate.
Qed.
Print Assumptions C16_nonzero_from_le.

Theorem C16_nonzero_from_be : forall n bs, wfd 256 bs ->
  match nonzero_from_be n bs with
  | PanicV => length bs <> (8 * n)%nat
  | NoneV => length bs = (8 * n)%nat /\ evalb 256 (rev bs) = 0
  | Val [r] => length bs = (8 * n)%nat /\ wf r /\ length r = n /\ eval r = evalb 256 (rev bs) /\ eval r <> 0
  | _ => False
  end.
Proof.
  intros n bs. intros Hw. unfold nonzero_from_be, nonzero_new.
  destruct (uint_from_be_slice n bs) as [r|] eqn:E; [|apply from_be_slice_len; assumption].
  destruct (from_be_slice_spec n bs r Hw E) as (Hl & Hwr & Hlr & Her).
  pose proof (is_zero_limbs_eval r Hwr) as Z0.
  destruct (is_zero_limbs r).
  - split; [assumption|]. rewrite <- Her. apply Z0. reflexivity.
  - repeat split; try assumption. intros E0. apply Z0 in E0. discriminate.
Qed.
Print Assumptions C16_nonzero_from_be.

(** Odd hex decoders: strict positional hex decoding in the named byte order, accepted exactly when the value is odd *)
Theorem C16_odd_from_le_hex : forall n cs, wfd 256 cs ->
  match odd_from_le_hex n cs with
  | Val [r] => length cs = (16 * n)%nat /\
               exists ds, hexvals cs = Some ds /\ wf r /\ length r = n /\
                          eval r = evalb 256 (nib_pairs ds) /\ Z.odd (eval r) = true
  | PanicV => length cs <> (16 * n)%nat \/ hexvals cs = None \/
              exists ds, hexvals cs = Some ds /\ Z.odd (evalb 256 (nib_pairs ds)) = false
  | _ => False
  end.
Proof. exact odd_from_le_hex_spec. Qed.
Print Assumptions C16_odd_from_le_hex.

Theorem C16_odd_from_be_hex : forall n cs, wfd 256 cs ->
  match odd_from_be_hex n cs with
  | Val [r] => length cs = (16 * n)%nat /\
               exists ds, hexvals cs = Some ds /\ wf r /\ length r = n /\
                          eval r = evalb 16 (rev ds) /\ Z.odd (eval r) = true
  | PanicV => length cs <> (16 * n)%nat \/ hexvals cs = None \/
              exists ds, hexvals cs = Some ds /\ Z.odd (evalb 16 (rev ds)) = false
  | _ => False
  end.
Proof. exact odd_from_be_hex_spec. Qed.
Print Assumptions C16_odd_from_be_hex.

(** non-vacuity: concrete encodings / decodings, an invalid character next to each accepted range,
    a precision error at exactly 2^precision, sign extension of -2 *)
Example C16_nonvacuous :
  uint_to_be_bytes [1; 2] = [0; 0; 0; 0; 0; 0; 0; 2; 0; 0; 0; 0; 0; 0; 0; 1] /\
  uint_from_be_hex 1 [48; 49; 50; 51; 52; 53; 54; 55; 56; 57; 97; 66; 99; 68; 101; 70] = HexOk [81985529216486895] /\
  uint_from_be_hex 1 [48; 49; 50; 51; 52; 53; 54; 55; 56; 57; 97; 66; 99; 68; 101; 71] = HexInvalid /\
  map decode_nibble [47; 58; 64; 71; 96; 103; 128; 255] = repeat 65535 8 /\
  boxed_from_slice true [2; 0] 9 = ErrV E_Precision /\ boxed_from_slice true [1; 255] 9 = Val [[511]] /\
  boxed_from_slice true [0; 1; 255] 9 = ErrV E_InputSize /\
  int_resize [MAXW - 1] 2 = [MAXW - 1; MAXW] /\ uint_split_mixed [1; 2; 3] 1 2 = ([1], [2; 3]) /\
  nonzero_from_le 1 [1; 0; 0; 0; 0; 0; 0; 0] = Val [[1]] /\ nonzero_from_le 1 [0; 0; 0; 0; 0; 0; 0; 0] = NoneV /\
  odd_from_le_hex 1 [48; 50; 48; 48; 48; 48; 48; 48; 48; 48; 48; 48; 48; 48; 48; 49] = PanicV /\
  odd_from_le_hex 1 [48; 49; 48; 48; 48; 48; 48; 48; 48; 48; 48; 48; 48; 48; 48; 50] = Val [[2 ^ 57 + 1]] /\
  int_from_i128 1 (2 ^ 64) = None /\ int_from_i128 2 (2 ^ 128 - 2) = Some [MAXW - 1; MAXW] /\
  boxed_from_be_hex 100 (repeat 48 32) = HexOk [0; 0] /\ boxed_from_be_hex 100 (repeat 48 16) = HexLen.
Proof. vm_compute. repeat split; reflexivity. Qed.
