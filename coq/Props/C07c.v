(** C07 (continued) — the four table keys that Props/C07.v ties to the spec GIVEN facts of other areas ([split_mul_ok]:
    the multiplication returns the double-width product; [recip_ok]: the 64-bit reciprocal of 2^64 - c is exact;
    [rem_wide_ok]: the wide Knuth remainder is exact), here WITHOUT those hypotheses: the facts are theorems of C03
    (Proofs/MulApiP.v) and C02 (Proofs/RecipP.v, RemWideP.v, DivFinalP.v), plugged in by Proofs/ModArithTables2P.v.
    What is left in the statements: [wf_args a], the spec-domain hypothesis (spec entry <> Unsupported: operands
    reduced, 1 <= c <= MAX, equal widths, p <> 0) and, for mul_mod_vartime / MulMod whose spec entry does not test the
    widths, the boolean typing condition [ty_same3 a] (self, rhs and p are Uint<N> of one N: Rust's types).
    Short proofs stand here; longer ones are lemmas of Proofs/ModArithTables2P.v cited by [exact]. *)
From CB Require Import Model.Limbs Model.AddSub Model.Mul Model.Div Model.ModArith
  Proofs.DivP Proofs.ModArithP Proofs.ModArithTablesP Proofs.ModArithTables2P.
From Coq Require Import ZArith List String.
Open Scope Z_scope.
Open Scope string_scope.

(** Uint::mul_mod_special at every width (one limb: mul_rem through the reciprocal of 2^64 - c; n >= 2: HAC 14.47 on the
    product returned by Uint::split_mul, schoolbook or Karatsuba), both profiles *)
Theorem C07_tables_agree_uint_mul_mod_special_full : forall dbg a, wf_args a ->
  run_op7 ops_modarith_spec "uint.mul_mod_special" dbg a <> Unsupported ->
  run_op7 ops_modarith_model "uint.mul_mod_special" dbg a = run_op7 ops_modarith_spec "uint.mul_mod_special" dbg a.
Proof. exact tbl_uint_mul_mod_special_full. Qed.
Print Assumptions C07_tables_agree_uint_mul_mod_special_full.

(** BoxedUint::mul_mod_special at every precision (product by BoxedUint::mul, schoolbook or boxed Karatsuba) *)
Theorem C07_tables_agree_boxed_mul_mod_special_full : forall dbg a, wf_args a ->
  run_op7 ops_modarith_spec "boxed.mul_mod_special" dbg a <> Unsupported ->
  run_op7 ops_modarith_model "boxed.mul_mod_special" dbg a = run_op7 ops_modarith_spec "boxed.mul_mod_special" dbg a.
Proof. exact tbl_boxed_mul_mod_special_full. Qed.
Print Assumptions C07_tables_agree_boxed_mul_mod_special_full.

(** Uint::mul_mod_vartime = split_mul followed by rem_wide_vartime, for every non-zero modulus (odd or even) *)
Theorem C07_tables_agree_uint_mul_mod_vartime_full : forall dbg a, wf_args a -> ty_same3 a = true ->
  run_op7 ops_modarith_spec "uint.mul_mod_vartime" dbg a <> Unsupported ->
  run_op7 ops_modarith_model "uint.mul_mod_vartime" dbg a = run_op7 ops_modarith_spec "uint.mul_mod_vartime" dbg a.
Proof. exact tbl_uint_mul_mod_vartime_full. Qed.
Print Assumptions C07_tables_agree_uint_mul_mod_vartime_full.

(** the MulMod trait panics exactly on p = 0 and returns the canonical residue otherwise: no domain hypothesis *)
Theorem C07_tables_agree_uint_mul_mod_trait_full : forall dbg a, wf_args a -> ty_same3 a = true ->
  run_op7 ops_modarith_model "uint.mul_mod_trait" dbg a = run_op7 ops_modarith_spec "uint.mul_mod_trait" dbg a.
Proof. exact tbl_uint_mul_mod_trait_full. Qed.
Print Assumptions C07_tables_agree_uint_mul_mod_trait_full.

(** the facts of the other areas in exactly the form the `_given_` theorems of Props/C07.v ask for *)
Theorem C07_split_mul_ok_uint : forall x y, wf x -> wf y -> List.length x = List.length y ->
  split_mul_ok uint_split_mul x y.
Proof. exact uint_split_mul_ok. Qed.
Print Assumptions C07_split_mul_ok_uint.
Theorem C07_split_mul_ok_boxed : forall x y, wf x -> wf y -> List.length x = List.length y ->
  split_mul_ok boxed_split_mul x y.
Proof. exact boxed_split_mul_ok. Qed.
Print Assumptions C07_split_mul_ok_boxed.
Theorem C07_recip_ok_special : forall c, 1 <= c < B ->
  recip_ok (r_d (recip_new (B - c))) (reciprocal (r_d (recip_new (B - c)))).
Proof. exact recip_new_special_ok. Qed.
Print Assumptions C07_recip_ok_special.
Theorem C07_rem_wide_ok : forall p, wf p -> eval p <> 0 -> rem_wide_ok p.
Proof. exact rem_wide_ok_nonzero. Qed.
Print Assumptions C07_rem_wide_ok.

(** with these four keys closed: EVERY key of ops_modarith_model / ops_modarith_spec (19 of 19; the key list is
    [map fst] of the table).  [typedb7 modarith_tbl_ty k a] is [ty_same3 a] for "uint.mul_mod_vartime" and
    "uint.mul_mod_trait" and [true] for the other 17 keys.  For "uint.mul_mod" / "boxed.mul_mod" the MODEL entry is
    value-level by design (the Montgomery route belongs to C08), so for these two keys the statement only says that the
    panic / unsupported split of the two tables is consistent. *)
Theorem C07_tables_agree_all_keys : forall k dbg a,
  In k (map fst ops_modarith_model) -> wf_args a -> typedb7 modarith_tbl_ty k a = true ->
  run_op7 ops_modarith_spec k dbg a <> Unsupported ->
  run_op7 ops_modarith_model k dbg a = run_op7 ops_modarith_spec k dbg a.
Proof. exact modarith_tables_agree. Qed.
Print Assumptions C07_tables_agree_all_keys.

Theorem C07_tables_key_set :
  map fst ops_modarith_spec = map fst ops_modarith_model /\ List.length (map fst ops_modarith_model) = 19%nat.
Proof. split; [exact modarith_table_keys_spec | exact modarith_table_keys_count]. Qed.
Print Assumptions C07_tables_key_set.

(** the typing condition is not decoration *)
Theorem C07_tables_typing_needed :
  run_op7 ops_modarith_model "uint.mul_mod_vartime" false [[MAXW]; [MAXW]; [7; 1]] <>
  run_op7 ops_modarith_spec "uint.mul_mod_vartime" false [[MAXW]; [MAXW]; [7; 1]].
Proof. vm_compute. discriminate. Qed.
Print Assumptions C07_tables_typing_needed.

(** non-vacuity: the lookups find functions, the hypotheses hold and the entries return non-trivial values:
    mul_mod_special at three limbs with c = MAX (the carry + 1 case) and at one limb (reciprocal route) in both profiles;
    the boxed twin at two limbs; mul_mod_vartime with an even two-limb modulus 2^127 + 11; the trait with p = 0 panics
    in both tables; c = 0 at one limb is outside the spec domain (the model reports the zero-divisor panic) *)
Example C07_tables_full_nonvacuous :
  run_op7 ops_modarith_model "uint.mul_mod_special" false [[0; MAXW - 1; MAXW]; [0; MAXW - 1; MAXW]; [MAXW]] = Val [[1; 2; 1]] /\
  run_op7 ops_modarith_spec "uint.mul_mod_special" false [[0; MAXW - 1; MAXW]; [0; MAXW - 1; MAXW]; [MAXW]] = Val [[1; 2; 1]] /\
  run_op7 ops_modarith_model "uint.mul_mod_special" true [[MAXW - 7]; [MAXW - 9]; [5]] = Val [[15]] /\
  run_op7 ops_modarith_spec "uint.mul_mod_special" true [[MAXW - 7]; [MAXW - 9]; [5]] = Val [[15]] /\
  run_op7 ops_modarith_model "boxed.mul_mod_special" false [[MAXW - 7; MAXW]; [MAXW - 9; MAXW]; [3]] = Val [[35; 0]] /\
  run_op7 ops_modarith_spec "boxed.mul_mod_special" false [[MAXW - 7; MAXW]; [MAXW - 9; MAXW]; [3]] = Val [[35; 0]] /\
  run_op7 ops_modarith_model "uint.mul_mod_vartime" false [[MAXW; 5]; [MAXW; 9]; [11; 2 ^ 63]] = Val [[MAXW - 1307; 2 ^ 63 - 17]] /\
  run_op7 ops_modarith_spec "uint.mul_mod_vartime" false [[MAXW; 5]; [MAXW; 9]; [11; 2 ^ 63]] = Val [[MAXW - 1307; 2 ^ 63 - 17]] /\
  ty_same3 [[MAXW; 5]; [MAXW; 9]; [11; 2 ^ 63]] = true /\
  run_op7 ops_modarith_model "uint.mul_mod_trait" false [[MAXW; 5]; [MAXW; 9]; [0; 0]] = PanicV /\
  run_op7 ops_modarith_spec "uint.mul_mod_trait" false [[MAXW; 5]; [MAXW; 9]; [0; 0]] = PanicV /\
  run_op7 ops_modarith_model "uint.mul_mod_special" false [[1]; [2]; [0]] = PanicV /\
  run_op7 ops_modarith_spec "uint.mul_mod_special" false [[1]; [2]; [0]] = Unsupported /\
  run_op7 ops_modarith_model "no.such.key" false [[1]] = Unsupported.
Proof.
  (* the four Val pairs: the spec entry is evaluated (one residue on integers), the model entry follows from the table
     theorem of its key; the panic / unsupported entries are evaluated directly (no arithmetic is reached) *)
  do 4 (apply and_assoc; split;
    [apply run_both;
       [apply modarith_tables_agree; [apply In_keys | apply wf_args_b | ]; reflexivity | vm_compute; reflexivity]|]).
  split; [reflexivity|].
  rewrite tbl_uint_mul_mod_trait_full by first [apply wf_args_b; reflexivity | reflexivity].
  vm_compute. repeat split.
Qed.
