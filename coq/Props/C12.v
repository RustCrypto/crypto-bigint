(** C12 -- NonZero<T> and Odd<T> (T in Limb, Uint<N>, Int<N>, BoxedUint) can never hold an invalid value.
    Short proofs stand here; longer ones are lemmas of Proofs/Wrappers*P.v cited by [exact].

    Model/Wrappers.v has one entry [pentry] per PRODUCER -- per way the safe public API hands out a wrapper value
    (tools/scan_producers.py lists them from the source, tools/vlib/c12.py ties every one of them to an entry):
    [pe_model] follows the Rust code, [pe_spec] is the documented result on plain integers, [pe_out] the wrapper type
    returned, [pe_nout] how many leading components of the result are wrappers, [pe_ins] which arguments are
    wrappers themselves, [pe_bytes] which are byte / character strings.  A value is its little-endian limb list
    of ANY length; [valid WNonZero v] is [eval v <> 0], [valid WOdd v] is [Z.odd (eval v) = true].
    [dom p args]: the arguments are words, the byte arguments are bytes, the wrapper arguments are valid. *)
From CB Require Import Model.Limbs Model.AddSub Model.Cmp Model.Conv Model.Rand Model.Wrappers
  Proofs.WordP Proofs.LimbsP Proofs.ConvDigitsP Proofs.RandMiscP
  Proofs.WrappersP Proofs.WrappersValidP Proofs.WrappersTablesP Proofs.WrappersOrderP.
From Coq Require Import ZArith List String.
Import ListNotations.
Open Scope Z_scope. Open Scope list_scope.
Notation length := List.length.

(* ================================================================== the invariant, producer by producer *)

(** producer_valid: whatever a producer of the table returns as a wrapper is well formed and valid
    (non-zero, resp. odd) -- for every producer, every limb count, every argument value, byte string and RNG stream;
    by cases over the table with one lemma per producer (Proofs/WrappersValidP.v) *)
Theorem C12_producer_valid : forall p dbg args vs, In p producers -> dom p args ->
  run_producer p dbg args = Val vs -> Forall (out_ok (pe_out p)) (firstn (pe_nout p) vs).
Proof. exact producer_valid. Qed.
Print Assumptions C12_producer_valid.

(** every call history: the set of obtainable wrapper values is the least set closed under the producers (wrapper
    arguments of a call must themselves be obtainable); none of its NonZero members is zero, none of its Odd members even *)
Theorem C12_obtainable_valid : forall w v, obtainable w v -> wf v /\ valid w v.
Proof. exact obtainable_valid. Qed.
Print Assumptions C12_obtainable_valid.

(** hence no consumer ever observes a zero divisor or an even / zero modulus *)
Theorem C12_no_zero_divisor : forall v, obtainable WNonZero v -> eval v <> 0.
Proof. intros v H. exact (proj2 (obtainable_valid WNonZero v H)). Qed.
Print Assumptions C12_no_zero_divisor.
Theorem C12_no_even_modulus : forall v, obtainable WOdd v -> Z.odd (eval v) = true /\ eval v <> 0.
Proof.
  intros v H. pose proof (proj2 (obtainable_valid WOdd v H)) as Ho. cbn [valid] in Ho. split; [assumption | apply odd_nonzero; assumption].
Qed.
Print Assumptions C12_no_even_modulus.

(* ================================================================== the gates are exact (valid <-> accepted) *)

(** NonZero::new / to_nz / new_unwrap, Odd::new / to_odd: accepted exactly for the valid values, unchanged *)
Theorem C12_nonzero_new_exact : forall a, wf a ->
  nz_new_uint a = (if eval a =? 0 then NoneV else Val [a]) /\
  nz_new_boxed a = (if eval a =? 0 then NoneV else Val [a]) /\
  nz_to_nz_uint a = (if eval a =? 0 then NoneV else Val [a]) /\
  nz_new_unwrap_uint a = (if eval a =? 0 then PanicV else Val [a]).
Proof.
  intros a H. split; [exact (nz_new_uint_eq a H)|]. split; [exact (nz_new_boxed_eq a H)|].
  split; [exact (nz_to_nz_uint_eq a H) | exact (nz_new_unwrap_uint_eq a H)].
Qed.
Print Assumptions C12_nonzero_new_exact.

Theorem C12_nonzero_limb_exact : forall x, is_word x ->
  nz_new_limb x = (if x =? 0 then NoneV else Val [[x]]) /\
  nz_to_nz_limb x = (if x =? 0 then NoneV else Val [[x]]) /\
  nz_new_unwrap_limb x = (if x =? 0 then PanicV else Val [[x]]).
Proof.
  intros x H. split; [exact (nz_new_limb_eq x H)|]. split; [exact (nz_to_nz_limb_eq x H) | exact (nz_new_unwrap_limb_eq x H)].
Qed.
Print Assumptions C12_nonzero_limb_exact.

Theorem C12_odd_new_exact : forall a, wf a ->
  wodd_new a = (if Z.odd (eval a) then Val [a] else NoneV) /\
  wodd_to_odd a = (if Z.odd (eval a) then Val [a] else NoneV) /\
  wodd_to_odd_unwrap a = (if Z.odd (eval a) then Val [a] else PanicV).
Proof.
  intros a H. split; [exact (wodd_new_eq a H)|]. split; [exact (wodd_to_odd_eq a H) | exact (wodd_to_odd_unwrap_eq a H)].
Qed.
Print Assumptions C12_odd_new_exact.

(* ================================================================== Default *)

(** REFUTED on the unrepaired tree: the derived Default of Odd<T> wraps T::default() = 0, an even value, for every
    kind and width (finding F3a; repaired by tools/fix_C12_1.diff: impl<T: Constants> Default for Odd<T> = ONE) *)
Theorem C12_odd_default_derived_refuted : forall k n, ~ valid WOdd (odd_default_derived k n).
Proof.
  intros k n. unfold odd_default_derived. cbn [valid]. destruct (k =? 0); [cbn; discriminate|]. rewrite eval_zeros. cbn. discriminate.
Qed.
Print Assumptions C12_odd_default_derived_refuted.

(** the repaired Default (and NonZero's): the value 1 at every kind / width that exists *)
Theorem C12_default_is_one : forall k n m, wsp_kind_n k n = Some m ->
  w_default k n = to_limbs m 1 /\ wf (w_default k n) /\ eval (w_default k n) = 1.
Proof. intros k n m H. split; [exact (w_one_eq k n m H) | exact (eval_w_one k n m H)]. Qed.
Print Assumptions C12_default_is_one.

(* ================================================================== byte order *)

(** decoder_order: NonZero::from_le_* returns the little-endian, from_be_* the big-endian positional value of the
    bytes, [none] exactly for the all-zero string, and nothing else is accepted *)
Theorem C12_decoder_order_bytes : forall n bs r, wfd 256 bs ->
  (nz_from_le_bytes n bs = Val [r] -> length bs = (8 * n)%nat /\ length r = n /\ eval r = le_value bs /\ eval r <> 0) /\
  (nz_from_be_bytes n bs = Val [r] -> length bs = (8 * n)%nat /\ length r = n /\ eval r = be_value bs /\ eval r <> 0) /\
  (nz_from_le_bytes n bs = NoneV -> length bs = (8 * n)%nat /\ le_value bs = 0) /\
  (nz_from_be_bytes n bs = NoneV -> length bs = (8 * n)%nat /\ be_value bs = 0).
Proof.
  intros n bs r Hw. rewrite nz_from_le_bytes_eq, nz_from_be_bytes_eq by assumption.
  destruct (nz_gate_order n _ _ _ r (evalb_bytes_bound n bs Hw)) as [L1 L2].
  destruct (nz_gate_order n _ _ _ r (rev_bytes_bound n bs Hw)) as [B1 B2].
  exact (conj L1 (conj B1 (conj L2 B2))).
Qed.
Print Assumptions C12_decoder_order_bytes.

Theorem C12_decoder_order_limb : forall bs r, wfd 256 bs ->
  (nz_limb_from_le_bytes bs = Val [r] -> length bs = 8%nat /\ eval r = le_value bs /\ eval r <> 0) /\
  (nz_limb_from_be_bytes bs = Val [r] -> length bs = 8%nat /\ eval r = be_value bs /\ eval r <> 0).
Proof.
  intros bs r Hw. rewrite nz_limb_from_le_bytes_eq, nz_limb_from_be_bytes_eq by assumption.
  destruct (nz_gate_order 1 _ _ _ r (evalb_bytes_bound 1 bs Hw)) as [L _].
  destruct (nz_gate_order 1 _ _ _ r (rev_bytes_bound 1 bs Hw)) as [R _].
  split; intros E; [destruct (L E) as (? & _ & ?) | destruct (R E) as (? & _ & ?)]; auto.
Qed.
Print Assumptions C12_decoder_order_limb.

(** Odd::from_be_hex / from_le_hex: exactly 16 n hex digits [ds] (in string order); big-endian = the base-16 numeral,
    little-endian = the byte pairs least significant byte first; accepted only when that value is odd *)
Theorem C12_decoder_order_hex : forall n cs r, wfd 256 cs ->
  (odd_of_be_hex n cs = Val [r] ->
     length cs = (16 * n)%nat /\ exists ds, hexvals cs = Some ds /\ length r = n /\
     eval r = evalb 16 (rev ds) /\ Z.odd (eval r) = true) /\
  (odd_of_le_hex n cs = Val [r] ->
     length cs = (16 * n)%nat /\ exists ds, hexvals cs = Some ds /\ length r = n /\
     eval r = evalb 256 (nib_pairs ds) /\ Z.odd (eval r) = true).
Proof. intros n cs r Hw. split; [exact (odd_hex_order false n cs r Hw) | exact (odd_hex_order true n cs r Hw)]. Qed.
Print Assumptions C12_decoder_order_hex.

(** Deserialize: the (bincode-framed) payload is little-endian; zero / even payloads are rejected *)
Theorem C12_decoder_order_serde : forall n bs r, wfd 256 bs ->
  (nz_serde_uint n bs = Val [r] ->
     evalb 256 (firstn 8 bs) = Z.of_nat (8 * n) /\ eval r = le_value (firstn (8 * n) (skipn 8 bs)) /\ eval r <> 0) /\
  (odd_serde_uint n bs = Val [r] ->
     evalb 256 (firstn 8 bs) = Z.of_nat (8 * n) /\ eval r = le_value (firstn (8 * n) (skipn 8 bs)) /\ Z.odd (eval r) = true).
Proof.
  intros n bs r Hw. unfold le_value. rewrite nz_serde_uint_eq, odd_serde_uint_eq by assumption.
  destruct (uint_serde_de n bs) as [[|r0 [|? ?]]| | | |] eqn:Es; try (split; intros E; discriminate E).
  destruct (ConvP.serde_de_strict n bs r0 Hw Es) as (_ & Hlen & _ & _ & Her). split.
  - destruct (Z.eqb_spec (eval r0) 0); [discriminate|]. intros E. assert (r = r0) by congruence. subst. auto.
  - destruct (Z.odd (eval r0)) eqn:Eo; [|discriminate]. intros E. assert (r = r0) by congruence. subst. auto.
Qed.
Print Assumptions C12_decoder_order_serde.

(* ================================================================== selection, random generation *)

(** select_valid: conditional selection / swap of two valid wrappers of the same width, for either choice *)
Theorem C12_select_valid : forall w a b c vs, wf a -> wf b -> length a = length b -> valid w a -> valid w b ->
  w_select a b (b2z c) = Val vs -> Forall (out_ok w) (firstn 1 vs).
Proof. exact select_valid. Qed.
Print Assumptions C12_select_valid.
Theorem C12_swap_valid : forall w a b c vs, wf a -> wf b -> length a = length b -> valid w a -> valid w b ->
  w_swap a b (b2z c) = Val vs -> Forall (out_ok w) (firstn 2 vs).
Proof. exact swap_valid. Qed.
Print Assumptions C12_swap_valid.

(** random_valid: for EVERY stream of RNG words (all-zero prefixes included) a returned sample is valid; an
    exhausted stream is the RNG error, never an invalid value *)
Theorem C12_random_valid_nonzero : forall n ws nw nb v r, (0 < n)%nat -> wf ws ->
  nonzero_uint_random n (Rng ws nw nb) = Some (v, r) -> out_ok WNonZero v.
Proof. exact random_valid_nz. Qed.
Print Assumptions C12_random_valid_nonzero.
Theorem C12_random_valid_odd : forall n ws nw nb v r, (0 < n)%nat -> wf ws ->
  odd_uint_random n (Rng ws nw nb) = Some (v, r) -> out_ok WOdd v.
Proof. exact random_valid_odd. Qed.
Print Assumptions C12_random_valid_odd.
Theorem C12_random_valid_odd_boxed : forall ws nw nb bl v r, wf ws -> 0 <= bl ->
  odd_boxed_random (Rng ws nw nb) bl = Some (v, r) -> out_ok WOdd v.
Proof. exact random_valid_odd_boxed. Qed.
Print Assumptions C12_random_valid_odd_boxed.
(** an all-zero stream never yields a NonZero: the sampler runs out of words *)
Theorem C12_random_all_zero_stream : forall n k nw nb, (0 < n)%nat ->
  nonzero_uint_random n (Rng (zeros k) nw nb) = None.
Proof.
  intros n k nw nb Hn. pose proof (nonzero_uint_random_spec n (zeros k) nw nb Hn (wf_zeros k)) as H.
  unfold sp_nonzero_random in H. rewrite sp_nonzero_loop_zeros in H. unfold RandModP.rnd_agrees in H.
  destruct (nonzero_uint_random n (Rng (zeros k) nw nb)) as [[v [rest nw' nb']]|]; [contradiction | reflexivity].
Qed.
Print Assumptions C12_random_all_zero_stream.

(** Odd::as_nz_ref (a pointer reinterpretation in the code) is sound: an odd value is not zero *)
Theorem C12_as_nz_ref_sound : forall v, valid WOdd v -> valid WNonZero v.
Proof. exact valid_odd_nz. Qed.
Print Assumptions C12_as_nz_ref_sound.

(* ================================================================== the table theorem: model = spec *)
Theorem C12_model_eq_spec : forall p dbg args, In p producers -> w_wf_args args ->
  pe_spec p dbg args <> Unsupported -> pe_model p dbg args = pe_spec p dbg args.
Proof. exact wrappers_model_eq_spec. Qed.
Print Assumptions C12_model_eq_spec.

(** the op tables used by the correspondence driver are this table (distinct keys) *)
Theorem C12_tables_agree : forall p dbg args, In p producers -> w_wf_args args ->
  lookup (pe_key p) ops_wrappers_model = Some (pe_model p) /\
  lookup (pe_key p) ops_wrappers_spec = Some (pe_spec p) /\
  (pe_spec p dbg args <> Unsupported -> pe_model p dbg args = pe_spec p dbg args).
Proof.
  intros p dbg args Hin Hwf. repeat split.
  - apply lookup_producer; [assumption | apply producer_keys_nodup].
  - apply lookup_producer; [assumption | apply producer_keys_nodup].
  - apply wrappers_model_eq_spec; assumption.
Qed.
Print Assumptions C12_tables_agree.

(* ================================================================== non-vacuity *)
Example C12_ex_new : run_producer pe_w_nz_new_uint false [[0; 5]] = Val [[0; 5]] /\
                     run_producer pe_w_nz_new_uint false [[0; 0]] = NoneV /\
                     run_producer pe_w_odd_new false [[2; 1]] = NoneV /\
                     run_producer pe_w_odd_new false [[3; 0]] = Val [[3; 0]].
Proof. vm_compute. repeat split. Qed.
(* bytes 01 00 .. 00: little-endian 1, big-endian 2^56 *)
Example C12_ex_order : run_producer pe_w_nz_from_le_bytes false [[1; 0; 0; 0; 0; 0; 0; 0]; [1]] = Val [[1]] /\
                       run_producer pe_w_nz_from_be_bytes false [[1; 0; 0; 0; 0; 0; 0; 0]; [1]] = Val [[2 ^ 56]].
Proof. vm_compute. repeat split. Qed.
(* "0200000000000001": big-endian value ...01 is odd, little-endian value 0x0100000000000002 is even *)
Example C12_ex_hex :
  run_producer pe_w_odd_from_be_hex false [[48; 50; 48; 48; 48; 48; 48; 48; 48; 48; 48; 48; 48; 48; 48; 49]; [1]] = Val [[2 * 2 ^ 56 + 1]] /\
  run_producer pe_w_odd_from_le_hex false [[48; 50; 48; 48; 48; 48; 48; 48; 48; 48; 48; 48; 48; 48; 48; 49]; [1]] = PanicV.
Proof. vm_compute. repeat split. Qed.
(* a stream that starts with two rejected (all-zero) blocks *)
Example C12_ex_random : run_producer pe_w_nz_random false [[0; 0; 0; 0; 7; 0]; [2]; [1]] = Val [[7; 0]; [6]; [48]] /\
                        run_producer pe_w_nz_random false [[0; 0; 0; 0]; [2]; [1]] = ErrV 9.
Proof. vm_compute. repeat split. Qed.
Example C12_ex_default : run_producer pe_w_odd_default false [[1]; [2]] = Val [[1; 0]] /\ odd_default_derived 1 2 = [0; 0].
Proof. vm_compute. repeat split. Qed.
Example C12_ex_obtainable : obtainable WOdd [3; 0].
Proof.
  apply (Obt pe_w_odd_new false [[3; 0]] [[3; 0]] [3; 0]).
  - unfold producers. cbn. tauto.
  - repeat constructor; unfold is_word; cbn; try discriminate; reflexivity.
  - constructor.
  - constructor.
  - vm_compute. reflexivity.
  - cbn. left. reflexivity.
Qed.
