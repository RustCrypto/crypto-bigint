(** C15 (continued) -- the glue routes. The correspondence check maps every glue route of the crate (operators by value /
    by reference / assigning on Checked<T> and Wrapping<T>, conversions, serde, formatting and AsRef fronts of the wrapper
    types, trait fronts) to a model op; where no model op of another area describes the route it maps to a key of
    Model/Glue.v. For each of the 23 keys of [ops_glue_model] / [ops_glue_spec], in both profiles and for all
    well-formed argument lists that meet the typing side condition of the key, the model entry (what the Rust code does)
    returns exactly what the spec entry (the documented result in plain Z / list terms) returns.
    [run_tab t k dbg a] = the table lookup of Model/Api.v; [wf_args a] = every limb of every argument is a 64-bit word;
    [gtypedb glue_tbl_ty k a] = the side condition of key k (Proofs/GlueTablesP.v): the two halves of a wide value have
    one limb count (2 keys); the other 21 keys have no side condition ("glue.zero_like_wrapping_boxed" needed a one-limb
    restriction until finding F32 was repaired in /repo 526c7f5). Per-key lemmas in Proofs/GlueTablesP.v. *)
From CB Require Import Model.Limbs Model.Glue Proofs.TotalityP Proofs.GlueTablesP.
From Coq Require Import ZArith List String.
Open Scope Z_scope.
Open Scope string_scope.

Theorem C15_glue_tables_agree : forall k dbg a,
  In k (map fst ops_glue_model) -> wf_args a -> gtypedb glue_tbl_ty k a = true ->
  run_tab ops_glue_spec k dbg a <> Unsupported ->
  run_tab ops_glue_model k dbg a = run_tab ops_glue_spec k dbg a.
Proof. intros k dbg a Hin. exact (glue_all_keys_ok k Hin dbg a). Qed.
Print Assumptions C15_glue_tables_agree.

Theorem C15_glue_tables_key_set :
  map fst ops_glue_spec = map fst ops_glue_model /\ List.length (map fst ops_glue_model) = 23%nat.
Proof. split; reflexivity. Qed.
Print Assumptions C15_glue_tables_key_set.

(** Zero::zero_like / Zero::set_zero on Wrapping<BoxedUint> keep the operand's precision (repaired code, finding F32) *)
Theorem C15_glue_zero_like_wrapping_boxed_keeps_precision :
  run_tab ops_glue_model "glue.zero_like_wrapping_boxed" false [[5; 6]] = Val [[0; 0]] /\
  run_tab ops_glue_spec "glue.zero_like_wrapping_boxed" false [[5; 6]] = Val [[0; 0]].
Proof. split; vm_compute; reflexivity. Qed.
Print Assumptions C15_glue_zero_like_wrapping_boxed_keeps_precision.

(** non-vacuity: the lookups find functions and return non-trivial values *)
Example C15_glue_tables_nonvacuous :
  run_tab ops_glue_model "glue.one" false [[3]] = Val [[1; 0; 0]] /\
  run_tab ops_glue_spec "glue.one" false [[3]] = Val [[1; 0; 0]] /\
  run_tab ops_glue_model "glue.max_boxed" false [[65]] = Val [[MAXW; MAXW]] /\
  run_tab ops_glue_model "glue.from_limb_like" false [[7]; [1; 2; 3]] = Val [[7; 0; 0]] /\
  run_tab ops_glue_model "glue.recip_select" false [[3]; [0]; [1]] = Val [[MAXW]; [0]; [1]] /\
  run_tab ops_glue_spec "glue.recip_default" false [[0]] = Val [[MAXW]; [0]; [1]] /\
  run_tab ops_glue_model "glue.checked_ser" false [[5]; [1]] = Val [[1; 8; 0; 0; 0; 0; 0; 0; 0; 5; 0; 0; 0; 0; 0; 0; 0]] /\
  run_tab ops_glue_model "glue.checked_de" false [[0]; [1]] = NoneV /\
  run_tab ops_glue_model "glue.checked_de" false [[2]; [1]] = ErrV 0 /\
  run_tab ops_glue_model "glue.shl_wide_expect" false [[1]; [0]; [128]] = PanicV /\
  run_tab ops_glue_spec "glue.shl_wide_expect" false [[1]; [0]; [128]] = PanicV /\
  run_tab ops_glue_model "glue.fmt_octal" false [[511]; [1]] = Val [[48; 111; 55; 55; 55]] /\
  run_tab ops_glue_model "no.such.key" false [[1]] = Unsupported.
Proof. vm_compute. repeat split; reflexivity. Qed.
