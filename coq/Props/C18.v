(** C18 -- DER and RLP integer codecs are canonical and fail closed.
    Short proofs stand here; longer ones are lemmas of Proofs/Der*P.v, Proofs/RlpCodecP.v cited by [exact].
    Everything quantifies over ALL limb counts n (list lengths), all values and all octet strings.
    Notation: octet strings are lists of byte values, [wfd 256 bs] = "every element in [0, 256)";
    [bev bs] = value of a big-endian string; [eval] little-endian limbs -> Z; [Bn n] = 2^(64 n);
    [res] = Ok v | Er kind | Pn (panic);  decoders take [fx]: false = the code as found, true = the code with
    tools/fix_C18_1.diff (DER) / tools/fix_C18_2.diff (RLP);
    [sp_der_encode x] / [sp_rlp_encode x] = the canonical encodings written with Z.log2, /, mod (Model/Der.v);
    [LEN_MAX] = der's Length::MAX = 2^28 - 1; [USIZE] = 2^64. *)
From CB Require Import Model.Limbs Model.Conv Model.Der Proofs.WordP Proofs.LimbsP Proofs.ConvDigitsP Proofs.ConvBytesP
  Proofs.DerSpecP Proofs.DerCodecP Proofs.DerRoutesP Proofs.RlpCodecP Proofs.DerRefuteP Proofs.DerTablesP.
From Coq Require Import ZArith List String Lia Bool.
Import ListNotations.
Open Scope Z_scope.
Open Scope list_scope.
Notation length := List.length.
(** the k-octet big-endian string of the spec is positional: octet i = floor(x / 256^(k-1-i)) mod 256 *)
Theorem C18_sp_be_positional : forall k x i, (i < Z.to_nat k)%nat ->
  nth i (sp_be k x) 0 = (x / 256 ^ (k - 1 - Z.of_nat i)) mod 256.
Proof. exact sp_be_positional. Qed.
Print Assumptions C18_sp_be_positional.

(** the executable decoding spec of the table is "the value whose canonical encoding is the input" *)
Theorem C18_sp_der_decode_iff : forall n bs v, wfd 256 bs ->
  sp_der_decode n bs = Some v <-> (0 <= v < Bn n /\ bs = sp_der_encode v).
Proof. exact sp_der_decode_iff. Qed.
Print Assumptions C18_sp_der_decode_iff.
Theorem C18_sp_rlp_decode_iff : forall n bs v, wfd 256 bs ->
  sp_rlp_decode n bs = Some v <-> (0 <= v < Bn n /\ bs = sp_rlp_encode v).
Proof. exact sp_rlp_decode_iff. Qed.
Print Assumptions C18_sp_rlp_decode_iff.

(** both canonical encodings are injective (an integer has one encoding, an encoding one integer) *)
Theorem C18_sp_der_encode_injective : forall x y, 0 <= x -> 0 <= y -> sp_der_encode x = sp_der_encode y -> x = y.
Proof. exact sp_der_encode_inj. Qed.
Print Assumptions C18_sp_der_encode_injective.
Theorem C18_sp_rlp_encode_injective : forall x y, 0 <= x -> 0 <= y -> sp_rlp_encode x = sp_rlp_encode y -> x = y.
Proof.
  intros x y Hx Hy E. pose proof (f_equal sp_rlp_header_size E) as Hs. unfold sp_rlp_encode in *.
  rewrite !rlp_header_size_ok in Hs by assumption.
  assert (Ec : skipn (length (sp_rlp_header x)) (sp_rlp_header x ++ sp_rlp_payload x) =
               skipn (length (sp_rlp_header x)) (sp_rlp_header y ++ sp_rlp_payload y)) by (rewrite E; reflexivity).
  rewrite skipn_app_len in Ec by reflexivity. rewrite Hs, skipn_app_len in Ec by reflexivity.
  destruct (payload_spec x Hx) as (_ & _ & <- & _). destruct (payload_spec y Hy) as (_ & _ & <- & _). rewrite Ec.
  reflexivity.
Qed.
Print Assumptions C18_sp_rlp_encode_injective.

(** a DER content is canonical (der_canonb) iff it is non-empty, its sign bit is clear and its first nine bits are
    not all zero -- and then it is THE content of its value *)
Theorem C18_der_canonical_content_spec : forall c, der_canonb c = true <->
  exists b rest, c = b :: rest /\ b < 128 /\ (rest = [] \/ b <> 0 \/ exists d r, rest = d :: r /\ 128 <= d).
Proof.
  intros c. split.
  - destruct c as [|b rest]; [discriminate|]. cbn [der_canonb]. intros H. apply andb_prop in H. destruct H as [H1 H2].
    apply Z.ltb_lt in H1. exists b, rest. repeat split; try assumption. destruct rest as [|d r]; [left; reflexivity|].
    right. apply orb_prop in H2. destruct H2 as [H2|H2].
    + left. apply negb_true_iff in H2. apply Z.eqb_neq in H2. assumption.
    + right. exists d, r. apply Z.leb_le in H2. auto.
  - intros (b & rest & -> & Hb & Hr). cbn [der_canonb]. rewrite ltb_true by assumption. cbn [andb].
    destruct rest as [|d r]; [reflexivity|]. destruct Hr as [Hr | [Hr | (d' & r' & E & Hd)]]; [discriminate | |].
    + rewrite eqb_false by assumption. reflexivity.
    + apply cons_inj in E. destruct E as [<- <-]. rewrite leb_true by assumption. apply orb_true_r.
Qed.
Print Assumptions C18_der_canonical_content_spec.
Theorem C18_der_canonical_content_unique : forall c, wfd 256 c -> der_canonb c = true -> sp_der_content (bev c) = c.
Proof. exact canon_unique. Qed.
Print Assumptions C18_der_canonical_content_unique.
(** encoder = specification, for every width the der crate can frame (1 + 5 + 8N + 1 <= Length::MAX) *)
Theorem C18_der_encode_spec : forall ls, wf ls -> (1 <= length ls)%nat -> 8 * Z.of_nat (length ls) + 7 <= LEN_MAX ->
  der_encode ls = Ok (sp_der_encode (eval ls)).
Proof. exact der_encode_ok. Qed.
Print Assumptions C18_der_encode_spec.

(** minimal: tag 02, minimal definite length, content = canonical two's complement of the non-negative value *)
Theorem C18_der_encode_minimal : forall ls, wf ls -> (1 <= length ls)%nat -> 8 * Z.of_nat (length ls) + 7 <= LEN_MAX ->
  exists c, der_encode ls = Ok (2 :: sp_der_length (lenZ c) ++ c) /\ wfd 256 c /\ bev c = eval ls /\ der_canonb c = true.
Proof.
  intros ls Hw Hn Hb. pose proof (eval_bounds ls Hw) as Hx.
  destruct (content_canon (eval ls) ltac:(lia)) as (A & B' & C & D).
  exists (sp_der_content (eval ls)). rewrite der_encode_ok by assumption. rewrite D. repeat split; assumption.
Qed.
Print Assumptions C18_der_encode_minimal.
Theorem C18_der_length_minimal : forall k, 0 <= k <= LEN_MAX ->
  (k < 128 /\ sp_der_length k = [k]) \/
  (128 <= k /\ exists lb, sp_der_length k = (128 + lenZ lb) :: lb /\ wfd 256 lb /\ lb <> [] /\ no_lead0 lb /\ bev lb = k).
Proof.
  intros k Hk. unfold sp_der_length. destruct (Z.ltb_spec k 128); [left; auto|]. right. split; [assumption|].
  exists (sp_be (sp_octets k) k). pose proof (octets_ge128 k H). rewrite lenZ_sp_be by lia. repeat split.
  - apply wfd_sp_be.
  - intros E. apply (f_equal (@length Z)) in E. rewrite length_sp_be in E. cbn [length] in E. lia.
  - apply minimal_no_lead0. lia.
  - apply bev_minimal. lia.
Qed.
Print Assumptions C18_der_length_minimal.

(** round trip (holds for the code as found and for the repaired code) *)
Theorem C18_der_roundtrip : forall fx ls, wf ls -> (1 <= length ls)%nat -> 8 * Z.of_nat (length ls) + 7 <= LEN_MAX ->
  exists bs, der_encode ls = Ok bs /\ der_decode fx (length ls) bs = Ok ls.
Proof.
  intros fx ls Hw Hn Hb. exists (sp_der_encode (eval ls)). split; [apply der_encode_ok; assumption|].
  apply der_roundtrip; try assumption. apply width_total_len; assumption.
Qed.
Print Assumptions C18_der_roundtrip.

(** canonical: whatever decodes is exactly what the encoder writes for the decoded value (so: unique, injective) *)
Theorem C18_der_canonical : forall fx n bs v, wfd 256 bs -> der_decode fx n bs = Ok v -> der_encode v = Ok bs.
Proof. exact der_canonical. Qed.
Print Assumptions C18_der_canonical.
Theorem C18_der_decode_sound : forall fx n bs v, wfd 256 bs -> der_decode fx n bs = Ok v ->
  wf v /\ length v = n /\ 0 <= eval v < Bn n /\ v = to_limbs n (eval v) /\ bs = sp_der_encode (eval v) /\ lenZ bs <= LEN_MAX.
Proof. exact der_decode_sound. Qed.
Print Assumptions C18_der_decode_sound.
Theorem C18_der_decode_injective : forall fx n bs1 bs2 v, wfd 256 bs1 -> wfd 256 bs2 ->
  der_decode fx n bs1 = Ok v -> der_decode fx n bs2 = Ok v -> bs1 = bs2.
Proof.
  intros fx n bs1 bs2 v H1 H2 E1 E2. apply der_decode_sound in E1, E2; try assumption.
  destruct E1 as (_ & _ & _ & _ & -> & _). destruct E2 as (_ & _ & _ & _ & -> & _). reflexivity.
Qed.
Print Assumptions C18_der_decode_injective.
(** complete: every canonical encoding of a value that fits decodes to it *)
Theorem C18_der_decode_complete : forall fx n x, (1 <= n)%nat -> 0 <= x < Bn n -> lenZ (sp_der_encode x) <= LEN_MAX ->
  der_decode fx n (sp_der_encode x) = Ok (to_limbs n x).
Proof. exact der_decode_complete. Qed.
Print Assumptions C18_der_decode_complete.

(** THE DEFECT (F8): in the code as found, the canonical encoding of ANY value that does not fit the target panics *)
Theorem C18_der_fail_closed_refuted :
  exists n bs, Forall (fun c => 0 <= c < 256) bs /\ der_decode false n bs = Pn.
Proof.
  exists 1%nat, [2; 9; 1; 0; 0; 0; 0; 0; 0; 0; 0]. split.
  - repeat constructor; cbv; intuition discriminate.
  - vm_compute. reflexivity.
Qed.
Print Assumptions C18_der_fail_closed_refuted.
Theorem C18_der_oversize_panics_before_fix : forall n x, Bn n <= x -> lenZ (sp_der_encode x) <= LEN_MAX ->
  der_decode false n (sp_der_encode x) = Pn.
Proof. intros. apply der_decode_oversize; assumption. Qed.
Print Assumptions C18_der_oversize_panics_before_fix.
(** ... repaired: it is the error Length *)
Theorem C18_der_oversize_err : forall n x, Bn n <= x -> lenZ (sp_der_encode x) <= LEN_MAX ->
  der_decode true n (sp_der_encode x) = Er E_Length.
Proof. intros. apply der_decode_oversize; assumption. Qed.
Print Assumptions C18_der_oversize_err.
(** fail closed (repaired code), for EVERY octet string: the canonical encoding of a value that fits, or an error *)
Theorem C18_der_fail_closed : forall n bs, wfd 256 bs ->
  (exists v, der_decode true n bs = Ok v /\ wf v /\ length v = n /\ bs = sp_der_encode (eval v)) \/
  (exists e, der_decode true n bs = Er e).
Proof. exact der_fail_closed. Qed.
Print Assumptions C18_der_fail_closed.
Theorem C18_der_never_panics : forall n bs, der_decode true n bs <> Pn.
Proof. exact der_decode_nopn. Qed.
Print Assumptions C18_der_never_panics.
(** the repair changes nothing else *)
Theorem C18_der_fix_conservative : forall n bs, wfd 256 bs -> der_decode false n bs <> Pn ->
  der_decode true n bs = der_decode false n bs.
Proof.
  intros n bs Hw H. unfold der_decode in *. destruct (reader_new bs) as [r| |]; cbn [bind] in *; try reflexivity.
  unfold uint_decode in *. destruct (header_decode r) as [[[tag len] r1]| |]; cbn [bind] in *; try reflexivity.
  destruct (tag =? TAG_INTEGER); [|reflexivity].
  unfold uint_decode_value in *. destruct (uintref_decode_value r1 len) as [p| |]; cbn [bind] in *; try reflexivity.
  rewrite try_from_fix_conservative; [reflexivity|].
  intros E. rewrite E in H. cbn [bind] in H. apply H. reflexivity.
Qed.
Print Assumptions C18_der_fix_conservative.
(** TryFrom<AnyRef> accepts the same strings with the same result; no DER route panics *)
Theorem C18_der_from_any_same : forall n bs v, wfd 256 bs -> (der_from_any true n bs = Ok v <-> der_decode true n bs = Ok v).
Proof. exact der_from_any_same. Qed.
Print Assumptions C18_der_from_any_same.
Theorem C18_der_routes_never_panic : forall n bs tb hlen,
  der_from_any true n bs <> Pn /\ der_from_any_parts true n tb bs <> Pn /\ der_from_uintref true n bs <> Pn /\
  der_decode_value true n hlen bs <> Pn.
Proof.
  intros. repeat split; [apply der_from_any_nopn | apply der_from_any_parts_nopn | apply der_from_uintref_nopn | apply der_decode_value_nopn].
Qed.
Print Assumptions C18_der_routes_never_panic.
Theorem C18_rlp_encode_spec : forall ls, wf ls -> 8 * Z.of_nat (length ls) < 4294967296 ->
  rlp_encode ls = sp_rlp_encode (eval ls).
Proof. exact rlp_encode_spec. Qed.
Print Assumptions C18_rlp_encode_spec.
(** minimal: payload without leading zero; header one of: none (single octet < 0x80), 0x80+len (len <= 55, not a single
    octet < 0x80), 0xb7+lenlen followed by the length without leading zero, and then the length exceeds 55 *)
Theorem C18_rlp_encode_minimal : forall ls, wf ls -> 8 * Z.of_nat (length ls) < 4294967296 ->
  exists hdr d, rlp_encode ls = hdr ++ d /\ wfd 256 d /\ no_lead0 d /\ bev d = eval ls /\ rlp_shape true hdr d.
Proof.
  intros ls Hw Hb. pose proof (eval_bounds ls Hw) as Hx. rewrite rlp_encode_spec by assumption.
  destruct (payload_spec (eval ls) ltac:(lia)) as (A & B' & C & D).
  exists (sp_rlp_header (eval ls)), (sp_rlp_payload (eval ls)). repeat split; try assumption.
  apply spec_shape; [lia|]. rewrite Bn_256 in Hx.
  pose proof (sp_octets_le (eval ls) (Z.of_nat (8 * length ls)) ltac:(lia) ltac:(lia) ltac:(lia)). unfold USIZE. lia.
Qed.
Print Assumptions C18_rlp_encode_minimal.
Theorem C18_rlp_roundtrip : forall fx ls, wf ls -> 8 * Z.of_nat (length ls) < 4294967296 ->
  rlp_decode fx (length ls) (rlp_encode ls) = Ok ls.
Proof. exact rlp_roundtrip. Qed.
Print Assumptions C18_rlp_roundtrip.

(** THE DEFECTS (F28) of the code as found: a long-form prefix before a short payload, and trailing octets, are accepted *)
Theorem C18_rlp_canonical_refuted_long_form :
  rlp_decode false 1 [184; 1; 5] = Ok [5] /\ rlp_encode [5] = [5] /\ rlp_decode false 1 [5] = Ok [5].
Proof. vm_compute. auto. Qed.
Print Assumptions C18_rlp_canonical_refuted_long_form.
Theorem C18_rlp_canonical_refuted_trailing :
  rlp_decode false 1 [5; 0] = Ok [5] /\ rlp_encode [5] = [5].
Proof. vm_compute. auto. Qed.
Print Assumptions C18_rlp_canonical_refuted_trailing.

(** repaired: canonical, injective *)
Theorem C18_rlp_canonical : forall n bs v, wfd 256 bs -> 8 * Z.of_nat n < 4294967296 ->
  rlp_decode true n bs = Ok v -> rlp_encode v = bs.
Proof. exact rlp_canonical. Qed.
Print Assumptions C18_rlp_canonical.
Theorem C18_rlp_decode_sound : forall n bs v, wfd 256 bs -> rlp_decode true n bs = Ok v ->
  wf v /\ length v = n /\ 0 <= eval v < Bn n /\ v = to_limbs n (eval v) /\ bs = sp_rlp_encode (eval v).
Proof. exact rlp_decode_sound. Qed.
Print Assumptions C18_rlp_decode_sound.
Theorem C18_rlp_decode_injective : forall n bs1 bs2 v, wfd 256 bs1 -> wfd 256 bs2 ->
  rlp_decode true n bs1 = Ok v -> rlp_decode true n bs2 = Ok v -> bs1 = bs2.
Proof.
  intros n bs1 bs2 v H1 H2 E1 E2. apply rlp_decode_sound in E1, E2; try assumption.
  destruct E1 as (_ & _ & _ & _ & ->). destruct E2 as (_ & _ & _ & _ & ->). reflexivity.
Qed.
Print Assumptions C18_rlp_decode_injective.
Theorem C18_rlp_decode_complete : forall fx n x, 0 <= x < Bn n -> lenZ (sp_rlp_encode x) < USIZE ->
  rlp_decode fx n (sp_rlp_encode x) = Ok (to_limbs n x).
Proof. exact rlp_decode_complete. Qed.
Print Assumptions C18_rlp_decode_complete.
(** oversize is the error RlpIsTooBig (before and after the repair) *)
Theorem C18_rlp_oversize_err : forall fx n x, Bn n <= x -> lenZ (sp_rlp_encode x) < USIZE ->
  rlp_decode fx n (sp_rlp_encode x) = Er R_IsTooBig.
Proof. exact rlp_oversize_err. Qed.
Print Assumptions C18_rlp_oversize_err.
(** fail closed, for EVERY octet string *)
Theorem C18_rlp_fail_closed : forall n bs, wfd 256 bs ->
  (exists v, rlp_decode true n bs = Ok v /\ wf v /\ length v = n /\ bs = sp_rlp_encode (eval v)) \/
  (exists e, rlp_decode true n bs = Er e).
Proof.
  intros n bs Hw. destruct (rlp_decode true n bs) as [v|e|] eqn:E.
  - left. exists v. destruct (rlp_decode_sound n bs v Hw E) as (A & B' & _ & _ & D). auto.
  - right. exists e. reflexivity.
  - exfalso. exact (rlp_decode_nopn true n bs E).
Qed.
Print Assumptions C18_rlp_fail_closed.
Theorem C18_rlp_never_panics : forall fx n bs, rlp_decode fx n bs <> Pn.
Proof. exact rlp_decode_nopn. Qed.
Print Assumptions C18_rlp_never_panics.
(** the repair only rejects more *)
Theorem C18_rlp_fix_conservative : forall n bs v, rlp_decode true n bs = Ok v -> rlp_decode false n bs = Ok v.
Proof. intros n bs v. unfold rlp_decode. intros H. inv_bind H. destruct (negb _); [discriminate | assumption]. Qed.
Print Assumptions C18_rlp_fix_conservative.

(** inside a list (Rlp::val_at): the first item is cut out by its header and decoded the same way, whatever follows *)
Theorem C18_rlp_list_item : forall fx n x rest, 0 <= x -> lenZ (sp_rlp_encode x ++ rest) < USIZE ->
  rlp_decode_item fx n (sp_rlp_encode x ++ rest) = rlp_decode fx n (sp_rlp_encode x).
Proof. exact rlp_decode_item_run. Qed.
Print Assumptions C18_rlp_list_item.
Theorem C18_tables_agree : forall dbg a k, In k der_keys -> run_op18 ops_der_spec k dbg a <> Unsupported ->
  run_op18 ops_der_model k dbg a = run_op18 ops_der_spec k dbg a.
Proof. exact tables_agree_der. Qed.
Print Assumptions C18_tables_agree.
Example C18_ex_der_encode : der_encode [18446744073709551615] = Ok [2; 9; 0; 255; 255; 255; 255; 255; 255; 255; 255].
Proof. vm_compute. reflexivity. Qed.
Example C18_ex_der_decode : der_decode true 1 [2; 9; 0; 255; 255; 255; 255; 255; 255; 255; 255] = Ok [18446744073709551615].
Proof. vm_compute. reflexivity. Qed.
Example C18_ex_der_oversize : der_decode true 1 [2; 9; 1; 0; 0; 0; 0; 0; 0; 0; 0] = Er E_Length /\
                              der_decode false 1 [2; 9; 1; 0; 0; 0; 0; 0; 0; 0; 0] = Pn.
Proof. vm_compute. repeat split. Qed.
Example C18_ex_der_noncanonical : der_decode true 1 [2; 2; 0; 127] = Er E_Noncanonical /\ der_decode true 1 [2; 1; 128] = Er E_Value /\
                                  der_decode true 1 [2; 129; 1; 5] = Er E_Length /\ der_decode true 1 [2; 1; 5; 0] = Er E_TrailingData.
Proof. vm_compute. repeat split. Qed.
Example C18_ex_rlp : rlp_encode [0] = [128] /\ rlp_encode [1024] = [130; 4; 0] /\ rlp_decode true 1 [130; 4; 0] = Ok [1024] /\
                     rlp_decode true 1 [0] = Er R_InvalidIndirection /\ rlp_decode true 1 [184; 1; 5] = Er R_InvalidIndirection /\
                     rlp_decode true 1 [5; 0] = Er R_IsTooBig.
Proof. vm_compute. repeat split. Qed.
Example C18_ex_tables : run_op18 ops_der_spec "der.from_der" false [[2; 1; 5]; [1]] = Val [[5]] /\
                        run_op18 ops_der_model "der.from_der" false [[2; 1; 5]; [1]] = Val [[5]].
Proof. vm_compute. repeat split. Qed.
