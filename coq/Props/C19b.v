(** C19 (continued) — the two op tables of Model/Rand.v that the correspondence check evaluates agree on EVERY key.
    For each of the 11 keys of [ops_rand_model] / [ops_rand_spec] (Random for Limb / Uint; RandomBits for Uint and
    BoxedUint with the precision / length errors, in the returning, panicking and error-field-reporting modes; RandomMod
    for Uint, BoxedUint and Limb; NonZero<Uint>, NonZero residue, Odd<Uint>, Odd<BoxedUint>), in both profiles and for
    ALL well-formed argument lists, the model entry (limb / byte-level model of the Rust samplers on a replay stream,
    including the outcome plumbing: value, words consumed, bytes requested, RNG exhaustion as panic or Err(9), error
    codes and fields) returns exactly what the spec entry (plain Z arithmetic on the stream) returns, wherever the spec
    entry is defined.
    [run_tab t k dbg a] = the table lookup of Model/Api.v; [wf_args a] = every limb of every argument is a 64-bit word.
    This area needs NO typing side condition: limb counts, bit lengths, precisions and the fallible / mode selectors
    may be arbitrary words.  [rand_dom k a] (Proofs/RandTablesP.v) is the exact domain of the spec entries: a non-zero
    modulus; at least one limb for NonZero / Odd<Uint>; precision < 2^32 for BoxedUint RandomBits once the length check
    passed; 1 <= bit_length < 2^32 for Odd<BoxedUint>.
    Short proofs stand here; the others are lemmas of Proofs/RandTablesP.v cited by [exact]. *)
From CB Require Import Model.Limbs Model.AddSub Model.Rand Proofs.TotalityP Proofs.RandTablesP.
From Coq Require Import ZArith List String.
Open Scope Z_scope.
Open Scope string_scope.

(** every key of the C11 key list [rand_keys], which is the whole key set of both tables (C19_tables_key_set) *)
Theorem C19_tables_agree : forall k dbg a,
  In k rand_keys -> wf_args a -> run_tab ops_rand_spec k dbg a <> Unsupported ->
  run_tab ops_rand_model k dbg a = run_tab ops_rand_spec k dbg a.
Proof. exact rand_tables_agree. Qed.
Print Assumptions C19_tables_agree.

(** the same with the key list taken from the table itself: nothing is left out *)
Theorem C19_tables_agree_table_keys : forall k dbg a,
  In k (map fst ops_rand_model) -> wf_args a -> run_tab ops_rand_spec k dbg a <> Unsupported ->
  run_tab ops_rand_model k dbg a = run_tab ops_rand_spec k dbg a.
Proof. rewrite rand_table_keys. exact rand_tables_agree. Qed.
Print Assumptions C19_tables_agree_table_keys.

Theorem C19_tables_key_set :
  map fst ops_rand_model = rand_keys /\ map fst ops_rand_spec = rand_keys /\ List.length rand_keys = 11%nat.
Proof. split; [exact rand_table_keys|]. split; [exact rand_table_keys_spec | exact rand_table_keys_count]. Qed.
Print Assumptions C19_tables_key_set.

(** the domain hypothesis of C19_tables_agree, made explicit: the spec entry is defined exactly on [rand_dom] *)
Theorem C19_tables_spec_domain : forall k dbg a, In k rand_keys ->
  (run_tab ops_rand_spec k dbg a <> Unsupported <-> rand_dom k a = true).
Proof. exact rand_spec_defined_iff. Qed.
Print Assumptions C19_tables_spec_domain.

(** non-vacuity: the lookups find functions and return non-trivial values.  RandomMod with the two-limb modulus
    3 * 2^64 + 1: the first candidate is rejected by the full comparison, the second accepted after 4 words = 32 bytes;
    an all-ones stream is exhausted: panic in the infallible form, Err(9) in the try_ form.  A 96-bit RandomBits request
    reads 8 + 4 bytes; a precision mismatch reported with its fields (mode 2); bit_length > precision panics in the
    panicking wrapper.  Odd<BoxedUint> with 70 bits forces bit 0 and panics on a one-word stream; bit_length 0 is
    outside the documented domain (the model returns the "odd" value 1 of a 0-bit request).  Limb::random_mod 256
    requests 2 bytes per attempt.  NonZero skips the all-zero block.  A zero modulus is outside the domain; an unknown
    key is Unsupported *)
Example C19_tables_nonvacuous :
  run_tab ops_rand_model "uint.random_mod" false [[MAXW; 5; 3; 0; 7]; [1; 3]; [0]] = Val [[0; 3]; [4]; [32]] /\
  run_tab ops_rand_spec "uint.random_mod" false [[MAXW; 5; 3; 0; 7]; [1; 3]; [0]] = Val [[0; 3]; [4]; [32]] /\
  run_tab ops_rand_model "boxed.random_mod" false [[MAXW; MAXW; MAXW]; [1; 3]; [0]] = PanicV /\
  run_tab ops_rand_spec "boxed.random_mod" false [[MAXW; MAXW; MAXW]; [1; 3]; [0]] = PanicV /\
  run_tab ops_rand_model "boxed.random_mod" false [[MAXW; MAXW; MAXW]; [1; 3]; [1]] = ErrV 9 /\
  run_tab ops_rand_model "uint.random_bits" false
    [[12297829382473034410; 14757395258967641292]; [2]; [96]; [128]; [0]]
    = Val [[12297829382473034410; 3435973836]; [2]; [12]] /\
  run_tab ops_rand_spec "uint.random_bits" false
    [[12297829382473034410; 14757395258967641292]; [2]; [96]; [128]; [0]]
    = Val [[12297829382473034410; 3435973836]; [2]; [12]] /\
  run_tab ops_rand_model "uint.random_bits" false [[1; 2]; [2]; [96]; [127]; [2]] = Val [[1; 127; 128]] /\
  run_tab ops_rand_spec "uint.random_bits" false [[1; 2]; [2]; [96]; [127]; [2]] = Val [[1; 127; 128]] /\
  run_tab ops_rand_model "boxed.random_bits" false [[1; 2]; [129]; [128]; [1]] = PanicV /\
  run_tab ops_rand_spec "boxed.random_bits" false [[1; 2]; [129]; [128]; [1]] = PanicV /\
  run_tab ops_rand_model "odd_boxed.random" false [[12297829382473034410; 14757395258967641292]; [70]]
    = Val [[12297829382473034411; 12]; [2]; [12]] /\
  run_tab ops_rand_spec "odd_boxed.random" false [[12297829382473034410; 14757395258967641292]; [70]]
    = Val [[12297829382473034411; 12]; [2]; [12]] /\
  run_tab ops_rand_model "odd_boxed.random" false [[12297829382473034410]; [70]] = PanicV /\
  run_tab ops_rand_spec "odd_boxed.random" false [[12297829382473034410]; [70]] = PanicV /\
  run_tab ops_rand_model "odd_boxed.random" false [[12297829382473034410]; [0]] = Val [[1]; [0]; [0]] /\
  run_tab ops_rand_spec "odd_boxed.random" false [[12297829382473034410]; [0]] = Unsupported /\
  run_tab ops_rand_model "limb.random_mod" false [[511; 255]; [256]; [0]] = Val [[255]; [2]; [4]] /\
  run_tab ops_rand_spec "limb.random_mod" false [[511; 255]; [256]; [0]] = Val [[255]; [2]; [4]] /\
  run_tab ops_rand_model "nonzero_uint.random" false [[0; 0; 0; 9; 4]; [2]; [1]] = Val [[0; 9]; [4]; [32]] /\
  run_tab ops_rand_spec "nonzero_uint.random" false [[0; 0; 0; 9; 4]; [2]; [1]] = Val [[0; 9]; [4]; [32]] /\
  run_tab ops_rand_spec "uint.random_mod" false [[1]; [0; 0]; [1]] = Unsupported /\
  rand_dom "uint.random_mod" [[1]; [0; 0]; [1]] = false /\
  rand_dom "uint.random_mod" [[MAXW; 5; 3; 0; 7]; [1; 3]; [0]] = true /\
  run_tab ops_rand_model "no.such.key" false [[1]] = Unsupported.
Proof. vm_compute. repeat split; reflexivity. Qed.
