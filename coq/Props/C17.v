(** C17 — radix strings: canonical output, exact parse, overflow always reported.
    Short proofs stand here, longer ones are lemmas of Proofs/Radix*P.v cited by [exact]; every statement is for ALL radixes 2..=36, ALL limb counts / precisions, ALL values and ALL
    strings (lists of byte values).  The model (Model/Radix.v) follows src/uint/encoding.rs loop for loop and, for the
    encoder, the REPAIRED code (tools/fix_C17_1.diff, finding F30; [C17_format_original_refuted] is about the
    original test).  Everything is proved outright (no `_partial` theorem): parsing, the power-of-two formatter and
    the division formatter INCLUDING the large-divisor recursion for more than 32 limbs.  Reused: div2by1 /
    reciprocal correctness (C02: Proofs/DivP.v, RecipP.v) and the in-place Knuth division (Proofs/DivBoxedP.v). *)
From CB Require Import Model.Limbs Model.Div Model.Conv Model.Radix
  Proofs.WordP Proofs.LimbsP Proofs.ConvDigitsP Proofs.DivP
  Proofs.RadixSpecP Proofs.RadixParseP Proofs.RadixParseApiP Proofs.RadixParamsP Proofs.RadixPow2P Proofs.RadixEncP
  Proofs.RadixTablesP.
From Coq Require Import ZArith Lia List String.
Import ListNotations.
Open Scope Z_scope.
Notation length := List.length.

(** * Specification level *)
(** the value of the canonical numeral is the number *)
Theorem C17_spec_roundtrip : forall r x, 2 <= r <= 36 -> 0 <= x -> value r (numeral r x) = x.
Proof. exact spec_roundtrip. Qed.
Print Assumptions C17_spec_roundtrip.

Theorem C17_numeral_well_formed : forall r x, 2 <= r <= 36 -> 0 <= x -> well_formed r (numeral r x).
Proof. exact numeral_well_formed. Qed.
Print Assumptions C17_numeral_well_formed.

(** canonical = the m-digit big-endian digit string with its leading zeros stripped ("0" for zero), any m that fits *)
Theorem C17_numeral_canonical : forall r (m : nat) x, 2 <= r <= 36 -> (1 <= m)%nat -> 0 <= x < r ^ Z.of_nat m ->
  strip_zeros (map sp_digit_char (rev (digits r m x))) = numeral r x.
Proof. exact numeral_fixed. Qed.
Print Assumptions C17_numeral_canonical.

(** * Parsing *)
(** radix_decode_str on any target ([cap = Some n]: n limbs, [None]: growable): Ok exactly for numerals that fit,
    with the denoted value in limbs of minimal length; each error code characterised; never a panic *)
Theorem C17_decode_str_spec : forall r s cap, 2 <= r <= 36 ->
  match radix_decode_str s r cap with
  | DOk o => well_formed r s /\ wf o /\ capfit cap (length o) /\ minimal o /\ eval o = value r s
  | DErr c => (c = E_Empty /\ sp_body s = []) \/
              (c = E_InvalidDigit /\ sp_body s <> [] /\ ~ well_formed r s) \/
              (c = E_InputSize /\ sp_body s <> [] /\ exists n, cap = Some n /\ (well_formed r s -> Bn n <= value r s))
  | DPanic => False
  end.
Proof. exact radix_decode_str_spec. Qed.
Print Assumptions C17_decode_str_spec.

(** Uint::<n>::from_str_radix_vartime = num_traits::Num::from_str_radix *)
Theorem C17_parse_correct : forall n r s x, 2 <= r <= 36 ->
  uint_from_str_radix n s r = Val [x] <->
  well_formed r s /\ value r s < Bn n /\ x = to_limbs n (value r s).
Proof. exact uint_parse_correct. Qed.
Print Assumptions C17_parse_correct.

(** InputSize exactly when the denoted value does not fit: never a wrapped or truncated value *)
Theorem C17_parse_overflow_iff : forall n r s, 2 <= r <= 36 -> well_formed r s ->
  (uint_from_str_radix n s r = ErrV E_InputSize <-> Bn n <= value r s).
Proof.
  intros n r s. intros Hr Hwf. destruct (uint_parse_cases n r s Hr) as [->|(_ & _ & Hn)]; [|contradiction].
  apply fixed_parse_err. assumption.
Qed.
Print Assumptions C17_parse_overflow_iff.

Theorem C17_parse_invalid_iff : forall n r s, 2 <= r <= 36 ->
  (uint_from_str_radix n s r = ErrV E_Empty <-> sp_body s = []) /\
  (uint_from_str_radix n s r = ErrV E_InvalidDigit -> sp_body s <> [] /\ ~ well_formed r s) /\
  (sp_body s <> [] -> ~ well_formed r s ->
     uint_from_str_radix n s r = ErrV E_InvalidDigit \/ uint_from_str_radix n s r = ErrV E_InputSize) /\
  uint_from_str_radix n s r <> PanicV /\ uint_from_str_radix n s r <> NoneV /\
  uint_from_str_radix n s r <> ErrV E_Precision.
Proof. exact uint_parse_errors. Qed.
Print Assumptions C17_parse_invalid_iff.

(** finding F31: a non-numeral can be reported as InputSize (the documentation promises InvalidDigit) *)
Theorem C17_parse_error_precedence_refuted :
  exists n r s, 2 <= r <= 36 /\ ~ well_formed r s /\ uint_from_str_radix n s r = ErrV E_InputSize.
Proof.
  exists 1%nat, 10, ([49] ++ repeat 48 37 ++ [103]). split; [lia|]. split; [|vm_compute; reflexivity].
  unfold well_formed. vm_compute. discriminate.
Qed.
Print Assumptions C17_parse_error_precedence_refuted.

Theorem C17_parse_unsupported_radix_panics : forall n r s, r < 2 \/ 36 < r -> uint_from_str_radix n s r = PanicV.
Proof. exact parse_unsupported_radix_panics. Qed.
Print Assumptions C17_parse_unsupported_radix_panics.

(** BoxedUint::from_str_radix_vartime: the value at its minimal width (one zero limb for "0"); no size error *)
Theorem C17_boxed_parse_correct : forall r s x, 2 <= r <= 36 ->
  boxed_from_str_radix s r = Val [x] <->
  well_formed r s /\ x = to_limbs (sp_nlimbs (value r s)) (value r s).
Proof. exact boxed_parse_correct. Qed.
Print Assumptions C17_boxed_parse_correct.

Theorem C17_boxed_parse_errors : forall r s, 2 <= r <= 36 ->
  (boxed_from_str_radix s r = ErrV E_Empty <-> sp_body s = []) /\
  (boxed_from_str_radix s r = ErrV E_InvalidDigit <-> sp_body s <> [] /\ ~ well_formed r s) /\
  boxed_from_str_radix s r <> ErrV E_InputSize /\ boxed_from_str_radix s r <> ErrV E_Precision /\
  boxed_from_str_radix s r <> PanicV.
Proof.
  intros r s. intros Hr. pose proof (radix_decode_str_spec r s None Hr) as H. unfold boxed_from_str_radix.
  unfold E_Empty, E_InvalidDigit, E_InputSize, E_Precision in *.
  destruct (radix_decode_str s r None) as [o|c|].
  - destruct H as (Hwf & _). pose proof (well_formed_body r s Hwf).
    repeat split; try discriminate; try (intros; contradiction). intros [_ Hn]. contradiction.
  - destruct H as [[-> Hb]|[[-> [Hb Hn]]|[-> [Hb (n0 & Hn0 & _)]]]]; try discriminate;
      repeat split; try discriminate; try assumption; try (intros; contradiction); try (intros; congruence); auto.
    intros [Hx _]. contradiction.
  - contradiction.
Qed.
Print Assumptions C17_boxed_parse_errors.

(** BoxedUint::from_str_radix_with_precision_vartime *)
Theorem C17_boxed_prec_parse_correct : forall r s p x, 2 <= r <= 36 -> 0 <= p ->
  boxed_from_str_radix_prec s r p = Val [x] <->
  well_formed r s /\ value r s < 2 ^ p /\ x = to_limbs (sp_prec_limbs p) (value r s).
Proof. exact boxed_prec_parse_correct. Qed.
Print Assumptions C17_boxed_prec_parse_correct.

Theorem C17_boxed_prec_parse_overflow_iff : forall r s p, 2 <= r <= 36 -> 0 <= p -> well_formed r s ->
  (boxed_from_str_radix_prec s r p = ErrV E_InputSize <-> Bn (sp_prec_limbs p) <= value r s) /\
  (boxed_from_str_radix_prec s r p = ErrV E_Precision <-> 2 ^ p <= value r s < Bn (sp_prec_limbs p)).
Proof.
  intros r s p. intros Hr Hp Hwf. destruct (prec_parse_cases r s p Hr Hp) as [->|(_ & _ & Hn)]; [|contradiction].
  apply fixed_parse_err. assumption.
Qed.
Print Assumptions C17_boxed_prec_parse_overflow_iff.

(** the multiply-accumulate pass of the decoder, any number of limbs *)
Theorem C17_mul_add_limbs_correct : forall m, is_word m -> forall ls carry ls' c', wf ls -> is_word carry ->
  mul_add_limbs ls m carry = (ls', c') ->
  eval ls' + Bn (length ls) * c' = eval ls * m + carry /\ wf ls' /\ length ls' = length ls /\ is_word c'.
Proof. exact mul_add_limbs_correct. Qed.
Print Assumptions C17_mul_add_limbs_correct.

(** * Formatting *)
(** the per-radix constants recomputed by the loops of the source (RadixDivisionParams::ALL, radix_large_divisor):
    div_limb = radix^digits_limb is the largest power below 2^64, its reciprocal is exact, div_large =
    radix^digits_large has 32 limbs with a non-zero top limb *)
Theorem C17_params_table : forall r, 2 <= r <= 36 -> is_power_of_two r = false ->
  exists rp, for_radix r = Some rp /\ params_good r rp.
Proof. exact params_facts. Qed.
Print Assumptions C17_params_table.

(** one round of encode_limbs divides  hi * B^limb_count + limbs  by div_limb exactly *)
Theorem C17_encode_step_divides : forall r rp, 2 <= r <= 36 -> params_good r rp ->
  forall act hi act' hi' dw, wf act -> 0 <= hi < r ^ Z.of_nat (rp_digits_limb rp) ->
  enc_step true rp act hi = (act', hi', dw) ->
  let V := hi * Bn (length act) + eval act in
  wf act' /\ 0 <= hi' < r ^ Z.of_nat (rp_digits_limb rp) /\
  hi' * Bn (length act') + eval act' = V / r ^ Z.of_nat (rp_digits_limb rp) /\
  dw = V mod r ^ Z.of_nat (rp_digits_limb rp) /\ (length act' <= length act)%nat.
Proof. exact enc_step_spec. Qed.
Print Assumptions C17_encode_step_divides.

(** encode_limbs (any number of limbs, with the large-divisor loop above 32) fills the buffer with the low `size`
    digits of the value, most significant first *)
Theorem C17_encode_limbs_spec : forall r rp, 2 <= r <= 36 -> params_good r rp -> forall limbs size, wf limbs ->
  encode_limbs true rp limbs size = map digit_char (rev (digits r size (eval limbs))).
Proof. exact encode_limbs_spec. Qed.
Print Assumptions C17_encode_limbs_spec.

(** the fuel of the model's large-divisor loop is never exhausted (it ends with fewer than 32 limbs, as in the source) *)
Theorem C17_large_loop_fuel : forall fixed rp fuel act oi w, (length act <= fuel)%nat ->
  (length (fst (fst (large_go fuel fixed rp act oi w))) < 32)%nat.
Proof.
  intros fixed rp. induction fuel as [|f IH]; intros act oi w Hl.
  - cbn [large_go fst]. lia.
  - cbn [large_go]. unfold RADIX_LIMBS_LARGE. destruct (Nat.leb_spec 32 (length act)) as [Hge|Hlt]; [|cbn [fst]; lia].
    destruct (boxed_div_rem_in_place act (rp_div_large rp)) as [q remain].
    apply IH. rewrite firstn_length. destruct (nthz q (length act + 1 - 32 - 1) =? 0); lia.
Qed.
Print Assumptions C17_large_loop_fuel.

Theorem C17_format_pow2_correct : forall fixed r limbs,
  2 <= r <= 36 -> is_power_of_two r = true -> wf limbs -> limbs <> [] ->
  radix_encode_limbs_to_string fixed r limbs = Some (numeral r (eval limbs)).
Proof. exact format_pow2_correct. Qed.
Print Assumptions C17_format_pow2_correct.

Theorem C17_format_generic_correct : forall r limbs,
  2 <= r <= 36 -> is_power_of_two r = false -> wf limbs -> limbs <> [] ->
  radix_encode_limbs_to_string true r limbs = Some (numeral r (eval limbs)).
Proof. exact format_generic_correct. Qed.
Print Assumptions C17_format_generic_correct.

(** Uint / BoxedUint :: to_string_radix_vartime, every supported radix, every width *)
Theorem C17_format_correct : forall r limbs, 2 <= r <= 36 -> wf limbs -> limbs <> [] ->
  radix_encode_limbs_to_string true r limbs = Some (numeral r (eval limbs)).
Proof. exact format_correct. Qed.
Print Assumptions C17_format_correct.

Theorem C17_format_unsupported_radix_panics : forall fixed r limbs, r < 2 \/ 36 < r ->
  radix_encode_limbs_to_string fixed r limbs = None.
Proof. exact format_unsupported_radix_panics. Qed.
Print Assumptions C17_format_unsupported_radix_panics.

(** finding F30: the code before the repair formats a 14-limb value wrongly in radix 31 *)
Theorem C17_format_original_refuted :
  exists r limbs, 2 <= r <= 36 /\ wf limbs /\ limbs <> [] /\
    radix_encode_limbs_to_string false r limbs <> Some (numeral r (eval limbs)) /\
    radix_encode_limbs_to_string true r limbs = Some (numeral r (eval limbs)).
Proof. exact format_original_refuted. Qed.
Print Assumptions C17_format_original_refuted.

(** * Round trip *)
Theorem C17_roundtrip : forall r ls, 2 <= r <= 36 -> wf ls -> ls <> [] -> m_uint_roundtrip ls r = Val [ls].
Proof. exact uint_roundtrip. Qed.
Print Assumptions C17_roundtrip.

Theorem C17_boxed_roundtrip : forall r ls, 2 <= r <= 36 -> wf ls -> ls <> [] -> m_boxed_roundtrip ls r = Val [ls].
Proof. exact boxed_roundtrip. Qed.
Print Assumptions C17_boxed_roundtrip.

Theorem C17_boxed_parse_format : forall r ls, 2 <= r <= 36 -> wf ls -> ls <> [] ->
  boxed_from_str_radix (numeral r (eval ls)) r = Val [to_limbs (sp_nlimbs (eval ls)) (eval ls)].
Proof.
  intros r ls. intros Hr Hw Hne. pose proof (eval_nonneg ls Hw).
  apply boxed_parse_correct; [assumption|]. rewrite spec_roundtrip by lia.
  split; [apply numeral_well_formed; lia | reflexivity].
Qed.
Print Assumptions C17_boxed_parse_format.

(** * The two op tables agree wherever the specification is defined, except the F31 class *)
Theorem C17_tables_agree : forall dbg a k, In k radix_keys -> S17 k dbg a <> Unsupported ->
  M17 k dbg a = S17 k dbg a \/ f31_class k dbg a.
Proof. exact tables_agree_radix. Qed.
Print Assumptions C17_tables_agree.

(** non-vacuity: the hypotheses are satisfiable and the statements compute the expected things *)
Example C17_nonvacuous :
  numeral 10 1234 = [49; 50; 51; 52] /\ numeral 36 0 = [48] /\
  value 16 [43; 48; 95; 70; 102] = 255 /\ well_formed 16 [43; 48; 95; 70; 102] /\ ~ well_formed 16 [43; 95; 49] /\
  uint_from_str_radix 1 [43; 48; 95; 70; 102] 16 = Val [[255]] /\
  uint_from_str_radix 1 (numeral 7 (2 ^ 64)) 7 = ErrV E_InputSize /\
  uint_from_str_radix 1 (numeral 7 (2 ^ 64 - 1)) 7 = Val [[2 ^ 64 - 1]] /\
  boxed_from_str_radix [48] 10 = Val [[0]] /\
  boxed_from_str_radix_prec [49; 48; 50; 52] 10 10 = ErrV E_Precision /\
  radix_encode_limbs_to_string true 10 [1234; 0] = Some [49; 50; 51; 52] /\
  S17 "uint.to_string_radix" false [[255]; [16]] = Val [[102; 102]] /\
  (exists rp, for_radix 10 = Some rp /\ params_good 10 rp).
Proof.
  split; [vm_compute; reflexivity|]. split; [vm_compute; reflexivity|].
  split; [vm_compute; reflexivity|]. split; [vm_compute; reflexivity|].
  split; [vm_compute; discriminate|].
  split; [vm_compute; reflexivity|]. split; [vm_compute; reflexivity|].
  split; [vm_compute; reflexivity|]. split; [vm_compute; reflexivity|].
  split; [vm_compute; reflexivity|].
  (* running the formatter itself would compute the 32-limb divisor of radix 10 *)
  split; [rewrite format_correct by (lia || discriminate || (apply wfb_wf; reflexivity)); vm_compute; reflexivity|].
  split; [vm_compute; reflexivity|].
  apply params_facts; [lia | reflexivity].
Qed.
