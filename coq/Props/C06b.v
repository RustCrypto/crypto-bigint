(** C06, continuation: the two op tables of the area `cmp` (Model/Cmp.v) that the correspondence check evaluates
    agree on the whole key set.  For EVERY one of the 88 keys, the entry of [ops_cmp_model] (limb-level model of
    the Rust code together with the glue of the entry: argument decoding, Choice / ConstChoice / CtOption plumbing,
    debug assertions, panics) returns the same outcome as the entry of [ops_cmp_spec] (plain order / equality on the
    represented integers) for all word-limbed arguments that are typed as Rust types them.
    [run_tab t k dbg args] looks the key up exactly as Model/Api.v does; [cmp_typed k args] is the boolean typing
    side condition of the key (Proofs/CmpTablesP.v, [cmp_tbl_ty]): a Limb is one word, two Uint<N> / Int<N> operands
    have one limb count, Int<N> has at least one limb; nothing else. *)
From CB Require Import Model.Limbs Model.AddSub Model.Cmp Proofs.LimbsP Proofs.TotalityP Proofs.CmpTablesP.
From Coq Require Import ZArith List String Bool.
Open Scope Z_scope.
Open Scope string_scope.

Theorem C06_tables_agree : forall k dbg a, In k cmp_keys -> wf_args a -> cmp_typed k a = true ->
  run_tab ops_cmp_spec k dbg a <> Unsupported ->
  run_tab ops_cmp_model k dbg a = run_tab ops_cmp_spec k dbg a.
Proof. intros k dbg a Hin Hwf Hty _. exact (cmp_all_keys_ok k Hin dbg a Hwf Hty). Qed.
Print Assumptions C06_tables_agree.

(** [cmp_keys] is the whole key set of both tables (88 distinct keys) *)
Theorem C06_tables_keys_whole : forall k, In k cmp_keys <-> In k (map fst ops_cmp_model).
Proof. exact cmp_keys_whole. Qed.
Print Assumptions C06_tables_keys_whole.

Theorem C06_tables_keys_count :
  map fst ops_cmp_model = map fst ops_cmp_spec /\ List.length cmp_keys = 88%nat /\ NoDup cmp_keys.
Proof. exact cmp_keys_same_tables. Qed.
Print Assumptions C06_tables_keys_count.

(** the spec table is defined everywhere (no [Unsupported]): the domain hypothesis above never excludes an input *)
Theorem C06_tables_spec_total : forall k dbg a, In k cmp_keys -> run_tab ops_cmp_spec k dbg a <> Unsupported.
Proof.
  assert (F : Forall (fun f : opfn => forall dbg a, f dbg a <> Unsupported) (map snd ops_cmp_spec))
    by (lazy beta iota delta [map snd ops_cmp_spec]; repeat constructor; intros dbg a; nu).
  intros k dbg a Hin. apply (proj1 (cmp_keys_whole k)) in Hin. rewrite (proj1 cmp_keys_same_tables) in Hin.
  destruct (lookup_all _ _ k F Hin) as (f & E & Hf). unfold run_tab. rewrite E. apply Hf.
Qed.
Print Assumptions C06_tables_spec_total.

(** the typing side condition depends on the limb counts of the arguments only, never on a value *)
Theorem C06_tables_typing_shape_only : forall k a b,
  map (@List.length Z) a = map (@List.length Z) b -> cmp_typed k a = cmp_typed k b.
Proof.
  intros k a b H. assert (L : forall i, ln i a = ln i b) by (intros i; apply ln_shape; exact H).
  assert (F : Forall (fun P : tyb => P a = P b) (map snd cmp_tbl_ty)).
  { cbn [map snd cmp_tbl_ty].
    repeat constructor; unfold limb_1, limb_2, int_2, int_def, nonempty, same_n; rewrite !L; reflexivity. }
  unfold cmp_typed. destruct (lookup k cmp_tbl_ty) as [P|] eqn:E; [|reflexivity].
  exact (proj1 (Forall_forall _ _) F P (lookup_snd _ _ _ E)).
Qed.
Print Assumptions C06_tables_typing_shape_only.

(** BoxedUint::ct_select / ct_assign / ct_swap on operands of DIFFERENT precision (outside the typing condition of
    these two keys): the release profile returns a truncated operand / a mixture where the spec returns the chosen
    operand, the debug profile panics (GENUINE DEFECT, open finding F16) *)
Theorem C06_tables_boxed_select_refuted : exists a, wf_args a /\ cmp_typed "boxed.select" a = false /\
  run_tab ops_cmp_model "boxed.select" false a = Val [[2]] /\
  run_tab ops_cmp_spec "boxed.select" false a = Val [[2; 3]] /\
  run_tab ops_cmp_model "boxed.select" true a = PanicV.
Proof.
  exists [[1]; [2; 3]; [1]]. split; [unfold wf_args; repeat (apply Forall_cons; [wf_by_compute|]); apply Forall_nil|].
  repeat split; vm_compute; reflexivity.
Qed.
Print Assumptions C06_tables_boxed_select_refuted.

Theorem C06_tables_boxed_swap_refuted : exists a, wf_args a /\ cmp_typed "boxed.swap" a = false /\
  run_tab ops_cmp_model "boxed.swap" false a = Val [[2]; [1; 3]] /\
  run_tab ops_cmp_spec "boxed.swap" false a = Val [[2; 3]; [1]] /\
  run_tab ops_cmp_model "boxed.swap" true a = PanicV.
Proof.
  exists [[1]; [2; 3]; [1]]. split; [unfold wf_args; repeat (apply Forall_cons; [wf_by_compute|]); apply Forall_nil|].
  repeat split; vm_compute; reflexivity.
Qed.
Print Assumptions C06_tables_boxed_swap_refuted.

(** non-vacuity: the lookups find the entries and the typing conditions hold on real inputs: a three-limb cmp with a
    borrow through equal high limbs (Greater = 2), the signed order across the sign bit, boxed operands of different
    precision compared by value, new_from_abs_sign of (2^127, negative) = MIN is some while (2^127, positive) is none
    and its unwrapping form panics, NonZero::new(0).unwrap() panics, ct_swap in the debug profile *)
Example C06_tables_nonvacuous :
  let M := run_tab ops_cmp_model in let S := run_tab ops_cmp_spec in
  cmp_typed "uint.cmp" [[1; 7; 7]; [0; 7; 7]] = true /\
  M "uint.cmp" false [[1; 7; 7]; [0; 7; 7]] = Val [[2]] /\ S "uint.cmp" false [[1; 7; 7]; [0; 7; 7]] = Val [[2]] /\
  cmp_typed "uint.cmp" [[1; 7; 7]; [0; 7]] = false /\
  M "int.ct_lt" false [[0; 2 ^ 63]; [MAXW; 2 ^ 63 - 1]] = Val [[1]] /\
  M "boxed.lt" true [[MAXW]; [0; 1]] = Val [[1]] /\ S "boxed.lt" true [[MAXW]; [0; 1]] = Val [[1]] /\
  cmp_typed "int.new_from_abs_sign" [[0; 2 ^ 63]; [1]; [5; 6]] = true /\
  M "int.new_from_abs_sign" false [[0; 2 ^ 63]; [1]; [5; 6]] = Val [[1]; [0]; [0; 2 ^ 63]; [0; 2 ^ 63]] /\
  M "int.new_from_abs_sign" false [[0; 2 ^ 63]; [0]; [5; 6]] = Val [[0]; [1]; [5; 6]; []] /\
  S "int.new_from_abs_sign" false [[0; 2 ^ 63]; [0]; [5; 6]] = Val [[0]; [1]; [5; 6]; []] /\
  M "int.new_from_abs_sign_expect" false [[0; 2 ^ 63]; [0]] = PanicV /\
  S "int.new_from_abs_sign_expect" false [[0; 2 ^ 63]; [0]] = PanicV /\
  M "limb.nz_new_unwrap" false [[0]] = PanicV /\ S "limb.nz_new_unwrap" false [[0]] = PanicV /\
  M "limb.nz_new_unwrap" false [[9]] = Val [[9]] /\
  M "boxed.swap" true [[1; 2]; [3; 4]; [1]] = Val [[3; 4]; [1; 2]] /\
  S "boxed.swap" true [[1; 2]; [3; 4]; [1]] = Val [[3; 4]; [1; 2]] /\
  M "boxed.hash" false [[1; 0; 0]; [1]] = Val [[1]; [1]] /\
  M "nosuch.key" false [] = Unsupported.
Proof. vm_compute. repeat split; reflexivity. Qed.
