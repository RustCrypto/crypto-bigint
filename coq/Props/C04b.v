(** C04 (continued) — the two op tables of Model/AddSub.v that the correspondence check evaluates agree on EVERY key.
    For each of the 42 keys of [ops_addsub_model] / [ops_addsub_spec] (Limb / Uint / BoxedUint add, sub, neg; adc / sbb
    with arbitrary carry words; checked / saturating / wrapping / panicking operator forms; boxed mixed-precision and
    assigning forms; Checked<Uint> expressions), in both profiles and for all well-formed argument lists that meet the
    typing side condition of the key, the model entry (limb-level model of the Rust code, including the option / flag
    plumbing, the saturating / checked / wrapping selection, resizing and panics) returns exactly what the spec entry
    (plain Z arithmetic on the represented integers) returns.
    [run_tab t k dbg a] = the table lookup of Model/Api.v; [wf_args a] = every limb of every argument is a 64-bit word;
    [typedb addsub_tbl_ty k a] = what Rust's types enforce for key k (Proofs/AddSubTablesP.v): a Limb is one word,
    two / three Uint<N> operands have one N; at least one limb for the three forms that take an arbitrary borrow word
    ("uint.sbb", "boxed.sbb", "boxed.sbb_assign": a zero-limb chain hands the word back unnormalised); the other
    17 keys (mac, neg forms, all other boxed forms) have no side condition at all.
    Short proofs stand here; the per-key lemmas and the entry lemmas they rest on are in Proofs/AddSubTablesP.v. *)
From CB Require Import Model.Limbs Model.AddSub Proofs.LimbsP Proofs.TotalityP Proofs.AddSubTablesP.
From Coq Require Import ZArith List String.
Open Scope Z_scope.
Open Scope string_scope.

(** every key of the table (the key list is [map fst] of the table itself: nothing is left out) *)
Theorem C04_tables_agree : forall k dbg a,
  In k (map fst ops_addsub_model) -> wf_args a -> typedb addsub_tbl_ty k a = true ->
  run_tab ops_addsub_spec k dbg a <> Unsupported ->
  run_tab ops_addsub_model k dbg a = run_tab ops_addsub_spec k dbg a.
Proof. exact addsub_tables_agree. Qed.
Print Assumptions C04_tables_agree.

(** the same over the key list [addsub_keys] of C11, which is the same set of 42 keys *)
Theorem C04_tables_agree_c11_keys : forall k dbg a,
  In k addsub_keys -> wf_args a -> typedb addsub_tbl_ty k a = true ->
  run_tab ops_addsub_spec k dbg a <> Unsupported ->
  run_tab ops_addsub_model k dbg a = run_tab ops_addsub_spec k dbg a.
Proof. intros k dbg a Hin. apply addsub_tables_agree. apply addsub_keys_in_table. exact Hin. Qed.
Print Assumptions C04_tables_agree_c11_keys.

Theorem C04_tables_key_set :
  map fst ops_addsub_spec = map fst ops_addsub_model /\ List.length (map fst ops_addsub_model) = 42%nat /\
  (forall k, In k addsub_keys <-> In k (map fst ops_addsub_model)).
Proof.
  split; [exact addsub_table_keys_spec|]. split; [exact addsub_table_keys_count|].
  intros k. split; [apply addsub_keys_in_table | apply table_in_addsub_keys].
Qed.
Print Assumptions C04_tables_key_set.

(** the spec table of this area is defined everywhere (no Unsupported answer), so the domain hypothesis of
    C04_tables_agree never excludes anything *)
Theorem C04_tables_spec_always_defined : forall k dbg a,
  In k (map fst ops_addsub_model) -> run_tab ops_addsub_spec k dbg a <> Unsupported.
Proof.
  assert (F : Forall (fun f : opfn => forall dbg a, f dbg a <> Unsupported) (map snd ops_addsub_spec))
    by (lazy beta iota delta [map snd ops_addsub_spec]; repeat constructor; intros dbg a; nu).
  intros k dbg a Hin. fold addsub_table_keys in Hin. rewrite <- addsub_table_keys_spec in Hin.
  destruct (lookup_all _ _ k F Hin) as (f & E & Hf). unfold run_tab. rewrite E. apply Hf.
Qed.
Print Assumptions C04_tables_spec_always_defined.

(** the side conditions are not decoration: outside them the two tables differ *)
Theorem C04_tables_typing_needed :
  run_tab ops_addsub_model "limb.checked_add" false [[0; 1]; [0]] <> run_tab ops_addsub_spec "limb.checked_add" false [[0; 1]; [0]] /\
  run_tab ops_addsub_model "uint.wrapping_add" false [[1; 1]; [1]] <> run_tab ops_addsub_spec "uint.wrapping_add" false [[1; 1]; [1]] /\
  run_tab ops_addsub_model "uint.sbb" false [[]; []; [5]] <> run_tab ops_addsub_spec "uint.sbb" false [[]; []; [5]].
Proof. repeat split; vm_compute; discriminate. Qed.
Print Assumptions C04_tables_typing_needed.

(** non-vacuity: the lookups find functions and return non-trivial values: a two-limb borrow chain with an incoming
    borrow word whose top bit is set; a 1-limb receiver += a 2-limb rhs whose high limb is non-zero (carry bit set by
    the fold, value wrapped); the same through the operator panics; checked_add at 2^128 - 1 + 1 is none; a Checked
    expression (a - b) + c with a < b is none although a - b + c fits; an unknown key is Unsupported *)
Example C04_tables_nonvacuous :
  run_tab ops_addsub_model "uint.sbb" false [[0; 5]; [1; 0]; [2 ^ 63]] = Val [[MAXW - 1; 4]; [0]] /\
  run_tab ops_addsub_spec "uint.sbb" false [[0; 5]; [1; 0]; [2 ^ 63]] = Val [[MAXW - 1; 4]; [0]] /\
  run_tab ops_addsub_model "boxed.adc_assign" false [[MAXW]; [3; 7]; [0]] = Val [[2]; [1]] /\
  run_tab ops_addsub_model "boxed.add_assign" true [[MAXW]; [3; 7]] = PanicV /\
  run_tab ops_addsub_spec "boxed.add_assign" true [[MAXW]; [3; 7]] = PanicV /\
  run_tab ops_addsub_model "uint.checked_add" false [[MAXW; MAXW]; [1; 0]] = NoneV /\
  run_tab ops_addsub_model "uint.checked_expr" false [[1]; [2]; [5]; [1]; [0]; [0]; [0]] = NoneV /\
  run_tab ops_addsub_spec "uint.checked_expr" false [[1]; [2]; [5]; [1]; [0]; [0]; [0]] = NoneV /\
  run_tab ops_addsub_model "uint.saturating_sub" false [[1; 0]; [2; 0]] = Val [[0; 0]] /\
  typedb addsub_tbl_ty "uint.sbb" [[0; 5]; [1; 0]; [2 ^ 63]] = true /\
  run_tab ops_addsub_model "no.such.key" false [[1]] = Unsupported.
Proof. vm_compute. repeat split; reflexivity. Qed.
