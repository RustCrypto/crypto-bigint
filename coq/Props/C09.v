(** C09 — modular exponentiation, multi-exponentiation and linear combination of Montgomery-form values are exact.
    Short proofs stand here, longer ones are lemmas of Proofs/Pow*P.v cited by [exact]; every statement is for ALL limb counts of modulus, bases and exponents,
    all word values, every exponent_bits k >= 0 (k = 0 included), every number of bases and every number of terms.

    Limb level in the model (Model/Pow.v): starting limb / window / mask from exponent_bits, the constant-time table
    scans, the 4-bit window loops over limbs, windows and bases, the boxed ladder with its two final conditional
    subtractions, the whole interleaved sum of products with its two-level carry (hi, hi_carry), sub_mod_with_carry,
    the three window drivers.  Value level (limb-level model and proofs are property C08's business): Montgomery
    multiplication / squaring, almost-Montgomery multiplication, the parameters one / mod_neg_inv / mod_leading_zeros,
    conversion into Montgomery form and retrieve.  The ladder theorems are therefore stated for ANY multiplication
    that satisfies the contract [monty_mul_contract] / [amm_contract] (suffix _given_monty_mul / _given_amm), the
    contract is proved for the value-level functions, and the API theorems and the table theorem, which use those
    functions, are unconditional. *)
From CB Require Import Model.Limbs Model.AddSub Model.ModArith Model.Cmp Model.Pow
  Proofs.WordP Proofs.LimbsP Proofs.ModArithTablesP Proofs.PowMathP Proofs.PowLadderP Proofs.PowFixedP Proofs.PowBoxedP
  Proofs.PowLincombP Proofs.PowApiP Proofs.PowTablesP.
From Coq Require Import ZArith List String Bool Lia.
Import ListNotations.
Open Scope Z_scope.
Open Scope list_scope.
Notation length := List.length.

(** * the constant-time table scans read entry [idx] *)

Theorem C09_ct_lookup_is_nth : forall (n : nat) (powers : list (list Z)) (idx : Z),
  table_wf n powers -> Z.of_nat (length powers) <= B -> 0 <= idx < Z.of_nat (length powers) ->
  ct_lookup powers idx = nth (Z.to_nat idx) powers [].
Proof. exact ct_lookup_spec. Qed.

Theorem C09_boxed_lookup_is_nth : forall (n : nat) (powers : list (list Z)) (idx : Z),
  table_wf n powers -> Z.of_nat (length powers) <= B -> 0 <= idx < Z.of_nat (length powers) ->
  boxed_lookup powers idx = nth (Z.to_nat idx) powers [].
Proof. exact boxed_lookup_spec. Qed.

(** * MontyForm / ConstMontyForm: the shared 4-bit fixed-window ladder
      [Mf n m z]: z is a canonical n-limb residue (z < m);  [V m rinv z] = z * rinv mod m, the represented integer *)

(** pow_bounded_exp: base^(exponent mod 2^k) mod m in canonical form, for every k >= 0 and every exponent width *)
Theorem C09_pow_ladder_given_monty_mul : forall (n : nat) (m rinv : Z), 0 < m ->
  forall (mmul : list Z -> list Z -> list Z) (msq : list Z -> list Z),
  monty_mul_contract n m rinv mmul -> monty_sq_contract n m rinv msq ->
  forall one : list Z, Mf n m one -> V m rinv one = 1 mod m ->
  forall (x e : list Z) (k : Z), 0 <= k -> Mf n m x -> wf e ->
  Mf n m (pow_montgomery_form mmul msq one x e k) /\
  V m rinv (pow_montgomery_form mmul msq one x e k) = (V m rinv x ^ (eval e mod 2 ^ k)) mod m.
Proof. exact pow_ladder_correct. Qed.

(** exponent_bits = 0 returns the parameter [one] itself *)
Theorem C09_pow_zero_bits : forall (mmul : list Z -> list Z -> list Z) (msq : list Z -> list Z) (one x e : list Z),
  pow_montgomery_form mmul msq one x e 0 = one.
Proof. reflexivity. Qed.

(** inherent pow and the Pow blanket impl of src/traits.rs (exponent_bits = BITS(exponent)): base^exponent mod m *)
Theorem C09_pow_full_given_monty_mul : forall (n : nat) (m rinv : Z), 0 < m ->
  forall (mmul : list Z -> list Z -> list Z) (msq : list Z -> list Z),
  monty_mul_contract n m rinv mmul -> monty_sq_contract n m rinv msq ->
  forall one : list Z, Mf n m one -> V m rinv one = 1 mod m ->
  forall x e : list Z, Mf n m x -> wf e ->
  Mf n m (pow_full mmul msq one x e) /\ V m rinv (pow_full mmul msq one x e) = (V m rinv x ^ eval e) mod m.
Proof.
  intros n m rinv Hm mmul msq Hmul Hsq one Hone Vone x e Hx He. unfold pow_full.
  destruct (C09_pow_ladder_given_monty_mul n m rinv Hm mmul msq Hmul Hsq one Hone Vone x e (bitsZ e)
              ltac:(unfold bitsZ, lenZ; lia) Hx He) as [H1 H2].
  split; [exact H1|]. rewrite H2. f_equal. f_equal. apply Z.mod_small.
  pose proof (eval_bounds e He) as Hb. rewrite Bn_pow2 in Hb. unfold bitsZ, lenZ. exact Hb.
Qed.

(** MultiExponentiateBoundedExp on arrays: the product of the individual powers, for every number of bases *)
Theorem C09_multi_exp_array_given_monty_mul : forall (n : nat) (m rinv : Z), 0 < m ->
  forall (mmul : list Z -> list Z -> list Z) (msq : list Z -> list Z),
  monty_mul_contract n m rinv mmul -> monty_sq_contract n m rinv msq ->
  forall one : list Z, Mf n m one -> V m rinv one = 1 mod m ->
  forall (bes : list (list Z * list Z)) (k : Z), 0 <= k -> Forall (be_ok n m) bes ->
  Mf n m (multi_exp_array mmul msq one bes k) /\
  V m rinv (multi_exp_array mmul msq one bes k) = prod_pow m rinv bes k mod m.
Proof. exact multi_exp_array_correct. Qed.

(** ... and on slices *)
Theorem C09_multi_exp_slice_given_monty_mul : forall (n : nat) (m rinv : Z), 0 < m ->
  forall (mmul : list Z -> list Z -> list Z) (msq : list Z -> list Z),
  monty_mul_contract n m rinv mmul -> monty_sq_contract n m rinv msq ->
  forall one : list Z, Mf n m one -> V m rinv one = 1 mod m ->
  forall (bes : list (list Z * list Z)) (k : Z), 0 <= k -> Forall (be_ok n m) bes ->
  Mf n m (multi_exp_slice mmul msq one bes k) /\
  V m rinv (multi_exp_slice mmul msq one bes k) = prod_pow m rinv bes k mod m.
Proof.
  intros n m rinv Hm mmul msq Hmul Hsq one Hone Vone bes k Hk Hb. rewrite slice_is_array.
  apply (C09_multi_exp_array_given_monty_mul n m rinv Hm mmul msq Hmul Hsq one Hone Vone); assumption.
Qed.

(** the slice front returns the limbs of the array front, unconditionally *)
Theorem C09_slice_is_array : forall (mmul : list Z -> list Z -> list Z) (msq : list Z -> list Z) (one : list Z)
  (bes : list (list Z * list Z)) (k : Z),
  multi_exp_slice mmul msq one bes k = multi_exp_array mmul msq one bes k.
Proof. exact slice_is_array. Qed.

(** the contract holds for the value-level Montgomery multiplication used in the op table *)
Theorem C09_monty_mul_value_level : forall (n : nat) (m rinv : Z) (x y : list Z), 0 < m <= Bn n ->
  Mf n m (mmul_v n m rinv x y) /\ eval (mmul_v n m rinv x y) mod m = (eval x * eval y * rinv) mod m.
Proof. exact mmul_v_ok. Qed.

(** * BoxedMontyForm: ladder on almost-reduced values, two final conditional subtractions *)

(** the result is FULLY reduced (canonical) and is base^(exponent mod 2^k) mod m: the accumulator is below 3m at the
    exit of the ladder, so two conditional subtractions suffice *)
Theorem C09_boxed_pow_reduced_given_amm : forall (n : nat) (m rinv : Z), 0 < m -> n <> 0%nat ->
  forall amm : list Z -> list Z -> list Z, amm_contract n m rinv amm ->
  forall mL : list Z, Bf n mL -> eval mL = m ->
  forall one : list Z, Mf n m one -> V m rinv one = 1 mod m ->
  forall (x e : list Z) (k : Z), 0 <= k -> Mf n m x -> wf e ->
  Mf n m (boxed_pow_montgomery_form amm mL one x e k) /\
  V m rinv (boxed_pow_montgomery_form amm mL one x e k) = (V m rinv x ^ (eval e mod 2 ^ k)) mod m.
Proof. exact boxed_pow_reduced. Qed.

(** the contract holds for the value-level almost-Montgomery multiplication ((x*y + q*m)/R, one overflow subtraction) *)
Theorem C09_amm_value_level : forall (n : nat) (m : Z) (x y : list Z), 0 < m <= Bn n -> Z.odd m = true ->
  Bf n x -> Bf n y ->
  Bf n (amm_v n m (mg_neg_inv_full n m) x y) /\
  V m (mg_rinv n m) (amm_v n m (mg_neg_inv_full n m) x y) = (V m (mg_rinv n m) x * V m (mg_rinv n m) y) mod m /\
  eval (amm_v n m (mg_neg_inv_full n m) x y) * Bn n < eval x * eval y + m * Bn n.
Proof. exact amm_v_ok. Qed.

(** * lincomb: Longa's interleaved sum of products, limb level *)

(** the macro returns EXACTLY (sum a_i*b_i + Q*m) / R in (u, hi_carry): no carry of the two-level accumulator is lost,
    for any number of terms below 2^64 - 4 *)
Theorem C09_longa_exact : forall (n : nat) (mL : list Z) (ninv : Z),
  wf mL -> length mL = n -> n <> 0%nat -> (eval mL * ninv + 1) mod B = 0 ->
  forall (prods : list (list Z * list Z)) (u : list Z) (c : Z),
  Forall (term_ok n) prods -> Z.of_nat (length prods) + 4 < B ->
  longa_lincomb prods mL ninv = (u, c) ->
  wf u /\ length u = n /\ 0 <= c /\
  exists Q : Z, 0 <= Q < Bn n /\ (eval u + Bn n * c) * Bn n = lin_sum prods + Q * eval mL.
Proof. exact longa_exact. Qed.

(** the accumulation bound: while the sum of the products stays below m*R the value is below 2m and hi_carry <= 1 *)
Theorem C09_lincomb_window_bound : forall (n : nat) (mL : list Z) (ninv : Z),
  wf mL -> length mL = n -> n <> 0%nat -> (eval mL * ninv + 1) mod B = 0 ->
  forall (prods : list (list Z * list Z)) (u : list Z) (c : Z),
  Forall (term_ok n) prods -> Z.of_nat (length prods) + 4 < B ->
  0 < eval mL <= Bn n -> lin_sum prods < eval mL * Bn n ->
  longa_lincomb prods mL ninv = (u, c) ->
  0 <= eval u + Bn n * c < 2 * eval mL /\ 0 <= c <= 1 /\
  ((eval u + Bn n * c) * Bn n) mod eval mL = lin_sum prods mod eval mL /\ wf u /\ length u = n.
Proof. exact lincomb_window_bound. Qed.

(** ... which holds for ANY number of reduced terms within one window: count <= 2^lz, lz <= the leading zero bits of m *)
Theorem C09_lincomb_count_bound : forall (n : nat) (mL : list Z) (ninv lz : Z),
  wf mL -> length mL = n -> n <> 0%nat -> (eval mL * ninv + 1) mod B = 0 -> 0 < eval mL ->
  0 <= lz <= 63 -> eval mL * 2 ^ lz <= Bn n ->
  forall (w : list (list Z * list Z)) (u : list Z) (c : Z),
  Forall (mterm_ok n mL) w -> Z.of_nat (length w) <= 2 ^ lz ->
  longa_lincomb w mL ninv = (u, c) ->
  0 <= c <= 1 /\ 0 <= eval u + Bn n * c < 2 * eval mL /\
  ((eval u + Bn n * c) * Bn n) mod eval mL = lin_sum w mod eval mL /\ wf u /\ length u = n.
Proof. exact lincomb_count_bound. Qed.

(** sub_mod_with_carry on a value below 2p with carry <= 1: the residue, in both build profiles (no debug assertion) *)
Theorem C09_sub_mod_with_carry_correct : forall (dbg : bool) (a : list Z) (carry : Z) (p : list Z),
  wf a -> wf p -> length a = length p -> length a <> 0%nat -> 0 <= carry <= 1 -> 0 < eval p ->
  0 <= eval a + Bn (length a) * carry < 2 * eval p ->
  exists r : list Z, sub_mod_with_carry dbg a carry p p = Some r /\
    eval r = (eval a + Bn (length a) * carry) mod eval p /\ wf r /\ length r = length a.
Proof. exact smwc_spec. Qed.

(** lincomb_monty_form / lincomb_const_monty_form: never panics, canonical result z with z*R = sum a_i*b_i (mod m),
    for ANY number of terms (more than one accumulation window included) *)
Theorem C09_lincomb_fixed_correct : forall (n : nat) (mL : list Z) (ninv lz : Z),
  wf mL -> length mL = n -> n <> 0%nat -> (eval mL * ninv + 1) mod B = 0 -> 0 < eval mL ->
  0 <= lz <= 63 -> eval mL * 2 ^ lz <= Bn n ->
  forall (dbg : bool) (prods : list (list Z * list Z)), Forall (mterm_ok n mL) prods ->
  exists z : list Z, lincomb_fixed dbg prods mL ninv lz = Some z /\ Mf n (eval mL) z /\
    (eval z * Bn n) mod eval mL = lin_sum prods mod eval mL.
Proof. exact lincomb_fixed_correct. Qed.

(** lincomb_boxed_monty_form (in-place sbb / conditional adc forms) returns the same limbs *)
Theorem C09_lincomb_boxed_is_fixed : forall (n : nat) (mL : list Z) (ninv lz : Z),
  wf mL -> length mL = n -> n <> 0%nat -> (eval mL * ninv + 1) mod B = 0 -> 0 < eval mL ->
  0 <= lz <= 63 -> eval mL * 2 ^ lz <= Bn n ->
  forall (dbg : bool) (prods : list (list Z * list Z)), Forall (mterm_ok n mL) prods ->
  lincomb_boxed dbg prods mL ninv lz = lincomb_fixed dbg prods mL ninv lz.
Proof. exact lincomb_boxed_correct. Qed.

(** * API level: plain integers in, the pair (as_montgomery(), retrieve()) out; unconditional
      [sp_out n m v] = Val [to_limbs n (v * R mod m); to_limbs n v] *)

(** the value-level parameters have their defining properties *)
Theorem C09_param_rinv : forall (n : nat) (m : Z), 0 < m -> Z.odd m = true ->
  0 <= mg_rinv n m < m /\ (Bn n * mg_rinv n m) mod m = 1 mod m.
Proof. exact mg_rinv_spec. Qed.

Theorem C09_param_mod_neg_inv : forall m : Z, 0 < m -> Z.odd m = true ->
  is_word (mg_neg_inv m) /\ (m * mg_neg_inv m + 1) mod B = 0.
Proof. exact mg_neg_inv_spec. Qed.

Theorem C09_param_mod_leading_zeros : forall mL : list Z, wf mL -> length mL <> 0%nat -> Z.odd (eval mL) = true ->
  0 <= mg_lz (length mL) (eval mL) <= 63 /\ eval mL * 2 ^ mg_lz (length mL) (eval mL) <= Bn (length mL).
Proof. exact mg_lz_spec. Qed.

(** MontyForm / ConstMontyForm ::new(x).pow_bounded_exp(e, k), 0 <= k <= BITS(e) *)
Theorem C09_api_pow_fixed_correct : forall mL : list Z, wf mL -> length mL <> 0%nat -> Z.odd (eval mL) = true ->
  forall (x e : list Z) (k : Z), wf x -> wf e -> 0 <= k <= bitsZ e ->
  api_pow_fixed mL x e k = sp_out (length mL) (eval mL) ((eval x ^ (eval e mod 2 ^ k)) mod eval mL).
Proof. exact api_pow_fixed_correct. Qed.

(** BoxedMontyForm::new(x).pow_bounded_exp(e, k) *)
Theorem C09_api_pow_boxed_correct : forall mL : list Z, wf mL -> length mL <> 0%nat -> Z.odd (eval mL) = true ->
  forall (x e : list Z) (k : Z), wf x -> wf e -> 0 <= k <= bitsZ e ->
  api_pow_boxed mL x e k = sp_out (length mL) (eval mL) ((eval x ^ (eval e mod 2 ^ k)) mod eval mL).
Proof. exact api_pow_boxed_correct. Qed.

(** the compile-time / runtime implementation and the boxed one agree *)
Theorem C09_api_pow_agree : forall mL : list Z, wf mL -> length mL <> 0%nat -> Z.odd (eval mL) = true ->
  forall (x e : list Z) (k : Z), wf x -> wf e -> 0 <= k <= bitsZ e ->
  api_pow_boxed mL x e k = api_pow_fixed mL x e k.
Proof.
  intros mL HmL Hn Hodd x e k Hx He Hk.
  rewrite C09_api_pow_fixed_correct, C09_api_pow_boxed_correct by assumption. reflexivity.
Qed.

(** multi_exponentiate_bounded_exp on arrays (slice = false) and slices (slice = true): the product of the powers *)
Theorem C09_api_multiexp_correct : forall mL : list Z, wf mL -> length mL <> 0%nat -> Z.odd (eval mL) = true ->
  forall (slice : bool) (k : Z) (bes : list (list Z * list Z)), 0 <= k ->
  Forall (fun be : list Z * list Z => wf (fst be) /\ wf (snd be) /\ k <= bitsZ (snd be)) bes ->
  api_multiexp_fixed slice mL k bes = sp_out (length mL) (eval mL) (prod_spec bes k mod eval mL).
Proof. exact api_multiexp_correct. Qed.

(** lincomb_vartime: sum a_i*b_i mod m for any positive number of terms, fixed (boxed = false) and boxed, both profiles *)
Theorem C09_api_lincomb_correct : forall mL : list Z, wf mL -> length mL <> 0%nat -> Z.odd (eval mL) = true ->
  forall (boxed dbg : bool) (terms : list (list Z * list Z)), terms <> [] ->
  Forall (fun ab : list Z * list Z => wf (fst ab) /\ wf (snd ab)) terms ->
  api_lincomb boxed dbg mL terms = sp_out (length mL) (eval mL) (sum_prods terms mod eval mL).
Proof. exact api_lincomb_correct. Qed.

Theorem C09_api_lincomb_agree : forall mL : list Z, wf mL -> length mL <> 0%nat -> Z.odd (eval mL) = true ->
  forall (dbg : bool) (terms : list (list Z * list Z)), terms <> [] ->
  Forall (fun ab : list Z * list Z => wf (fst ab) /\ wf (snd ab)) terms ->
  api_lincomb true dbg mL terms = api_lincomb false dbg mL terms.
Proof. intros mL HmL Hn Hodd dbg terms Hne Ht. rewrite !C09_api_lincomb_correct by assumption. reflexivity. Qed.

(** the square-and-multiply function used by the specification table is Z.pow mod m *)
Theorem C09_spec_powmod : forall a e m : Z, 0 <= e -> powmod a e m = (a ^ e) mod m.
Proof. exact powmod_correct. Qed.

(** * the table theorem: model = spec for EVERY entry of the C09 op table wherever the specification is defined *)

Theorem C09_tables_agree : forall (dbg : bool) (a : list (list Z)) (k : string),
  wf_args a -> In k pow_keys -> S9 k dbg a <> Unsupported -> M9 k dbg a = S9 k dbg a.
Proof.
  intros dbg a k Hwf Hin. unfold pow_keys in Hin. cbn [In] in Hin.
  repeat (destruct Hin as [<- | Hin];
    [first [ apply tbl_pow_fixed | apply tbl_pow_boxed | apply tbl_multiexp_array | apply tbl_multiexp_slice
           | apply tbl_lincomb_fixed | apply tbl_lincomb_boxed ]; assumption |]).
  contradiction.
Qed.

Theorem C09_table_keys : map fst ops_pow_model = pow_keys /\ map fst ops_pow_spec = pow_keys.
Proof. split; reflexivity. Qed.

(** * non-vacuity: concrete multi-limb values (Python's pow() gives the same numbers) *)

Definition ex_m2 : list Z := [18446744073709551615; 9223372036854775807].          (* 2^127 - 1: one leading zero bit *)
Definition ex_x : list Z := [3; 5].
Definition ex_e2 : list Z := [18364758544493064720; 11].
Definition ex_e3 : list Z := [18364758544493064720; 11; 3735928559].

(* the hypotheses of the API theorems hold for these values; the exponent has bits above k = 66 *)
Example C09_ex_hyps :
  (wfb ex_m2 && negb (Nat.eqb (length ex_m2) 0) && Z.odd (eval ex_m2) && wfb ex_x && wfb ex_e2 && wfb ex_e3 &&
   negb (eval ex_e2 mod 2 ^ 66 =? eval ex_e2) && (mg_lz 2 (eval ex_m2) =? 1))%bool = true.
Proof. vm_compute. reflexivity. Qed.

Lemma ex_hyps : wf ex_m2 /\ length ex_m2 <> 0%nat /\ Z.odd (eval ex_m2) = true /\ wf ex_x /\ wf ex_e2 /\ wf ex_e3.
Proof.
  pose proof C09_ex_hyps as H. rewrite !andb_true_iff in H.
  destruct H as [[[[[[[Hm _] Ho] Hx] He2] He3] _] _].
  split; [apply wfb_wf; exact Hm|]. split; [discriminate|]. split; [exact Ho|].
  split; [apply wfb_wf; exact Hx|]. split; apply wfb_wf; assumption.
Qed.

(* The examples are instances of the API theorems; what is evaluated is the plain-integer specification
   (square and multiply, once per exponent) and the conversion of the result to limbs. *)
Lemma ex_pow66 : (eval ex_x ^ (eval ex_e2 mod 2 ^ 66)) mod eval ex_m2 = 113105439997346497558232066696974976303.
Proof. rewrite <- C09_spec_powmod; [vm_compute; reflexivity | vm_compute; discriminate]. Qed.
Lemma ex_pow131 : (eval ex_x ^ (eval ex_e3 mod 2 ^ 131)) mod eval ex_m2 = 76757736297528858215797613820812434512.
Proof. rewrite <- C09_spec_powmod; [vm_compute; reflexivity | vm_compute; discriminate]. Qed.

(* k = 66: two bits of the second exponent limb, bits above k set on purpose *)
Example C09_ex_pow_fixed : api_pow_fixed ex_m2 ex_x ex_e2 66 =
  Val [[15317306170624477791; 3039544339650418143]; [16882025122167014703; 6131458188252596975]].
Proof.
  destruct ex_hyps as (Hm & Hn & Ho & Hx & He2 & _).
  rewrite C09_api_pow_fixed_correct, ex_pow66; try assumption; [|vm_compute; split; discriminate].
  vm_compute. reflexivity.
Qed.
Example C09_ex_pow_boxed : api_pow_boxed ex_m2 ex_x ex_e2 66 =
  Val [[15317306170624477791; 3039544339650418143]; [16882025122167014703; 6131458188252596975]].
Proof.
  destruct ex_hyps as (Hm & Hn & Ho & Hx & He2 & _).
  rewrite C09_api_pow_agree; try assumption; [exact C09_ex_pow_fixed | vm_compute; split; discriminate].
Qed.
(* exponent wider than the base, k = 131 *)
Example C09_ex_pow_wide_exponent : api_pow_boxed ex_m2 ex_x ex_e3 131 =
  Val [[13047163761547753632; 8322090444885024762]; [6523581880773876816; 4161045222442512381]]
  /\ api_pow_fixed ex_m2 ex_x ex_e3 131 = api_pow_boxed ex_m2 ex_x ex_e3 131.
Proof.
  destruct ex_hyps as (Hm & Hn & Ho & Hx & _ & He3).
  assert (Hk : 0 <= 131 <= bitsZ ex_e3) by (vm_compute; split; discriminate).
  split; [|symmetry; apply C09_api_pow_agree; assumption].
  rewrite C09_api_pow_boxed_correct, ex_pow131 by assumption. vm_compute. reflexivity.
Qed.
(* k = 0: one (Montgomery representative R mod m = 2) *)
Example C09_ex_pow_zero_bits : api_pow_fixed ex_m2 ex_x ex_e3 0 = Val [[2; 0]; [1; 0]]
  /\ api_pow_boxed ex_m2 ex_x ex_e3 0 = Val [[2; 0]; [1; 0]].
Proof.
  destruct ex_hyps as (Hm & Hn & Ho & Hx & _ & He3).
  assert (Hk : 0 <= 0 <= bitsZ ex_e3) by (vm_compute; split; discriminate).
  rewrite C09_api_pow_agree, C09_api_pow_fixed_correct by assumption. vm_compute. split; reflexivity.
Qed.
(* k > BITS(exponent): the limb index is out of bounds *)
Example C09_ex_pow_k_too_large : api_pow_fixed ex_m2 ex_x ex_e2 129 = PanicV.
Proof. vm_compute. reflexivity. Qed.
(* 3^(6 mod 4) * 5^(6 mod 4) = 225 with exponent_bits = 2 (the top window is masked for EVERY base) *)
Example C09_ex_multiexp : api_multiexp_fixed true ex_m2 2 [([3; 0], [6; 0]); ([5; 0], [6; 0])] = Val [[450; 0]; [225; 0]]
  /\ api_multiexp_fixed false ex_m2 2 [([3; 0], [6; 0]); ([5; 0], [6; 0])] = Val [[450; 0]; [225; 0]].
Proof.
  destruct ex_hyps as (Hm & Hn & Ho & _).
  assert (Hb : Forall (fun be : list Z * list Z => wf (fst be) /\ wf (snd be) /\ 2 <= bitsZ (snd be))
                 [([3; 0], [6; 0]); ([5; 0], [6; 0])]).
  { repeat (apply Forall_cons; [repeat split; try (apply wfb_wf; reflexivity); vm_compute; discriminate|]).
    apply Forall_nil. }
  rewrite !C09_api_multiexp_correct; try assumption; try discriminate.
  vm_compute. split; reflexivity.
Qed.
(* three terms whose Montgomery representatives are m-1, m-2, m-3 against a window of 2^1 = 2 terms *)
Definition ex_terms : list (list Z * list Z) :=
  [([18446744073709551615; 4611686018427387903], [18446744073709551615; 4611686018427387903]);
   ([18446744073709551614; 9223372036854775807], [18446744073709551614; 9223372036854775807]);
   ([18446744073709551614; 4611686018427387903], [18446744073709551615; 4611686018427387903])].
Example C09_ex_lincomb : api_lincomb false true ex_m2 ex_terms = Val [[4; 0]; [2; 0]]
  /\ api_lincomb true true ex_m2 ex_terms = Val [[4; 0]; [2; 0]]
  /\ sum_prods ex_terms mod eval ex_m2 = 2.
Proof.
  destruct ex_hyps as (Hm & Hn & Ho & _).
  assert (Hne : ex_terms <> []) by discriminate.
  assert (Ht : Forall (fun ab : list Z * list Z => wf (fst ab) /\ wf (snd ab)) ex_terms)
    by (repeat (apply Forall_cons; [split; apply wfb_wf; reflexivity|]); apply Forall_nil).
  assert (Hs : sum_prods ex_terms mod eval ex_m2 = 2) by (vm_compute; reflexivity).
  rewrite !C09_api_lincomb_correct, Hs by assumption.
  vm_compute. repeat split; reflexivity.
Qed.
(* the carry paths are real: modulus 2^128 - 3 (no leading zero, window = 1 term): one term (m-1)^2 ends with
   hi_carry = 1; two terms in one accumulation (beyond the window) would end with hi_carry = 2 *)
Definition ex_m0 : list Z := [18446744073709551613; 18446744073709551615].
Definition ex_a0 : list Z := [18446744073709551612; 18446744073709551615].
Example C09_ex_hi_carry : mg_lz 2 (eval ex_m0) = 0
  /\ snd (longa_lincomb [(ex_a0, ex_a0)] ex_m0 (mg_neg_inv (eval ex_m0))) = 1
  /\ snd (longa_lincomb [(ex_a0, ex_a0); (ex_a0, ex_a0)] ex_m0 (mg_neg_inv (eval ex_m0))) = 2.
Proof. vm_compute. repeat split; reflexivity. Qed.
(* the table entries on these inputs *)
Example C09_ex_table : M9 "pow.boxed" false [ex_m2; ex_x; ex_e3; [131]] = S9 "pow.boxed" false [ex_m2; ex_x; ex_e3; [131]]
  /\ S9 "pow.boxed" false [ex_m2; ex_x; ex_e3; [131]] <> Unsupported.
Proof.
  assert (Hs : S9 "pow.boxed" false [ex_m2; ex_x; ex_e3; [131]] <> Unsupported).
  { (* the entry is [spec_pow ex_m2 ex_x ex_e3 131]; its domain test is evaluated, its value is not *)
    table_open9. unfold spec_pow.
    replace (sp_modulus_ok _ && _ && _ && _)%bool with true by (vm_compute; reflexivity). discriminate. }
  destruct ex_hyps as (Hm & _ & _ & Hx & _ & He3).
  split; [|exact Hs]. apply C09_tables_agree; [| right; left; reflexivity | exact Hs].
  repeat (apply Forall_cons; [first [assumption | apply wfb_wf; reflexivity]|]). apply Forall_nil.
Qed.

(** * audit trailer: the statements as the kernel sees them, then the assumptions of every theorem
      (the checker matches the Print Assumptions verdicts in order, so nothing may be printed between them) *)
Check C09_ct_lookup_is_nth.
Check C09_boxed_lookup_is_nth.
Check C09_pow_ladder_given_monty_mul.
Check C09_pow_zero_bits.
Check C09_pow_full_given_monty_mul.
Check C09_multi_exp_array_given_monty_mul.
Check C09_multi_exp_slice_given_monty_mul.
Check C09_slice_is_array.
Check C09_monty_mul_value_level.
Check C09_boxed_pow_reduced_given_amm.
Check C09_amm_value_level.
Check C09_longa_exact.
Check C09_lincomb_window_bound.
Check C09_lincomb_count_bound.
Check C09_sub_mod_with_carry_correct.
Check C09_lincomb_fixed_correct.
Check C09_lincomb_boxed_is_fixed.
Check C09_param_rinv.
Check C09_param_mod_neg_inv.
Check C09_param_mod_leading_zeros.
Check C09_api_pow_fixed_correct.
Check C09_api_pow_boxed_correct.
Check C09_api_pow_agree.
Check C09_api_multiexp_correct.
Check C09_api_lincomb_correct.
Check C09_api_lincomb_agree.
Check C09_spec_powmod.
Check C09_tables_agree.
Check C09_table_keys.
Print Assumptions C09_ct_lookup_is_nth.
Print Assumptions C09_boxed_lookup_is_nth.
Print Assumptions C09_pow_ladder_given_monty_mul.
Print Assumptions C09_pow_zero_bits.
Print Assumptions C09_pow_full_given_monty_mul.
Print Assumptions C09_multi_exp_array_given_monty_mul.
Print Assumptions C09_multi_exp_slice_given_monty_mul.
Print Assumptions C09_slice_is_array.
Print Assumptions C09_monty_mul_value_level.
Print Assumptions C09_boxed_pow_reduced_given_amm.
Print Assumptions C09_amm_value_level.
Print Assumptions C09_longa_exact.
Print Assumptions C09_lincomb_window_bound.
Print Assumptions C09_lincomb_count_bound.
Print Assumptions C09_sub_mod_with_carry_correct.
Print Assumptions C09_lincomb_fixed_correct.
Print Assumptions C09_lincomb_boxed_is_fixed.
Print Assumptions C09_param_rinv.
Print Assumptions C09_param_mod_neg_inv.
Print Assumptions C09_param_mod_leading_zeros.
Print Assumptions C09_api_pow_fixed_correct.
Print Assumptions C09_api_pow_boxed_correct.
Print Assumptions C09_api_pow_agree.
Print Assumptions C09_api_multiexp_correct.
Print Assumptions C09_api_lincomb_correct.
Print Assumptions C09_api_lincomb_agree.
Print Assumptions C09_spec_powmod.
Print Assumptions C09_tables_agree.
Print Assumptions C09_table_keys.
