(** C19 — random sampling respects its range, is unbiased, and is width-independent.
    Short proofs stand here; longer ones are lemmas of Proofs/Rand*P.v cited by [exact].

    An RNG [Rng ws nw nb] is the list [ws] of 64-bit words it will still output plus the counters of
    words consumed / bytes requested (Model/Rand.v). Every statement quantifies over EVERY stream [ws]
    (of words), every limb count and every modulus / bit length. A sampler returns [None] when the stream
    runs out (the RNG error of the try_* forms; the infallible forms panic inside the RNG).

    [rnd_agrees n ws base nw0 nb0 model spec] (Proofs/RandModP.v) says: the model returned exactly the
    specified value as [n] limbs, advanced the counters by the specified words / bytes and left the RNG
    at the specified position of the stream -- or both ran out of words. *)
From CB Require Import Model.Limbs Model.AddSub Model.Rand Proofs.BitsP Proofs.WordP Proofs.LimbsP Proofs.AddSubP
  Proofs.RandBaseP Proofs.RandModP Proofs.RandBitsP Proofs.RandMiscP Proofs.RandCountP.
From Coq Require Import ZArith List Lia Bool.
Open Scope Z_scope. Open Scope list_scope.

(** RANGE, every stream: a returned value is strictly below the modulus; k words = 8k bytes consumed *)
Theorem C19_random_mod_range : forall m ws nw0 nb0 v r',
  wf m -> wf ws -> 0 < eval m -> uint_random_mod m (Rng ws nw0 nb0) = Some (v, r') ->
  wf v /\ length v = length m /\ 0 <= eval v < eval m /\
  exists k, 0 < k /\ r' = Rng (skipn (Z.to_nat k) ws) (nw0 + k) (nb0 + 8 * k).
Proof. exact uint_random_mod_range. Qed.
Print Assumptions C19_random_mod_range.

Theorem C19_random_mod_boxed_range : forall m ws nw0 nb0 v r',
  wf m -> wf ws -> 0 < eval m -> boxed_random_mod m (Rng ws nw0 nb0) = Some (v, r') ->
  wf v /\ length v = length m /\ 0 <= eval v < eval m /\
  exists k, 0 < k /\ r' = Rng (skipn (Z.to_nat k) ws) (nw0 + k) (nb0 + 8 * k).
Proof.
  intros m ws nw0 nb0 v r' Hwm Hws Hpos. rewrite rnd_mod_fixed_eq_boxed by assumption.
  apply uint_random_mod_range; assumption.
Qed.
Print Assumptions C19_random_mod_boxed_range.

(** the limb-level algorithm (mask from leading_zeros, early rejection, borrow-based comparison) is the
    specified rejection sampler on integers: same value, same consumption, same exhaustion *)
Theorem C19_random_mod_model_eq_spec : forall m ws nw0 nb0,
  wf m -> wf ws -> 0 < eval m ->
  rnd_agrees (length m) ws 0 nw0 nb0 (uint_random_mod m (Rng ws nw0 nb0)) (sp_random_mod (eval m) ws).
Proof. exact uint_random_mod_spec. Qed.
Print Assumptions C19_random_mod_model_eq_spec.

(** WIDTH INDEPENDENCE: fixed and boxed integers consume the stream identically and return the same value *)
Theorem C19_random_mod_fixed_eq_boxed : forall m r,
  wf m -> 0 < eval m -> boxed_random_mod m r = uint_random_mod m r.
Proof. exact rnd_mod_fixed_eq_boxed. Qed.
Print Assumptions C19_random_mod_fixed_eq_boxed.

(** NO TERMINATION for arbitrary streams: an all-ones RNG is rejected for ever, whatever the modulus *)
Theorem C19_random_mod_allones_never_accepted : forall m j nw0 nb0,
  wf m -> 0 < eval m -> uint_random_mod m (Rng (repeat MAXW j) nw0 nb0) = None.
Proof.
  intros m j nw0 nb0 Hwm Hpos.
  assert (Hws : wf (repeat MAXW j)).
  { unfold wf. apply Forall_forall. intros x Hx. apply repeat_spec in Hx. subst. unfold is_word. pose proof MAXW_val.
  pose proof B_gt1. lia. }
  pose proof (uint_random_mod_spec m _ nw0 nb0 Hwm Hws Hpos) as H.
  destruct (rnd_shape_of m Hwm Hpos) as (p & h & tb & Hnl & Hsh).
  unfold sp_random_mod, rnd_ceil in H. replace (rnd_bitlen (eval m) + 64 - 1) with (rnd_bitlen (eval m) + 63) in H by lia.
  rewrite Hnl in H. destruct Hsh as [? ? ? ? ? ? ? ? Hbits] eqn:Esh.
  replace (rnd_bitlen (eval m) - 64 * (Z.of_nat (S p) - 1)) with tb in H by lia.
  rewrite (sp_mod_loop_allones m p h tb) in H by (constructor; assumption).
  destruct (uint_random_mod m (Rng (repeat MAXW j) nw0 nb0)) as [[v [? ? ?]]|]; [contradiction | reflexivity].
Qed.
Print Assumptions C19_random_mod_allones_never_accepted.

(** UNIFORMITY as counting: in one round, every value v < M is produced by exactly the raw candidates
    (v / B^p + j 2^tb , limbs of v mod B^p), j = 0 .. 2^(64-tb) - 1 : the same number for every v *)
Theorem C19_random_mod_counting : forall M, 0 < M ->
  let k := rnd_bitlen M in
  let p := (Z.to_nat (rnd_ceil k 64) - 1)%nat in
  let tb := k - 64 * Z.of_nat p in
  1 <= tb <= 64 /\
  forall v, 0 <= v < M ->
  (forall j, 0 <= j < 2 ^ (64 - tb) ->
     let w0 := v / Bn p + j * 2 ^ tb in
     is_word w0 /\ wf (to_limbs p v) /\ length (to_limbs p v) = p /\
     sp_mod_candidate tb p w0 (to_limbs p v) = v /\ w0 / 2 ^ tb = j /\ w0 mod 2 ^ tb <= M / Bn p) /\
  (forall w0 lows, is_word w0 -> wf lows -> length lows = p -> sp_mod_candidate tb p w0 lows = v ->
     lows = to_limbs p v /\ w0 = v / Bn p + (w0 / 2 ^ tb) * 2 ^ tb /\ 0 <= w0 / 2 ^ tb < 2 ^ (64 - tb)).
Proof. exact sp_random_mod_counting. Qed.
Print Assumptions C19_random_mod_counting.

(** early rejection only discards candidates that the full comparison would reject as well *)
Theorem C19_random_mod_early_rejection_sound : forall M, 0 < M ->
  let k := rnd_bitlen M in
  let p := (Z.to_nat (rnd_ceil k 64) - 1)%nat in
  let tb := k - 64 * Z.of_nat p in
  forall w0 lows, wf lows -> w0 mod 2 ^ tb > M / Bn p -> M <= sp_mod_candidate tb p w0 lows.
Proof.
  intros M HM k p tb w0 lows Hwl Hgt. unfold sp_mod_candidate.
  pose proof (Bn_pos p) as HBp. pose proof (eval_nonneg lows Hwl).
  pose proof (Z.div_mod M (Bn p) ltac:(lia)) as Hdm. pose proof (Z.mod_pos_bound M (Bn p) ltac:(lia)) as Hmb.
  assert ((M / Bn p + 1) * Bn p <= w0 mod 2 ^ tb * Bn p) by (apply Z.mul_le_mono_nonneg_r; lia). lia.
Qed.
Print Assumptions C19_random_mod_early_rejection_sound.

(** the sampler is "independent rounds until acceptance": a rejected round restarts it on the rest of the stream *)
Theorem C19_random_mod_rounds : forall M, 0 < M ->
  let k := rnd_bitlen M in
  let p := (Z.to_nat (rnd_ceil k 64) - 1)%nat in
  let tb := k - 64 * Z.of_nat p in
  (forall w0 rest, w0 mod 2 ^ tb > M / Bn p ->
     sp_random_mod M (w0 :: rest) = rnd_sp_shift 1 (sp_random_mod M rest)) /\
  (forall w0 lows rest, length lows = p -> w0 mod 2 ^ tb <= M / Bn p ->
     sp_random_mod M (w0 :: lows ++ rest) =
       if sp_mod_candidate tb p w0 lows <? M
       then SpOk (sp_mod_candidate tb p w0 lows) (Z.of_nat (S p)) (8 * Z.of_nat (S p))
       else rnd_sp_shift (Z.of_nat (S p)) (sp_random_mod M rest)).
Proof. exact sp_random_mod_rounds. Qed.
Print Assumptions C19_random_mod_rounds.

(** ERROR CONDITIONS exactly as documented, RANGE and CONSUMPTION (fixed width): the four cases are
    mutually exclusive and exhaustive. [rnd_tail_bytes] = 4 when the partial limb has 1..=32 bits, else 8 *)
Theorem C19_random_bits_uint_outcome : forall n ws nw nb bl prec, wf ws -> 0 <= bl ->
  let r := uint_random_bits_prec n (Rng ws nw nb) bl prec in
  let bits := 64 * Z.of_nat n in
  let k := rnd_ceil bl 64 in
  (prec <> bits /\ r = RErr 1 prec bits) \/
  (prec = bits /\ bits < bl /\ r = RErr 2 bl prec) \/
  (prec = bits /\ bl <= bits /\ Z.of_nat (length ws) < k /\ r = RErr 9 0 0) \/
  (prec = bits /\ bl <= bits /\ k <= Z.of_nat (length ws) /\ exists v,
     r = ROk v (Rng (skipn (Z.to_nat k) ws) (nw + k) (nb + (if bl =? 0 then 0 else 8 * (k - 1) + rnd_tail_bytes bl))) /\
     wf v /\ length v = n /\ eval v = eval (firstn (Z.to_nat k) ws) mod 2 ^ bl /\ 0 <= eval v < 2 ^ bl).
Proof. exact uint_random_bits_outcome. Qed.
Print Assumptions C19_random_bits_uint_outcome.

Theorem C19_random_bits_boxed_outcome : forall ws nw nb bl prec, wf ws -> 0 <= bl ->
  let r := boxed_random_bits_prec (Rng ws nw nb) bl prec in
  let k := rnd_ceil bl 64 in
  (prec < bl /\ r = RErr 2 bl prec) \/
  (bl <= prec /\ Z.of_nat (length ws) < k /\ r = RErr 9 0 0) \/
  (bl <= prec /\ k <= Z.of_nat (length ws) /\ exists v,
     r = ROk v (Rng (skipn (Z.to_nat k) ws) (nw + k) (nb + (if bl =? 0 then 0 else 8 * (k - 1) + rnd_tail_bytes bl))) /\
     wf v /\ length v = rnd_boxed_limbs prec /\ eval v = eval (firstn (Z.to_nat k) ws) mod 2 ^ bl /\ 0 <= eval v < 2 ^ bl).
Proof. exact boxed_random_bits_outcome. Qed.
Print Assumptions C19_random_bits_boxed_outcome.

(** RANGE, every stream: a returned value is below 2^bit_length *)
Theorem C19_random_bits_range : forall n ws nw nb bl prec v r', wf ws -> 0 <= bl ->
  uint_random_bits_prec n (Rng ws nw nb) bl prec = ROk v r' ->
  wf v /\ length v = n /\ 0 <= eval v < 2 ^ bl /\ eval v = eval (firstn (Z.to_nat (rnd_ceil bl 64)) ws) mod 2 ^ bl /\
  r' = Rng (skipn (Z.to_nat (rnd_ceil bl 64)) ws) (nw + rnd_ceil bl 64)
           (nb + (if bl =? 0 then 0 else 8 * (rnd_ceil bl 64 - 1) + rnd_tail_bytes bl)).
Proof.
  intros n ws nw nb bl prec v r' Hws Hbl E. rewrite uint_random_bits_spec in E by assumption.
  destruct (negb (prec =? 64 * Z.of_nat n)); [discriminate|].
  destruct (Z.ltb_spec (64 * Z.of_nat n) bl); [discriminate|]. apply (rnd_bits_expected_ok n ws nw nb); assumption.
Qed.
Print Assumptions C19_random_bits_range.

Theorem C19_random_bits_boxed_range : forall ws nw nb bl prec v r', wf ws -> 0 <= bl ->
  boxed_random_bits_prec (Rng ws nw nb) bl prec = ROk v r' ->
  wf v /\ length v = rnd_boxed_limbs prec /\ 0 <= eval v < 2 ^ bl /\
  eval v = eval (firstn (Z.to_nat (rnd_ceil bl 64)) ws) mod 2 ^ bl /\
  r' = Rng (skipn (Z.to_nat (rnd_ceil bl 64)) ws) (nw + rnd_ceil bl 64)
           (nb + (if bl =? 0 then 0 else 8 * (rnd_ceil bl 64 - 1) + rnd_tail_bytes bl)).
Proof. exact boxed_random_bits_range. Qed.
Print Assumptions C19_random_bits_boxed_range.

(** WIDTH INDEPENDENCE: BoxedUint with the precision of Uint<n> behaves exactly like Uint<n> *)
Theorem C19_random_bits_fixed_eq_boxed : forall n ws nw nb bl, wf ws -> 0 <= bl -> (0 < n)%nat ->
  boxed_random_bits_prec (Rng ws nw nb) bl (64 * Z.of_nat n) = uint_random_bits_prec n (Rng ws nw nb) bl (64 * Z.of_nat n).
Proof.
  intros n ws nw nb bl Hws Hbl Hn. rewrite uint_random_bits_spec, boxed_random_bits_spec by assumption.
  rewrite Z.eqb_refl. cbn [negb].
  replace (rnd_boxed_limbs (64 * Z.of_nat n)) with n; [reflexivity|].
  unfold rnd_boxed_limbs. replace ((64 * Z.of_nat n + 63) / 64) with (Z.of_nat n); [lia|].
  apply (Z.div_unique_pos _ _ _ 63); lia.
Qed.
Print Assumptions C19_random_bits_fixed_eq_boxed.

(** UNIFORMITY as counting: every value below 2^bl has exactly 2^(64 nz - bl) preimages among the nz raw words *)
Theorem C19_random_bits_counting : forall bl nz, 0 <= bl <= 64 * Z.of_nat nz ->
  forall v, 0 <= v < 2 ^ bl ->
  (forall j, 0 <= j < 2 ^ (64 * Z.of_nat nz - bl) ->
     let ws := to_limbs nz (v + j * 2 ^ bl) in
     wf ws /\ length ws = nz /\ eval ws mod 2 ^ bl = v /\ eval ws / 2 ^ bl = j) /\
  (forall ws, wf ws -> length ws = nz -> eval ws mod 2 ^ bl = v ->
     ws = to_limbs nz (v + (eval ws / 2 ^ bl) * 2 ^ bl) /\ 0 <= eval ws / 2 ^ bl < 2 ^ (64 * Z.of_nat nz - bl)).
Proof.
  intros bl nz Hbl v Hv. destruct (rnd_split_bij (64 * Z.of_nat nz) bl Hbl) as [Hfwd Hbwd]. split.
  - intros j Hj ws. destruct (Hfwd v j Hv Hj) as (Hr & Hm & Hd).
    assert (He : eval ws = v + j * 2 ^ bl) by (apply to_limbs_small; rewrite Bn_pow2; assumption).
    rewrite He. subst ws. split; [apply wf_to_limbs|]. split; [apply length_to_limbs|]. split; assumption.
  - intros ws Hw Hl Hm. pose proof (eval_bounds ws Hw) as Hb. rewrite Hl, Bn_pow2 in Hb.
    destruct (Hbwd _ Hb) as (Hx & _ & Hq). split; [|assumption].
    rewrite <- Hm, <- Hx. rewrite <- Hl. symmetry. apply to_limbs_eval. assumption.
Qed.
Print Assumptions C19_random_bits_counting.

Theorem C19_limb_random_mod_range : forall m ws nw0 nb0 v r', 0 < m < B -> wf ws ->
  limb_random_mod m (Rng ws nw0 nb0) = Some (v, r') ->
  0 <= v < m /\ exists k, 0 < k /\ r' = Rng (skipn (Z.to_nat k) ws) (nw0 + k) (nb0 + rnd_ceil (rnd_bitlen m) 8 * k).
Proof.
  intros m ws nw0 nb0 v r' Hm Hws E. pose proof (limb_random_mod_spec m ws nw0 nb0 Hm Hws) as H. rewrite E in H.
  unfold rnd_agrees1 in H. destruct r' as [rest nw nb].
  destruct (sp_limb_random_mod m ws) as [x k b|] eqn:Es; [|contradiction].
  destruct H as (Hv & Hnw & Hnb & Hk & Hr). unfold sp_limb_random_mod in Es.
  apply sp_limb_mod_loop_range in Es; [|apply rnd_bitlen_nonneg]. destruct Es as (Hx & _ & Hb).
  subst v. split; [assumption|]. exists k. split; [lia|]. rewrite Z.sub_0_r in Hr. subst. reflexivity.
Qed.
Print Assumptions C19_limb_random_mod_range.

(** the byte-wise sampler (byte mask, from_word_lt) returns the first word w with  w mod 2^bits(m) < m *)
Theorem C19_limb_random_mod_model_eq_spec : forall m ws nw0 nb0, 0 < m < B -> wf ws ->
  rnd_agrees1 ws 0 nw0 nb0 (limb_random_mod m (Rng ws nw0 nb0)) (sp_limb_random_mod m ws).
Proof. exact limb_random_mod_spec. Qed.
Print Assumptions C19_limb_random_mod_model_eq_spec.

Theorem C19_limb_random_mod_counting : forall m, 0 < m < B -> let k := rnd_bitlen m in
  forall v, 0 <= v < m ->
  (forall j, 0 <= j < 2 ^ (64 - k) -> let w := v + j * 2 ^ k in is_word w /\ w mod 2 ^ k = v /\ w / 2 ^ k = j) /\
  (forall w, is_word w -> w mod 2 ^ k = v -> w = v + (w / 2 ^ k) * 2 ^ k /\ 0 <= w / 2 ^ k < 2 ^ (64 - k)).
Proof.
  intros m Hm k v Hv. pose proof (rnd_bitlen_spec m ltac:(lia)) as (_ & _ & Hub). fold k in Hub.
  assert (Hk : 0 <= k <= 64).
  { split; [apply rnd_bitlen_nonneg | apply rnd_bitlen_lt; rewrite <- B_val; lia]. }
  destruct (rnd_split_bij 64 k Hk) as [Hfwd Hbwd]. split.
  - intros j Hj w. destruct (Hfwd v j ltac:(lia) Hj) as (Hr & Hmo & Hd).
    split; [apply rnd_lt_word; assumption | auto].
  - intros w Hw Hmo. apply rnd_word_lt in Hw. destruct (Hbwd w Hw) as (Hx & _ & Hq).
    rewrite Hmo in Hx. auto.
Qed.
Print Assumptions C19_limb_random_mod_counting.

(** Random for Uint / Int / Wrapping (Limb: n = 1): the next n words are the limbs -- the identity map, hence uniform *)
Theorem C19_random_uint : forall n ws nw nb, wf ws ->
  uint_random n (Rng ws nw nb) =
    if (length ws <? n)%nat then None
    else Some (firstn n ws, Rng (skipn n ws) (nw + Z.of_nat n) (nb + 8 * Z.of_nat n)).
Proof. exact uint_random_spec. Qed.
Print Assumptions C19_random_uint.

(** NonZero: never zero, for every stream; it is the first non-zero block of n words *)
Theorem C19_nonzero_valid : forall n ws nw0 nb0 v r', (0 < n)%nat -> wf ws ->
  nonzero_uint_random n (Rng ws nw0 nb0) = Some (v, r') -> wf v /\ length v = n /\ 0 < eval v.
Proof. exact nonzero_uint_random_valid. Qed.
Print Assumptions C19_nonzero_valid.

Theorem C19_nonzero_model_eq_spec : forall n ws nw0 nb0, (0 < n)%nat -> wf ws ->
  rnd_agrees n ws 0 nw0 nb0 (nonzero_uint_random n (Rng ws nw0 nb0)) (sp_nonzero_random n ws).
Proof. exact nonzero_uint_random_spec. Qed.
Print Assumptions C19_nonzero_model_eq_spec.

(** NonZero<ConstMontyForm>: a non-zero residue below the modulus *)
Theorem C19_nonzero_residue_valid : forall m ws nw0 nb0 v r', wf m -> 0 < eval m -> wf ws ->
  nonzero_mod_random m (Rng ws nw0 nb0) = Some (v, r') -> wf v /\ length v = length m /\ 0 < eval v < eval m.
Proof.
  intros m ws nw0 nb0 v r' Hwm Hpos Hws E. pose proof (nonzero_mod_random_spec m ws nw0 nb0 Hwm Hpos Hws) as H.
  rewrite E in H.
  apply rnd_agrees_some in H. destruct H as (x & k & b & Es & Hw & Hl & He & Hx & _).
  apply sp_nonzero_mod_loop_range in Es; [|assumption]. repeat split; try assumption; lia.
Qed.
Print Assumptions C19_nonzero_residue_valid.

Theorem C19_nonzero_residue_model_eq_spec : forall m ws nw0 nb0, wf m -> 0 < eval m -> wf ws ->
  rnd_agrees (length m) ws 0 nw0 nb0 (nonzero_mod_random m (Rng ws nw0 nb0)) (sp_nonzero_mod_random (eval m) ws).
Proof. exact nonzero_mod_random_spec. Qed.
Print Assumptions C19_nonzero_residue_model_eq_spec.

(** Odd<Uint<N>>: always odd; it is the uniform sample with bit 0 forced to one (two preimages per odd value) *)
Theorem C19_odd_valid : forall n ws nw nb v r', wf ws -> (0 < n)%nat ->
  odd_uint_random n (Rng ws nw nb) = Some (v, r') -> wf v /\ length v = n /\ Z.odd (eval v) = true.
Proof. exact odd_uint_random_valid. Qed.
Print Assumptions C19_odd_valid.

Theorem C19_odd_model_eq_spec : forall n ws nw nb, wf ws -> (0 < n)%nat ->
  rnd_agrees n ws 0 nw nb (odd_uint_random n (Rng ws nw nb)) (sp_odd_sample (sp_random n ws)).
Proof. exact odd_uint_random_spec. Qed.
Print Assumptions C19_odd_model_eq_spec.

Theorem C19_odd_two_preimages : forall x v, Z.odd v = true -> (sp_force_odd x = v <-> x = v \/ x = v - 1).
Proof.
  intros x v Hv. unfold sp_force_odd. destruct (Z.odd x) eqn:Ex.
  - split; [auto|]. intros [->| ->]; [reflexivity|].
    exfalso. replace v with (v - 1 + 1) in Hv by lia. rewrite Z.odd_add, Ex in Hv. discriminate.
  - split; [lia|]. intros [->| ->]; [congruence | lia].
Qed.
Print Assumptions C19_odd_two_preimages.

(** Odd<BoxedUint>::random(rng, bit_length), bit_length >= 1: odd and below 2^bit_length *)
Theorem C19_odd_boxed_valid : forall ws nw nb bl v r', wf ws -> 1 <= bl ->
  odd_boxed_random (Rng ws nw nb) bl = Some (v, r') ->
  wf v /\ length v = rnd_boxed_limbs bl /\ Z.odd (eval v) = true /\ 0 <= eval v < 2 ^ bl /\
  eval v = sp_force_odd (eval (firstn (Z.to_nat (rnd_ceil bl 64)) ws) mod 2 ^ bl) /\
  r' = Rng (skipn (Z.to_nat (rnd_ceil bl 64)) ws) (nw + rnd_ceil bl 64) (nb + (8 * (rnd_ceil bl 64 - 1) + rnd_tail_bytes bl)).
Proof. exact odd_boxed_random_valid. Qed.
Print Assumptions C19_odd_boxed_valid.

(** non-vacuity: a two-limb modulus 3 * 2^64 + 1 -- the first candidate (top word MAX masked to 3, low word 5)
    is rejected by the full comparison, the second (3, 0) accepted after 4 words; an all-ones stream is
    exhausted; a 96-bit RandomBits request reads 8 + 4 bytes; a precision mismatch is reported *)
Example C19_nonvacuous :
  uint_random_mod [1; 3] (Rng [MAXW; 5; 3; 0; 7] 0 0) = Some ([0; 3], Rng [7] 4 32) /\
  boxed_random_mod [1; 3] (Rng [MAXW; 5; 3; 0; 7] 0 0) = Some ([0; 3], Rng [7] 4 32) /\
  uint_random_mod [1; 3] (Rng [MAXW; MAXW; MAXW] 0 0) = None /\
  uint_random_bits_prec 2 (Rng [12297829382473034410; 14757395258967641292] 0 0) 96 128
    = ROk [12297829382473034410; 3435973836] (Rng [] 2 12) /\
  uint_random_bits_prec 2 (Rng [1; 2] 0 0) 96 127 = RErr 1 127 128 /\
  limb_random_mod 256 (Rng [511; 255] 0 0) = Some (255, Rng [] 2 4).
Proof. vm_compute. repeat split; reflexivity. Qed.
