(** Translator tie, group Cmp: the three-way comparison Uint::cmp of /repo's CURRENT src/uint/cmp.rs (Src/GenCmp.v; i8
    arithmetic on the final borrow / the accumulated difference) equals uint_cmp of Model/Cmp.v for every limb count that is a
    usize and all limb values.  Hand-written. *)
From CB Require Import Model.SrcPrelude Model.Word Model.Limbs Model.AddSub Model.Cmp.
From CB Require Import Src.GenPrim Src.GenWidthP Src.GenPrimP Src.GenLoopP Src.GenUint Src.GenUintP Src.GenShift Src.GenCmp.
From CB Require Import Proofs.WordP Proofs.WordPredP Proofs.LimbsP Proofs.CmpP.
From Coq Require Import Lia List.
Import ListNotations.
Open Scope Z_scope.
Transparent B.

Definition cmpstep (s : Z * Z) (p : Z * Z) : Z * Z :=
  let '(w, b) := g_limb_sbb (snd p) (fst p) (snd s) in (g_limb_bitor (fst s) w, b).

Lemma fold_cmp a : forall b d bo, wf a -> wf b -> length a = length b -> is_word d -> (bo = 0 \/ bo = MAXW) ->
  fold_left cmpstep (combine a b) (d, bo) = cmp_loop a b bo d /\
  is_word (fst (cmp_loop a b bo d)) /\ (snd (cmp_loop a b bo d) = 0 \/ snd (cmp_loop a b bo d) = MAXW).
Proof.
  induction a as [|x a IH]; intros [|y b] d bo Wa Wb Hl Wd Hbo; try discriminate.
  - cbn. auto.
  - inversion Wa; subst. inversion Wb; subst.
    assert (Wbo : is_word bo) by (destruct Hbo as [-> | ->]; [apply is_word_0' | apply is_word_MAXW]).
    cbn [combine fold_left cmp_loop]. unfold cmpstep at 2. cbn [fst snd].
    rewrite g_limb_sbb_eq by assumption. destruct (sbb y x bo) as [w b1] eqn:E.
    destruct (sbb_exact y x bo w b1) as [Ww Hb1]; try assumption.
    apply IH; try assumption.
    + cbn in Hl. lia.
    + apply is_word_lor; assumption.
    + destruct Hb1 as [[-> _]|[-> _]]; auto.
Qed.

Lemma cmp_final diff bo : is_word diff -> (bo = 0 \/ bo = MAXW) ->
  smul_ 8 (swrap_ 8 (g_cc_to_u8 (g_limb_is_nonzero diff))) (ssub_ 8 (swrap_ 8 (Z.land bo 2)) 1)
  = to_choice (from_word_nonzero diff) * (wand bo 2 - 1).
Proof.
  intros Wd Hbo. rewrite g_limb_is_nonzero_eq.
  pose proof (g_nonzero_spec diff Wd) as E. change (g_cc_from_word_nonzero diff) with (from_word_nonzero diff) in E.
  rewrite E. destruct (negb (diff =? 0)); destruct Hbo as [-> | ->]; reflexivity.
Qed.

Lemma g_uint_cmp_eq n a b : length a = n -> length b = n -> usz n -> wf a -> wf b -> g_uint_cmp n a b = uint_cmp a b.
Proof.
  intros Ha Hb Hn Wa Wb. unfold g_uint_cmp, uint_cmp.
  rewrite (iter_idx3 _ (fun j (s : Z * Z) => cmpstep s (nth j a 0, nth j b 0))) by
    (first [exact Hn | intros i x y Hi; unfold cmpstep; cbn [fst snd]; destruct (g_limb_sbb _ _ _); reflexivity]).
  subst n. rewrite (loop_acc2 cmpstep a b (0, 0) (eq_sym Hb)).
  destruct (fold_cmp a b 0 0 Wa Wb (eq_sym Hb) is_word_0' (or_introl eq_refl)) as (E & Wd & Hbo). rewrite E.
  destruct (cmp_loop a b 0 0) as [diff bo]. apply cmp_final; assumption.
Qed.

Lemma g_uint_cmp_spec n a b : length a = n -> length b = n -> usz n -> wf a -> wf b ->
  g_uint_cmp n a b = ordz (eval a) (eval b).
Proof. intros Ha Hb Hn Wa Wb. rewrite g_uint_cmp_eq by assumption. apply uint_cmp_spec; try assumption. congruence. Qed.
