(** C08, translator tie: theorems about the Gallina text that tools/rs2v.py regenerates from /repo's CURRENT source on
    every run: src/modular/reduction.rs with src/limb/mul.rs, src/uint/sub_mod.rs (Src/GenMonty.v, Src/GenMod.v), then
    the almost-Montgomery multiplication of src/modular/boxed_monty_form/mul.rs (Src/GenAmm.v).
    Short proofs stand here, longer ones are lemmas of Src/GenMontyP.v and Src/GenAmmP.v cited by [exact].  Every
    statement is for ALL limb counts n >= 1 that fit a usize (2n for the reduction) and all limbs. *)
From CB Require Import Model.SrcPrelude Model.Word Model.Limbs Model.AddSub Model.Mul Model.ModArith Model.Monty.
From CB Require Import Src.GenPrim Src.GenUint Src.GenMod Src.GenShift Src.GenMul Src.GenMonty Src.GenMontyP.
From CB Require Import Proofs.WordP Proofs.LimbsP Proofs.MontyRedP.
From Coq Require Import ZArith List Lia.
Import ListNotations.
Open Scope Z_scope.

(** Limb::wrapping_mul *)
Theorem C08_src_limb_wrapping_mul : forall a b, g_limb_wrapping_mul a b = wmul a b.
Proof. exact g_limb_wrapping_mul_eq. Qed.
Print Assumptions C08_src_limb_wrapping_mul.

(** Uint::sub_mod_with_carry: the source text denotes the model function *)
Theorem C08_src_sub_mod_with_carry : forall n a carry b p, length a = n -> length b = n -> length p = n -> Z.of_nat n < 2 ^ 64 ->
  wf a -> wf b -> wf p -> is_word carry ->
  g_uint_sub_mod_with_carry n a carry b p = sub_mod_with_carry a carry b p.
Proof. exact g_uint_sub_mod_with_carry_eq. Qed.
Print Assumptions C08_src_sub_mod_with_carry.

(** montgomery_reduction_inner (nested loops over the two `&mut [Limb]` buffers, meta-carry): the generated function returns
    (meta_carry, final upper, final lower); its first two components are the model's result *)
Theorem C08_src_reduction_inner : forall lower upper m k,
  length lower = length m -> length upper = length m -> 2 * Z.of_nat (length m) < 2 ^ 64 ->
  wf lower -> wf upper -> wf m -> is_word k ->
  let r := g_montgomery_reduction_inner upper lower m k in
  (snd (fst r), fst (fst r)) = montgomery_reduction_inner lower upper m k.
Proof. exact g_montgomery_reduction_inner_eq. Qed.
Print Assumptions C08_src_reduction_inner.

(** montgomery_reduction (the fixed-width wrapper with the final sub_mod_with_carry) *)
Theorem C08_src_montgomery_reduction : forall n lower upper m k,
  length lower = n -> length upper = n -> length m = n -> 2 * Z.of_nat n < 2 ^ 64 -> (1 <= n)%nat ->
  wf lower -> wf upper -> wf m -> is_word k ->
  g_montgomery_reduction n (lower, upper) m k = montgomery_reduction lower upper m k.
Proof. exact g_montgomery_reduction_eq. Qed.
Print Assumptions C08_src_montgomery_reduction.

(** hence for T = lower + R * upper < m * R (R = 2^(64 n), k = -m^-1 mod 2^64) the SOURCE routine returns the canonical
    representative of T * R^-1 mod m *)
Theorem C08_src_montgomery_reduction_correct : forall n lower upper m k,
  length lower = n -> length upper = n -> length m = n -> 2 * Z.of_nat n < 2 ^ 64 -> (1 <= n)%nat ->
  wf lower -> wf upper -> wf m -> is_word k -> (hd 0 m * k + 1) mod B = 0 ->
  eval lower + Bn n * eval upper < eval m * Bn n ->
  let r := g_montgomery_reduction n (lower, upper) m k in
  wf r /\ length r = n /\ 0 <= eval r < eval m /\
  (eval r * Bn n) mod eval m = (eval lower + Bn n * eval upper) mod eval m.
Proof. exact g_montgomery_reduction_correct. Qed.
Print Assumptions C08_src_montgomery_reduction_correct.

(** non-vacuity: the generated text runs on 3-limb inputs (m = 2^192 - 237 is odd, k = -m^-1 mod 2^64 from the model's
    constructor); the last input has the meta-carry set (upper = m - 1, lower = MAX) *)
Example C08_src_runs :
  let m := [2 ^ 64 - 237; 2 ^ 64 - 1; 2 ^ 64 - 1] in
  let k := mod_neg_inv_of m in
  (hd 0 m * k + 1) mod B = 0 /\
  g_montgomery_reduction 3 ([5; 7; 11], [1; 2; 3]) m k = montgomery_reduction [5; 7; 11] [1; 2; 3] m k /\
  (eval (g_montgomery_reduction 3 ([5; 7; 11], [1; 2; 3]) m k) * Bn 3) mod eval m = (eval [5; 7; 11] + Bn 3 * eval [1; 2; 3]) mod eval m /\
  g_montgomery_reduction 3 ([2 ^ 64 - 1; 2 ^ 64 - 1; 2 ^ 64 - 1], [2 ^ 64 - 238; 2 ^ 64 - 1; 2 ^ 64 - 1]) m k
    = montgomery_reduction [2 ^ 64 - 1; 2 ^ 64 - 1; 2 ^ 64 - 1] [2 ^ 64 - 238; 2 ^ 64 - 1; 2 ^ 64 - 1] m k /\
  fst (fst (g_montgomery_reduction_inner [2 ^ 64 - 238; 2 ^ 64 - 1; 2 ^ 64 - 1] [2 ^ 64 - 1; 2 ^ 64 - 1; 2 ^ 64 - 1] m k)) = 1.
Proof.
  intros m k.
  assert (Hk : is_word k /\ (hd 0 m * k + 1) mod B = 0) by (vm_compute; repeat split; discriminate).
  destruct Hk as [Hkw Hk].
  assert (Hm : wf m) by (apply wfb_wf; reflexivity).
  (* the source routine is the model on all 3-limb inputs, and correct below m * R *)
  assert (Heq : forall lower upper, wfb lower = true -> wfb upper = true -> length lower = 3%nat -> length upper = 3%nat ->
            g_montgomery_reduction 3 (lower, upper) m k = montgomery_reduction lower upper m k).
  { intros lower upper Hl Hu Ll Lu. apply g_montgomery_reduction_eq; try apply wfb_wf; try assumption; try reflexivity.
    apply le_S, le_S, le_n. }
  split; [exact Hk|]. split; [apply Heq; reflexivity|]. split; [|split; [apply Heq; reflexivity|]].
  - apply g_montgomery_reduction_correct; try apply wfb_wf; try assumption; try reflexivity.
    apply le_S, le_S, le_n.
  - vm_compute. reflexivity.
Qed.


(** ---- the almost-Montgomery multiplication of src/modular/boxed_monty_form/mul.rs (Src/GenAmm.v, proofs in Src/GenAmmP.v):
    every limb count n >= 1 (n a usize), all limb values.  The functions write through `z: &mut [Limb]`; a generated function
    returns the final contents of z (after its value, if it has one) ---- *)
From CB Require Import Src.GenUintP Src.GenAmm Src.GenAmmP Proofs.MontyAmmP.

(** add_mul_carry (z += x * y in place, carry returned) is one multiply-accumulate row of the model *)
Theorem C08_src_add_mul_carry : forall z x y, length x = length z -> usz (length z) -> wf z -> wf x -> is_word y ->
  g_add_mul_carry z x y = (snd (add_mul_carry z x y), fst (add_mul_carry z x y)).
Proof. exact g_add_mul_carry_eq. Qed.
Print Assumptions C08_src_add_mul_carry.

(** add_mul_carry_and_shift (`while i < n && i1 < n`: reads z[i], writes z[i - 1]) is the tail of the row; the last limb is
    left as it was (the caller overwrites it) *)
Theorem C08_src_add_mul_carry_and_shift : forall z x y, length x = length z -> (1 <= length z)%nat -> usz (length z) ->
  wf z -> wf x -> is_word y ->
  g_add_mul_carry_and_shift z x y = (snd (add_mul_carry_and_shift z x y), fst (add_mul_carry_and_shift z x y) ++ [last z 0]).
Proof. exact g_add_mul_carry_and_shift_eq. Qed.
Print Assumptions C08_src_add_mul_carry_and_shift.

Theorem C08_src_conditional_sub : forall z x c, length x = length z -> usz (length z) -> wf z -> wf x -> is_word c ->
  g_conditional_sub z x c = conditional_sub z x c.
Proof. exact g_conditional_sub_eq. Qed.
Print Assumptions C08_src_conditional_sub.

(** almost_montgomery_mul: the outer CIOS loop with the two-level carry (ts, ts1) started on ANY buffer z is the model loop
    over the limbs of y, followed by the conditional subtraction on overflow *)
Theorem C08_src_almost_montgomery_mul : forall z x y m k, length z = length m -> length x = length m -> length y = length m ->
  (1 <= length m)%nat -> usz (length m) -> wf z -> wf x -> wf y -> wf m -> is_word k ->
  g_almost_montgomery_mul z x y m k =
    conditional_sub (fst (amm_loop y z 0 x m k)) m (from_word_lsb (snd (amm_loop y z 0 x m k))).
Proof. exact g_almost_montgomery_mul_eq. Qed.
Print Assumptions C08_src_almost_montgomery_mul.

Theorem C08_src_almost_montgomery_mul_by_one : forall z x m k, length z = length m -> length x = length m ->
  (1 <= length m)%nat -> usz (length m) -> wf z -> wf x -> wf m -> is_word k ->
  g_almost_montgomery_mul_by_one z x m k =
    conditional_sub (fst (amm1_loop (length m) true z 0 x m k)) m (from_word_lsb (snd (amm1_loop (length m) true z 0 x m k))).
Proof. exact g_almost_montgomery_mul_by_one_eq. Qed.
Print Assumptions C08_src_almost_montgomery_mul_by_one.

(** hence on a zeroed buffer (as BoxedMontyMultiplier calls it) the SOURCE text satisfies the value equation
    R * (AMM + e m) = x y + U m with e in {0, 1}, stays below R = 2^(64 n), and the source's claim 1
    floor(AMM / m) <= min(floor(x / m), floor(y / m)) + 1 -- for every width, every odd m with k = -m^-1 mod 2^64, and
    operands that need NOT be reduced *)
Theorem C08_src_amm_correct : forall n x y m k, length x = n -> length y = n -> length m = n -> (1 <= n)%nat -> usz n ->
  wf x -> wf y -> wf m -> is_word k -> (hd 0 m * k + 1) mod B = 0 -> 0 < eval m ->
  let a := g_almost_montgomery_mul (zeros n) x y m k in
  wf a /\ length a = n /\ 0 <= eval a < Bn n /\
  (exists U e, 0 <= U < Bn n /\ 0 <= e <= 1 /\ Bn n * (eval a + e * eval m) = eval x * eval y + U * eval m) /\
  eval a / eval m <= Z.min (eval x / eval m) (eval y / eval m) + 1.
Proof.
  intros n x y m k Lx Ly Lm. rewrite <- Lm in *. clear Lm. intros H1 Hn Wx Wy Wm Wk Hk HM. cbv zeta.
  rewrite g_almost_montgomery_mul_eq by (first [assumption | apply length_zeros | apply wf_zeros | lia]).
  replace (conditional_sub (fst (amm_loop y (zeros (length m)) 0 x m k)) m
            (from_word_lsb (snd (amm_loop y (zeros (length m)) 0 x m k)))) with (almost_montgomery_mul x y m k)
    by (unfold almost_montgomery_mul; destruct (amm_loop y (zeros (length m)) 0 x m k); reflexivity).
  pose proof (amm_correct m k Wm ltac:(lia) Hk x y Wx Wy Lx Ly HM) as H. cbv zeta in H.
  destruct H as (A & B' & C & D).
  pose proof (amm_bound m k Wm ltac:(lia) Hk x y Wx Wy Lx Ly HM) as HB.
  repeat split; try assumption; try lia.
Qed.
Print Assumptions C08_src_amm_correct.

(** retrieve: AMM(x, 1) of a canonical x is canonical and is x * R^-1 mod m *)
Theorem C08_src_amm_by_one_reduced : forall n x m k, length x = n -> length m = n -> (1 <= n)%nat -> usz n ->
  wf x -> wf m -> is_word k -> (hd 0 m * k + 1) mod B = 0 -> eval x < eval m ->
  let a := g_almost_montgomery_mul_by_one (zeros n) x m k in
  wf a /\ length a = n /\ 0 <= eval a < eval m /\ (eval a * Bn n) mod eval m = eval x mod eval m.
Proof.
  intros n x m k Lx Lm. rewrite <- Lm in *. clear Lm. intros H1 Hn Wx Wm Wk Hk HxM. cbv zeta.
  rewrite g_almost_montgomery_mul_by_one_eq by (first [assumption | apply length_zeros | apply wf_zeros | lia]).
  replace (conditional_sub (fst (amm1_loop (length m) true (zeros (length m)) 0 x m k)) m
            (from_word_lsb (snd (amm1_loop (length m) true (zeros (length m)) 0 x m k)))) with (almost_montgomery_mul_by_one x m k)
    by (unfold almost_montgomery_mul_by_one; destruct (amm1_loop (length m) true (zeros (length m)) 0 x m k); reflexivity).
  pose proof (amm_by_one_reduced m k Wm ltac:(lia) Hk x Wx Lx HxM) as H. cbv zeta in H. exact H.
Qed.
Print Assumptions C08_src_amm_by_one_reduced.

(** non-vacuity: the generated loops run on 3-limb inputs (m = 2^192 - 159, k = -m^-1 mod 2^64): the products agree with
    x * y * R^-1 mod m and x * R^-1 mod m computed independently; the rows with every carry set *)
Example C08_src_amm_runs :
  let m := [2 ^ 64 - 159; 2 ^ 64 - 1; 2 ^ 64 - 1] in
  let k := 13109950190749555551 in
  (hd 0 m * k + 1) mod B = 0 /\
  g_almost_montgomery_mul [0; 0; 0] [5; 7; 11] [2 ^ 64 - 1; 2 ^ 64 - 2; 3] m k = [8237225341090428726; 232034516650434655; 0] /\
  (eval (g_almost_montgomery_mul [0; 0; 0] [5; 7; 11] [2 ^ 64 - 1; 2 ^ 64 - 2; 3] m k) * Bn 3) mod eval m
    = (eval [5; 7; 11] * eval [2 ^ 64 - 1; 2 ^ 64 - 2; 3]) mod eval m /\
  g_almost_montgomery_mul_by_one [0; 0; 0] [5; 7; 11] m k = [10209518732619122783; 8005190824439994097; 14386140032326945914] /\
  g_add_mul_carry [1; 2; 3] [2 ^ 64 - 1; 2 ^ 64 - 1; 2 ^ 64 - 1] (2 ^ 64 - 1) = (2 ^ 64 - 1, [2; 1; 3]) /\
  g_add_mul_carry_and_shift [1; 2; 3] [2 ^ 64 - 1; 2 ^ 64 - 1; 2 ^ 64 - 1] (2 ^ 64 - 1) = (2 ^ 64 - 1, [1; 3; 3]) /\
  g_conditional_sub [1; 2; 3] [2; 2; 2] (2 ^ 64 - 1) = [2 ^ 64 - 1; 2 ^ 64 - 1; 0].
Proof.
  intros m k.
  (* the product is run once; the congruence is then checked on its value *)
  assert (E : g_almost_montgomery_mul [0; 0; 0] [5; 7; 11] [2 ^ 64 - 1; 2 ^ 64 - 2; 3] m k
              = [8237225341090428726; 232034516650434655; 0]) by (vm_compute; reflexivity).
  rewrite E. vm_compute. repeat split.
Qed.
