(** C06, translator tie: the constant-time word predicates and selects of /repo's CURRENT src/const_choice.rs
    (Src/GenPrim.v, regenerated on every run) decide exactly the order on words / select exactly one operand; the limb loops of src/uint/cmp.rs, Uint::cmp and the
    signed order of src/int/cmp.rs (Src/GenUint.v, GenCmp.v, GenIntCmp.v) are the models of Model/Cmp.v, hence decide the order of the values.
    Short proofs stand here; the equations between emitted code and model are lemmas of Src/GenPrimP.v, GenUintP.v,
    GenCmpP.v and GenIntCmpP.v. *)
From CB Require Import Model.SrcPrelude Model.Word Model.Limbs Model.AddSub Model.Cmp Src.GenPrim Src.GenPrimP Src.GenUint Src.GenUintP Proofs.WordP Proofs.WordPredP Proofs.LimbsP Proofs.CmpP.
From Coq Require Import ZArith.
Open Scope Z_scope.

Theorem C06_src_from_word_lt : forall x y, is_word x -> is_word y -> g_cc_from_word_lt x y = choice_of_bool (x <? y).
Proof. intros x y Hx Hy. rewrite g_cc_from_word_lt_eq. apply from_word_lt_spec; assumption. Qed.
Print Assumptions C06_src_from_word_lt.
Theorem C06_src_from_word_gt : forall x y, is_word x -> is_word y -> g_cc_from_word_gt x y = choice_of_bool (y <? x).
Proof. exact g_gt_spec. Qed.
Print Assumptions C06_src_from_word_gt.
Theorem C06_src_from_word_le : forall x y, is_word x -> is_word y -> g_cc_from_word_le x y = choice_of_bool (x <=? y).
Proof. intros x y Hx Hy. rewrite g_cc_from_word_le_eq. apply from_word_le_spec; assumption. Qed.
Print Assumptions C06_src_from_word_le.
Theorem C06_src_from_word_eq : forall x y, is_word x -> is_word y -> g_cc_from_word_eq x y = choice_of_bool (x =? y).
Proof. exact g_eq_spec. Qed.
Print Assumptions C06_src_from_word_eq.
Theorem C06_src_from_word_nonzero : forall x, is_word x -> g_cc_from_word_nonzero x = choice_of_bool (negb (x =? 0)).
Proof. exact g_nonzero_spec. Qed.
Print Assumptions C06_src_from_word_nonzero.
Theorem C06_src_from_wide_word_le : forall x y, 0 <= x < 2 ^ 128 -> 0 <= y < 2 ^ 128 ->
  g_cc_from_wide_word_le x y = choice_of_bool (x <=? y).
Proof. exact g_cc_from_wide_word_le_spec. Qed.
Print Assumptions C06_src_from_wide_word_le.
Theorem C06_src_from_u32_le : forall x y, 0 <= x < 2 ^ 32 -> 0 <= y < 2 ^ 32 -> g_cc_from_u32_le x y = choice_of_bool (x <=? y).
Proof. exact g_cc_from_u32_le_spec. Qed.
Print Assumptions C06_src_from_u32_le.
(** a select returns exactly one of its operands, never a mixture *)
Theorem C06_src_select_word : forall (c : bool) a b, is_word a -> is_word b ->
  g_cc_select_word (choice_of_bool c) a b = if c then b else a.
Proof. exact g_select_spec. Qed.
Print Assumptions C06_src_select_word.
Theorem C06_src_select_wide_word : forall (c : bool) a b, 0 <= a < 2 ^ 128 -> 0 <= b < 2 ^ 128 ->
  g_cc_select_wide_word (choice_of_bool c) a b = if c then b else a.
Proof. exact g_cc_select_wide_word_spec. Qed.
Print Assumptions C06_src_select_wide_word.
Theorem C06_src_select_u32 : forall (c : bool) a b, 0 <= a < 2 ^ 32 -> 0 <= b < 2 ^ 32 ->
  g_cc_select_u32 (choice_of_bool c) a b = if c then b else a.
Proof. exact g_cc_select_u32_spec. Qed.
Print Assumptions C06_src_select_u32.

(** ---- the limb LOOPS of src/uint/cmp.rs (any limb count that is a usize) *)
Theorem C06_src_uint_order : forall n a b, length a = n -> length b = n -> usz n -> wf a -> wf b ->
  g_uint_lt n a b = choice_of_bool (eval a <? eval b) /\
  g_uint_gt n a b = choice_of_bool (eval b <? eval a) /\
  g_uint_lte n a b = choice_of_bool (eval a <=? eval b).
Proof.
  intros n a b Ha Hb Hn Wa Wb. rewrite g_uint_lt_eq, g_uint_gt_eq, g_uint_lte_eq by assumption.
  assert (Hl : length a = length b) by lia.
  repeat split; [apply uint_lt_spec | apply uint_gt_spec | apply uint_lte_spec]; assumption.
Qed.
Print Assumptions C06_src_uint_order.
Theorem C06_src_uint_eq : forall n a b, length a = n -> length b = n -> usz n -> wf a -> wf b ->
  g_uint_eq n a b = choice_of_bool (eval a =? eval b).
Proof.
  intros n a b Ha Hb Hn Wa Wb. rewrite g_uint_eq_eq by assumption. apply uint_eq_spec; try assumption. lia.
Qed.
Print Assumptions C06_src_uint_eq.
Theorem C06_src_uint_select : forall n a b (c : bool), length a = n -> length b = n -> usz n -> wf a -> wf b ->
  g_uint_select n a b (choice_of_bool c) = spec_select c a b.
Proof. exact g_uint_select_spec. Qed.
Print Assumptions C06_src_uint_select.
Theorem C06_src_uint_is_nonzero : forall n a, length a = n -> usz n -> g_uint_is_nonzero n a = uint_is_nonzero a.
Proof. exact g_uint_is_nonzero_eq. Qed.
Print Assumptions C06_src_uint_is_nonzero.
Theorem C06_src_uint_is_odd : forall n a, g_uint_is_odd n a = uint_is_odd a.
Proof. exact g_uint_is_odd_eq. Qed.
Print Assumptions C06_src_uint_is_odd.

Example C06_src_loop_runs : g_uint_lt 2 [5; 1] [4; 2] = 2 ^ 64 - 1 /\ g_uint_eq 2 [5; 1] [5; 1] = 2 ^ 64 - 1 /\
  g_uint_select 2 [1; 2] [3; 4] (2 ^ 64 - 1) = [3; 4].
Proof. vm_compute. repeat split. Qed.

Example C06_src_runs : g_cc_from_word_lt 3 (2 ^ 63) = 2 ^ 64 - 1 /\ g_cc_from_word_lt (2 ^ 63) 3 = 0 /\
  g_cc_select_word (2 ^ 64 - 1) 5 9 = 9.
Proof. vm_compute. repeat split. Qed.

(** ---- the three-way comparison Uint::cmp (i8 arithmetic on the final borrow and the accumulated difference) *)
From CB Require Import Src.GenShift Src.GenCmp Src.GenCmpP.
Theorem C06_src_uint_cmp_model : forall n a b, length a = n -> length b = n -> usz n -> wf a -> wf b ->
  g_uint_cmp n a b = uint_cmp a b.
Proof. exact g_uint_cmp_eq. Qed.
Print Assumptions C06_src_uint_cmp_model.
Theorem C06_src_uint_cmp : forall n a b, length a = n -> length b = n -> usz n -> wf a -> wf b ->
  g_uint_cmp n a b = ordz (eval a) (eval b).
Proof. exact g_uint_cmp_spec. Qed.
Print Assumptions C06_src_uint_cmp.

Example C06_src_cmp_runs : g_uint_cmp 3 [5; 1; 7] [4; 2; 7] = -1 /\ g_uint_cmp 3 [5; 2; 7] [4; 2; 7] = 1 /\
  g_uint_cmp 3 [5; 2; 7] [5; 2; 7] = 0 /\ g_uint_cmp 2 [0; 2 ^ 63] [2 ^ 64 - 1; 2 ^ 63 - 1] = 1.
Proof.
  rewrite !g_uint_cmp_spec by (first [reflexivity | wf_by_compute]).
  vm_compute. repeat split.
Qed.

(** ---- the signed order of src/int/cmp.rs: Int::eq / lt / gt / cmp through invert_msb (xor with Int::SIGN_MASK = Int::MIN, which
    the source computes with its own shr / bitxor); n >= 1 limbs, 64 n < 2^32 (Uint::BITS is a u32) *)
From CB Require Import Src.GenDiv Src.GenMul Src.GenInt Src.GenDivLimb Src.GenBits Src.GenDivCt Src.GenIntDiv Src.GenIntCmp Src.GenIntCmpP.
Theorem C06_src_int_invert_msb : forall n a, length a = n -> isz n -> g_int_invert_msb n a = int_invert_msb a.
Proof. exact g_int_invert_msb_eq. Qed.
Print Assumptions C06_src_int_invert_msb.
Theorem C06_src_int_cmp_model : forall n a b, length a = n -> length b = n -> isz n -> wf a -> wf b ->
  g_int_lt n a b = int_lt a b /\ g_int_gt n a b = int_gt a b /\ g_int_cmp n a b = int_cmp a b /\ g_int_eq n a b = uint_eq a b.
Proof.
  intros. repeat split; [apply g_int_lt_eq | apply g_int_gt_eq | apply g_int_cmp_eq | apply g_int_eq_eq]; assumption.
Qed.
Print Assumptions C06_src_int_cmp_model.
Theorem C06_src_int_order : forall n a b, length a = n -> length b = n -> isz n -> wf a -> wf b ->
  g_int_eq n a b = choice_of_bool (seval a =? seval b) /\
  g_int_lt n a b = choice_of_bool (seval a <? seval b) /\
  g_int_gt n a b = choice_of_bool (seval b <? seval a) /\
  g_int_cmp n a b = ordz (seval a) (seval b).
Proof.
  intros. repeat split; [apply g_int_eq_spec | apply g_int_lt_spec | apply g_int_gt_spec | apply g_int_cmp_spec]; assumption.
Qed.
Print Assumptions C06_src_int_order.

Example C06_src_int_cmp_runs :
  g_int_cmp 2 [5; 2 ^ 64 - 1] [4; 0] = -1 /\ g_int_cmp 2 [5; 0] [4; 2 ^ 63] = 1 /\ g_int_cmp 2 [7; 2 ^ 63] [7; 2 ^ 63] = 0 /\
  g_int_lt 2 [0; 2 ^ 63] [2 ^ 64 - 1; 2 ^ 63 - 1] = 2 ^ 64 - 1 /\ g_int_gt 2 [1; 0] [2 ^ 64 - 1; 2 ^ 64 - 1] = 2 ^ 64 - 1 /\
  g_int_eq 2 [1; 2] [1; 2] = 2 ^ 64 - 1.
Proof.
  rewrite !g_int_cmp_spec, g_int_lt_spec, g_int_gt_spec, g_int_eq_spec
    by (first [reflexivity | repeat constructor; first [discriminate | reflexivity]]).
  vm_compute. repeat split.
Qed.
