(** Translator tie, group Wrap: the const wrapper constructors Uint::to_nz / to_odd, Int::to_nz / to_odd of /repo's CURRENT
    src/uint.rs, src/int.rs (Src/GenWrap.v): a ConstCtOption (value, is_some) whose flag is exactly the gate of the model
    (Model/Wrappers.v nz_to_nz_uint / wodd_to_odd) and whose value is the argument; then Odd::from_be_hex / from_le_hex of
    src/odd.rs against Model/Conv.v odd_from_be_hex / odd_from_le_hex.  Hand-written. *)
From CB Require Import Model.SrcPrelude Model.Word Model.Limbs Model.AddSub Model.Cmp Model.Wrappers.
From CB Require Import Src.GenPrim Src.GenWidthP Src.GenPrimP Src.GenLoopP Src.GenUint Src.GenUintP Src.GenShift Src.GenWrap.
From CB Require Import Proofs.WordP Proofs.WordPredP Proofs.LimbsP Proofs.CmpP.
From Coq Require Import Lia List.
Import ListNotations.
Open Scope Z_scope.
Transparent B.

(* the ConstCtOption pair observed through Option::from / is_some, as the model observes it *)
Definition cct_outcome (p : list Z * Z) : outcome := w_cctopt (snd p) (fst p).

Lemma g_uint_to_nz_eq n a : length a = n -> usz n -> g_uint_to_nz n a = (a, uint_is_nonzero a).
Proof. intros Ha U. unfold g_uint_to_nz, g_ctopt_new. rewrite g_uint_is_nonzero_eq by assumption. reflexivity. Qed.
Lemma g_uint_to_odd_eq n a : g_uint_to_odd n a = (a, uint_is_odd a).
Proof. unfold g_uint_to_odd, g_ctopt_new. rewrite g_uint_is_odd_eq. reflexivity. Qed.
Lemma g_int_to_nz_eq n a : length a = n -> usz n -> g_int_to_nz n a = (a, uint_is_nonzero a).
Proof. intros Ha U. unfold g_int_to_nz, g_ctopt_new. rewrite g_uint_is_nonzero_eq by assumption. reflexivity. Qed.
Lemma g_int_to_odd_eq n a : g_int_to_odd n a = (a, uint_is_odd a).
Proof. unfold g_int_to_odd, g_ctopt_new. rewrite g_uint_is_odd_eq. reflexivity. Qed.

Lemma g_uint_to_nz_spec n a : length a = n -> usz n -> wf a ->
  fst (g_uint_to_nz n a) = a /\ snd (g_uint_to_nz n a) = choice_of_bool (negb (eval a =? 0)).
Proof. intros Ha U W. rewrite g_uint_to_nz_eq by assumption. cbn [fst snd]. rewrite uint_is_nonzero_spec by assumption. auto. Qed.
Lemma g_uint_to_odd_spec n a : wf a ->
  fst (g_uint_to_odd n a) = a /\ snd (g_uint_to_odd n a) = choice_of_bool (Z.odd (eval a)).
Proof. intros W. rewrite g_uint_to_odd_eq. cbn [fst snd]. rewrite uint_is_odd_spec by assumption. auto. Qed.

(* ================= Odd::<Uint<LIMBS>>::from_be_hex / from_le_hex (src/odd.rs): `Uint::from_*_hex(hex)`, then
   `assert!(uint.is_odd().is_true_vartime(), "number must be odd")` (dropped by the translator: stated below through the generated
   `g_uint_is_odd`), then `Odd(uint)` (erased newtype) ================= *)
From CB Require Import Model.Conv Src.GenHex Src.GenHexP Src.GenConv Src.GenConvP.
From CB Require Import Proofs.ConvDigitsP Proofs.ConvHexP Proofs.ConvP.

Lemma g_odd_uint_from_be_hex_eq n cs : g_odd_uint_from_be_hex n cs = g_uint_from_be_hex n cs.
Proof. reflexivity. Qed.
Lemma g_odd_uint_from_le_hex_eq n cs : g_odd_uint_from_le_hex n cs = g_uint_from_le_hex n cs.
Proof. reflexivity. Qed.

(* the asserted flag of the source, `uint.is_odd().is_true_vartime()`, on a canonical value *)
Lemma g_is_odd_flag n r : wf r -> cc_true (g_uint_is_odd n r) = Z.odd (eval r).
Proof. intros W. rewrite g_uint_is_odd_eq, uint_is_odd_spec by assumption. apply CmpWordP.cc_true_choice. Qed.
Lemma g_is_odd_low n r : wf r -> cc_true (g_uint_is_odd n r) = Z.odd (nthz r 0).
Proof. intros W. rewrite g_is_odd_flag by assumption. symmetry. apply odd_low_limb. Qed.

(* a hex constructor of the source computes an error word [err] and limbs [limbs]; the model's result [h] is [HexOk limbs]
   exactly when the error word is zero; [val] is the value of the digits in the constructor's byte order *)
Section OddHexSrc.
Variables (n : nat) (cs : list Z) (h : hexres) (err : Z) (limbs : list Z) (val : list Z -> Z).
Hypothesis Hh : h = if err =? 0 then HexOk limbs else HexInvalid.
Hypothesis Hspec :
  match h with
  | HexLen => length cs <> (16 * n)%nat
  | HexInvalid => length cs = (16 * n)%nat /\ hexvals cs = None
  | HexOk r => length cs = (16 * n)%nat /\ exists ds, hexvals cs = Some ds /\ wf r /\ length r = n /\ eval r = val ds
  end.
(* source = model: the constructor returns exactly when BOTH dropped assertions hold *)
Lemma odd_hex_src_model :
  odd_new h = if (err =? 0) && cc_true (g_uint_is_odd n limbs) then Val [limbs] else PanicV.
Proof.
  rewrite Hh in *. destruct (err =? 0); cbn [odd_new andb]; [|reflexivity].
  destruct Hspec as (_ & ds & _ & Wr & _). rewrite g_is_odd_low by assumption. reflexivity.
Qed.
Lemma odd_hex_src_decodes ds : hexvals cs = Some ds ->
  err = 0 /\ wf limbs /\ length limbs = n /\ eval limbs = val ds /\ cc_true (g_uint_is_odd n limbs) = Z.odd (val ds).
Proof.
  intros Hd. rewrite Hh in Hspec. destruct (Z.eqb_spec err 0) as [E|E].
  - destruct Hspec as (_ & ds' & Hd' & H1 & H2 & H3). rewrite Hd in Hd'. injection Hd' as <-.
    repeat split; try assumption. rewrite g_is_odd_flag by assumption. rewrite H3. reflexivity.
  - destruct Hspec as (_ & Hn). rewrite Hd in Hn. discriminate.
Qed.
End OddHexSrc.
