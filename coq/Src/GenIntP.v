(** Translator tie, group Int: the signed-integer kernels of src/int/sign.rs, add.rs, sub.rs, neg.rs and the Uint / Limb
    helpers they call (src/uint.rs to_words, ONE; src/uint/from.rs from_u8; src/uint/bit_xor.rs; src/uint/neg.rs
    wrapping_neg, wrapping_neg_if; src/int.rs ONE) as regenerated from /repo's CURRENT source (Src/GenInt.v) equal the
    limb-level models of Model/IntArith.v for every limb count LIMBS < 2^64 and all limb values.
    `Int<LIMBS>` is a newtype over `Uint<LIMBS>`: both are the little-endian limb list.  The one-line ties of
    `wrapping_add`, `wrapping_neg`, `abs` and the compositions with Proofs/IntArithP.v stand in Src/C13_src.v. *)
From CB Require Import Model.SrcPrelude Model.Word Model.Limbs Model.AddSub Model.Cmp Model.IntArith.
From CB Require Import Src.GenPrim Src.GenUint Src.GenInt Src.GenWidthP Src.GenPrimP Src.GenLoopP Src.GenUintP.
From CB Require Import Proofs.WordP Proofs.LimbsP Proofs.AddSubP Proofs.IntArithP.
From Coq Require Import Lia List.
Import ListNotations.
Open Scope Z_scope.
Transparent B.

Lemma g_limb_bitxor_eq a b : g_limb_bitxor a b = wxor a b. Proof. reflexivity. Qed.

Lemma g_uint_bitxor_eq n a b : length a = n -> length b = n -> usz n ->
  g_uint_bitxor n a b = map (fun p => wxor (fst p) (snd p)) (combine a b).
Proof.
  intros Ha Hb Hn. unfold g_uint_bitxor.
  rewrite (iter_idx _ (fun j (out : list Z) => upd_ out j (g_limb_bitxor (nth j a 0) (nth j b 0))))
    by (first [exact Hn | intros i s Hi; reflexivity]).
  subst n. rewrite (loop_map2 g_limb_bitxor a b (eq_sym Hb)). reflexivity.
Qed.
Lemma xor_repeat_max a : map (fun p => wxor (fst p) (snd p)) (combine a (repeat (2 ^ 64 - 1) (length a))) = ux_xor_max a.
Proof. induction a as [|x a IH]; [reflexivity|]. cbn [length repeat combine map fst snd ux_xor_max]. rewrite IH. reflexivity. Qed.

Lemma g_uint_to_words_eq n a : length a = n -> usz n -> g_uint_to_words n a = a.
Proof.
  intros Ha Hn. unfold g_uint_to_words.
  rewrite (iter_idx _ (fun j (out : list Z) => upd_ out j ((fun x => x) (nth j a 0))))
    by (first [exact Hn | intros i s Hi; reflexivity]).
  subst n. rewrite (loop_map1 (fun x => x) a). apply map_id.
Qed.

Lemma g_uint_ONE_eq n : (1 <= n)%nat -> g_uint_ONE n = one_limbs n.
Proof. intros H. destruct n as [|k]; [lia|]. reflexivity. Qed.
Lemma g_int_ONE_eq n : (1 <= n)%nat -> g_int_ONE n = one_limbs n.
Proof. intros H. unfold g_int_ONE. apply g_uint_ONE_eq. exact H. Qed.

Lemma neg_limbs_len a : forall c, length (fst (neg_limbs a c)) = length a.
Proof.
  induction a as [|x a IH]; intros c; [reflexivity|]. cbn [neg_limbs].
  specialize (IH ((wnot x + c) / B)). destruct (neg_limbs a ((wnot x + c) / B)). cbn [fst length] in *. lia.
Qed.
Lemma g_uint_wrapping_neg_eq n a : length a = n -> usz n -> wf a -> g_uint_wrapping_neg n a = uint_wrapping_neg a.
Proof.
  intros Ha Hn Wa. unfold g_uint_wrapping_neg. rewrite g_uint_carrying_neg_eq by assumption.
  unfold uint_carrying_neg, uint_wrapping_neg. destruct (neg_limbs a 1); reflexivity.
Qed.
Lemma g_uint_wrapping_neg_if_eq n a c : length a = n -> usz n -> wf a -> g_uint_wrapping_neg_if n a c = uint_wrapping_neg_if a c.
Proof.
  intros Ha Hn Wa. unfold g_uint_wrapping_neg_if. rewrite g_uint_wrapping_neg_eq by assumption.
  rewrite g_uint_select_eq by (first [assumption | unfold uint_wrapping_neg; rewrite neg_limbs_len; assumption]).
  reflexivity.
Qed.

(* ---------------- src/int/sign.rs *)
Lemma nth_pred_last (a : list Z) : nth (length a - 1) a 0 = last a 0.
Proof.
  induction a as [|x a IH]; [reflexivity|]. destruct a as [|y a]; [reflexivity|].
  replace (length (x :: y :: a) - 1)%nat with (S (length (y :: a) - 1)) by (cbn [length]; lia).
  change (nth (S (length (y :: a) - 1)) (x :: y :: a) 0) with (nth (length (y :: a) - 1) (y :: a) 0).
  change (last (x :: y :: a) 0) with (last (y :: a) 0). exact IH.
Qed.
(** `if Self::LIMBS == 0 { Word::ZERO } else { self.0.to_words()[LIMBS - 1] }` *)
Lemma g_int_msw_eq n a : length a = n -> usz n -> g_int_most_significant_word n a = int_msw a.
Proof.
  intros Ha Hn. unfold g_int_most_significant_word, int_msw. rewrite g_uint_to_words_eq by assumption.
  destruct n as [|k].
  - destruct a; [reflexivity | discriminate].
  - replace (Z.of_nat (S k) =? 0) with false by (symmetry; apply Z.eqb_neq; lia).
    unfold usz in Hn. unfold sub_. rewrite Z.mod_small by lia.
    replace (Z.to_nat (Z.of_nat (S k) - 1)) with (length a - 1)%nat by lia. apply nth_pred_last.
Qed.
Lemma g_int_is_negative_eq n a : length a = n -> usz n -> g_int_is_negative n a = int_is_negative a.
Proof. intros. unfold g_int_is_negative, int_is_negative. rewrite g_int_msw_eq by assumption. reflexivity. Qed.

(* ---------------- src/int/add.rs, sub.rs *)
Lemma g_int_overflowing_add_eq n a b : length a = n -> length b = n -> usz n -> wf a -> wf b ->
  g_int_overflowing_add n a b = int_overflowing_add a b.
Proof.
  intros Ha Hb Hn Wa Wb. unfold g_int_overflowing_add, int_overflowing_add.
  rewrite g_uint_wrapping_add_eq by assumption.
  rewrite !g_int_is_negative_eq by (first [assumption | unfold uint_wrapping_add; rewrite adc_limbs_len; lia]).
  reflexivity.
Qed.
Lemma g_int_wrapping_sub_eq n a b : length a = n -> length b = n -> usz n -> wf a -> wf b ->
  g_int_wrapping_sub n a b = int_wrapping_sub a b.
Proof. intros. unfold g_int_wrapping_sub, int_wrapping_sub. apply g_uint_wrapping_sub_eq; assumption. Qed.

(* ---------------- src/int/neg.rs (Int::ONE needs LIMBS >= 1: `from_u8` asserts it) *)
Lemma wf_xor_max a : wf a -> wf (ux_xor_max a) /\ length (ux_xor_max a) = length a.
Proof.
  intros Wa. split; [|apply map_length]. rewrite ux_xor_max_spec by assumption. apply eval_map_wnot. assumption.
Qed.
Lemma g_int_overflowing_neg_eq n a : length a = n -> (1 <= n)%nat -> usz n -> wf a ->
  g_int_overflowing_neg n a = int_overflowing_neg a.
Proof.
  intros Ha H1 Hn Wa. subst n. unfold g_int_overflowing_neg, int_overflowing_neg.
  rewrite g_uint_bitxor_eq by (first [reflexivity | assumption | apply repeat_length]).
  rewrite xor_repeat_max. rewrite g_int_ONE_eq by assumption.
  destruct (wf_xor_max a Wa) as [Wx Lx]. destruct (one_limbs_spec (length a) ltac:(lia)) as (_ & W1 & L1).
  apply g_int_overflowing_add_eq; assumption.
Qed.
Lemma g_int_wrapping_neg_if_eq n a c : length a = n -> usz n -> wf a -> g_int_wrapping_neg_if n a c = int_wrapping_neg_if a c.
Proof. intros. unfold g_int_wrapping_neg_if, int_wrapping_neg_if. apply g_uint_wrapping_neg_if_eq; assumption. Qed.

Lemma g_int_abs_sign_eq n a : length a = n -> usz n -> wf a -> g_int_abs_sign n a = int_abs_sign a.
Proof.
  intros. unfold g_int_abs_sign, int_abs_sign. rewrite g_int_is_negative_eq by assumption.
  rewrite g_int_wrapping_neg_if_eq by assumption. reflexivity.
Qed.
