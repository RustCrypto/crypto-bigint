(** Translator tie, group Amm: the almost-Montgomery multiplication of src/modular/boxed_monty_form/mul.rs
    (`add_mul_carry`, `add_mul_carry_and_shift`, `conditional_sub`, `almost_montgomery_mul`, `almost_montgomery_mul_by_one`, with
    `Limb::wrapping_add` of src/limb/add.rs) as regenerated from /repo's CURRENT source (Src/GenAmm.v) equals the models
    [add_mul_carry] / [add_mul_carry_and_shift] / [conditional_sub] / [amm_loop] / [amm1_loop] of Model/Monty.v, for every limb
    count n >= 1 (n a usize) and all limb values.
    The functions write through `z: &mut [Limb]`: a generated function returns the final contents of z (after its value, if it
    has one).  Loops: the in-place multiply-accumulate row over (i, z, c) = [mac_by_limb]; the SHIFTING row
    `while i < n && i1 < n { (z[i1], c) = z[i].mac(..); i += 1; i1 += 1 }` over (i, i1, z, c), which reads one limb ahead of
    where it writes = the tail of a [mac_by_limb] row, the last limb left untouched; the masked subtraction over
    (i, z, borrow) = [sbb_limbs] against [bitand_limb]; the outer CIOS loop over (i, z, ts) = [amm_loop] on the limbs of y
    (resp. [amm1_loop] with its `if i == 0` first round). *)
From CB Require Import Model.SrcPrelude Model.Word Model.Limbs Model.AddSub Model.Mul Model.Div Model.ModArith Model.Monty.
From CB Require Import Src.GenPrim Src.GenUint Src.GenShift Src.GenMul Src.GenMonty Src.GenAmm.
From CB Require Import Src.GenWidthP Src.GenPrimP Src.GenLoopP Src.GenIterP Src.GenUintP Src.GenModP Src.GenMulP Src.GenMontyP.
From CB Require Import Proofs.WordP Proofs.WordPredP Proofs.LimbsP Proofs.AddSubP Proofs.ModArithP Proofs.MontyRedP Proofs.MontyAmmP.
From Coq Require Import Lia List.
Import ListNotations.
Open Scope Z_scope.
Transparent B.

(* generic: in-place loops over a buffer, reading a second list, threading a carry *)
Lemma fold_zipacc_inplace (f : Z -> Z -> Z -> Z * Z) : forall a b pa pb c, length a = length b -> length pa = length pb ->
  fold_left (fun (s : list Z * Z) j => let '(w, c') := f (nth j (fst s) 0) (nth j (pb ++ b) 0) (snd s) in (upd_ (fst s) j w, c'))
    (seq (length pa) (length a)) (pa ++ a, c)
  = (pa ++ fst (zipacc f a b c), snd (zipacc f a b c)).
Proof.
  induction a as [|x a IH]; intros b pa pb c Hl Hp.
  - destruct b; [|discriminate]. cbn [length seq fold_left zipacc fst snd]. reflexivity.
  - destruct b as [|y b]; [discriminate|]. cbn [length seq fold_left fst snd zipacc].
    rewrite nth_middle. replace (nth (length pa) (pb ++ y :: b) 0) with y by (rewrite Hp; symmetry; apply nth_middle).
    destruct (f x y c) as [w c1] eqn:E. rewrite upd_mid.
    rewrite (app_snoc pa w a), (app_snoc pb y b), <- (last_length pa w).
    rewrite (IH b (pa ++ [w]) (pb ++ [y]) c1 ltac:(cbn in Hl; lia) ltac:(rewrite !app_length; cbn; lia)).
    destruct (zipacc f a b c1) as [r c2]. cbn [fst snd]. rewrite <- app_assoc. reflexivity.
Qed.

(* the shifting variant: reads index j + 1, writes index j; u is the slot that has been read already *)
Lemma fold_shift_inplace (f : Z -> Z -> Z -> Z * Z) : forall a b pre px u c, length a = length b -> length px = S (length pre) ->
  fold_left (fun (s : list Z * Z) j =>
      let '(w, c') := f (nth (S j) (fst s) 0) (nth (S j) (px ++ b) 0) (snd s) in (upd_ (fst s) j w, c'))
    (seq (length pre) (length a)) (pre ++ u :: a, c)
  = (pre ++ fst (zipacc f a b c) ++ [last (u :: a) 0], snd (zipacc f a b c)).
Proof.
  induction a as [|x a IH]; intros b pre px u c Hl Hp.
  - destruct b; [|discriminate]. reflexivity.
  - destruct b as [|y b]; [discriminate|]. cbn [length seq fold_left fst snd zipacc].
    replace (nth (S (length pre)) (pre ++ u :: x :: a) 0) with x.
    2:{ rewrite (app_snoc pre u), <- (last_length pre u). symmetry. apply nth_middle. }
    replace (nth (S (length pre)) (px ++ y :: b) 0) with y by (rewrite <- Hp; symmetry; apply nth_middle).
    destruct (f x y c) as [w c1] eqn:E. rewrite upd_mid.
    rewrite (app_snoc pre w), (app_snoc px y b), <- (last_length pre w).
    rewrite (IH b (pre ++ [w]) (px ++ [y]) x c1 ltac:(cbn in Hl; lia) ltac:(rewrite !app_length; cbn; lia)).
    destruct (zipacc f a b c1) as [r c2]. cbn [fst snd]. rewrite <- !app_assoc.
    replace (last (u :: x :: a) 0) with (last (x :: a) 0) by reflexivity. reflexivity.
Qed.

Lemma zipacc_mac y : is_word y -> forall a b c, wf a -> wf b -> is_word c ->
  zipacc (fun p q k => g_limb_mac p q y k) a b c = mac_by_limb a b y c.
Proof.
  intros Wy. induction a as [|x a IH]; intros [|q b] c Wa Wb Wc; try reflexivity.
  cbn [zipacc mac_by_limb]. apply wf_cons in Wa. destruct Wa as [Wx Wa]. apply wf_cons in Wb. destruct Wb as [Wq Wb].
  rewrite g_limb_mac_eq by assumption. destruct (mac x q y c) as [v cy] eqn:E.
  destruct (mac_exact x q y c v cy Wx Wq Wy Wc E) as (_ & _ & Wcy).
  rewrite IH by assumption. reflexivity.
Qed.

Lemma zipacc_map2 (g : Z -> Z -> Z -> Z * Z) (h : Z -> Z) : forall a b c,
  zipacc (fun p q k => g p (h q) k) a b c = zipacc g a (map h b) c.
Proof.
  induction a as [|x a IH]; intros [|q b] c; try reflexivity.
  cbn [zipacc map]. destruct (g x (h q) c) as [w c1]. rewrite IH. reflexivity.
Qed.

Lemma g_limb_wrapping_add_eq a b : g_limb_wrapping_add a b = wadd a b. Proof. reflexivity. Qed.

(* add_mul_carry : (carry, final z) *)
Lemma g_add_mul_carry_eq z x y : length x = length z -> usz (length z) -> wf z -> wf x -> is_word y ->
  g_add_mul_carry z x y = (snd (add_mul_carry z x y), fst (add_mul_carry z x y)).
Proof.
  intros Hl Hn Wz Wx Wy. unfold g_add_mul_carry, add_mul_carry. cbv zeta.
  rewrite Hl, Z.eqb_refl. cbn [negb]. rewrite Z.sub_0_r, Nat2Z.id.
  rewrite (iter_enc _ enc3 (fun j (s : list Z * Z) =>
             let '(w, c') := (fun p q k => g_limb_mac p q y k) (nth j (fst s) 0) (nth j x 0) (snd s) in (upd_ (fst s) j w, c')))
    with (s0 := (z, 0)) by (first [exact Hn | intros i [a0 k0] Hi; unfold enc3; cbn [fst snd];
               destruct (g_limb_mac (nth (Z.to_nat i) a0 0) (nth (Z.to_nat i) x 0) y k0); reflexivity]).
  pose proof (fold_zipacc_inplace (fun p q k => g_limb_mac p q y k) z x [] [] 0 ltac:(lia) eq_refl) as H.
  cbn [app length] in H. rewrite H. rewrite zipacc_mac by (try assumption; apply is_word_0').
  unfold enc3. cbn [fst snd]. reflexivity.
Qed.

(* add_mul_carry_and_shift : (carry, tail of the row ++ [the untouched last limb]) *)
Definition enc_sh (j : Z) (s : list Z * Z) : Z * Z * list Z * Z := (j + 1, j, fst s, snd s).

Lemma g_add_mul_carry_and_shift_eq z x y : length x = length z -> (1 <= length z)%nat -> usz (length z) -> wf z -> wf x -> is_word y ->
  g_add_mul_carry_and_shift z x y =
    (snd (add_mul_carry_and_shift z x y), fst (add_mul_carry_and_shift z x y) ++ [last z 0]).
Proof.
  intros Hl H1 Hn Wz Wx Wy. unfold g_add_mul_carry_and_shift, add_mul_carry_and_shift. cbv zeta.
  rewrite Hl, Z.eqb_refl. cbn [negb].
  destruct z as [|z0 zt]; [cbn in H1; lia|]. destruct x as [|x0 xt]; [discriminate|].
  apply wf_cons in Wz. destruct Wz as [Wz0 Wzt]. apply wf_cons in Wx. destruct Wx as [Wx0 Wxt].
  cbn [Z.to_nat nth]. rewrite g_limb_mac_eq by (try assumption; apply is_word_0').
  cbn [mac_by_limb]. destruct (mac z0 x0 y 0) as [v0 c0] eqn:E0.
  destruct (mac_exact z0 x0 y 0 v0 c0 Wz0 Wx0 Wy is_word_0' E0) as (_ & _ & Wc0).
  cbn [length] in *. unfold usz in Hn.
  replace (Z.to_nat (Z.min (Z.of_nat (S (length zt)) - 1) (Z.of_nat (S (length zt)) - 0))) with (length zt) by lia.
  rewrite (iter_enc_lt _ enc_sh (fun j (s : list Z * Z) =>
             let '(w, c') := (fun p q k => g_limb_mac p q y k) (nth (S j) (fst s) 0) (nth (S j) (x0 :: xt) 0) (snd s) in
             (upd_ (fst s) j w, c')) (length zt)) with (s0 := (z0 :: zt, c0)).
  - pose proof (fold_shift_inplace (fun p q k => g_limb_mac p q y k) zt xt [] [x0] z0 c0 ltac:(lia) eq_refl) as H.
    cbn [app length] in H. rewrite H. rewrite zipacc_mac by assumption.
    destruct (mac_by_limb zt xt y c0) as [r cf]. unfold enc_sh. cbn [fst snd tl app]. reflexivity.
  - intros i [a0 k0] Hi. unfold enc_sh. cbn [fst snd].
    replace (Z.to_nat (i + 1)) with (S (Z.to_nat i)) by lia.
    cbn [nth].
    match goal with |- context [g_limb_mac ?a ?b ?c ?d] => destruct (g_limb_mac a b c d) end.
    unfold add_. rewrite !Z.mod_small by lia. reflexivity.
  - lia.
Qed.

Lemma g_conditional_sub_eq z x c : length x = length z -> usz (length z) -> wf z -> wf x -> is_word c ->
  g_conditional_sub z x c = conditional_sub z x c.
Proof.
  intros Hl Hn Wz Wx Wc. unfold g_conditional_sub, conditional_sub. cbv zeta.
  rewrite Hl, Z.eqb_refl. cbn [negb]. rewrite Z.sub_0_r, Nat2Z.id.
  rewrite (iter_enc _ enc3 (fun j (s : list Z * Z) =>
             let '(w, c') := (fun p q k => g_limb_sbb p (g_cc_if_true_word c q) k) (nth j (fst s) 0) (nth j x 0) (snd s) in
             (upd_ (fst s) j w, c')))
    with (s0 := (z, 0)) by (first [exact Hn | intros i [a0 k0] Hi; unfold enc3; cbn [fst snd];
               destruct (g_limb_sbb (nth (Z.to_nat i) a0 0) (g_cc_if_true_word c (nth (Z.to_nat i) x 0)) k0); reflexivity]).
  pose proof (fold_zipacc_inplace (fun p q k => g_limb_sbb p (g_cc_if_true_word c q) k) z x [] [] 0 ltac:(lia) eq_refl) as H.
  cbn [app length] in H. rewrite H.
  rewrite (zipacc_map2 g_limb_sbb (g_cc_if_true_word c)).
  change (map (g_cc_if_true_word c) x) with (bitand_limb x c).
  rewrite zipacc_sbb by (first [assumption | apply wf_bitand; assumption | apply is_word_0']).
  unfold enc3. cbn [fst snd]. reflexivity.
Qed.

(* the shape facts of one CIOS round (no hypothesis on k) *)
Lemma amm_tail_shape z1 c ts m k : wf z1 -> wf m -> length m = length z1 -> (1 <= length z1)%nat -> is_word c -> is_word ts ->
  wf (fst (amm_tail z1 c ts m k)) /\ length (fst (amm_tail z1 c ts m k)) = length z1 /\ is_word (snd (amm_tail z1 c ts m k)).
Proof.
  intros Wz Wm Hl H1 Wc Wts. unfold amm_tail, add_mul_carry_and_shift.
  destruct (overflowing_add_words ts c Wts Wc) as [W1 W2].
  destruct (overflowing_add ts c) as [ts0 ts1]. cbn [fst snd] in *.
  pose proof (is_word_wmul (hd 0 z1) k) as Wt. set (t := wmul (hd 0 z1) k) in *.
  destruct (mac_by_limb_parts z1 m t 0 Wz Wm ltac:(lia) Wt is_word_0') as (Wr & Lr & Wc2).
  destruct (mac_by_limb z1 m t 0) as [row c2]. cbn [fst snd] in *.
  destruct (overflowing_add_words ts0 c2 W1 Wc2) as [W3 W4].
  destruct (overflowing_add ts0 c2) as [top c3]. cbn [fst snd] in *.
  split; [|split].
  - apply Forall_app. split; [|apply wf_cons; split; [assumption|apply wf_nil]].
    destruct row; [apply wf_nil|]. apply wf_cons in Wr. tauto.
  - rewrite app_length. cbn [length]. destruct row; cbn [tl length] in *; lia.
  - unfold wadd, wrap. apply is_word_mod.
Qed.

Lemma amm_step_shape z ts x yi m k : wf z -> wf x -> wf m -> length x = length z -> length m = length z -> (1 <= length z)%nat ->
  is_word yi -> is_word ts ->
  wf (fst (amm_step z ts x yi m k)) /\ length (fst (amm_step z ts x yi m k)) = length z /\ is_word (snd (amm_step z ts x yi m k)).
Proof.
  intros Wz Wx Wm Lx Lm H1 Wy Wts. unfold amm_step, add_mul_carry.
  destruct (mac_by_limb_parts z x yi 0 Wz Wx ltac:(lia) Wy is_word_0') as (Wr & Lr & Wc).
  destruct (mac_by_limb z x yi 0) as [z1 c]. cbn [fst snd] in *.
  destruct (amm_tail_shape z1 c ts m k Wr Wm ltac:(lia) ltac:(lia) Wc Wts) as (A & B' & C).
  split; [assumption|]. split; [lia|assumption].
Qed.

(* the part of a round after `c = add_mul_carry(..)`, as the generated text spells it, counter included *)
Lemma g_amm_round_tail n i z1 c ts m k : wf z1 -> wf m -> length m = n -> length z1 = n -> (i < n)%nat -> usz n ->
  is_word c -> is_word ts ->
  (let '(tmp_0, tmp_1) := g_limb_overflowing_add ts c in
   let v_ts := tmp_0 in
   let v_c := tmp_1 in
   let v_ts1 := v_c in
   let v_t := g_limb_wrapping_mul (nth (Z.to_nat 0) z1 0) k in
   let '(v_c, v_z) := g_add_mul_carry_and_shift z1 m v_t in
   let '(tmp_0, tmp_1) := g_limb_overflowing_add v_ts v_c in
   let v_z := upd_ v_z (Z.to_nat (sub_ 64 (Z.of_nat n) 1)) tmp_0 in
   let v_c := tmp_1 in
   let v_ts := g_limb_wrapping_add v_ts1 v_c in
   let v_i := add_ 64 (Z.of_nat i) 1 in
   (v_i, v_z, v_ts)) = (Z.of_nat (S i), fst (amm_tail z1 c ts m k), snd (amm_tail z1 c ts m k)).
Proof.
  intros Wz Wm Hl Lz Hi Hn Wc Wts. destruct Lz. unfold amm_tail. pose proof Hn as Hn'. unfold usz in Hn'.
  rewrite g_limb_overflowing_add_eq by assumption.
  destruct (overflowing_add_words ts c Wts Wc) as [W1 W2].
  destruct (overflowing_add ts c) as [ts0 ts1]. cbn [fst snd] in *. cbv zeta.
  rewrite g_limb_wrapping_mul_eq.
  replace (nth (Z.to_nat 0) z1 0) with (hd 0 z1) by (destruct z1; reflexivity).
  pose proof (is_word_wmul (hd 0 z1) k) as Wt. set (t := wmul (hd 0 z1) k) in *.
  rewrite g_add_mul_carry_and_shift_eq by (first [assumption | lia]).
  unfold add_mul_carry_and_shift.
  destruct (mac_by_limb_parts z1 m t 0 Wz Wm ltac:(lia) Wt is_word_0') as (Wr & Lr & Wc2).
  destruct (mac_by_limb z1 m t 0) as [row c2]. cbn [fst snd] in *.
  rewrite g_limb_overflowing_add_eq by assumption.
  destruct (overflowing_add ts0 c2) as [top c3]. rewrite g_limb_wrapping_add_eq. cbn [fst snd].
  assert (Lt : length (tl row) = (length z1 - 1)%nat) by (destruct row; cbn [tl length] in *; lia).
  replace (Z.to_nat (sub_ 64 (Z.of_nat (length z1)) 1)) with (length (tl row))
    by (unfold sub_; rewrite Z.mod_small by lia; lia).
  rewrite (upd_mid (tl row) (last z1 0) [] top). f_equal. f_equal.
  unfold wadd, wrap, B. rewrite Z.mod_small by lia. lia.
Qed.

Lemma g_amm_loop n x m k (F : Z * list Z * Z -> Z * list Z * Z) : wf x -> wf m -> length x = n -> length m = n -> (1 <= n)%nat ->
  forall ys py, wf ys -> Z.of_nat (length py + length ys) < 2 ^ 64 ->
  (forall i z ts, (length py <= i < length py + length ys)%nat -> wf z -> length z = n -> is_word ts ->
     F (Z.of_nat i, z, ts) = (Z.of_nat (S i), fst (amm_step z ts x (nth i (py ++ ys) 0) m k),
                              snd (amm_step z ts x (nth i (py ++ ys) 0) m k))) ->
  forall z ts, wf z -> length z = n -> is_word ts ->
  Nat.iter (length ys) F (Z.of_nat (length py), z, ts) =
    (Z.of_nat (length py + length ys), fst (amm_loop ys z ts x m k), snd (amm_loop ys z ts x m k)).
Proof.
  intros Wx Wm Lx Lm H1. induction ys as [|yi r IH]; intros py Wy Hb HF z ts Wz Lz Wts.
  - cbn [length Nat.iter amm_loop fst snd]. rewrite Nat.add_0_r. reflexivity.
  - apply wf_cons in Wy. destruct Wy as [Wyi Wr]. cbn [length] in *.
    rewrite iter_shift. rewrite HF by (try assumption; lia). rewrite nth_middle.
    destruct (amm_step_shape z ts x yi m k Wz Wx Wm ltac:(lia) ltac:(lia) ltac:(lia) Wyi Wts) as (A & B' & C).
    cbn [amm_loop]. destruct (amm_step z ts x yi m k) as [z1 ts1]. cbn [fst snd] in *.
    rewrite <- (last_length py yi).
    rewrite (IH (py ++ [yi]) Wr ltac:(rewrite app_length; cbn [length]; lia)); try assumption; try lia.
    + rewrite app_length. cbn [length]. f_equal. f_equal. f_equal. lia.
    + intros i z' ts' Hi Wz' Lz' Wts'. rewrite <- app_assoc. cbn [app].
      apply HF; try assumption. rewrite app_length in Hi. cbn [length] in Hi. lia.
Qed.

Lemma amm_loop_shape_aux n x m k ys : forall z ts, wf x -> wf m -> length x = n -> length m = n -> (1 <= n)%nat ->
  wf ys -> wf z -> length z = n -> is_word ts ->
  wf (fst (amm_loop ys z ts x m k)) /\ length (fst (amm_loop ys z ts x m k)) = n /\ is_word (snd (amm_loop ys z ts x m k)).
Proof.
  induction ys as [|yi r IH]; intros z ts Wx Wm Lx Lm H1 Wy Wz Lz Wts; [cbn [amm_loop fst snd]; auto|].
  apply wf_cons in Wy. destruct Wy as [Wyi Wr]. cbn [amm_loop].
  destruct (amm_step_shape z ts x yi m k Wz Wx Wm ltac:(lia) ltac:(lia) ltac:(lia) Wyi Wts) as (A & B' & C).
  destruct (amm_step z ts x yi m k) as [z1 ts1]. cbn [fst snd] in *. apply IH; try assumption. lia.
Qed.

Theorem g_almost_montgomery_mul_eq z x y m k : length z = length m -> length x = length m -> length y = length m ->
  (1 <= length m)%nat -> usz (length m) -> wf z -> wf x -> wf y -> wf m -> is_word k ->
  g_almost_montgomery_mul z x y m k =
    conditional_sub (fst (amm_loop y z 0 x m k)) m (from_word_lsb (snd (amm_loop y z 0 x m k))).
Proof.
  intros Lz Lx Ly H1 Hn Wz Wx Wy Wm Wk. unfold g_almost_montgomery_mul. cbv zeta.
  rewrite Lx, Ly, Lz, !Z.eqb_refl. cbn [andb negb]. rewrite Z.sub_0_r, Nat2Z.id.
  set (n := length m) in *. rewrite <- Ly.
  match goal with |- context [Nat.iter (length y) ?F (0, z, 0)] =>
    pose proof (g_amm_loop n x m k F Wx Wm Lx eq_refl H1 y [] Wy ltac:(cbn [length]; unfold usz in Hn; lia)) as HL end.
  cbn [length app Nat.add] in HL. change (Z.of_nat 0) with 0 in HL.
  rewrite HL; try assumption; try apply is_word_0'.
  - destruct (amm_loop_shape_aux n x m k y z 0 Wx Wm Lx eq_refl H1 Wy Wz Lz is_word_0') as (A & B' & C).
    destruct (amm_loop y z 0 x m k) as [zf tsf]. cbn [fst snd] in *.
    rewrite g_cc_from_word_lsb_eq.
    apply g_conditional_sub_eq; try assumption; try lia; [rewrite B'; exact Hn|].
    unfold from_word_lsb, wneg, wrap. apply is_word_mod.
  - intros i z' ts' Hi Wz' Lz' Wts'.
    assert (Wyi : is_word (nth i y 0)).
    { apply Forall_nth; [exact Wy | lia]. }
    rewrite Nat2Z.id.
    rewrite g_add_mul_carry_eq by (first [assumption | lia | rewrite Lz'; exact Hn]).
    unfold amm_step, add_mul_carry.
    destruct (mac_by_limb_parts z' x (nth i y 0) 0 Wz' Wx ltac:(lia) Wyi is_word_0') as (Wr & Lr & Wc).
    destruct (mac_by_limb z' x (nth i y 0) 0) as [z1 c]. cbn [fst snd] in *.
    exact (g_amm_round_tail (length y) i z1 c ts' m k Wr Wm ltac:(lia) ltac:(lia) ltac:(lia) ltac:(rewrite Ly; exact Hn) Wc Wts').
Qed.

(* almost_montgomery_mul_by_one: only round 0 adds x * 1 *)
Definition amm1_step (first : bool) (z : list Z) (ts : Z) (x m : list Z) (k : Z) : list Z * Z :=
  let '(z1, cy) := if first then add_mul_carry z x 1 else (z, 0) in amm_tail z1 cy ts m k.

Lemma amm1_loop_S cnt first z ts x m k :
  amm1_loop (S cnt) first z ts x m k =
    amm1_loop cnt false (fst (amm1_step first z ts x m k)) (snd (amm1_step first z ts x m k)) x m k.
Proof.
  cbn [amm1_loop]. unfold amm1_step. destruct (if first then add_mul_carry z x 1 else (z, 0)) as [z1 cy].
  destruct (amm_tail z1 cy ts m k); reflexivity.
Qed.

(* what enters the tail of a round: z + x * 1 with its carry in round 0, (z, 0) later *)
Lemma amm1_pre_shape (first : bool) z x : wf z -> wf x -> length x = length z ->
  let zc := if first then add_mul_carry z x 1 else (z, 0) in
  wf (fst zc) /\ length (fst zc) = length z /\ is_word (snd zc).
Proof.
  intros Wz Wx Lx. destruct first; cbn [fst snd]; [|split; [assumption | split; [reflexivity | apply is_word_0']]].
  apply (mac_by_limb_parts z x 1 0 Wz Wx ltac:(lia) WordPredP.is_word_1 is_word_0').
Qed.

Lemma amm1_step_shape first z ts x m k : wf z -> wf x -> wf m -> length x = length z -> length m = length z -> (1 <= length z)%nat ->
  is_word ts ->
  wf (fst (amm1_step first z ts x m k)) /\ length (fst (amm1_step first z ts x m k)) = length z /\
  is_word (snd (amm1_step first z ts x m k)).
Proof.
  intros Wz Wx Wm Lx Lm H1 Wts. unfold amm1_step.
  destruct (amm1_pre_shape first z x Wz Wx Lx) as (W1 & L1 & Wc). cbv zeta in *.
  destruct (if first then add_mul_carry z x 1 else (z, 0)) as [z1 cy]. cbn [fst snd] in *.
  destruct (amm_tail_shape z1 cy ts m k W1 Wm ltac:(lia) ltac:(lia) Wc Wts) as (A & B' & C).
  split; [assumption|]. split; [lia|assumption].
Qed.

Lemma amm1_loop_shape n x m k : wf x -> wf m -> length x = n -> length m = n -> (1 <= n)%nat ->
  forall cnt first z ts, wf z -> length z = n -> is_word ts ->
  wf (fst (amm1_loop cnt first z ts x m k)) /\ length (fst (amm1_loop cnt first z ts x m k)) = n /\
  is_word (snd (amm1_loop cnt first z ts x m k)).
Proof.
  intros Wx Wm Lx Lm H1. induction cnt as [|cnt IH]; intros first z ts Wz Lz Wts; [cbn [amm1_loop fst snd]; auto|].
  rewrite amm1_loop_S.
  destruct (amm1_step_shape first z ts x m k Wz Wx Wm ltac:(lia) ltac:(lia) ltac:(lia) Wts) as (A & B' & C).
  apply IH; try assumption. lia.
Qed.

Lemma g_amm1_loop n x m k (F : Z * list Z * Z -> Z * list Z * Z) : wf x -> wf m -> length x = n -> length m = n -> (1 <= n)%nat ->
  forall cnt i0, Z.of_nat (i0 + cnt) < 2 ^ 64 ->
  (forall i z ts, (i0 <= i < i0 + cnt)%nat -> wf z -> length z = n -> is_word ts ->
     F (Z.of_nat i, z, ts) = (Z.of_nat (S i), fst (amm1_step (Nat.eqb i 0) z ts x m k), snd (amm1_step (Nat.eqb i 0) z ts x m k))) ->
  forall z ts, wf z -> length z = n -> is_word ts ->
  Nat.iter cnt F (Z.of_nat i0, z, ts) =
    (Z.of_nat (i0 + cnt), fst (amm1_loop cnt (Nat.eqb i0 0) z ts x m k), snd (amm1_loop cnt (Nat.eqb i0 0) z ts x m k)).
Proof.
  intros Wx Wm Lx Lm H1. induction cnt as [|cnt IH]; intros i0 Hb HF z ts Wz Lz Wts.
  - cbn [Nat.iter amm1_loop fst snd]. rewrite Nat.add_0_r. reflexivity.
  - rewrite iter_shift. rewrite HF by (try assumption; lia). rewrite amm1_loop_S.
    destruct (amm1_step_shape (Nat.eqb i0 0) z ts x m k Wz Wx Wm ltac:(lia) ltac:(lia) ltac:(lia) Wts) as (A & B' & C).
    rewrite (IH (S i0) ltac:(lia)); try assumption; try lia.
    + replace (S i0 + cnt)%nat with (i0 + S cnt)%nat by lia. reflexivity.
    + intros i z' ts' Hi Wz' Lz' Wts'. apply HF; try assumption. lia.
Qed.

Theorem g_almost_montgomery_mul_by_one_eq z x m k : length z = length m -> length x = length m ->
  (1 <= length m)%nat -> usz (length m) -> wf z -> wf x -> wf m -> is_word k ->
  g_almost_montgomery_mul_by_one z x m k =
    conditional_sub (fst (amm1_loop (length m) true z 0 x m k)) m (from_word_lsb (snd (amm1_loop (length m) true z 0 x m k))).
Proof.
  intros Lz Lx H1 Hn Wz Wx Wm Wk. unfold g_almost_montgomery_mul_by_one. cbv zeta.
  rewrite Lx, Lz, !Z.eqb_refl. cbn [andb negb]. rewrite Z.sub_0_r, Nat2Z.id.
  set (n := length m) in *.
  match goal with |- context [Nat.iter n ?F (0, z, 0)] =>
    pose proof (g_amm1_loop n x m k F Wx Wm Lx eq_refl H1 n 0%nat ltac:(unfold usz in Hn; lia)) as HL end.
  cbn [Nat.add Nat.eqb] in HL. change (Z.of_nat 0) with 0 in HL.
  rewrite HL; try assumption; try apply is_word_0'.
  - destruct (amm1_loop_shape n x m k Wx Wm Lx eq_refl H1 n true z 0 Wz Lz is_word_0') as (A & B' & C).
    destruct (amm1_loop n true z 0 x m k) as [zf tsf]. cbn [fst snd] in *.
    rewrite g_cc_from_word_lsb_eq.
    apply g_conditional_sub_eq; try assumption; try lia; [rewrite B'; exact Hn|].
    unfold from_word_lsb, wneg, wrap. apply is_word_mod.
  - intros i z' ts' Hi Wz' Lz' Wts'.
    unfold amm1_step.
    assert (E1 : (if Z.of_nat i =? 0
                  then let '(v_c, v_z) := g_add_mul_carry z' x 1 in (v_z, v_c)
                  else (z', 0)) = (if Nat.eqb i 0 then add_mul_carry z' x 1 else (z', 0))).
    { destruct i as [|i]; [|reflexivity]. cbn [Z.of_nat Z.eqb Nat.eqb].
      rewrite g_add_mul_carry_eq by (first [assumption | lia | rewrite Lz'; exact Hn | apply WordPredP.is_word_1]).
      destruct (add_mul_carry z' x 1); reflexivity. }
    rewrite E1. clear E1.
    pose proof (amm1_pre_shape (Nat.eqb i 0) z' x Wz' Wx ltac:(lia)) as S1. cbv zeta in S1.
    destruct (if Nat.eqb i 0 then add_mul_carry z' x 1 else (z', 0)) as [z1 c]. cbn [fst snd] in S1.
    destruct S1 as (Wr & Lr & Wc).
    exact (g_amm_round_tail n i z1 c ts' m k Wr Wm eq_refl ltac:(lia) ltac:(lia) Hn Wc Wts').
Qed.
