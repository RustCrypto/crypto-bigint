(** Translator tie, group SafeGcd, part 2: the 62-divstep kernel `jump` of /repo's CURRENT src/modular/safegcd.rs
    (Src/GenSafeGcd.v: g_jump, a `loop { .. break .. }` translated with fuel).  For every fuel >= 63 the SOURCE loop reaches its
    `break` and returns exactly (delta', t) of Model/SafeGcd.v jump -- under the hypotheses of jump_matrix (62-bit low limbs, f
    odd or (delta > 0 and g odd), |delta| + 62 <= 2^62).  Hand-written.
    The body of the loop is restated verbatim as [jstep]; [g_jump_unfold] checks by reflexivity that it IS the generated text. *)
From CB Require Import Model.SrcPrelude Model.Word Model.Limbs Model.AddSub Model.SafeGcd.
From CB Require Import Src.GenPrim Src.GenSafeGcd Src.GenSafeGcdP.
From CB Require Import Proofs.WordP Proofs.BitsP Proofs.SafeGcdArithP Proofs.SafeGcdJumpP.
From Coq Require Import Lia List.
Import ListNotations.
Open Scope Z_scope.
Transparent B.

Definition jstate : Type := (Z * Z * Z * list (list Z) * Z)%type.     (* steps, delta, g, t, f *)
Definition jstep (st : jstate) : jstate * bool :=
  let v_min := (fun (v_a : Z) (v_b : Z) => (if (Z.gtb v_a v_b) then v_b else v_a)) in
  let '(v_steps, v_delta, v_g, v_t, v_f) := st in
  let v_zeros := (v_min v_steps (ctz_ 128 v_g)) in
  let '(tmp_0, tmp_1, tmp_2) := ((ssub_ 64 v_steps v_zeros), (sadd_ 64 v_delta v_zeros), (shr_ v_g v_zeros)) in
  let v_steps := tmp_0 in
  let v_delta := tmp_1 in
  let v_g := tmp_2 in
  let v_t := (updl_ v_t (Z.to_nat 0) ((sshl_ 64 (nth (Z.to_nat 0) (nth (Z.to_nat 0) v_t nil) 0) v_zeros) :: (sshl_ 64 (nth (Z.to_nat 1) (nth (Z.to_nat 0) v_t nil) 0) v_zeros) :: nil)) in
  if (Z.eqb v_steps 0) then ((v_steps, v_delta, v_g, v_t, v_f), true) else
  let '(v_delta, v_f, v_g, v_t) := if (Z.gtb v_delta 0) then (let '(tmp_0, tmp_1, tmp_2) := ((sneg_ 64 v_delta), (swrap_ 64 v_g), (sneg_ 64 v_f)) in
  let v_delta := tmp_0 in
  let v_f := tmp_1 in
  let v_g := tmp_2 in
  let '(tmp_0, tmp_1) := ((nth (Z.to_nat 1) v_t nil), ((sneg_ 64 (nth (Z.to_nat 0) (nth (Z.to_nat 0) v_t nil) 0)) :: (sneg_ 64 (nth (Z.to_nat 1) (nth (Z.to_nat 0) v_t nil) 0)) :: nil)) in
  let v_t := (updl_ v_t (Z.to_nat 0) tmp_0) in
  let v_t := (updl_ v_t (Z.to_nat 1) tmp_1) in
  (v_delta, v_f, v_g, v_t)) else ((v_delta, v_f, v_g, v_t)) in
  let v_mask := (ssub_ 64 (sshl_ 64 1 (v_min (v_min v_steps (ssub_ 64 1 v_delta)) 5)) 1) in
  let v_w := (Z.land (smul_ 64 (swrap_ 64 v_g) (Z.lxor (smul_ 64 v_f 3) 28)) v_mask) in
  let v_t := (updl_ v_t (Z.to_nat 1) ((sadd_ 64 (smul_ 64 (nth (Z.to_nat 0) (nth (Z.to_nat 0) v_t nil) 0) v_w) (nth (Z.to_nat 0) (nth (Z.to_nat 1) v_t nil) 0)) :: (sadd_ 64 (smul_ 64 (nth (Z.to_nat 1) (nth (Z.to_nat 0) v_t nil) 0) v_w) (nth (Z.to_nat 1) (nth (Z.to_nat 1) v_t nil) 0)) :: nil)) in
  let v_g := (sadd_ 128 v_g (smul_ 128 v_w v_f)) in
  ((v_steps, v_delta, v_g, v_t, v_f), false).

Lemma g_jump_unfold fuel f g delta :
  g_jump fuel f g delta =
  match loop_ fuel jstep (62, delta, nth 0 g 0, [[1; 0]; [0; 1]], swrap_ 64 (nth 0 f 0)) with
  | None => None
  | Some st => let '(_, d, _, t, _) := st in Some (d, t)
  end.
Proof. reflexivity. Qed.

(* one iteration of the model's jump_loop as a function *)
Definition mstate : Type := (Z * Z * Z * Z * matrix)%type.              (* steps, delta, f, g, t *)
Definition mstep (steps delta f g : Z) (t : matrix) : mstate * bool :=
  let '(t00, t01, t10, t11) := t in
  let zeros := ctz_upto (Z.to_nat steps) g in
  let steps := steps - zeros in
  let delta := s64 (delta + zeros) in
  let g := g / 2 ^ zeros in
  let t00 := s64 (t00 * 2 ^ zeros) in
  let t01 := s64 (t01 * 2 ^ zeros) in
  if steps =? 0 then ((steps, delta, f, g, (t00, t01, t10, t11)), true) else
  let '(delta, f, g, t00, t01, t10, t11) :=
    if 0 <? delta then (s64 (- delta), s64 g, s64 (- f), t10, t11, s64 (- t00), s64 (- t01))
    else (delta, f, g, t00, t01, t10, t11) in
  let mask := 2 ^ (Z.min (Z.min steps (s64 (1 - delta))) 5) - 1 in
  let w := Z.land (wmul (u64 g) (wxor (wmul (u64 f) 3) 28)) mask in
  ((steps, delta, f, s128 (g + w * f), (t00, t01, s64 (t00 * w + t10), s64 (t01 * w + t11))), false).

Lemma jump_loop_S k steps delta f g t :
  jump_loop (S k) steps delta f g t =
  let '((s', d', f', g', t'), brk) := mstep steps delta f g t in
  if brk then (d', t') else jump_loop k s' d' f' g' t'.
Proof.
  destruct t as [[[t00 t01] t10] t11]. cbn [jump_loop]. unfold mstep.
  destruct (steps - ctz_upto (Z.to_nat steps) g =? 0); [reflexivity|].
  destruct (0 <? s64 (delta + ctz_upto (Z.to_nat steps) g)); reflexivity.
Qed.

Lemma gtb_min a b : (if a >? b then b else a) = Z.min a b.
Proof. rewrite Z.gtb_ltb. destruct (Z.ltb_spec b a); lia. Qed.
Lemma ctz_go_upto n g : ctz_go_ n g = ctz_upto n g.
Proof. revert g. induction n as [|n IH]; intros g; [reflexivity|]. cbn [ctz_go_ ctz_upto]. rewrite IH. reflexivity. Qed.
Lemma ctz_upto_min n : forall m g, (n <= m)%nat -> Z.min (Z.of_nat n) (ctz_upto m g) = ctz_upto n g.
Proof.
  induction n as [|n IH]; intros m g Hm.
  - cbn [ctz_upto]. pose proof (ctz_upto_range m g). lia.
  - destruct m as [|m]; [lia|]. cbn [ctz_upto]. destruct (Z.odd g).
    + lia.
    + specialize (IH m (g / 2) ltac:(lia)). lia.
Qed.
Lemma min_ctz steps g : 0 <= steps <= 128 -> Z.min steps (ctz_ 128 g) = ctz_upto (Z.to_nat steps) g.
Proof.
  intros H. unfold ctz_. rewrite ctz_go_upto. rewrite <- (Z2Nat.id steps) at 1 by lia.
  apply ctz_upto_min. lia.
Qed.

Lemma swrap128 x : swrap_ 128 x = s128 x. Proof. reflexivity. Qed.
Lemma sadd128 x y : sadd_ 128 x y = s128 (x + y). Proof. reflexivity. Qed.
Lemma smul128 x y : smul_ 128 x y = s128 (x * y). Proof. reflexivity. Qed.
Lemma sshl64 x s : sshl_ 64 x s = s64 (x * 2 ^ s). Proof. reflexivity. Qed.
Lemma pow2_small k : k <= 5 -> 0 <= 2 ^ k <= 32.
Proof.
  intros Hk. destruct (Z_lt_ge_dec k 0) as [Hn|Hp].
  - rewrite Z.pow_neg_r by assumption. lia.
  - split; [apply Z.pow_nonneg; lia|]. change 32 with (2 ^ 5). apply Z.pow_le_mono_r; lia.
Qed.
Lemma jump_mask_eq st d : ssub_ 64 (sshl_ 64 1 (Z.min (Z.min st (ssub_ 64 1 d)) 5)) 1 = 2 ^ (Z.min (Z.min st (s64 (1 - d))) 5) - 1.
Proof.
  rewrite !ssub64, sshl64, Z.mul_1_l. set (k := Z.min (Z.min st (s64 (1 - d))) 5).
  pose proof (pow2_small k ltac:(unfold k; lia)) as Hp.
  rewrite (s64_id (2 ^ k)) by (unfold P63; lia). apply s64_id. unfold P63. lia.
Qed.
Lemma mask_word st d : 1 <= st -> d <= 0 -> - P62 <= d -> 0 <= 2 ^ (Z.min (Z.min st (s64 (1 - d))) 5) - 1 < 2 ^ 64.
Proof.
  intros Hs Hd Hl. rewrite (s64_id (1 - d)) by (pfacts; lia).
  set (k := Z.min (Z.min st (1 - d)) 5). assert (Hk : 1 <= k <= 5) by (unfold k; lia).
  pose proof (pow2_small k ltac:(lia)). assert (0 < 2 ^ k) by (apply BitsP.pow2_pos; lia). lia.
Qed.
Lemma land_low x m : 0 <= m < 2 ^ 64 -> Z.land x m = Z.land (x mod 2 ^ 64) m.
Proof.
  intros Hm. rewrite <- (Z.land_ones x 64) by lia. rewrite <- Z.land_assoc.
  rewrite (Z.land_comm (Z.ones 64) m), Z.land_ones by lia. rewrite (Z.mod_small m) by lia. reflexivity.
Qed.
Lemma jump_w_eq g f m : 0 <= m < 2 ^ 64 ->
  Z.land (smul_ 64 (swrap_ 64 g) (Z.lxor (smul_ 64 f 3) 28)) m = Z.land (wmul (u64 g) (wxor (wmul (u64 f) 3) 28)) m.
Proof.
  intros Hm. rewrite (land_low _ m Hm), (land_low (wmul _ _) m Hm). f_equal.
  rewrite (swrap64 g), !smul64. unfold wmul, wxor, wrap, u64. change B with P64. change (2 ^ 64) with P64.
  rewrite Z.mod_mod by (unfold P64; lia). rewrite s64_mod.
  rewrite Zmult_mod, s64_mod. rewrite (Zmult_mod (g mod P64)). rewrite Z.mod_mod by (unfold P64; lia).
  f_equal. f_equal.
  change P64 with (2 ^ 64). rewrite !lxor_mod_pow2 by lia. f_equal.
  change (2 ^ 64) with P64. rewrite s64_mod, Z.mod_mod by (unfold P64; lia). rewrite Zmult_mod_idemp_l. reflexivity.
Qed.
Lemma jump_g_eq g w f : sadd_ 128 g (smul_ 128 w f) = s128 (g + w * f).
Proof. rewrite sadd128, smul128. exact (swrap_add_r 128 g (w * f) ltac:(lia)). Qed.
Lemma jump_t_eq t w u : sadd_ 64 (smul_ 64 t w) u = s64 (t * w + u).
Proof. rewrite sadd64, smul64. apply s64_add_l. Qed.

Lemma jstep_mstep steps delta f g t : 0 <= steps <= 62 -> Z.abs delta + steps <= P62 ->
  jstep (steps, delta, g, mat t, f) =
  let '((s', d', f', g', t'), brk) := mstep steps delta f g t in ((s', d', g', mat t', f'), brk).
Proof.
  destruct t as [[[t00 t01] t10] t11]. intros Hs Hd.
  unfold jstep, mstep, mat. cbv beta iota zeta.
  rewrite gtb_min. rewrite (min_ctz steps g) by lia.
  pose proof (ctz_upto_range (Z.to_nat steps) g) as Hz. rewrite Z2Nat.id in Hz by lia.
  set (z := ctz_upto (Z.to_nat steps) g) in *.
  change (ssub_ 64 steps z) with (s64 (steps - z)). rewrite (s64_id (steps - z)) by (unfold P63; lia).
  change (sadd_ 64 delta z) with (s64 (delta + z)).
  assert (Ed : s64 (delta + z) = delta + z) by (apply s64_id; pfacts; lia).
  change (Z.to_nat 0) with 0%nat. change (Z.to_nat 1) with 1%nat. unfold updl_. cbn [nth firstn skipn app].
  destruct (Z.eqb_spec (steps - z) 0) as [E0|E0]; [reflexivity|].
  rewrite Z.gtb_ltb.
  destruct (Z.ltb_spec 0 (s64 (delta + z))) as [Hp|Hn]; cbv beta iota zeta; cbn [nth firstn skipn app]; rewrite !gtb_min, jump_mask_eq.
  - set (d2 := sneg_ 64 (s64 (delta + z))).
    assert (Ed2 : d2 = - (delta + z)) by (unfold d2; rewrite sneg64, Ed; apply s64_id; pfacts; lia).
    change (s64 (- s64 (delta + z))) with d2. rewrite Ed in Hp.
    rewrite (jump_w_eq _ _ _ (mask_word (steps - z) d2 ltac:(lia) ltac:(lia) ltac:(lia))), jump_g_eq, !jump_t_eq. reflexivity.
  - rewrite (jump_w_eq _ _ _ (mask_word (steps - z) (s64 (delta + z)) ltac:(lia) Hn ltac:(rewrite Ed; lia))), jump_g_eq, !jump_t_eq. reflexivity.
Qed.

Lemma s64_odd x : Z.odd (s64 x) = Z.odd x.
Proof.
  unfold s64. rewrite Z.mod_eq by (unfold P64; lia).
  replace (x + P63 - P64 * ((x + P63) / P64) - P63) with (x + 2 * (- (P63 * ((x + P63) / P64)))) by (unfold P63, P64; lia).
  apply Z.odd_add_mul_2.
Qed.
Lemma s128_divide k x : 0 <= k <= 128 -> (2 ^ k | x) -> (2 ^ k | s128 x).
Proof.
  intros Hk D. unfold s128. rewrite Z.mod_eq by (unfold P128; lia).
  replace (x + P127 - P128 * ((x + P127) / P128) - P127) with (x - P128 * ((x + P127) / P128)) by lia.
  apply Z.divide_sub_r; [assumption|]. apply Z.divide_mul_l. rewrite P128_pow. apply pow2_divide. lia.
Qed.

(* after the update g + w f the next iteration finds at least one trailing zero *)
Lemma next_even st d f g : 1 <= st <= 62 -> d <= 0 -> Z.abs d + st <= P62 -> Z.odd f = true ->
  let k := Z.min (Z.min st (s64 (1 - d))) 5 in
  let w := Z.land (wmul (u64 g) (wxor (wmul (u64 f) 3) 28)) (2 ^ k - 1) in
  1 <= ctz_upto (Z.to_nat st) (s128 (g + w * f)).
Proof.
  intros Hs Hd Hb Of k w.
  assert (E1 : s64 (1 - d) = 1 - d) by (apply s64_id; pfacts; lia).
  assert (Hk : 1 <= k <= 5 /\ k <= st) by (unfold k; rewrite E1; lia).
  destruct (w_clears f g k Of ltac:(lia)) as (_ & Dw). cbv zeta in Dw. fold w in Dw.
  pose proof (ctz_upto_ge (Z.to_nat st) (s128 (g + w * f)) k) as G. rewrite Z2Nat.id in G by lia.
  specialize (G ltac:(lia) (s128_divide k _ ltac:(lia) Dw)). lia.
Qed.

Lemma mstep_inv steps delta f g t s' d' f' g' t' :
  1 <= steps <= 62 -> Z.abs delta + steps <= P62 -> (Z.odd f = true \/ (0 < delta /\ Z.odd g = true)) ->
  mstep steps delta f g t = ((s', d', f', g', t'), false) ->
  s' = steps - ctz_upto (Z.to_nat steps) g /\ 1 <= s' <= 62 /\ Z.abs d' + s' <= P62 /\ Z.odd f' = true /\
  1 <= ctz_upto (Z.to_nat s') g'.
Proof.
  destruct t as [[[t00 t01] t10] t11]. intros Hs Hd Hodd EM. unfold mstep in EM.
  pose proof (ctz_upto_range (Z.to_nat steps) g) as Hz. rewrite Z2Nat.id in Hz by lia.
  pose proof (ctz_upto_odd (Z.to_nat steps) g) as Og1. rewrite Z2Nat.id in Og1 by lia.
  set (z := ctz_upto (Z.to_nat steps) g) in *.
  destruct (Z.eqb_spec (steps - z) 0) as [E0|E0]; [discriminate|].
  assert (Hzlt : z < steps) by lia. specialize (Og1 Hzlt).
  assert (Ed : s64 (delta + z) = delta + z) by (apply s64_id; pfacts; lia).
  rewrite Ed in EM.
  destruct (Z.ltb_spec 0 (delta + z)) as [Hp|Hn].
  - injection EM as <- <- <- <- <-.
    assert (Ed2 : s64 (- (delta + z)) = - (delta + z)) by (apply s64_id; pfacts; lia).
    split; [reflexivity|]. split; [lia|]. split; [rewrite Ed2; lia|]. split; [rewrite s64_odd; exact Og1|].
    apply next_even; [lia | rewrite Ed2; lia | rewrite Ed2; lia | rewrite s64_odd; exact Og1].
  - injection EM as <- <- <- <- <-.
    assert (Of : Z.odd f = true).
    { destruct Hodd as [Ho|[Hp Ho]]; [assumption|]. exfalso.
      assert (z = 0); [|lia]. unfold z. destruct (Z.to_nat steps) eqn:En; [lia|]. cbn [ctz_upto]. rewrite Ho. reflexivity. }
    split; [reflexivity|]. split; [lia|]. split; [lia|]. split; [exact Of|].
    apply next_even; [lia | lia | lia | exact Of].
Qed.

Lemma jump_src_loop : forall fuel steps delta f g t,
  1 <= steps <= 62 -> Z.abs delta + steps <= P62 -> (Z.odd f = true \/ (0 < delta /\ Z.odd g = true)) ->
  steps + (if ctz_upto (Z.to_nat steps) g =? 0 then 1 else 0) <= Z.of_nat fuel ->
  exists s' g' f', loop_ fuel jstep (steps, delta, g, mat t, f) =
    Some (s', fst (jump_loop fuel steps delta f g t), g', mat (snd (jump_loop fuel steps delta f g t)), f').
Proof.
  induction fuel as [|fuel IH]; intros steps delta f g t Hs Hd Hodd Hfuel.
  - destruct (ctz_upto (Z.to_nat steps) g =? 0); change (Z.of_nat 0) with 0 in Hfuel; lia.
  - cbn [loop_]. rewrite jstep_mstep by lia. rewrite jump_loop_S.
    destruct (mstep steps delta f g t) as [[[[[s1 d1] f1] g1] t1] brk] eqn:EM.
    destruct brk.
    + exists s1, g1, f1. reflexivity.
    + destruct (mstep_inv _ _ _ _ _ _ _ _ _ _ Hs Hd Hodd EM) as (Es & Hs1 & Hd1 & Of1 & Hc).
      apply IH; try assumption.
      * left. assumption.
      * destruct (Z.eqb_spec (ctz_upto (Z.to_nat s1) g1) 0) as [E|E]; [lia|].
        rewrite Nat2Z.inj_succ in Hfuel. rewrite Es.
        pose proof (ctz_upto_range (Z.to_nat steps) g).
        destruct (Z.eqb_spec (ctz_upto (Z.to_nat steps) g) 0); lia.
Qed.

Lemma loop_more {S} (step : S -> S * bool) : forall n m s r, loop_ n step s = Some r -> loop_ (n + m) step s = Some r.
Proof.
  induction n as [|n IH]; intros m s r H; [discriminate|]. cbn [loop_ Nat.add] in *.
  destruct (step s) as [s1 b]. destruct b; [assumption|]. apply IH. assumption.
Qed.

(* with jump opaque the kernel unfolds jump_loop 63 on open terms first and does not come back *)
Local Transparent jump.
Lemma jump_unfold f0 g0 delta : jump f0 g0 delta = jump_loop 63 62 delta f0 g0 (1, 0, 0, 1).
Proof. reflexivity. Qed.
Local Opaque jump.

Theorem g_jump_eq fuel f g delta : (63 <= fuel)%nat ->
  0 <= nth 0 f 0 < P62 -> 0 <= nth 0 g 0 < P62 ->
  (Z.odd (nth 0 f 0) = true \/ (0 < delta /\ Z.odd (nth 0 g 0) = true)) -> Z.abs delta + 62 <= P62 ->
  g_jump fuel f g delta = Some (fst (jump (nth 0 f 0) (nth 0 g 0) delta), mat (snd (jump (nth 0 f 0) (nth 0 g 0) delta))).
Proof.
  intros Hfu Hf Hg Hodd Hd. rewrite g_jump_unfold.
  assert (Ef : swrap_ 64 (nth 0 f 0) = nth 0 f 0) by (rewrite swrap64; apply s64_id; pfacts; lia).
  rewrite Ef.
  destruct (jump_src_loop 63 62 delta (nth 0 f 0) (nth 0 g 0) (1, 0, 0, 1) ltac:(lia) ltac:(lia) Hodd) as (s' & g' & f' & E).
  { destruct (ctz_upto (Z.to_nat 62) (nth 0 g 0) =? 0); lia. }
  change (mat (1, 0, 0, 1)) with [[1; 0]; [0; 1]] in E.
  rewrite jump_unfold.
  set (r := jump_loop 63 62 delta (nth 0 f 0) (nth 0 g 0) (1, 0, 0, 1)) in *. clearbody r.
  replace fuel with (63 + (fuel - 63))%nat by lia. rewrite (loop_more _ _ _ _ _ E). reflexivity.
Qed.
