(** Translator tie, group IntCmp: the signed order predicates of /repo's CURRENT src/int/cmp.rs (Src/GenIntCmp.v) -- Int::eq,
    lt, gt, cmp through Int::invert_msb / Int::SIGN_MASK (= Int::MIN, computed by the source's own shr / bitxor) -- equal the
    models of Model/Cmp.v for every limb count n >= 1 with 64 n < 2^32 and all limb values.  Hand-written. *)
From CB Require Import Model.SrcPrelude Model.Word Model.Limbs Model.AddSub Model.Cmp Model.IntArith.
From CB Require Import Src.GenPrim Src.GenDiv Src.GenUint Src.GenShift Src.GenMul Src.GenInt Src.GenDivLimb Src.GenBits Src.GenDivCt
  Src.GenIntDiv Src.GenCmp Src.GenIntCmp.
From CB Require Import Src.GenWidthP Src.GenPrimP Src.GenLoopP Src.GenUintP Src.GenIntP Src.GenIntDivP Src.GenCmpP.
From CB Require Import Proofs.WordP Proofs.WordPredP Proofs.LimbsP Proofs.CmpP Proofs.CmpIntP Proofs.CmpAllP.
From Coq Require Import Lia List.
Import ListNotations.
Open Scope Z_scope.
Transparent B.

Definition isz (n : nat) : Prop := (1 <= n)%nat /\ 64 * Z.of_nat n < 2 ^ 32.
Lemma isz_usz n : isz n -> usz n. Proof. intros [_ H]. unfold usz. lia. Qed.
Lemma isz_nonnil n (a : list Z) : length a = n -> isz n -> a <> [].
Proof. intros Ha [H1 _] ->. cbn in Ha. lia. Qed.

Lemma g_int_SIGN_MASK_eq n : isz n -> g_int_SIGN_MASK n = sign_mask n.
Proof. intros [H1 H2]. unfold g_int_SIGN_MASK. rewrite g_int_MIN_eq by assumption. reflexivity. Qed.

Lemma g_int_invert_msb_eq n a : length a = n -> isz n -> g_int_invert_msb n a = int_invert_msb a.
Proof.
  intros Ha Hn. unfold g_int_invert_msb, int_invert_msb, xor_limbs. rewrite g_int_SIGN_MASK_eq by assumption.
  rewrite g_uint_bitxor_eq by (first [assumption | apply length_sign_mask | apply isz_usz; assumption]).
  rewrite Ha. reflexivity.
Qed.

Section Order.
Context (n : nat) (a b : list Z) (Ha : length a = n) (Hb : length b = n) (Hn : isz n) (Wa : wf a) (Wb : wf b).

Lemma g_int_eq_eq : g_int_eq n a b = uint_eq a b.
Proof. apply g_uint_eq_eq; auto using isz_usz. Qed.

(* lt, gt, cmp: the unsigned operation g (with model m) on the operands with inverted sign bits *)
Lemma via_invert_msb (g : nat -> list Z -> list Z -> Z) (m : list Z -> list Z -> Z) :
  (forall x y, length x = n -> length y = n -> usz n -> wf x -> wf y -> g n x y = m x y) ->
  g n (g_int_invert_msb n a) (g_int_invert_msb n b) = m (int_invert_msb a) (int_invert_msb b).
Proof.
  intros H. rewrite !g_int_invert_msb_eq by assumption.
  destruct (invert_msb_facts a Wa (isz_nonnil n a Ha Hn)) as (_ & W1 & L1).
  destruct (invert_msb_facts b Wb (isz_nonnil n b Hb Hn)) as (_ & W2 & L2).
  apply H; auto using isz_usz; congruence.
Qed.
Lemma g_int_lt_eq : g_int_lt n a b = int_lt a b.
Proof. exact (via_invert_msb g_uint_lt uint_lt (g_uint_lt_eq n)). Qed.
Lemma g_int_gt_eq : g_int_gt n a b = int_gt a b.
Proof. exact (via_invert_msb g_uint_gt uint_gt (g_uint_gt_eq n)). Qed.
Lemma g_int_cmp_eq : g_int_cmp n a b = int_cmp a b.
Proof. exact (via_invert_msb g_uint_cmp uint_cmp (g_uint_cmp_eq n)). Qed.

Lemma int_order : uint_eq a b = choice_of_bool (seval a =? seval b) /\
  int_lt a b = choice_of_bool (seval a <? seval b) /\ int_gt a b = choice_of_bool (seval b <? seval a) /\
  int_cmp a b = ordz (seval a) (seval b).
Proof.
  destruct (int_order_spec a b Wa Wb ltac:(congruence) (isz_nonnil n a Ha Hn)) as (E1 & E2 & E3 & E4 & _). auto.
Qed.
Lemma g_int_eq_spec : g_int_eq n a b = choice_of_bool (seval a =? seval b).
Proof. rewrite g_int_eq_eq. apply int_order. Qed.
Lemma g_int_lt_spec : g_int_lt n a b = choice_of_bool (seval a <? seval b).
Proof. rewrite g_int_lt_eq. apply int_order. Qed.
Lemma g_int_gt_spec : g_int_gt n a b = choice_of_bool (seval b <? seval a).
Proof. rewrite g_int_gt_eq. apply int_order. Qed.
Lemma g_int_cmp_spec : g_int_cmp n a b = ordz (seval a) (seval b).
Proof. rewrite g_int_cmp_eq. apply int_order. Qed.
End Order.
