(** Translator tie, group Bits: `leading_zeros` / `Uint::bits` of src/uint/bits.rs, the constant-time shift ladders
    `Uint::overflowing_shl` / `shl` (src/uint/shl.rs) and `overflowing_shr` / `shr` (src/uint/shr.rs), `ConstCtOption<Uint>::expect`,
    `Uint::to_limbs`, `Limb::leading_zeros` as regenerated from /repo's CURRENT source (Src/GenBits.v) equal the limb-level models
    [limbs_leading_zeros] / [uint_overflowing_shl] / [uint_overflowing_shr] of Model/Bits.v and [l0_bits] / [l0_uint_shl] /
    [l0_uint_shr] of Model/DivL0.v, for every limb count n with 64 n < 2^32 (`Uint::BITS` is a u32) and all limb values.
    The models return [None] where an `expect` of the source would panic; the generated text drops the assertion (it returns
    the carried value), so each equality is stated as `model = Some v -> generated = v`. *)
From CB Require Import Model.SrcPrelude Model.Word Model.Limbs Model.AddSub Model.Cmp Model.Bits Model.Div Model.DivL0.
From CB Require Import Src.GenPrim Src.GenUint Src.GenShift Src.GenBits.
From CB Require Import Src.GenWidthP Src.GenPrimP Src.GenLoopP Src.GenIterP Src.GenUintP Src.GenShiftP.
From CB Require Import Proofs.WordP Proofs.LimbsP Proofs.BitsWordP Proofs.BitQueryP Proofs.ShiftP Proofs.LadderP Proofs.DivL0P.
From Coq Require Import Lia List.
Import ListNotations.
Open Scope Z_scope.
Transparent B.

(* leading_zeros: downward scan with a u32 counter and a ConstChoice flag *)
Lemma g_limb_leading_zeros_eq x : g_limb_leading_zeros x = wlz x.
Proof. unfold g_limb_leading_zeros, clz_, wlz, bitlen. destruct (x <=? 0); reflexivity. Qed.

Definition lz_step (ls : list Z) (j : nat) (s : Z * Z) : Z * Z :=
  (add_ 32 (fst s) (g_cc_if_true_u32 (snd s) (g_limb_leading_zeros (nth j ls 0))),
   g_cc_and (snd s) (g_cc_not (g_cc_from_word_nonzero (nth j ls 0)))).

Lemma lz_scan_range ls : wf ls -> 0 <= fst (lz_scan ls) <= 64 * Z.of_nat (length ls) /\
  exists b, snd (lz_scan ls) = choice_of_bool b.
Proof.
  intros Hw. rewrite lz_scan_correct by assumption. cbn [fst snd]. split; [|eexists; reflexivity].
  pose proof (l0_bits_of_range ls Hw). change (bits_of (eval ls)) with (bitlen (eval ls)) in H. lia.
Qed.

Lemma lz_fold : forall ls pre, wf ls -> 64 * Z.of_nat (length ls) < 2 ^ 32 ->
  fold_left (fun s j => lz_step (pre ++ ls) j s) (rev (seq (length pre) (length ls))) (0, 2 ^ 64 - 1) = lz_scan ls.
Proof.
  induction ls as [|x r IH]; intros pre Hw Hn; [reflexivity|].
  apply wf_cons in Hw. destruct Hw as [Hx Hr]. cbn [length] in Hn.
  cbn [length seq rev]. rewrite fold_left_app. cbn [fold_left].
  rewrite app_snoc, <- (last_length pre x).
  rewrite (IH (pre ++ [x]) Hr) by lia.
  destruct (lz_scan_range r Hr) as [Hc [b Hb]].
  cbn [lz_scan]. destruct (lz_scan r) as [count nz]. cbn [fst snd] in *. subst nz.
  unfold lz_step. cbn [fst snd].
  assert (N : nth (length pre) ((pre ++ [x]) ++ r) 0 = x) by (rewrite <- app_assoc; apply nth_middle).
  rewrite N, g_limb_leading_zeros_eq.
  change (g_cc_if_true_u32 (choice_of_bool b) (wlz x)) with (if_true_u32 (choice_of_bool b) (wlz x)).
  pose proof (wlz_range x Hx) as Hz.
  rewrite if_true_u32_bool by (unfold U32; lia).
  f_equal. unfold add_. apply Z.mod_small. destruct b; lia.
Qed.

Lemma g_slice_leading_zeros_eq ls : wf ls -> 64 * Z.of_nat (length ls) < 2 ^ 32 ->
  g_slice_leading_zeros ls = limbs_leading_zeros ls.
Proof.
  intros Hw Hn. unfold g_slice_leading_zeros, limbs_leading_zeros. cbv zeta. rewrite Nat2Z.id.
  rewrite (iter_enc_down _ enc3 (lz_step ls)) with (s0 := (0, 2 ^ 64 - 1)).
  - pose proof (lz_fold ls [] Hw Hn) as H. cbn [app length] in H. rewrite H. unfold enc3.
    destruct (lz_scan ls); reflexivity.
  - intros i [c nz] Hi. unfold enc3, lz_step. cbn [fst snd]. reflexivity.
  - lia.
Qed.

Lemma g_uint_bits_eq n y : length y = n -> wf y -> 64 * Z.of_nat n < 2 ^ 32 -> g_uint_bits n y = l0_bits y.
Proof.
  intros Hl Hw Hn. unfold g_uint_bits, g_uint_leading_zeros, l0_bits, lenZ.
  rewrite g_uint_BITS_eq by assumption. rewrite g_slice_leading_zeros_eq by (subst n; assumption).
  destruct (lz_scan_range y Hw) as [Hc _]. fold (limbs_leading_zeros y) in Hc. subst n.
  unfold sub_. apply Z.mod_small. lia.
Qed.

Lemma g_ctopt_uint_expect_eq n (o : list Z * Z) v : ct_expect o = Some v -> g_ctopt_uint_expect n o tt = v.
Proof. unfold ct_expect, g_ctopt_uint_expect. destruct (snd o =? MAXW); intros E; [inversion E; reflexivity | discriminate]. Qed.
Lemma g_uint_to_limbs_eq n (a : list Z) : g_uint_to_limbs n a = a. Proof. reflexivity. Qed.

(* the constant-time ladder: log2(BITS) fixed-distance shifts, each selected by one bit of `shift` *)
Lemma shift_bits_range bits : 64 <= bits < 2 ^ 32 -> 0 <= shift_bits bits <= 32.
Proof.
  intros Hb. unfold shift_bits, u32_lz. pose proof (bitlen_bound (bits - 1) 32 ltac:(lia) ltac:(lia)). lia.
Qed.

Lemma ladder_iter n (gstep : nat -> list Z -> Z -> list Z * Z) (step : list Z -> Z -> ctopt) sh (F : Z * list Z -> Z * list Z) :
  (forall i r, F (i, r) = (add_ 32 i 1, g_uint_select n r (g_ctopt_uint_expect n (gstep n r (shl_ 32 1 i)) tt)
                                        (g_cc_from_u32_lsb (Z.land (shr_ sh i) 1)))) ->
  (forall r s, length r = n -> 0 <= s < 2 ^ 32 -> gstep n r s = step r s) ->
  (forall r s, length r = n -> length (fst (step r s)) = n) ->
  forall k i r r', (Z.of_nat k + i <= 32) -> 0 <= i -> length r = n -> Z.of_nat n < 2 ^ 64 ->
  ladder step k i sh r = Some r' ->
  Nat.iter k F (i, r) = (i + Z.of_nat k, r') /\ length r' = n.
Proof.
  intros HF Hg Hlen. induction k as [|k IH]; intros i r r' Hk Hi Hl Hn E.
  - cbn [ladder] in E. inversion E. subst r'. cbn [Nat.iter]. rewrite Z.add_0_r. auto.
  - cbn [ladder] in E. rewrite iter_shift, HF.
    assert (E2 : shl_ 32 1 i = 2 ^ i).
    { unfold shl_. rewrite Z.mul_1_l. apply Z.mod_small. split; [apply Z.pow_nonneg; lia | apply Z.pow_lt_mono_r; lia]. }
    rewrite E2.
    assert (H2i : 0 <= 2 ^ i < 2 ^ 32) by (split; [apply Z.pow_nonneg; lia | apply Z.pow_lt_mono_r; lia]).
    rewrite (Hg r (2 ^ i) Hl H2i).
    destruct (ct_expect (step r (2 ^ i))) as [shd|] eqn:Ex; [|discriminate].
    rewrite (g_ctopt_uint_expect_eq n _ shd Ex).
    assert (Lsh : length shd = n).
    { unfold ct_expect in Ex. destruct (snd (step r (2 ^ i)) =? MAXW); [|discriminate]. inversion Ex. apply Hlen. exact Hl. }
    rewrite (g_uint_select_eq n r shd _ Hl Lsh Hn).
    assert (Ea : add_ 32 i 1 = i + 1) by (unfold add_; apply Z.mod_small; lia).
    rewrite Ea.
    unfold uint_select. unfold shr_.
    change (g_cc_from_u32_lsb (Z.land (sh / 2 ^ i) 1)) with (from_u32_lsb (Z.land (sh / 2 ^ i) 1)).
    assert (Lsel : length (select_limbs (from_u32_lsb (Z.land (sh / 2 ^ i) 1)) r shd) = n)
      by (unfold select_limbs; rewrite map_length, combine_length; lia).
    destruct (IH (i + 1) _ r' ltac:(lia) ltac:(lia) Lsel Hn E) as [I1 I2].
    rewrite I1. split; [f_equal; lia | exact I2].
Qed.

Lemma shift_num_le (a : list Z) s : s < 64 * Z.of_nat (length a) -> (Z.to_nat (s / 64) <= length a)%nat.
Proof.
  intros H. destruct (Z_lt_ge_dec s 0).
  - assert (s / 64 < 0) by (apply Z.div_lt_upper_bound; lia). lia.
  - assert (s / 64 < Z.of_nat (length a)) by (apply Z.div_lt_upper_bound; lia). lia.
Qed.
Lemma length_shl_carry l r : forall c, length (shl_carry l r c) = length l.
Proof. induction l as [|x l IH]; intros c; [reflexivity|]. cbn [shl_carry length]. rewrite IH. reflexivity. Qed.
Lemma length_shr_carry l r c : length (fst (shr_carry l r c)) = length l.
Proof.
  induction l as [|x l IH]; [reflexivity|]. cbn [shr_carry]. destruct (shr_carry l r c). cbn [fst length] in *. lia.
Qed.

Lemma shl_vt_len a s : length (fst (uint_overflowing_shl_vartime a s)) = length a.
Proof.
  unfold uint_overflowing_shl_vartime. cbv zeta.
  destruct (Z.leb_spec (64 * Z.of_nat (length a)) s) as [|E]; [apply length_zeros|].
  pose proof (shift_num_le a s E).
  destruct (s mod 64 =? 0); cbn [fst ct_some];
    rewrite app_length, length_zeros, ?length_shl_carry, firstn_length; lia.
Qed.

Lemma shr_vt_len a s : length (fst (uint_overflowing_shr_vartime a s)) = length a.
Proof.
  unfold uint_overflowing_shr_vartime. cbv zeta.
  destruct (Z.leb_spec (64 * Z.of_nat (length a)) s) as [|E]; [apply length_zeros|].
  pose proof (shift_num_le a s E).
  destruct (s mod 64 =? 0); cbn [fst ct_some];
    rewrite app_length, length_zeros, ?length_shr_carry, skipn_length; lia.
Qed.

Lemma g_shift_bits_eq n : (1 <= n)%nat -> 64 * Z.of_nat n < 2 ^ 32 ->
  sub_ 32 32 (clz_ 32 (sub_ 32 (g_uint_BITS n) 1)) = shift_bits (64 * Z.of_nat n).
Proof.
  intros H1 Hn. rewrite g_uint_BITS_eq by assumption.
  assert (E1 : sub_ 32 (64 * Z.of_nat n) 1 = 64 * Z.of_nat n - 1) by (unfold sub_; apply Z.mod_small; lia).
  rewrite E1. unfold shift_bits, u32_lz, clz_, bitlen.
  destruct (64 * Z.of_nat n - 1 <=? 0) eqn:E; [apply Z.leb_le in E; lia|].
  pose proof (bitlen_bound (64 * Z.of_nat n - 1) 32 ltac:(lia) ltac:(lia)) as Hb. unfold bitlen in Hb. rewrite E in Hb.
  unfold sub_. apply Z.mod_small. lia.
Qed.

(** the source text of overflowing_shl / overflowing_shr after its let-bindings, over the loop body [F] and the
    fixed-distance shift [gstep] it calls *)
Lemma ct_shift_iter n gstep step a s c (F : Z * list Z -> Z * list Z) :
  (forall i r, F (i, r) = (add_ 32 i 1, g_uint_select n r (g_ctopt_uint_expect n (gstep n r (shl_ 32 1 i)) tt)
                                        (g_cc_from_u32_lsb (Z.land (shr_ (rem_ s (64 * Z.of_nat n)) i) 1)))) ->
  (forall r d, length r = n -> 0 <= d < 2 ^ 32 -> gstep n r d = step r d) ->
  (forall r d, length (fst (step r d)) = length r) ->
  length a = n -> (1 <= n)%nat -> 64 * Z.of_nat n < 2 ^ 32 -> 0 <= s < 2 ^ 32 ->
  ct_shift step a s = Some c ->
  (let '(_, r) := Nat.iter (Z.to_nat (shift_bits (64 * Z.of_nat n) - 0)) F (0, a) in
   g_ctopt_new (g_uint_select n r (repeat 0 n) (g_cc_not (g_cc_from_u32_lt s (64 * Z.of_nat n))))
               (g_cc_not (g_cc_not (g_cc_from_u32_lt s (64 * Z.of_nat n))))) = c.
Proof.
  intros HF Hg Hlen Hl H1 Hn Hs E. unfold ct_shift, lenZ in E. rewrite Hl in E. rewrite Z.sub_0_r.
  destruct (ladder step (Z.to_nat (shift_bits (64 * Z.of_nat n))) 0 (s mod (64 * Z.of_nat n)) a) as [r|] eqn:EL; [|discriminate].
  pose proof (shift_bits_range (64 * Z.of_nat n) ltac:(lia)) as Hsb.
  destruct (ladder_iter n gstep step (s mod (64 * Z.of_nat n)) F HF Hg ltac:(intros r0 d L0; rewrite Hlen; exact L0)
              (Z.to_nat (shift_bits (64 * Z.of_nat n))) 0 a r ltac:(lia) ltac:(lia) Hl ltac:(lia) EL) as [I1 I2].
  rewrite I1. injection E as <-. assert (Hn64 : Z.of_nat n < 2 ^ 64) by lia.
  rewrite (g_uint_select_eq n r (repeat 0 n) _ I2 (repeat_length _ _) Hn64). reflexivity.
Qed.

Lemma g_uint_overflowing_shl_eq n a s c : length a = n -> (1 <= n)%nat -> 64 * Z.of_nat n < 2 ^ 32 -> 0 <= s < 2 ^ 32 ->
  uint_overflowing_shl a s = Some c -> g_uint_overflowing_shl n a s = c.
Proof.
  intros Hl H1 Hn Hs E. unfold g_uint_overflowing_shl. cbv zeta.
  rewrite (g_shift_bits_eq n H1 Hn), g_uint_BITS_eq by assumption.
  apply (ct_shift_iter n g_uint_overflowing_shl_vartime uint_overflowing_shl_vartime); try assumption.
  - intros; reflexivity.
  - intros r d L D. apply g_uint_overflowing_shl_vartime_eq; assumption.
  - apply shl_vt_len.
Qed.

Lemma g_uint_overflowing_shr_eq n a s c : length a = n -> (1 <= n)%nat -> 64 * Z.of_nat n < 2 ^ 32 -> 0 <= s < 2 ^ 32 ->
  uint_overflowing_shr a s = Some c -> g_uint_overflowing_shr n a s = c.
Proof.
  intros Hl H1 Hn Hs E. unfold g_uint_overflowing_shr. cbv zeta.
  rewrite (g_shift_bits_eq n H1 Hn), g_uint_BITS_eq by assumption.
  apply (ct_shift_iter n g_uint_overflowing_shr_vartime uint_overflowing_shr_vartime); try assumption.
  - intros; reflexivity.
  - intros r d L D. apply g_uint_overflowing_shr_vartime_eq; assumption.
  - apply shr_vt_len.
Qed.

(* Uint::shl / Uint::shr are the panicking wrappers of Model/DivL0.v *)
Lemma g_uint_shl_eq n a s v : length a = n -> (1 <= n)%nat -> 64 * Z.of_nat n < 2 ^ 32 -> 0 <= s < 2 ^ 32 ->
  l0_uint_shl a s = Some v -> g_uint_shl n a s = v.
Proof.
  intros Hl H1 Hn Hs E. unfold l0_uint_shl in E. unfold g_uint_shl.
  destruct (uint_overflowing_shl a s) as [c|] eqn:Ec; [|discriminate].
  rewrite (g_uint_overflowing_shl_eq n a s c Hl H1 Hn Hs Ec). apply g_ctopt_uint_expect_eq. exact E.
Qed.
Lemma g_uint_shr_eq n a s v : length a = n -> (1 <= n)%nat -> 64 * Z.of_nat n < 2 ^ 32 -> 0 <= s < 2 ^ 32 ->
  l0_uint_shr a s = Some v -> g_uint_shr n a s = v.
Proof.
  intros Hl H1 Hn Hs E. unfold l0_uint_shr in E. unfold g_uint_shr.
  destruct (uint_overflowing_shr a s) as [c|] eqn:Ec; [|discriminate].
  rewrite (g_uint_overflowing_shr_eq n a s c Hl H1 Hn Hs Ec). apply g_ctopt_uint_expect_eq. exact E.
Qed.

Lemma list_ne_of_len (a : list Z) n : length a = n -> (1 <= n)%nat -> a <> [].
Proof. intros Hl H1 ->. cbn in Hl. lia. Qed.

Lemma g_uint_overflowing_shl_exact n a s : length a = n -> (1 <= n)%nat -> 64 * Z.of_nat n < 2 ^ 32 -> 0 <= s < 2 ^ 32 -> wf a ->
  let r := g_uint_overflowing_shl n a s in
  snd r = choice_of_bool (s <? 64 * Z.of_nat n) /\ wf (fst r) /\ length (fst r) = n /\
  eval (fst r) = if s <? 64 * Z.of_nat n then (eval a * 2 ^ s) mod Bn n else 0.
Proof.
  intros Hl H1 Hn Hs Wa. cbv zeta.
  destruct (uint_overflowing_shl_correct a s Wa (list_ne_of_len a n Hl H1)) as (v & E & Wv & Lv & Ev);
    [unfold bitsZ', U32; rewrite Hl; lia | unfold U32; lia |].
  rewrite (g_uint_overflowing_shl_eq n a s _ Hl H1 Hn Hs E). cbn [fst snd]. unfold bitsZ' in *. rewrite Hl in *. auto.
Qed.
Lemma g_uint_overflowing_shr_exact n a s : length a = n -> (1 <= n)%nat -> 64 * Z.of_nat n < 2 ^ 32 -> 0 <= s < 2 ^ 32 -> wf a ->
  let r := g_uint_overflowing_shr n a s in
  snd r = choice_of_bool (s <? 64 * Z.of_nat n) /\ wf (fst r) /\ length (fst r) = n /\
  eval (fst r) = if s <? 64 * Z.of_nat n then eval a / 2 ^ s else 0.
Proof.
  intros Hl H1 Hn Hs Wa. cbv zeta.
  destruct (uint_overflowing_shr_correct a s Wa (list_ne_of_len a n Hl H1)) as (v & E & Wv & Lv & Ev);
    [unfold bitsZ', U32; rewrite Hl; lia | unfold U32; lia |].
  rewrite (g_uint_overflowing_shr_eq n a s _ Hl H1 Hn Hs E). cbn [fst snd]. unfold bitsZ' in *. rewrite Hl in *. auto.
Qed.

Lemma g_uint_bits_exact n y : length y = n -> wf y -> 64 * Z.of_nat n < 2 ^ 32 ->
  g_uint_bits n y = (if eval y <=? 0 then 0 else Z.log2 (eval y) + 1).
Proof. intros Hl Hw Hn. rewrite g_uint_bits_eq by assumption. rewrite l0_bits_val by assumption. reflexivity. Qed.
