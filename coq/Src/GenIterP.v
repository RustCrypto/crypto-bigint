(** Generic facts about further loop shapes tools/rs2v.py emits (the counted loops over limb arrays are in GenLoopP.v): loops that count down, loops over
    slices (`N = x.len()`), writes into one of two buffers (`if k >= lo.len() { hi[k - lo.len()] = v } else { lo[k] = v }`)
    read as a write into lo ++ hi, in-place loops with an accumulator.
    Hand-written; depends on SrcPrelude and GenLoopP only. *)
From CB Require Import Model.SrcPrelude.
From CB Require Export Src.GenLoopP.
From Coq Require Import Lia List.
Import ListNotations.
Open Scope Z_scope.

(* ---- a simulation between two folds over the same index list *)
Lemma fold_sim {S T} (R : S -> T -> Prop) (P : nat -> Prop) (f : S -> nat -> S) (g : T -> nat -> T) :
  (forall j s t, P j -> R s t -> R (f s j) (g t j)) ->
  forall l s t, (forall j, In j l -> P j) -> R s t -> R (fold_left f l s) (fold_left g l t).
Proof.
  intros H l. induction l as [|j l IH]; intros s t Hl Hr; [exact Hr|]. cbn [fold_left].
  apply IH; [intros; apply Hl; right; assumption|]. apply H; [apply Hl; left; reflexivity | exact Hr].
Qed.

(* ---- upd_ *)
Lemma upd_length (l : list Z) k v : (k < length l)%nat -> length (upd_ l k v) = length l.
Proof.
  intros H. unfold upd_. rewrite app_length. cbn [length]. rewrite firstn_length, skipn_length. lia.
Qed.
Lemma upd_app1 (a b : list Z) k v : (k < length a)%nat -> upd_ (a ++ b) k v = upd_ a k v ++ b.
Proof.
  intros H. unfold upd_. rewrite firstn_app, skipn_app.
  replace (k - length a)%nat with 0%nat by lia. replace (S k - length a)%nat with 0%nat by lia.
  cbn [firstn skipn]. rewrite app_nil_r, <- app_assoc. reflexivity.
Qed.
Lemma upd_app2 (a b : list Z) k v : (length a <= k)%nat -> upd_ (a ++ b) k v = a ++ upd_ b (k - length a) v.
Proof.
  intros H. unfold upd_. rewrite firstn_app, skipn_app.
  rewrite (firstn_all2 a) by lia. rewrite (skipn_all2 a) by lia.
  replace (S k - length a)%nat with (S (k - length a)) by lia. rewrite <- app_assoc. reflexivity.
Qed.
Lemma upd_Forall (P : Z -> Prop) (l : list Z) k v : Forall P l -> P v -> Forall P (upd_ l k v).
Proof.
  intros Hl Hv. unfold upd_.
  assert (Hf : Forall P (firstn k l)) by (rewrite <- (firstn_skipn k l) in Hl; apply Forall_app in Hl; tauto).
  assert (Hs : Forall P (skipn (S k) l)) by (rewrite <- (firstn_skipn (S k) l) in Hl; apply Forall_app in Hl; tauto).
  apply Forall_app. split; [exact Hf|]. constructor; assumption.
Qed.

(* ---- `if k < lo.len() { lo[k] .. } else { hi[k - lo.len()] .. }` is an access to (lo ++ hi)[k] *)
Lemma idx_hi (k n : nat) : Z.of_nat k < 2 ^ 64 -> (n <= k)%nat -> Z.to_nat (sub_ 64 (Z.of_nat k) (Z.of_nat n)) = (k - n)%nat.
Proof. intros Hk Hn. unfold sub_. rewrite Z.mod_small by lia. lia. Qed.

Lemma split_write_lt (lo hi : list Z) (k : nat) v : Z.of_nat k < 2 ^ 64 -> (k < length lo + length hi)%nat ->
  let r := if Z.ltb (Z.of_nat k) (Z.of_nat (length lo))
           then (upd_ lo (Z.to_nat (Z.of_nat k)) v, hi)
           else (lo, upd_ hi (Z.to_nat (sub_ 64 (Z.of_nat k) (Z.of_nat (length lo)))) v) in
  fst r ++ snd r = upd_ (lo ++ hi) k v /\ length (fst r) = length lo /\ length (snd r) = length hi.
Proof.
  intros Hk Hb. cbv zeta. destruct (Z.ltb_spec (Z.of_nat k) (Z.of_nat (length lo))) as [H|H]; cbn [fst snd].
  - rewrite Nat2Z.id. rewrite upd_app1 by lia. rewrite upd_length by lia. auto.
  - rewrite idx_hi by lia. rewrite upd_app2 by lia. rewrite upd_length by lia. auto.
Qed.
(* the `>=` form: `if k >= lo.len() { hi[k - lo.len()] = v } else { lo[k] = v }`, state (hi, lo) *)
Lemma split_write (lo hi : list Z) (k : nat) v : Z.of_nat k < 2 ^ 64 -> (k < length lo + length hi)%nat ->
  let r := if Z.geb (Z.of_nat k) (Z.of_nat (length lo))
           then (upd_ hi (Z.to_nat (sub_ 64 (Z.of_nat k) (Z.of_nat (length lo)))) v, lo)
           else (hi, upd_ lo (Z.to_nat (Z.of_nat k)) v) in
  snd r ++ fst r = upd_ (lo ++ hi) k v /\ length (snd r) = length lo /\ length (fst r) = length hi.
Proof.
  intros Hk Hb. pose proof (split_write_lt lo hi k v Hk Hb) as H. cbv zeta in *.
  rewrite Z.geb_leb, Z.leb_antisym. destruct (Z.of_nat k <? Z.of_nat (length lo)); exact H.
Qed.
Lemma split_read (lo hi : list Z) (k : nat) : Z.of_nat k < 2 ^ 64 ->
  (if Z.geb (Z.of_nat k) (Z.of_nat (length lo))
   then nth (Z.to_nat (sub_ 64 (Z.of_nat k) (Z.of_nat (length lo)))) hi 0
   else nth (Z.to_nat (Z.of_nat k)) lo 0) = nth k (lo ++ hi) 0.
Proof.
  intros Hk. rewrite Z.geb_leb. destruct (Z.leb_spec (Z.of_nat (length lo)) (Z.of_nat k)) as [H|H].
  - rewrite idx_hi by lia. rewrite app_nth2 by lia. reflexivity.
  - rewrite Nat2Z.id. rewrite app_nth1 by lia. reflexivity.
Qed.
(* read-modify-write of one limb with a carry: (lo, carry, hi) state *)
Lemma split_rmw_lt (G : Z -> Z * Z) (lo hi : list Z) (k : nat) : Z.of_nat k < 2 ^ 64 -> (k < length lo + length hi)%nat ->
  let r := if Z.ltb (Z.of_nat k) (Z.of_nat (length lo))
           then (let '(t0, t1) := G (nth (Z.to_nat (Z.of_nat k)) lo 0) in (upd_ lo (Z.to_nat (Z.of_nat k)) t0, t1, hi))
           else (let '(t0, t1) := G (nth (Z.to_nat (sub_ 64 (Z.of_nat k) (Z.of_nat (length lo)))) hi 0) in
                 (lo, t1, upd_ hi (Z.to_nat (sub_ 64 (Z.of_nat k) (Z.of_nat (length lo)))) t0)) in
  let m := G (nth k (lo ++ hi) 0) in
  fst (fst r) ++ snd r = upd_ (lo ++ hi) k (fst m) /\ snd (fst r) = snd m /\
  length (fst (fst r)) = length lo /\ length (snd r) = length hi.
Proof.
  intros Hk Hb. cbv zeta. destruct (Z.ltb_spec (Z.of_nat k) (Z.of_nat (length lo))) as [H|H].
  - rewrite Nat2Z.id. rewrite app_nth1 by lia. destruct (G (nth k lo 0)) as [t0 t1]. cbn [fst snd].
    rewrite upd_app1 by lia. rewrite upd_length by lia. auto.
  - rewrite idx_hi by lia. rewrite app_nth2 by lia. destruct (G (nth (k - length lo) hi 0)) as [t0 t1]. cbn [fst snd].
    rewrite upd_app2 by lia. rewrite upd_length by lia. auto.
Qed.

(* ---- `let mut i = k; while i > 0 { i -= 1; .. }` : Nat.iter k from (k, s0) visits k-1, .., 0 *)
Lemma iter_shift {T} (F : T -> T) k x : Nat.iter (S k) F x = Nat.iter k F (F x).
Proof. induction k as [|k IH]; [reflexivity|]. change (Nat.iter (S (S k)) F x) with (F (Nat.iter (S k) F x)). rewrite IH. reflexivity. Qed.
Lemma iter_enc_down {T St} (F : T -> T) (enc : Z -> St -> T) (step : nat -> St -> St) :
  (forall i s, 0 < i < 2 ^ 64 -> F (enc i s) = enc (sub_ 64 i 1) (step (Z.to_nat (sub_ 64 i 1)) s)) ->
  forall k s0, Z.of_nat k < 2 ^ 64 ->
  Nat.iter k F (enc (Z.of_nat k) s0) = enc 0 (fold_left (fun s j => step j s) (rev (seq 0 k)) s0).
Proof.
  intros HF k. induction k as [|k IH]; intros s0 Hk; [reflexivity|].
  rewrite iter_shift. rewrite HF by lia.
  assert (E : sub_ 64 (Z.of_nat (S k)) 1 = Z.of_nat k) by (unfold sub_; rewrite Z.mod_small by lia; lia).
  rewrite E, Nat2Z.id. rewrite IH by lia.
  rewrite seq_S, rev_app_distr. reflexivity.
Qed.

(* ---- a loop that fills out[j] = g j for consecutive j *)
Lemma fold_fill (g : nat -> Z) : forall l o1 o2, (length l <= length o2)%nat ->
  (forall k, (k < length l)%nat -> g (length o1 + k)%nat = nth k l 0) ->
  fold_left (fun (o : list Z) j => upd_ o j (g j)) (seq (length o1) (length l)) (o1 ++ o2) = o1 ++ l ++ skipn (length l) o2.
Proof.
  induction l as [|x l IH]; intros o1 o2 Hl Hg; [reflexivity|].
  destruct o2 as [|y o2]; [cbn in Hl; lia|]. cbn [length seq fold_left skipn app].
  pose proof (Hg 0%nat ltac:(cbn; lia)) as H0. rewrite Nat.add_0_r in H0. cbn [nth] in H0.
  rewrite H0, upd_mid. rewrite (app_snoc o1 x o2), (app_snoc o1 x (l ++ _)), <- (last_length o1 x). apply IH.
  - cbn in Hl. lia.
  - intros k Hk. rewrite last_length, Nat.add_succ_comm. apply (Hg (S k)). cbn. lia.
Qed.

(* ---- in place with an accumulator, upward: s[j], acc = f(s[j], acc) *)
Fixpoint mapacc_ (f : Z -> Z -> Z * Z) (a : list Z) (c : Z) : list Z * Z :=
  match a with
  | x :: a' => (fst (f x c) :: fst (mapacc_ f a' (snd (f x c))), snd (mapacc_ f a' (snd (f x c))))
  | [] => ([], c)
  end.
Lemma loop_inplace_acc (f : Z -> Z -> Z * Z) : forall l pre post c,
  fold_left (fun (s : list Z * Z) j => (upd_ (fst s) j (fst (f (nth j (fst s) 0) (snd s))), snd (f (nth j (fst s) 0) (snd s))))
    (seq (length pre) (length l)) (pre ++ l ++ post, c)
  = (pre ++ fst (mapacc_ f l c) ++ post, snd (mapacc_ f l c)).
Proof.
  induction l as [|x l IH]; intros pre post c; [reflexivity|].
  cbn [length seq fold_left mapacc_ fst snd app]. rewrite nth_middle, upd_mid.
  rewrite (app_snoc pre (fst (f x c))), <- (last_length pre (fst (f x c))), IH. rewrite <- app_snoc. reflexivity.
Qed.

(* ---- in place with an accumulator, downward (the carry enters at the top) *)
Fixpoint downacc_ (f : Z -> Z -> Z * Z) (a : list Z) (c0 : Z) : list Z * Z :=
  match a with
  | x :: r => (fst (f x (snd (downacc_ f r c0))) :: fst (downacc_ f r c0), snd (f x (snd (downacc_ f r c0))))
  | [] => ([], c0)
  end.
Lemma downacc_snoc f l : forall x c0,
  downacc_ f (l ++ [x]) c0 = (fst (downacc_ f l (snd (f x c0))) ++ [fst (f x c0)], snd (downacc_ f l (snd (f x c0)))).
Proof. induction l as [|y l IH]; intros x c0; [reflexivity|]. cbn [app downacc_]. rewrite IH. reflexivity. Qed.
Lemma loop_inplace_acc_down (f : Z -> Z -> Z * Z) : forall l pre post c0,
  fold_left (fun (s : list Z * Z) j => (upd_ (fst s) j (fst (f (nth j (fst s) 0) (snd s))), snd (f (nth j (fst s) 0) (snd s))))
    (rev (seq (length pre) (length l))) (pre ++ l ++ post, c0)
  = (pre ++ fst (downacc_ f l c0) ++ post, snd (downacc_ f l c0)).
Proof.
  induction l as [|x l IH] using rev_ind; intros pre post c0; [reflexivity|].
  rewrite last_length, seq_S, rev_app_distr. cbn [rev app fold_left fst snd].
  (* the last index first: x stands at position length (pre ++ l) *)
  rewrite <- app_length, <- (app_assoc l), (app_assoc pre l). cbn [app].
  rewrite nth_middle, upd_mid. rewrite <- (app_assoc pre l), IH, downacc_snoc. cbn [fst snd].
  rewrite <- !app_assoc. reflexivity.
Qed.
