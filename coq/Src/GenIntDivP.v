(** Translator tie, group IntDiv: the signed division fronts of src/int/div.rs (`Int::div_rem_base`, `checked_div_rem`, `rem`,
    `checked_div_rem_floor`) and src/int/div_uint.rs (`div_rem_base_uint`, `div_rem_uint`, `div_uint`, `rem_uint`,
    `div_rem_floor_uint`, `div_floor_uint`, `normalized_rem`) with what they call (`NonZero<Int>::abs_sign`,
    `NonZero<Uint>::new_unwrap` of src/non_zero.rs, `Int::new_from_abs_sign`, the constants `Int::MAX` / `Int::MIN`,
    `Int::from_bits`, `Uint::as_int`) as regenerated from /repo's CURRENT source (Src/GenIntDiv.v) equal the models of
    Model/IntDiv.v / Model/IntArith.v for every limb count n >= 1 with 64 n < 2^32 and all limb values.  Here: the constants,
    `new_from_abs_sign`, the `NonZero` guards, `div_rem_base`, `checked_div_rem`, `checked_div_rem_floor`, `div_rem_base_uint`,
    `div_rem_uint`, `div_rem_floor_uint`; the fronts that only project one of these stand in Src/C14_src.v.
    The models divide the magnitudes at the VALUE level ([ux_div_rem]); the generated text calls the GENERATED constant-time long
    division `Uint::div_rem`, whose exactness theorem (Src/GenDivCtP.v) closes the gap.  A `ConstCtOption<T>` of the source is
    the pair (value, is_some); [ct2opt] reads it as the option the models return.  The `NonZero` divisor of the source is a
    hypothesis (`seval d <> 0` / `eval d <> 0`): under it the `panic!` of `new_unwrap` is not reached. *)
From CB Require Import Model.SrcPrelude Model.Word Model.Limbs Model.AddSub Model.Cmp Model.IntArith Model.IntDiv.
From CB Require Import Src.GenPrim Src.GenDiv Src.GenUint Src.GenShift Src.GenMul Src.GenInt Src.GenDivLimb Src.GenBits Src.GenDivCt
  Src.GenIntDiv.
From CB Require Import Src.GenPrimP Src.GenUintP Src.GenShiftP Src.GenIntP Src.GenBitsP Src.GenDivCtP.
From CB Require Import Proofs.WordP Proofs.LimbsP Proofs.AddSubP Proofs.CmpP Proofs.IntArithP Proofs.IntDivP.
From Coq Require Import Lia List.
Import ListNotations.
Open Scope Z_scope.
Transparent B.

Definition ct2opt {A : Type} (p : A * Z) : option A := ctopt_new (fst p) (snd p).

Lemma ct2opt_pair {A} (v : A) (b : bool) : ct2opt (v, choice_of_bool b) = if b then Some v else None.
Proof. apply ctopt_new_bool. Qed.

Lemma usz_of_bits' n : 64 * Z.of_nat n < 2 ^ 32 -> usz n.
Proof. unfold usz. lia. Qed.

(* ---------------- the constants Int::MAX = Uint::MAX.shr(1), Int::MIN = Uint::MAX ^ (Uint::MAX.shr(1)) *)
Lemma g_int_MAX_eq n : (1 <= n)%nat -> 64 * Z.of_nat n < 2 ^ 32 -> g_int_MAX n = int_max_limbs n.
Proof.
  intros H1 Hn. unfold g_int_MAX, g_uint_shr, g_ctopt_uint_expect.
  pose proof (g_uint_overflowing_shr_exact n (repeat (2 ^ 64 - 1) n) 1 (repeat_length _ _) H1 Hn ltac:(lia) (wf_maxs n)) as H.
  cbv zeta in H. destruct H as (_ & W & L & E).
  destruct (int_max_limbs_spec n ltac:(lia)) as (E2 & W2 & L2).
  apply eval_inj; try assumption; [lia|].
  rewrite E, E2. destruct (Z.ltb_spec 1 (64 * Z.of_nat n)) as [_|?]; [|lia].
  change (repeat (2 ^ 64 - 1) n) with (maxs n). rewrite eval_maxs.
  destruct (Bn_half n ltac:(lia)) as [Hb Hp]. rewrite Hb. change (2 ^ 1) with 2.
  symmetry. apply (Z.div_unique _ 2 _ 1); lia.
Qed.

Lemma xor_max_intmax k :
  map (fun p => wxor (fst p) (snd p)) (combine (repeat (2 ^ 64 - 1) (S k)) (maxs k ++ [2 ^ 63 - 1])) = zeros k ++ [2 ^ 63].
Proof.
  induction k as [|k IH]; [reflexivity|].
  change (maxs (S k)) with (MAXW :: maxs k). change (zeros (S k)) with (0 :: zeros k).
  change (repeat (2 ^ 64 - 1) (S (S k))) with ((2 ^ 64 - 1) :: repeat (2 ^ 64 - 1) (S k)).
  cbn [app combine map fst snd]. rewrite IH. reflexivity.
Qed.

Lemma g_int_MIN_eq n : (1 <= n)%nat -> 64 * Z.of_nat n < 2 ^ 32 -> g_int_MIN n = int_min_limbs n.
Proof.
  intros H1 Hn. unfold g_int_MIN.
  change (g_uint_shr n (repeat (2 ^ 64 - 1) n) 1) with (g_int_MAX n). rewrite g_int_MAX_eq by assumption.
  destruct (int_max_limbs_spec n ltac:(lia)) as (_ & _ & L2).
  rewrite g_uint_bitxor_eq by (first [apply repeat_length | exact L2 | apply usz_of_bits'; exact Hn]).
  destruct n as [|k]; [lia|]. apply xor_max_intmax.
Qed.

Lemma g_int_from_bits_eq n (a : list Z) : g_int_from_bits n a = a. Proof. reflexivity. Qed.
Lemma g_uint_as_int_eq n (a : list Z) : g_uint_as_int n a = a. Proof. reflexivity. Qed.

(* ---------------- Int::new_from_abs_sign *)
(** the source text builds the ConstCtOption from the model's two components: the conditionally negated magnitude and the
    fit test against MAX / MIN *)
Lemma g_int_new_from_abs_sign_model n q c : length q = n -> (1 <= n)%nat -> 64 * Z.of_nat n < 2 ^ 32 -> wf q ->
  g_int_new_from_abs_sign n q c =
    (int_wrapping_neg_if q c, cc_or (ux_lte q (int_max_limbs n)) (cc_and c (ux_eq q (int_min_limbs n)))).
Proof.
  intros Hl H1 Hn Wq. pose proof (usz_of_bits' n Hn) as Hu.
  unfold g_int_new_from_abs_sign, g_ctopt_new.
  rewrite g_int_MAX_eq, g_int_MIN_eq by assumption.
  destruct (int_max_limbs_spec n ltac:(lia)) as (_ & W2 & L2).
  destruct (int_min_limbs_spec n ltac:(lia)) as (_ & W3 & L3).
  rewrite g_int_wrapping_neg_if_eq, g_uint_lte_eq, g_uint_eq_eq by assumption. reflexivity.
Qed.

Lemma g_int_new_from_abs_sign_eq n q c : length q = n -> (1 <= n)%nat -> 64 * Z.of_nat n < 2 ^ 32 -> wf q ->
  ct2opt (g_int_new_from_abs_sign n q c) = int_new_from_abs_sign q c.
Proof. intros Hl H1 Hn Wq. rewrite g_int_new_from_abs_sign_model by assumption. subst n. reflexivity. Qed.

(** the ConstCtOption itself: the value is the wrapped encoding whether or not it fits, is_some says whether it does *)
Lemma g_int_new_from_abs_sign_pair n q (b : bool) : length q = n -> (1 <= n)%nat -> 64 * Z.of_nat n < 2 ^ 32 -> wf q ->
  let x := if b then - eval q else eval q in
  g_int_new_from_abs_sign n q (choice_of_bool b) = (to_limbs_s n x, choice_of_bool (isp_fits n x)).
Proof.
  intros Hl H1 Hn Wq x. rewrite g_int_new_from_abs_sign_model by assumption.
  subst n. f_equal; [apply abs_sign_value_spec | apply abs_sign_fits_spec]; assumption.
Qed.

(* a front that ends in the source's new_from_abs_sign returns the pair (wrapped quotient, fits), see Proofs/IntDivP.v *)
Lemma quotient_via_pair n Q R res : (1 <= n)%nat -> 64 * Z.of_nat n < 2 ^ 32 ->
  quotient_via (g_int_new_from_abs_sign n) n Q R res ->
  res = ((to_limbs_s n Q, choice_of_bool (isp_fits n Q)), R).
Proof.
  intros H1 Hn (q & b & Hq & <- & ->).
  rewrite g_int_new_from_abs_sign_pair by first [assumption | apply length_to_limbs | apply wf_to_limbs].
  rewrite to_limbs_small by assumption. reflexivity.
Qed.

(* ---------------- NonZero<Uint>::new_unwrap, NonZero<Int>::abs_sign: the guard is not taken for a non-zero value *)
Lemma g_nz_uint_new_unwrap_eq n v : length v = n -> usz n -> wf v -> eval v <> 0 -> g_nz_uint_new_unwrap n v = v.
Proof.
  intros Hl Hu Wv Hv. unfold g_nz_uint_new_unwrap. rewrite g_uint_is_nonzero_eq by assumption.
  rewrite uint_is_nonzero_spec by assumption. rewrite g_cc_is_true_vartime_spec.
  destruct (Z.eqb_spec (eval v) 0); [contradiction|reflexivity].
Qed.

Lemma abs_sign_inv a : wf a -> exists m (s : bool),
  int_abs_sign a = (m, choice_of_bool s) /\ wf m /\ length m = length a /\ eval m = Z.abs (seval a).
Proof.
  intros Wa. rewrite int_abs_sign_spec by assumption. eexists _, _. split; [reflexivity|].
  split; [apply wf_to_limbs|]. split; [apply length_to_limbs | apply eval_abs; assumption].
Qed.

Lemma g_nz_int_abs_sign_eq n d : length d = n -> usz n -> wf d -> seval d <> 0 -> g_nz_int_abs_sign n d = int_abs_sign d.
Proof.
  intros Hl Hu Wd Hd. unfold g_nz_int_abs_sign. rewrite g_int_abs_sign_eq by assumption.
  destruct (abs_sign_inv d Wd) as (m & s & -> & Wm & Lm & Em).
  rewrite g_nz_uint_new_unwrap_eq by (try assumption; lia). reflexivity.
Qed.

(* ---------------- the source's Uint::div_rem is the value-level division of the models *)
Lemma ux_div_rem_inv x y : exists q r,
  ux_div_rem x y = (q, r) /\ wf q /\ length q = length x /\ wf r /\ length r = length y.
Proof. eexists _, _. split; [reflexivity|]. auto using wf_to_limbs, length_to_limbs. Qed.

Lemma g_uint_div_rem_ux n x y : length x = n -> length y = n -> (1 <= n)%nat -> 64 * Z.of_nat n < 2 ^ 32 ->
  wf x -> wf y -> eval y <> 0 -> g_uint_div_rem n x y = ux_div_rem x y.
Proof.
  intros Lx Ly H1 Hn Wx Wy Hy.
  pose proof (g_uint_div_rem_exact n x y Lx Ly H1 Hn Wx Wy Hy) as H.
  destruct (g_uint_div_rem n x y) as [q r]. destruct H as (Eq & Er & Wq & Wr & Lq & Lr).
  unfold ux_div_rem. f_equal; [rewrite <- Eq, Lx, <- Lq | rewrite <- Er, Ly, <- Lr]; symmetry; apply to_limbs_eval; assumption.
Qed.

(* ---------------- the adjustment shared by `checked_div_rem_floor` and `div_rem_floor_uint`: the generated
   `select(q, q.wrapping_add(ONE), c)` and `select(r, rm.wrapping_sub(r), c)` are the model's, and stay n-limb values *)
Lemma g_floor_adjust n q r rm (m : bool) :
  length q = n -> length r = n -> length rm = n -> (1 <= n)%nat -> usz n -> wf q -> wf r -> wf rm ->
  let c := choice_of_bool m in
  let q' := select_limbs c q (uint_wrapping_add q (one_limbs (length q))) in
  let r' := select_limbs c r (uint_wrapping_sub rm r) in
  g_uint_select n q (g_uint_wrapping_add n q (g_uint_ONE n)) c = q' /\
  g_uint_select n r (g_uint_wrapping_sub n rm r) c = r' /\
  wf q' /\ length q' = n /\ wf r' /\ length r' = n.
Proof.
  intros Lq Lr Lrm H1 Hu Wq Wr Wrm c q' r'. subst q' r'. rewrite Lq.
  destruct (one_limbs_spec n ltac:(lia)) as (_ & W1 & L1).
  destruct (wrapping_add_spec q (one_limbs n) Wq W1 ltac:(lia)) as (_ & Wq1 & Lq1).
  destruct (wrapping_sub_spec rm r Wrm Wr ltac:(lia)) as (_ & Wiv & Liv).
  rewrite g_uint_ONE_eq, g_uint_wrapping_add_eq, g_uint_wrapping_sub_eq by (try assumption; lia).
  rewrite !g_uint_select_eq by (try assumption; lia). unfold uint_select, c.
  rewrite !select_limbs_choice by (try assumption; lia).
  destruct m; repeat split; try assumption; lia.
Qed.

(* ---------------- src/int/div.rs *)
Section IntDivisor.
Variables (n : nat) (a d : list Z).
Hypothesis La : length a = n.
Hypothesis Ld : length d = n.
Hypothesis H1 : (1 <= n)%nat.
Hypothesis Hn : 64 * Z.of_nat n < 2 ^ 32.
Hypothesis Wa : wf a.
Hypothesis Wd : wf d.
Hypothesis Hd : seval d <> 0.

Lemma g_int_div_rem_base_eq : g_int_div_rem_base n a d = int_div_rem_base a d.
Proof.
  pose proof (usz_of_bits' n Hn) as Hu. unfold g_int_div_rem_base, int_div_rem_base.
  rewrite g_int_abs_sign_eq, g_nz_int_abs_sign_eq by assumption.
  destruct (abs_sign_inv a Wa) as (lm & sa & -> & Wm & Lm & Em). destruct (abs_sign_inv d Wd) as (rm & sd & -> & Wm' & Lm' & Em').
  rewrite g_uint_div_rem_ux by (try assumption; lia). reflexivity.
Qed.

Lemma g_int_checked_div_rem_with : g_int_checked_div_rem n a d = checked_div_rem_with (g_int_new_from_abs_sign n) a d.
Proof.
  pose proof (usz_of_bits' n Hn) as Hu. unfold g_int_checked_div_rem, checked_div_rem_with.
  rewrite g_int_div_rem_base_eq. unfold int_div_rem_base.
  destruct (abs_sign_inv a Wa) as (lm & sa & -> & Wm & Lm & Em). destruct (abs_sign_inv d Wd) as (rm & sd & -> & Wm' & Lm' & Em').
  destruct (ux_div_rem_inv lm rm) as (q & r & -> & Wq & Lq & Wr & Lr).
  rewrite g_uint_as_int_eq. rewrite g_int_wrapping_neg_if_eq by (try assumption; lia). reflexivity.
Qed.

(** the ConstCtOption pair of the quotient: its value is the wrapped quotient in any case, is_some says whether it fits *)
Theorem g_int_checked_div_rem_pair :
  g_int_checked_div_rem n a d =
    ((to_limbs_s n (Z.quot (seval a) (seval d)), choice_of_bool (isp_fits n (Z.quot (seval a) (seval d)))),
     to_limbs_s n (Z.rem (seval a) (seval d))).
Proof.
  rewrite g_int_checked_div_rem_with.
  pose proof (checked_div_rem_with_spec a d Wa Wd Hd (g_int_new_from_abs_sign n)) as H. rewrite La, Ld in H.
  exact (quotient_via_pair _ _ _ _ H1 Hn H).
Qed.

Theorem g_int_checked_div_rem_eq :
  (ct2opt (fst (g_int_checked_div_rem n a d)), snd (g_int_checked_div_rem n a d)) = int_checked_div_rem a d.
Proof.
  rewrite g_int_checked_div_rem_pair, (int_checked_div_rem_spec a d Wa Wd Hd), La, Ld.
  cbn [fst snd]. rewrite ct2opt_pair. reflexivity.
Qed.

Lemma g_int_checked_div_rem_floor_with :
  g_int_checked_div_rem_floor n a d = checked_div_rem_floor_with (g_int_new_from_abs_sign n) a d.
Proof.
  pose proof (usz_of_bits' n Hn) as Hu. unfold g_int_checked_div_rem_floor, checked_div_rem_floor_with.
  rewrite g_int_abs_sign_eq, g_nz_int_abs_sign_eq by assumption.
  destruct (abs_sign_inv a Wa) as (lm & sa & -> & Wm & Lm & Em). destruct (abs_sign_inv d Wd) as (rm & sd & -> & Wm' & Lm' & Em').
  rewrite g_uint_div_rem_ux by (try assumption; lia).
  destruct (ux_div_rem_inv lm rm) as (q & r & -> & Wq & Lq & Wr & Lr).
  rewrite g_uint_is_nonzero_eq by (try assumption; lia).
  change (g_cc_and (uint_is_nonzero r) (g_cc_xor (choice_of_bool sa) (choice_of_bool sd)))
    with (cc_and (ux_is_nonzero r) (cc_xor (choice_of_bool sa) (choice_of_bool sd))).
  rewrite ux_is_nonzero_spec, cc_xor_bool, cc_and_bool by assumption.
  destruct (g_floor_adjust n q r rm (negb (eval r =? 0) && xorb sa sd)) as (-> & -> & Wq' & Lq' & Wr' & Lr');
    try assumption; try lia.
  rewrite g_uint_as_int_eq, g_int_wrapping_neg_if_eq by assumption. rewrite <- cc_xor_bool. reflexivity.
Qed.

Theorem g_int_checked_div_rem_floor_pair :
  g_int_checked_div_rem_floor n a d =
    ((to_limbs_s n (seval a / seval d), choice_of_bool (isp_fits n (seval a / seval d))),
     to_limbs_s n (seval a mod seval d)).
Proof.
  rewrite g_int_checked_div_rem_floor_with.
  pose proof (checked_div_rem_floor_with_spec a d Wa Wd (list_ne_of_len a n La H1) Hd (g_int_new_from_abs_sign n)) as H.
  rewrite La, Ld in H. exact (quotient_via_pair _ _ _ _ H1 Hn H).
Qed.

End IntDivisor.

(* ---------------- src/int/div_uint.rs *)
Section UintDivisor.
Variables (n : nat) (a d : list Z).
Hypothesis La : length a = n.
Hypothesis Ld : length d = n.
Hypothesis H1 : (1 <= n)%nat.
Hypothesis Hn : 64 * Z.of_nat n < 2 ^ 32.
Hypothesis Wa : wf a.
Hypothesis Wd : wf d.
Hypothesis Hd : eval d <> 0.

Lemma g_int_div_rem_base_uint_eq :
  g_int_div_rem_base_uint n a d = (fst (ux_div_rem (fst (int_abs_sign a)) d), snd (ux_div_rem (fst (int_abs_sign a)) d), snd (int_abs_sign a)).
Proof.
  pose proof (usz_of_bits' n Hn) as Hu. unfold g_int_div_rem_base_uint.
  rewrite g_int_abs_sign_eq by assumption.
  destruct (abs_sign_inv a Wa) as (lm & sa & -> & Wm & Lm & Em). cbn [fst snd].
  rewrite g_uint_div_rem_ux by (try assumption; lia).
  destruct (ux_div_rem lm d); reflexivity.
Qed.

Theorem g_int_div_rem_uint_eq : g_int_div_rem_uint n a d = int_div_rem_uint a d.
Proof.
  pose proof (usz_of_bits' n Hn) as Hu. unfold g_int_div_rem_uint, int_div_rem_uint.
  rewrite g_int_div_rem_base_uint_eq.
  destruct (abs_sign_inv a Wa) as (lm & sa & -> & Wm & Lm & Em). cbn [fst snd].
  destruct (ux_div_rem_inv lm d) as (q & r & -> & Wq & Lq & Wr & Lr). cbn [fst snd].
  rewrite !g_int_wrapping_neg_if_eq by (try assumption; lia). reflexivity.
Qed.
Theorem g_int_div_rem_floor_uint_eq : g_int_div_rem_floor_uint n a d = int_div_rem_floor_uint a d.
Proof.
  pose proof (usz_of_bits' n Hn) as Hu. unfold g_int_div_rem_floor_uint, int_div_rem_floor_uint.
  rewrite g_int_div_rem_base_uint_eq.
  destruct (abs_sign_inv a Wa) as (lm & sa & -> & Wm & Lm & Em). cbn [fst snd].
  destruct (ux_div_rem_inv lm d) as (q & r & -> & Wq & Lq & Wr & Lr). cbn [fst snd].
  rewrite g_uint_is_nonzero_eq by (try assumption; lia).
  change (g_cc_and (uint_is_nonzero r) (choice_of_bool sa)) with (cc_and (ux_is_nonzero r) (choice_of_bool sa)).
  rewrite ux_is_nonzero_spec, cc_and_bool by assumption.
  destruct (g_floor_adjust n q r d (negb (eval r =? 0) && sa)) as (-> & -> & Wq' & Lq' & _); try assumption; try lia.
  rewrite g_int_wrapping_neg_if_eq by assumption. reflexivity.
Qed.
End UintDivisor.

