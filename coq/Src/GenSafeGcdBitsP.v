(** Translator tie, group SafeGcd, part 3: UnsatInt::leading_zeros / bits of /repo's CURRENT src/modular/safegcd.rs
    (Src/GenSafeGcd.v) equal lz_scan62 / u_bits of Model/SafeGcd.v for every limb count n with 62 n < 2^32 and all 62-bit
    limb values; the u32 comparison that `iterations` (Src/C10_src.v) needs.  Hand-written. *)
From CB Require Import Model.SrcPrelude Model.Word Model.Limbs Model.AddSub Model.Cmp Model.Bits Model.SafeGcd.
From CB Require Import Src.GenPrim Src.GenWidthP Src.GenPrimP Src.GenLoopP Src.GenIterP Src.GenUint Src.GenUintP Src.GenSafeGcd Src.GenSafeGcdP.
From CB Require Import Proofs.WordP Proofs.WordPredP Proofs.BitsWordP Proofs.SafeGcdArithP Proofs.SafeGcdUnsatP.
From Coq Require Import Lia List.
Import ListNotations.
Open Scope Z_scope.
Transparent B.

Lemma g_cc_from_u32_lt_spec x y : 0 <= x < 2 ^ 32 -> 0 <= y < 2 ^ 32 -> g_cc_from_u32_lt x y = choice_of_bool (x <? y).
Proof.
  intros Hx Hy. unfold g_cc_from_u32_lt. change (sub_ 32 32 1) with (32 - 1).
  rewrite (lt_bit 32 ltac:(lia) x y Hx Hy). destruct (x <? y); reflexivity.
Qed.


Definition lzs (a : list Z) (j : nat) (s : Z * Z) : Z * Z :=
  (add_ 32 (fst s) (g_cc_if_true_u32 (snd s) (sub_ 32 (clz_ 64 (nth j a 0)) 2)),
   g_cc_and (snd s) (g_cc_not (g_cc_from_u64_nonzero (nth j a 0)))).

Lemma lz62_clz x : 0 <= x < P62 -> sub_ 32 (clz_ 64 x) 2 = lz62 x /\ 0 <= lz62 x <= 62.
Proof.
  intros Hx. unfold clz_, lz62, bitlen, sub_. destruct (Z.leb_spec x 0) as [H0|H0].
  - split; [reflexivity | lia].
  - assert (L : 0 <= Z.log2 x < 62).
    { split; [apply Z.log2_nonneg|]. apply Z.log2_lt_pow2; [lia|]. rewrite <- P62_pow. lia. }
    rewrite Z.mod_small by lia. lia.
Qed.
Lemma u64_nonzero_spec x : is_word x -> g_cc_from_u64_nonzero x = choice_of_bool (negb (x =? 0)).
Proof. intros H. change (g_cc_from_u64_nonzero x) with (g_cc_from_word_nonzero x). apply g_nonzero_spec. exact H. Qed.

Lemma lz_scan62_range ls : forall c ne, wf62 ls -> c <= lz_scan62 ls c ne <= c + 62 * Z.of_nat (length ls).
Proof.
  induction ls as [|x r IH]; intros c ne W; [cbn; lia|].
  apply wf62_cons in W. destruct W as [Hx Wr]. cbn [lz_scan62 length]. rewrite Nat2Z.inj_succ.
  destruct (lz62_clz x Hx) as [_ R].
  destruct ne; cbn [andb]; [specialize (IH (c + lz62 x) (x =? 0) Wr) | specialize (IH c false Wr)]; lia.
Qed.

Lemma lz_fold62 a : forall pre post c ne, wf62 a -> 0 <= c -> c + 62 * Z.of_nat (length a) < 2 ^ 32 ->
  exists b, fold_left (fun s j => lzs (pre ++ a ++ post) j s) (rev (seq (length pre) (length a))) (c, choice_of_bool ne)
            = (lz_scan62 (rev a) c ne, choice_of_bool b).
Proof.
  induction a as [|x a' IH] using rev_ind; intros pre post c ne W Hc Hb.
  - exists ne. reflexivity.
  - apply wf62_app in W. destruct W as [Wa Wx]. apply wf62_cons in Wx. destruct Wx as [Hx _].
    rewrite app_length in *. cbn [length] in *. rewrite Nat.add_1_r in *. rewrite Nat2Z.inj_succ in Hb.
    rewrite seq_S, rev_app_distr. cbn [rev app fold_left].
    rewrite rev_app_distr. cbn [rev app lz_scan62].
    unfold lzs at 2. cbn [fst snd].
    assert (N : nth (length pre + length a') (pre ++ (a' ++ [x]) ++ post) 0 = x).
    { rewrite <- app_assoc. rewrite app_assoc. replace (length pre + length a')%nat with (length (pre ++ a')) by apply app_length.
      apply nth_middle. }
    rewrite N. destruct (lz62_clz x Hx) as [E R]. rewrite E.
    rewrite g_cc_if_true_u32_eq, if_true_u32_bool by (unfold U32; lia).
    rewrite u64_nonzero_spec by (apply wf62_word; assumption). rewrite g_cc_not_eq, wnot_choice, negb_involutive, g_cc_and_bool.
    assert (Ec : add_ 32 c (if ne then lz62 x else 0) = if ne then c + lz62 x else c).
    { unfold add_. destruct ne; rewrite Z.mod_small by lia; lia. }
    rewrite Ec.
    rewrite <- app_snoc.
    apply IH; [assumption | destruct ne; lia | destruct ne; lia].
Qed.

Lemma g_unsat_leading_zeros_eq n a : length a = n -> wf62 a -> 62 * Z.of_nat n < 2 ^ 32 ->
  g_unsat_leading_zeros n a = lz_scan62 (rev a) 0 true.
Proof.
  intros Ha W Hn. unfold g_unsat_leading_zeros. cbv zeta. rewrite Nat2Z.id.
  rewrite (iter_enc_down _ enc3 (lzs a)) with (s0 := (0, 2 ^ 64 - 1)).
  - subst n. destruct (lz_fold62 a [] [] 0 true W ltac:(lia) ltac:(lia)) as [b E].
    cbn [app length] in E. rewrite app_nil_r in E. change (2 ^ 64 - 1) with (choice_of_bool true). rewrite E. reflexivity.
  - intros i [c nz] Hi. unfold enc3, lzs. cbn [fst snd]. reflexivity.
  - lia.
Qed.

Lemma g_unsat_bits_eq n a : length a = n -> wf62 a -> 62 * Z.of_nat n < 2 ^ 32 -> g_unsat_bits n a = u_bits a.
Proof.
  intros Ha W Hn. unfold g_unsat_bits, u_bits, lenZ. rewrite g_unsat_leading_zeros_eq by assumption.
  pose proof (lz_scan62_range (rev a) 0 true ltac:(unfold wf62 in *; apply Forall_rev; exact W)) as R.
  rewrite rev_length, Ha in R. rewrite Ha.
  unfold sub_, mul_, trunc_. rewrite (Z.mod_small (Z.of_nat n)) by lia. rewrite (Z.mod_small (Z.of_nat n * 62)) by lia.
  rewrite Z.mod_small by lia. lia.
Qed.
