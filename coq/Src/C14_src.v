(** C14, translator tie: theorems about the Gallina text that tools/rs2v.py regenerates from /repo's CURRENT
    src/int/div.rs (`Int::div_rem_base`, `checked_div_rem`, `rem`, `checked_div_rem_floor`), src/int/div_uint.rs
    (`div_rem_base_uint`, `div_rem_uint`, `div_uint`, `rem_uint`, `div_rem_floor_uint`, `div_floor_uint`, `normalized_rem`),
    src/non_zero.rs (`NonZero<Int>::abs_sign`, `NonZero<Uint>::new_unwrap`), src/int/sign.rs (`Int::new_from_abs_sign`),
    src/int.rs (`Int::MAX`, `Int::MIN`, `from_bits`) and src/uint.rs (`as_int`) on every run (Src/GenIntDiv.v).  The generated
    fronts call the GENERATED `Int::abs_sign`, `wrapping_neg_if`, `Uint::div_rem` (the constant-time long division),
    `is_nonzero`, `select`, `wrapping_add`, `wrapping_sub`, `lte`, `eq`, `shr`, `bitxor`.  Short proofs stand here; the others are lemmas of
    Src/GenIntDivP.v cited by [exact].  Every statement is for ALL limb counts n >= 1 with 64 n < 2^32 and all limb values; the `NonZero`
    divisor type of the source is the hypothesis `seval d <> 0` / `eval d <> 0`.  [ct2opt (v, c)] reads the source's
    `ConstCtOption { value: v, is_some: c }` as an option. *)
From CB Require Import Model.SrcPrelude Model.Word Model.Limbs Model.AddSub Model.IntArith Model.IntDiv.
From CB Require Import Src.GenPrim Src.GenUint Src.GenInt Src.GenDivCt Src.GenIntDiv Src.GenIntDivP.
From CB Require Import Proofs.WordP Proofs.LimbsP Proofs.IntArithP.
From Coq Require Import ZArith List Lia.
Import ListNotations.
Open Scope Z_scope.

(** the constants *)
Theorem C14_src_int_MAX : forall n, (1 <= n)%nat -> 64 * Z.of_nat n < 2 ^ 32 -> g_int_MAX n = int_max_limbs n.
Proof. exact g_int_MAX_eq. Qed.
Print Assumptions C14_src_int_MAX.
Theorem C14_src_int_MIN : forall n, (1 <= n)%nat -> 64 * Z.of_nat n < 2 ^ 32 -> g_int_MIN n = int_min_limbs n.
Proof. exact g_int_MIN_eq. Qed.
Print Assumptions C14_src_int_MIN.

(** Int::new_from_abs_sign: the source text denotes the model (fit test against MAX / MIN, conditional negation) *)
Theorem C14_src_new_from_abs_sign : forall n q c, length q = n -> (1 <= n)%nat -> 64 * Z.of_nat n < 2 ^ 32 -> wf q ->
  ct2opt (g_int_new_from_abs_sign n q c) = int_new_from_abs_sign q c.
Proof. exact g_int_new_from_abs_sign_eq. Qed.
Print Assumptions C14_src_new_from_abs_sign.

(** NonZero<Int>::abs_sign (with the `new_unwrap` guard) on a non-zero value *)
Theorem C14_src_nz_abs_sign : forall n d, length d = n -> Z.of_nat n < 2 ^ 64 -> wf d -> seval d <> 0 ->
  g_nz_int_abs_sign n d = int_abs_sign d.
Proof. exact g_nz_int_abs_sign_eq. Qed.
Print Assumptions C14_src_nz_abs_sign.

(** the source fronts denote the models (whose unsigned division is the value-level Z.div / Z.modulo: the generated text reaches
    it through the generated Uint::div_rem) *)
Theorem C14_src_div_rem_base : forall n a d, length a = n -> length d = n -> (1 <= n)%nat -> 64 * Z.of_nat n < 2 ^ 32 ->
  wf a -> wf d -> seval d <> 0 -> g_int_div_rem_base n a d = int_div_rem_base a d.
Proof. exact g_int_div_rem_base_eq. Qed.
Print Assumptions C14_src_div_rem_base.

Theorem C14_src_checked_div_rem : forall n a d, length a = n -> length d = n -> (1 <= n)%nat -> 64 * Z.of_nat n < 2 ^ 32 ->
  wf a -> wf d -> seval d <> 0 ->
  (ct2opt (fst (g_int_checked_div_rem n a d)), snd (g_int_checked_div_rem n a d)) = int_checked_div_rem a d.
Proof. exact g_int_checked_div_rem_eq. Qed.
Print Assumptions C14_src_checked_div_rem.

Theorem C14_src_rem : forall n a d, length a = n -> length d = n -> (1 <= n)%nat -> 64 * Z.of_nat n < 2 ^ 32 ->
  wf a -> wf d -> seval d <> 0 -> g_int_rem n a d = int_rem a d.
Proof.
  intros n a d La Ld H1 Hn Wa Wd Hd. unfold g_int_rem, int_rem.
  rewrite <- (g_int_checked_div_rem_eq n a d La Ld H1 Hn Wa Wd Hd). reflexivity.
Qed.
Print Assumptions C14_src_rem.

Theorem C14_src_checked_div_rem_floor : forall n a d, length a = n -> length d = n -> (1 <= n)%nat -> 64 * Z.of_nat n < 2 ^ 32 ->
  wf a -> wf d -> seval d <> 0 ->
  (ct2opt (fst (g_int_checked_div_rem_floor n a d)), snd (g_int_checked_div_rem_floor n a d)) = int_checked_div_rem_floor a d.
Proof.
  intros n a d La Ld H1 Hn Wa Wd Hd. rewrite g_int_checked_div_rem_floor_pair by assumption.
  rewrite (IntDivP.int_checked_div_rem_floor_spec a d Wa Wd (GenBitsP.list_ne_of_len a n La H1) Hd), La, Ld.
  cbn [fst snd]. rewrite ct2opt_pair. reflexivity.
Qed.
Print Assumptions C14_src_checked_div_rem_floor.

Theorem C14_src_div_rem_uint : forall n a d, length a = n -> length d = n -> (1 <= n)%nat -> 64 * Z.of_nat n < 2 ^ 32 ->
  wf a -> wf d -> eval d <> 0 -> g_int_div_rem_uint n a d = int_div_rem_uint a d.
Proof. exact g_int_div_rem_uint_eq. Qed.
Print Assumptions C14_src_div_rem_uint.
Theorem C14_src_div_uint : forall n a d, length a = n -> length d = n -> (1 <= n)%nat -> 64 * Z.of_nat n < 2 ^ 32 ->
  wf a -> wf d -> eval d <> 0 -> g_int_div_uint n a d = fst (int_div_rem_uint a d).
Proof. intros n a d La Ld H1 Hn Wa Wd Hd. unfold g_int_div_uint. rewrite g_int_div_rem_uint_eq by assumption. reflexivity. Qed.
Print Assumptions C14_src_div_uint.
Theorem C14_src_rem_uint : forall n a d, length a = n -> length d = n -> (1 <= n)%nat -> 64 * Z.of_nat n < 2 ^ 32 ->
  wf a -> wf d -> eval d <> 0 -> g_int_rem_uint n a d = snd (int_div_rem_uint a d).
Proof. intros n a d La Ld H1 Hn Wa Wd Hd. unfold g_int_rem_uint. rewrite g_int_div_rem_uint_eq by assumption. reflexivity. Qed.
Print Assumptions C14_src_rem_uint.

Theorem C14_src_div_rem_floor_uint : forall n a d, length a = n -> length d = n -> (1 <= n)%nat -> 64 * Z.of_nat n < 2 ^ 32 ->
  wf a -> wf d -> eval d <> 0 -> g_int_div_rem_floor_uint n a d = int_div_rem_floor_uint a d.
Proof. exact g_int_div_rem_floor_uint_eq. Qed.
Print Assumptions C14_src_div_rem_floor_uint.
Theorem C14_src_div_floor_uint : forall n a d, length a = n -> length d = n -> (1 <= n)%nat -> 64 * Z.of_nat n < 2 ^ 32 ->
  wf a -> wf d -> eval d <> 0 -> g_int_div_floor_uint n a d = fst (int_div_rem_floor_uint a d).
Proof.
  intros n a d La Ld H1 Hn Wa Wd Hd. unfold g_int_div_floor_uint. rewrite g_int_div_rem_floor_uint_eq by assumption.
  destruct (int_div_rem_floor_uint a d); reflexivity.
Qed.
Print Assumptions C14_src_div_floor_uint.
Theorem C14_src_normalized_rem : forall n a d, length a = n -> length d = n -> (1 <= n)%nat -> 64 * Z.of_nat n < 2 ^ 32 ->
  wf a -> wf d -> eval d <> 0 -> g_int_normalized_rem n a d = snd (int_div_rem_floor_uint a d).
Proof.
  intros n a d La Ld H1 Hn Wa Wd Hd. unfold g_int_normalized_rem. rewrite g_int_div_rem_floor_uint_eq by assumption.
  destruct (int_div_rem_floor_uint a d); reflexivity.
Qed.
Print Assumptions C14_src_normalized_rem.

(** hence the SOURCE text divides exactly, with its sign convention, for every width: truncating (Z.quot / Z.rem, quotient none
    exactly when it does not fit, i.e. MIN / -1) ... *)
Theorem C14_src_checked_div_rem_exact : forall n a d, length a = n -> length d = n -> (1 <= n)%nat -> 64 * Z.of_nat n < 2 ^ 32 ->
  wf a -> wf d -> seval d <> 0 ->
  (ct2opt (fst (g_int_checked_div_rem n a d)), snd (g_int_checked_div_rem n a d)) =
    (if isp_fits n (Z.quot (seval a) (seval d)) then Some (to_limbs_s n (Z.quot (seval a) (seval d))) else None,
     to_limbs_s n (Z.rem (seval a) (seval d))).
Proof.
  intros n a d La Ld H1 Hn Wa Wd Hd. rewrite g_int_checked_div_rem_pair by assumption. cbn [fst snd]. rewrite ct2opt_pair. reflexivity.
Qed.
Print Assumptions C14_src_checked_div_rem_exact.

Theorem C14_src_rem_exact : forall n a d, length a = n -> length d = n -> (1 <= n)%nat -> 64 * Z.of_nat n < 2 ^ 32 ->
  wf a -> wf d -> seval d <> 0 -> g_int_rem n a d = to_limbs_s n (Z.rem (seval a) (seval d)).
Proof. intros n a d La Ld H1 Hn Wa Wd Hd. unfold g_int_rem. rewrite g_int_checked_div_rem_pair by assumption. reflexivity. Qed.
Print Assumptions C14_src_rem_exact.

(** ... flooring (Z.div / Z.modulo, the remainder has the sign of the divisor) ... *)
Theorem C14_src_checked_div_rem_floor_exact : forall n a d, length a = n -> length d = n -> (1 <= n)%nat -> 64 * Z.of_nat n < 2 ^ 32 ->
  wf a -> wf d -> seval d <> 0 ->
  (ct2opt (fst (g_int_checked_div_rem_floor n a d)), snd (g_int_checked_div_rem_floor n a d)) =
    (if isp_fits n (seval a / seval d) then Some (to_limbs_s n (seval a / seval d)) else None,
     to_limbs_s n (seval a mod seval d)).
Proof.
  intros n a d La Ld H1 Hn Wa Wd Hd. rewrite g_int_checked_div_rem_floor_pair by assumption. cbn [fst snd]. rewrite ct2opt_pair. reflexivity.
Qed.
Print Assumptions C14_src_checked_div_rem_floor_exact.

(** ... and by an unsigned divisor of the same width *)
Theorem C14_src_div_rem_uint_exact : forall n a d, length a = n -> length d = n -> (1 <= n)%nat -> 64 * Z.of_nat n < 2 ^ 32 ->
  wf a -> wf d -> eval d <> 0 ->
  g_int_div_rem_uint n a d = (to_limbs_s n (Z.quot (seval a) (eval d)), to_limbs_s n (Z.rem (seval a) (eval d))).
Proof.
  intros n a d La Ld H1 Hn Wa Wd Hd. rewrite g_int_div_rem_uint_eq by assumption.
  rewrite (IntDivP.int_div_rem_uint_spec a d Wa Wd Hd), La, Ld. reflexivity.
Qed.
Print Assumptions C14_src_div_rem_uint_exact.

Theorem C14_src_div_rem_floor_uint_exact : forall n a d, length a = n -> length d = n -> (1 <= n)%nat -> 64 * Z.of_nat n < 2 ^ 32 ->
  wf a -> wf d -> eval d <> 0 ->
  g_int_div_rem_floor_uint n a d = (to_limbs_s n (seval a / eval d), to_limbs n (seval a mod eval d)).
Proof.
  intros n a d La Ld H1 Hn Wa Wd Hd. rewrite g_int_div_rem_floor_uint_eq by assumption.
  rewrite (IntDivP.int_div_rem_floor_uint_spec a d Wa Wd (GenBitsP.list_ne_of_len a n La H1) Hd), La, Ld. reflexivity.
Qed.
Print Assumptions C14_src_div_rem_floor_uint_exact.

(* hypotheses of the theorems above on literal arguments *)
Local Ltac side := first [reflexivity | lia | wf_by_compute | vm_compute; discriminate].

(** non-vacuity: the generated fronts run on multi-limb inputs: -8 / 3 and 8 / -3 at two limbs (truncating and flooring),
    MIN / -1 (quotient none), a 3-limb dividend with a 2-limb-sized divisor, and the Uint-divisor forms *)
Example C14_src_runs :
  let m8 := [2 ^ 64 - 8; 2 ^ 64 - 1] in let m3 := [2 ^ 64 - 3; 2 ^ 64 - 1] in
  g_int_checked_div_rem 2 m8 [3; 0] = (([2 ^ 64 - 2; 2 ^ 64 - 1], 2 ^ 64 - 1), [2 ^ 64 - 2; 2 ^ 64 - 1]) /\
  g_int_checked_div_rem_floor 2 m8 [3; 0] = (([2 ^ 64 - 3; 2 ^ 64 - 1], 2 ^ 64 - 1), [1; 0]) /\
  g_int_checked_div_rem_floor 2 [8; 0] m3 = (([2 ^ 64 - 3; 2 ^ 64 - 1], 2 ^ 64 - 1), [2 ^ 64 - 1; 2 ^ 64 - 1]) /\
  snd (fst (g_int_checked_div_rem 2 [0; 2 ^ 63] [2 ^ 64 - 1; 2 ^ 64 - 1])) = 0 /\
  g_int_rem 3 [5; 7; 2 ^ 64 - 1] [1; 2 ^ 63; 0] = to_limbs_s 3 (Z.rem (seval [5; 7; 2 ^ 64 - 1]) (seval [1; 2 ^ 63; 0])) /\
  g_int_div_rem_uint 2 m8 [3; 0] = ([2 ^ 64 - 2; 2 ^ 64 - 1], [2 ^ 64 - 2; 2 ^ 64 - 1]) /\
  g_int_div_rem_floor_uint 2 m8 [3; 0] = ([2 ^ 64 - 3; 2 ^ 64 - 1], [1; 0]) /\
  g_int_normalized_rem 2 m8 [3; 0] = [1; 0] /\
  g_int_MAX 2 = [2 ^ 64 - 1; 2 ^ 63 - 1] /\ g_int_MIN 2 = [0; 2 ^ 63].
Proof.
  (* each front is rewritten with its exactness theorem (for the ConstCtOption pairs: [g_int_checked_div_rem_pair],
     [g_int_checked_div_rem_floor_pair] of Src/GenIntDivP.v); what is evaluated is the value-level right-hand side *)
  cbv zeta. repeat apply conj.
  - rewrite g_int_checked_div_rem_pair; [vm_compute; reflexivity | side ..].
  - rewrite g_int_checked_div_rem_floor_pair; [vm_compute; reflexivity | side ..].
  - rewrite g_int_checked_div_rem_floor_pair; [vm_compute; reflexivity | side ..].
  - rewrite g_int_checked_div_rem_pair; [vm_compute; reflexivity | side ..].
  - apply C14_src_rem_exact; side.
  - rewrite C14_src_div_rem_uint_exact; [vm_compute; reflexivity | side ..].
  - rewrite C14_src_div_rem_floor_uint_exact; [vm_compute; reflexivity | side ..].
  - rewrite C14_src_normalized_rem; [vm_compute; reflexivity | side ..].
  - rewrite C14_src_int_MAX by lia. reflexivity.
  - rewrite C14_src_int_MIN by lia. reflexivity.
Qed.
