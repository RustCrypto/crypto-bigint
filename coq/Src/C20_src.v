(** C20, translator tie: theorems about the Gallina text that tools/rs2v.py regenerates from /repo's CURRENT
    src/uint/sqrt.rs (`Uint::sqrt`, `wrapping_sqrt`) and src/uint.rs (`Uint::LOG2_BITS`) on every run (Src/GenSqrt.v).
    The generated `sqrt` calls the generated `Uint::bits`, `overflowing_shl`, `ConstCtOption::expect`, `is_nonzero`, `select`,
    the constant-time long division `Uint::div_rem`, `wrapping_add`, `shr1` and `gt`.  Short proofs stand here; longer ones in
    Src/GenSqrtP.v.  Every statement is for ALL limb counts n >= 1 with 64 n < 2^32 (`Uint::BITS` is a u32) and all limbs. *)
From CB Require Import Model.SrcPrelude Model.Word Model.Limbs Model.AddSub Model.Sqrt.
From CB Require Import Src.GenPrim Src.GenUint Src.GenShift Src.GenInt Src.GenBits Src.GenDivCt Src.GenSqrt Src.GenSqrtP.
From CB Require Import Proofs.WordP Proofs.LimbsP.
From Coq Require Import ZArith List.
Import ListNotations.
Open Scope Z_scope.

(** Uint::LOG2_BITS = u32::BITS - Self::BITS.leading_zeros() - 1 is floor(log2(64 n)) *)
Theorem C20_src_LOG2_BITS : forall n, (1 <= n)%nat -> 64 * Z.of_nat n < 2 ^ 32 -> g_uint_LOG2_BITS n = Z.log2 (64 * Z.of_nat n).
Proof. exact g_uint_LOG2_BITS_eq. Qed.
Print Assumptions C20_src_LOG2_BITS.

(** the source text of Uint::sqrt (initial estimate through bits / overflowing_shl / expect, LOG2_BITS + 2 Newton rounds with
    the zero-divisor select around the SOURCE's own div_rem, final select by gt) denotes the model: the model never panics
    and returns what the generated function returns *)
Theorem C20_src_sqrt : forall n a, length a = n -> (1 <= n)%nat -> 64 * Z.of_nat n < 2 ^ 32 -> wf a ->
  uint_sqrt a = SOk (g_uint_sqrt n a).
Proof. exact g_uint_sqrt_eq. Qed.
Print Assumptions C20_src_sqrt.

Theorem C20_src_wrapping_sqrt : forall n a, g_uint_wrapping_sqrt n a = g_uint_sqrt n a.
Proof. reflexivity. Qed.
Print Assumptions C20_src_wrapping_sqrt.

(** hence the SOURCE text returns floor(sqrt(a)) for every width and every input *)
Theorem C20_src_sqrt_exact : forall n a, length a = n -> (1 <= n)%nat -> 64 * Z.of_nat n < 2 ^ 32 -> wf a ->
  let r := g_uint_sqrt n a in
  wf r /\ length r = n /\ eval r = Z.sqrt (eval a) /\
  (0 <= eval r /\ eval r * eval r <= eval a < (eval r + 1) * (eval r + 1)).
Proof. exact g_uint_sqrt_exact. Qed.
Print Assumptions C20_src_sqrt_exact.

(** non-vacuity: the generated function runs on multi-limb inputs (the worst-case 192-bit input of the crate's own test
    (r+1)^2 - 583; a radicand one below a square at full width; the oscillating case t^2 + 2t; zero) *)
Example C20_src_sqrt_runs :
  g_uint_sqrt 3 [15850601984282720829; 1685072410847819194; 387207949610491688] = [3049934400608706081; 622260355; 0] /\
  g_uint_sqrt 2 [2 ^ 64 - 1; 2 ^ 64 - 1] = [2 ^ 64 - 1; 0] /\
  g_uint_sqrt 3 [24; 0; 0] = [4; 0; 0] /\
  g_uint_sqrt 2 [0; 0] = [0; 0] /\
  g_uint_wrapping_sqrt 1 [15] = [3] /\
  g_uint_LOG2_BITS 3 = 7.
Proof.
  unfold g_uint_wrapping_sqrt.
  repeat apply conj; [apply g_uint_sqrt_run .. | reflexivity];
    first [ apply wfb_wf; reflexivity | reflexivity | apply le_n_S, Nat.le_0_l | vm_compute; reflexivity ].
Qed.
