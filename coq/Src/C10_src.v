(** C10, translator tie: the word-level kernels of /repo's CURRENT src/modular/safegcd.rs (Src/GenSafeGcd.v, regenerated on
    every run) -- inv_mod2_62, the 62-bit unsaturated integer UnsatInt (is_negative, add, mul, neg, shr, eq, select, the
    constants, leading_zeros / bits), fg, de, jump and iterations -- compute what Model/SafeGcd.v / Proofs/SafeGcd*P.v
    say, for every limb count that is a usize and all 62-bit limb values.  Short proofs stand here; longer ones are lemmas
    of Src/GenSafeGcd*P.v cited by [exact]. *)
From CB Require Import Model.SrcPrelude Model.Word Model.Limbs Model.AddSub Model.SafeGcd.
From CB Require Import Src.GenPrim Src.GenPrimP Src.GenLoopP Src.GenUint Src.GenUintP Src.GenSafeGcd Src.GenSafeGcdP Src.GenSafeGcdJumpP Src.GenSafeGcdBitsP.
From CB Require Import Proofs.WordP Proofs.SafeGcdArithP Proofs.SafeGcdUnsatP Proofs.SafeGcdJumpP Proofs.SafeGcdDivstepsP.
From Coq Require Import ZArith List Lia.
Import ListNotations.
Open Scope Z_scope.

(** inv_mod2_62: the SOURCE text returns the inverse of the (odd) low word modulo 2^62 *)
Theorem C10_src_inv_mod2_62 : forall v, is_word (hd 0 v) -> g_inv_mod2_62 v = inv_mod2_62 (hd 0 v).
Proof. exact g_inv_mod2_62_eq. Qed.
Print Assumptions C10_src_inv_mod2_62.
Theorem C10_src_inv_mod2_62_correct : forall v, is_word (hd 0 v) -> Z.odd (hd 0 v) = true ->
  0 <= g_inv_mod2_62 v < 2 ^ 62 /\ (hd 0 v * g_inv_mod2_62 v) mod 2 ^ 62 = 1.
Proof.
  intros v Hv Ho. rewrite g_inv_mod2_62_eq by assumption.
  apply inv_mod2_62_correct; [|assumption]. unfold is_word in Hv. rewrite B_P64 in Hv. exact Hv.
Qed.
Print Assumptions C10_src_inv_mod2_62_correct.

Theorem C10_src_unsat_consts : forall n, g_unsat_LIMB_BITS n = 62 /\ g_unsat_MASK n = 2 ^ 62 - 1 /\ g_unsat_ZERO n = u_zero n /\
  g_unsat_MINUS_ONE n = u_minus_one n /\ ((1 <= n)%nat -> g_unsat_ONE n = u_one n).
Proof. intros n. repeat split. apply g_unsat_ONE_eq. Qed.
Print Assumptions C10_src_unsat_consts.

Theorem C10_src_unsat_is_negative : forall n a, length a = n -> (1 <= n)%nat -> usz n -> wf62 a ->
  g_unsat_is_negative n a = choice_of_bool (u_is_negative a).
Proof. exact g_unsat_is_negative_eq. Qed.
Print Assumptions C10_src_unsat_is_negative.
Theorem C10_src_unsat_lowest : forall n a, g_unsat_lowest n a = hd 0 a.
Proof. exact g_unsat_lowest_eq. Qed.
Print Assumptions C10_src_unsat_lowest.
Theorem C10_src_unsat_add : forall n a b, length a = n -> length b = n -> usz n -> wf62 a -> wf62 b ->
  g_unsat_add n a b = u_add a b.
Proof. exact g_unsat_add_eq. Qed.
Print Assumptions C10_src_unsat_add.
Theorem C10_src_unsat_mul : forall n a c, length a = n -> usz n -> wf62 a -> - 2 ^ 63 < c < 2 ^ 63 ->
  g_unsat_mul n a c = u_mul a c.
Proof. exact g_unsat_mul_eq. Qed.
Print Assumptions C10_src_unsat_mul.
Theorem C10_src_unsat_neg : forall n a, length a = n -> usz n -> wf62 a -> g_unsat_neg n a = u_neg a.
Proof. exact g_unsat_neg_eq. Qed.
Print Assumptions C10_src_unsat_neg.
Theorem C10_src_unsat_shr : forall n a, length a = n -> (1 <= n)%nat -> usz n -> wf62 a -> g_unsat_shr n a = u_shr a.
Proof. exact g_unsat_shr_eq. Qed.
Print Assumptions C10_src_unsat_shr.
Theorem C10_src_unsat_eq : forall n a b, length a = n -> length b = n -> usz n -> wf62 a -> wf62 b ->
  g_unsat_eq n a b = choice_of_bool (u_eq a b).
Proof. exact g_unsat_eq_eq. Qed.
Print Assumptions C10_src_unsat_eq.
Theorem C10_src_unsat_select : forall n a b (c : bool), length a = n -> length b = n -> usz n -> wf62 a -> wf62 b ->
  g_unsat_select n a b (choice_of_bool c) = if c then b else a.
Proof.
  intros n a b c Ha Hb Hn Wa Wb. unfold g_unsat_select.
  rewrite (iter_idx _ (fun j (out : list Z) => upd_ out j (g_cc_select_u64 (choice_of_bool c) (nth j a 0) (nth j b 0)))) by
    (first [exact Hn | intros i s Hi; reflexivity]).
  unfold g_unsat_ZERO. subst n. rewrite (loop_map2 (fun x y => g_cc_select_u64 (choice_of_bool c) x y) a b (eq_sym Hb)).
  clear Hn. revert b Hb Wb. induction a as [|x a IH]; intros [|y b] Hb Wb; try discriminate.
  - destruct c; reflexivity.
  - apply wf62_cons in Wa. destruct Wa as [Hx Wa]. apply wf62_cons in Wb. destruct Wb as [Hy Wb].
    cbn [combine map fst snd]. rewrite g_cc_select_u64_eq, g_select_spec by (apply wf62_word; assumption).
    rewrite (IH Wa b) by (first [assumption | cbn in Hb; lia]). destruct c; reflexivity.
Qed.
Print Assumptions C10_src_unsat_select.

(** ... composed with Proofs/SafeGcdUnsatP.v: what the SOURCE text computes on the two's-complement value (sval) *)
Theorem C10_src_unsat_add_value : forall n a b, length a = n -> length b = n -> usz n -> wf62 a -> wf62 b ->
  wf62 (g_unsat_add n a b) /\ length (g_unsat_add n a b) = n /\
  uval (g_unsat_add n a b) = (uval a + uval b) mod 2 ^ (62 * Z.of_nat n).
Proof.
  intros n a b Ha Hb U Wa Wb. rewrite g_unsat_add_eq by assumption.
  destruct (u_add_spec a b Wa Wb ltac:(congruence)) as (W & L & E). rewrite <- M62_pow2, <- Ha. repeat split; assumption.
Qed.
Print Assumptions C10_src_unsat_add_value.
Theorem C10_src_unsat_mul_value : forall n a c, length a = n -> usz n -> wf62 a -> - 2 ^ 63 < c < 2 ^ 63 ->
  wf62 (g_unsat_mul n a c) /\ length (g_unsat_mul n a c) = n /\
  uval (g_unsat_mul n a c) = (uval a * c) mod 2 ^ (62 * Z.of_nat n).
Proof.
  intros n a c Ha U Wa Hc. rewrite g_unsat_mul_eq by assumption.
  destruct (u_mul_spec a c Wa Hc) as (W & L & E). rewrite <- M62_pow2, <- Ha. repeat split; assumption.
Qed.
Print Assumptions C10_src_unsat_mul_value.
Theorem C10_src_unsat_neg_value : forall n a, length a = n -> usz n -> wf62 a ->
  wf62 (g_unsat_neg n a) /\ length (g_unsat_neg n a) = n /\ uval (g_unsat_neg n a) = (- uval a) mod 2 ^ (62 * Z.of_nat n).
Proof.
  intros n a Ha U Wa. rewrite g_unsat_neg_eq by assumption.
  destruct (u_neg_spec a Wa) as (W & L & E). rewrite <- M62_pow2, <- Ha. repeat split; assumption.
Qed.
Print Assumptions C10_src_unsat_neg_value.
Theorem C10_src_unsat_shr_value : forall n a, length a = n -> (1 <= n)%nat -> usz n -> wf62 a ->
  wf62 (g_unsat_shr n a) /\ length (g_unsat_shr n a) = n /\ sval (g_unsat_shr n a) = sval a / 2 ^ 62.
Proof.
  intros n a Ha Hn U Wa. rewrite g_unsat_shr_eq by assumption.
  destruct (u_shr_spec a Wa ltac:(lia)) as (W & L & E). rewrite <- Ha. repeat split; assumption.
Qed.
Print Assumptions C10_src_unsat_shr_value.
Theorem C10_src_unsat_is_negative_value : forall n a, length a = n -> (1 <= n)%nat -> usz n -> wf62 a ->
  g_unsat_is_negative n a = choice_of_bool (sval a <? 0).
Proof.
  intros n a Ha Hn U Wa. rewrite g_unsat_is_negative_eq by assumption. rewrite u_is_negative_sval; [reflexivity | assumption |].
  destruct a; [cbn in Ha; lia | discriminate].
Qed.
Print Assumptions C10_src_unsat_is_negative_value.
Theorem C10_src_unsat_eq_value : forall n a b, length a = n -> length b = n -> usz n -> wf62 a -> wf62 b ->
  g_unsat_eq n a b = choice_of_bool (sval a =? sval b).
Proof.
  intros n a b Ha Hb U Wa Wb. rewrite g_unsat_eq_eq by assumption. rewrite u_eq_sval by (first [assumption | congruence]). reflexivity.
Qed.
Print Assumptions C10_src_unsat_eq_value.

(** fg, de: the SOURCE text applies the transition matrix (a Matrix is the list of its two rows, [mat]) *)
Theorem C10_src_fg : forall n f g t, length f = n -> length g = n -> (1 <= n)%nat -> usz n -> wf62 f -> wf62 g -> tbound t ->
  g_fg n f g (mat t) = fg f g t.
Proof. exact g_fg_eq. Qed.
Print Assumptions C10_src_fg.
Theorem C10_src_de : forall n m inverse t d e, length m = n -> length d = n -> length e = n -> (1 <= n)%nat -> usz n ->
  wf62 m -> wf62 d -> wf62 e -> tbound t ->
  g_de n m inverse (mat t) d e = de m inverse t d e.
Proof.
  intros n m inverse [[[t00 t01] t10] t11] d e Hm Hd He Hn U Wm Wd We (R0 & R1).
  unfold g_de, de, mat. change (Z.to_nat 0) with 0%nat. change (Z.to_nat 1) with 1%nat. cbn [nth]. cbv zeta.
  rewrite !g_unsat_is_negative_eq by assumption. rewrite !to_u8_bool, !g_unsat_lowest_eq, g_unsat_MASK_eq.
  rewrite !g_de_m_eq.
  destruct (abs_sum_bound _ _ R0) as [H00 H01]. destruct (abs_sum_bound _ _ R1) as [H10 H11].
  pose proof (de_m_i64 inverse t00 t01 _ _ (hd 0 d) (hd 0 e) R0 (b2z_range (u_is_negative d)) (b2z_range (u_is_negative e))) as M0.
  pose proof (de_m_i64 inverse t10 t11 _ _ (hd 0 d) (hd 0 e) R1 (b2z_range (u_is_negative d)) (b2z_range (u_is_negative e))) as M1.
  (* the deepest side condition, wf62 (row + m md), takes five closure steps: u_add_wf, then row_len, u_mul_len, row_wf, u_mul_wf *)
  rewrite !g_unsat_mul_eq, !(g_unsat_add_eq n (u_mul _ _) (u_mul _ _)), !g_unsat_add_eq, !g_unsat_shr_eq by eauto 6 with u62.
  reflexivity.
Qed.
Print Assumptions C10_src_de.
(** fg is exact: when t (f, g) = 2^62 (F', G') the SOURCE text returns the limbs of F' and G' *)
Theorem C10_src_fg_exact : forall n f g t00 t01 t10 t11 F' G', length f = n -> length g = n -> (1 <= n)%nat -> usz n ->
  wf62 f -> wf62 g -> Z.abs t00 + Z.abs t01 <= P62 -> Z.abs t10 + Z.abs t11 <= P62 ->
  t00 * sval f + t01 * sval g = P62 * F' -> t10 * sval f + t11 * sval g = P62 * G' ->
  - M62 n <= 2 * (P62 * F') < M62 n -> - M62 n <= 2 * (P62 * G') < M62 n ->
  sval (fst (g_fg n f g (mat (t00, t01, t10, t11)))) = F' /\ sval (snd (g_fg n f g (mat (t00, t01, t10, t11)))) = G'.
Proof.
  intros n f g t00 t01 t10 t11 F' G' Hf Hg Hn U Wf Wg R0 R1 E0 E1 B0 B1.
  rewrite g_fg_eq by (first [assumption | split; assumption]). subst n.
  destruct (fg_spec f g t00 t01 t10 t11 F' G' Wf Wg ltac:(congruence) ltac:(lia) R0 R1 E0 E1 B0 B1) as (_ & _ & _ & _ & S1 & S2).
  split; assumption.
Qed.
Print Assumptions C10_src_fg_exact.

(** jump: the SOURCE loop `loop { .. if steps == 0 { break; } .. }` reaches its `break` within 63 iterations (the translation
    returns Some for every fuel >= 63) and returns the model's (delta', t) *)
Theorem C10_src_jump : forall fuel f g delta, (63 <= fuel)%nat ->
  0 <= nth 0 f 0 < 2 ^ 62 -> 0 <= nth 0 g 0 < 2 ^ 62 ->
  (Z.odd (nth 0 f 0) = true \/ (0 < delta /\ Z.odd (nth 0 g 0) = true)) -> Z.abs delta + 62 <= 2 ^ 62 ->
  g_jump fuel f g delta = Some (fst (jump (nth 0 f 0) (nth 0 g 0) delta), mat (snd (jump (nth 0 f 0) (nth 0 g 0) delta))).
Proof. exact g_jump_eq. Qed.
Print Assumptions C10_src_jump.
(** ... hence the matrix the SOURCE text of jump returns satisfies t (f, g) = 2^62 (f', g') exactly, with bounded entries,
    determinant 2^62, an even first row and an odd f' *)
Theorem C10_src_jump_matrix : forall fuel f g delta, (63 <= fuel)%nat ->
  0 <= nth 0 f 0 < 2 ^ 62 -> 0 <= nth 0 g 0 < 2 ^ 62 ->
  (Z.odd (nth 0 f 0) = true \/ (0 < delta /\ Z.odd (nth 0 g 0) = true)) -> Z.abs delta + 62 <= 2 ^ 62 ->
  exists d' t00 t01 t10 t11 f' g',
    g_jump fuel f g delta = Some (d', [[t00; t01]; [t10; t11]]) /\
    t00 * nth 0 f 0 + t01 * nth 0 g 0 = 2 ^ 62 * f' /\ t10 * nth 0 f 0 + t11 * nth 0 g 0 = 2 ^ 62 * g' /\
    Z.abs t00 + Z.abs t01 <= 2 ^ 62 /\ Z.abs t10 + Z.abs t11 <= 2 ^ 62 /\ t00 * t11 - t01 * t10 = 2 ^ 62 /\
    Z.even t00 = true /\ Z.even t01 = true /\ Z.odd f' = true /\ Z.abs d' <= Z.abs delta + 62.
Proof.
  intros fuel f g delta Hfu Hf Hg Ho Hd. rewrite (g_jump_eq fuel f g delta Hfu Hf Hg Ho Hd).
  pose proof (jump_matrix (nth 0 f 0) (nth 0 g 0) delta Hf Hg Ho Hd) as JP. unfold JPost in JP.
  destruct (jump (nth 0 f 0) (nth 0 g 0) delta) as [d' [[[t00 t01] t10] t11]].
  destruct JP as (f' & g' & J). exists d', t00, t01, t10, t11, f', g'. split; [reflexivity | exact J].
Qed.
Print Assumptions C10_src_jump_matrix.

(** leading_zeros / bits of an UnsatInt and the number of jumps `iterations` (Fig. 11.1 of the paper) *)
Theorem C10_src_unsat_bits : forall n a, length a = n -> wf62 a -> 62 * Z.of_nat n < 2 ^ 32 ->
  g_unsat_leading_zeros n a = lz_scan62 (rev a) 0 true /\ g_unsat_bits n a = u_bits a.
Proof. intros. split; [apply g_unsat_leading_zeros_eq | apply g_unsat_bits_eq]; assumption. Qed.
Print Assumptions C10_src_unsat_bits.
Theorem C10_src_iterations : forall f g, 0 <= f -> 0 <= g -> 49 * Z.max f g + 80 < 2 ^ 32 ->
  g_iterations f g = Z.of_nat (iterations f g).
Proof.
  intros f g Hf Hg Hb. unfold g_iterations, iterations.
  rewrite g_cc_from_u32_lt_spec by lia. rewrite g_cc_select_u32_spec by lia.
  set (d := if f <? g then g else f).
  assert (Hd : 0 <= d /\ d <= Z.max f g) by (unfold d; destruct (Z.ltb_spec f g); lia).
  rewrite g_cc_from_u32_lt_spec by lia. rewrite g_cc_select_u32_spec by lia.
  set (ad := if d <? 46 then 80 else 57).
  assert (Ha : 57 <= ad <= 80) by (unfold ad; destruct (d <? 46); lia).
  unfold div_, add_, mul_. rewrite (Z.mod_small (49 * d)) by lia. rewrite Z.mod_small by lia.
  rewrite Z2Nat.id; [reflexivity|]. apply Z.div_pos; lia.
Qed.
Print Assumptions C10_src_iterations.

Example C10_src_runs :
  g_inv_mod2_62 [12345678901234567891; 7] = 3689348814741910323 - 3689348814741910323 + g_inv_mod2_62 [12345678901234567891] /\
  (12345678901234567891 * g_inv_mod2_62 [12345678901234567891; 7]) mod 2 ^ 62 = 1 /\
  g_unsat_add 3 [2 ^ 62 - 1; 2 ^ 62 - 1; 5] [1; 0; 0] = [0; 0; 6] /\
  g_unsat_mul 3 [3; 0; 0] (-2) = [2 ^ 62 - 6; 2 ^ 62 - 1; 2 ^ 62 - 1] /\
  g_unsat_neg 3 [1; 0; 0] = [2 ^ 62 - 1; 2 ^ 62 - 1; 2 ^ 62 - 1] /\
  g_unsat_shr 3 [7; 8; 2 ^ 61] = [8; 2 ^ 61; 2 ^ 62 - 1] /\
  g_unsat_is_negative 3 [7; 8; 2 ^ 61] = 2 ^ 64 - 1 /\ g_unsat_eq 3 [7; 8; 9] [7; 8; 9] = 2 ^ 64 - 1 /\ g_unsat_eq 3 [7; 8; 9] [7; 0; 9] = 0 /\
  g_fg 2 [6; 0] [10; 0] [[2 ^ 61; 0]; [- 2 ^ 61; 2 ^ 61]] = ([3; 0], [2; 0]) /\
  g_jump 63 [5; 0] [10; 0] 1 = Some (59, [[0; 2 ^ 61]; [-2; 1]]) /\
  g_jump 63 [1234567891234567; 0] [987654321987654321; 0] (-2) = Some (0, [[1181045296; 335562672]; [-15675181803; -548937347]]) /\
  g_jump 2 [1234567891234567; 0] [987654321987654321; 0] (-2) = None /\
  g_unsat_bits 3 [5; 2 ^ 61; 0] = 124 /\ g_unsat_leading_zeros 3 [0; 0; 0] = 186 /\ g_iterations 256 200 = 741.
Proof. vm_compute. repeat split. Qed.
