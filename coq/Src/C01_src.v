(** C01, source-derived leakage model: NONINTERFERENCE of the instrumented kernels.

    tools/rs2v_leak.py re-reads /repo's CURRENT source text on every run and writes, for each of the 222 kernels that
    tools/rs2v.py ties to the models, an instrumented definition [l_f args : result * list Z] (Src/Leak*.v): the value and the list
    of leakage events of a source-level execution (Model/LeakPrelude.v: [ev_br] conditions, [ev_ix] indices, [ev_div] /
    [ev_divc] division operands, [ev_trip] trip counts; mask / select / arithmetic primitives emit nothing).
    Statements of C01's source-level layer. Short proofs stand here (the witnesses by evaluation, a theorem that follows from the
    rewriting rules of the two runs by lk_eq_snd, a front that is one call); the others are lemmas of Src/Leak*P.v cited by [exact]:
      C01_src_<f>_ni   for all values of the SECRET operands (limb values, words, carries, ConstChoice masks, the reciprocal) the
                       trace is the same; the operands that occur once in a statement are the PUBLIC ones: limb counts, slice
                       lengths (hypotheses [length x1 = length x2]), and the operands a function is documented variable-time in
                       (the shift of overflowing_shl_vartime / overflowing_shr_vartime, the bit counts of short_div);
      for Uint::div_rem and the constant-time shifts (shl, shr, overflowing_shl, overflowing_shr) the statement is up to
      [pubview], which erases the dividend of a division by a COMPILE-TIME CONSTANT (`dbits % Limb::BITS`,
      `shift % Self::BITS`: no division instruction in an optimized build), and C01_src_<f>_strict_refuted shows that without
      that erasure the trace does depend on the secret (through these events only).
    That the instrumented text computes the tied text ([fst (l_f args) = g_f args]) is l_f_eq (its first component) in Src/Leak*P.v.
    What is NOT proved here: that the optimized binary leaks no more than the source-level trace (tools/vlib/c01.py, c01mc.py). *)
From CB Require Import Model.SrcPrelude Model.LeakPrelude Src.LeakIterP.
From CB Require Import Src.LeakPrim Src.LeakPrimP Src.LeakDiv Src.LeakDivP Src.LeakUint Src.LeakUintP Src.LeakMod Src.LeakModP Src.LeakShift Src.LeakShiftP Src.LeakMul Src.LeakMulP Src.LeakInt Src.LeakIntP Src.LeakDivLimb Src.LeakDivLimbP Src.LeakMonty Src.LeakMontyP Src.LeakHex Src.LeakHexP Src.LeakBits Src.LeakBitsP Src.LeakDivCt Src.LeakDivCtP.
From CB Require Import Src.GenLogic Src.LeakLogic Src.LeakLogicP.
From Coq Require Import ZArith List.
Import ListNotations.
Open Scope Z_scope.

(** ** Src/LeakPrim.v *)
Theorem C01_src_mulhilo_ni : forall (x1 : Z) (y1 : Z) (x2 : Z) (y2 : Z), snd (l_mulhilo x1 y1) = snd (l_mulhilo x2 y2).
Proof. intros. exact (lk_eq_snd _ _). Qed.
Print Assumptions C01_src_mulhilo_ni.
Theorem C01_src_addhilo_ni : forall (x_hi1 : Z) (x_lo1 : Z) (y_hi1 : Z) (y_lo1 : Z) (x_hi2 : Z) (x_lo2 : Z) (y_hi2 : Z) (y_lo2 : Z), snd (l_addhilo x_hi1 x_lo1 y_hi1 y_lo1) = snd (l_addhilo x_hi2 x_lo2 y_hi2 y_lo2).
Proof. intros. exact (lk_eq_snd _ _). Qed.
Print Assumptions C01_src_addhilo_ni.
Theorem C01_src_adc_ni : forall (lhs1 : Z) (rhs1 : Z) (carry1 : Z) (lhs2 : Z) (rhs2 : Z) (carry2 : Z), snd (l_adc lhs1 rhs1 carry1) = snd (l_adc lhs2 rhs2 carry2).
Proof. intros. exact (lk_eq_snd _ _). Qed.
Print Assumptions C01_src_adc_ni.
Theorem C01_src_overflowing_add_ni : forall (lhs1 : Z) (rhs1 : Z) (lhs2 : Z) (rhs2 : Z), snd (l_overflowing_add lhs1 rhs1) = snd (l_overflowing_add lhs2 rhs2).
Proof. intros. exact (lk_eq_snd _ _). Qed.
Print Assumptions C01_src_overflowing_add_ni.
Theorem C01_src_sbb_ni : forall (lhs1 : Z) (rhs1 : Z) (borrow1 : Z) (lhs2 : Z) (rhs2 : Z) (borrow2 : Z), snd (l_sbb lhs1 rhs1 borrow1) = snd (l_sbb lhs2 rhs2 borrow2).
Proof. intros. exact (lk_eq_snd _ _). Qed.
Print Assumptions C01_src_sbb_ni.
Theorem C01_src_mul_wide_ni : forall (lhs1 : Z) (rhs1 : Z) (lhs2 : Z) (rhs2 : Z), snd (l_mul_wide lhs1 rhs1) = snd (l_mul_wide lhs2 rhs2).
Proof. intros. exact (lk_eq_snd _ _). Qed.
Print Assumptions C01_src_mul_wide_ni.
Theorem C01_src_mac_ni : forall (a1 : Z) (b1 : Z) (c1 : Z) (carry1 : Z) (a2 : Z) (b2 : Z) (c2 : Z) (carry2 : Z), snd (l_mac a1 b1 c1 carry1) = snd (l_mac a2 b2 c2 carry2).
Proof. intros. exact (lk_eq_snd _ _). Qed.
Print Assumptions C01_src_mac_ni.
Theorem C01_src_cc_as_u32_mask_ni : forall (self1 : Z) (self2 : Z), snd (l_cc_as_u32_mask self1) = snd (l_cc_as_u32_mask self2).
Proof. intros. exact (lk_eq_snd _ _). Qed.
Print Assumptions C01_src_cc_as_u32_mask_ni.
Theorem C01_src_cc_from_word_mask_ni : forall (value1 : Z) (value2 : Z), snd (l_cc_from_word_mask value1) = snd (l_cc_from_word_mask value2).
Proof. intros. exact (lk_eq_snd _ _). Qed.
Print Assumptions C01_src_cc_from_word_mask_ni.
Theorem C01_src_cc_from_word_lsb_ni : forall (value1 : Z) (value2 : Z), snd (l_cc_from_word_lsb value1) = snd (l_cc_from_word_lsb value2).
Proof. intros. exact (lk_eq_snd _ _). Qed.
Print Assumptions C01_src_cc_from_word_lsb_ni.
Theorem C01_src_cc_from_word_msb_ni : forall (value1 : Z) (value2 : Z), snd (l_cc_from_word_msb value1) = snd (l_cc_from_word_msb value2).
Proof. intros. exact (lk_eq_snd _ _). Qed.
Print Assumptions C01_src_cc_from_word_msb_ni.
Theorem C01_src_cc_from_wide_word_lsb_ni : forall (value1 : Z) (value2 : Z), snd (l_cc_from_wide_word_lsb value1) = snd (l_cc_from_wide_word_lsb value2).
Proof. intros. exact (lk_eq_snd _ _). Qed.
Print Assumptions C01_src_cc_from_wide_word_lsb_ni.
Theorem C01_src_cc_from_u32_lsb_ni : forall (value1 : Z) (value2 : Z), snd (l_cc_from_u32_lsb value1) = snd (l_cc_from_u32_lsb value2).
Proof. intros. exact (lk_eq_snd _ _). Qed.
Print Assumptions C01_src_cc_from_u32_lsb_ni.
Theorem C01_src_cc_not_ni : forall (self1 : Z) (self2 : Z), snd (l_cc_not self1) = snd (l_cc_not self2).
Proof. intros. exact (lk_eq_snd _ _). Qed.
Print Assumptions C01_src_cc_not_ni.
Theorem C01_src_cc_or_ni : forall (self1 : Z) (other1 : Z) (self2 : Z) (other2 : Z), snd (l_cc_or self1 other1) = snd (l_cc_or self2 other2).
Proof. intros. exact (lk_eq_snd _ _). Qed.
Print Assumptions C01_src_cc_or_ni.
Theorem C01_src_cc_and_ni : forall (self1 : Z) (other1 : Z) (self2 : Z) (other2 : Z), snd (l_cc_and self1 other1) = snd (l_cc_and self2 other2).
Proof. intros. exact (lk_eq_snd _ _). Qed.
Print Assumptions C01_src_cc_and_ni.
Theorem C01_src_cc_xor_ni : forall (self1 : Z) (other1 : Z) (self2 : Z) (other2 : Z), snd (l_cc_xor self1 other1) = snd (l_cc_xor self2 other2).
Proof. intros. exact (lk_eq_snd _ _). Qed.
Print Assumptions C01_src_cc_xor_ni.
Theorem C01_src_cc_ne_ni : forall (self1 : Z) (other1 : Z) (self2 : Z) (other2 : Z), snd (l_cc_ne self1 other1) = snd (l_cc_ne self2 other2).
Proof. intros. exact (lk_eq_snd _ _). Qed.
Print Assumptions C01_src_cc_ne_ni.
Theorem C01_src_cc_eq_ni : forall (self1 : Z) (other1 : Z) (self2 : Z) (other2 : Z), snd (l_cc_eq self1 other1) = snd (l_cc_eq self2 other2).
Proof. intros. exact (lk_eq_snd _ _). Qed.
Print Assumptions C01_src_cc_eq_ni.
Theorem C01_src_cc_from_u32_nonzero_ni : forall (value1 : Z) (value2 : Z), snd (l_cc_from_u32_nonzero value1) = snd (l_cc_from_u32_nonzero value2).
Proof. intros. exact (lk_eq_snd _ _). Qed.
Print Assumptions C01_src_cc_from_u32_nonzero_ni.
Theorem C01_src_cc_from_word_nonzero_ni : forall (value1 : Z) (value2 : Z), snd (l_cc_from_word_nonzero value1) = snd (l_cc_from_word_nonzero value2).
Proof. intros. exact (lk_eq_snd _ _). Qed.
Print Assumptions C01_src_cc_from_word_nonzero_ni.
Theorem C01_src_cc_from_u32_eq_ni : forall (x1 : Z) (y1 : Z) (x2 : Z) (y2 : Z), snd (l_cc_from_u32_eq x1 y1) = snd (l_cc_from_u32_eq x2 y2).
Proof. intros. exact (lk_eq_snd _ _). Qed.
Print Assumptions C01_src_cc_from_u32_eq_ni.
Theorem C01_src_cc_from_word_eq_ni : forall (x1 : Z) (y1 : Z) (x2 : Z) (y2 : Z), snd (l_cc_from_word_eq x1 y1) = snd (l_cc_from_word_eq x2 y2).
Proof. intros. exact (lk_eq_snd _ _). Qed.
Print Assumptions C01_src_cc_from_word_eq_ni.
Theorem C01_src_cc_from_word_lt_ni : forall (x1 : Z) (y1 : Z) (x2 : Z) (y2 : Z), snd (l_cc_from_word_lt x1 y1) = snd (l_cc_from_word_lt x2 y2).
Proof. intros. exact (lk_eq_snd _ _). Qed.
Print Assumptions C01_src_cc_from_word_lt_ni.
Theorem C01_src_cc_from_word_gt_ni : forall (x1 : Z) (y1 : Z) (x2 : Z) (y2 : Z), snd (l_cc_from_word_gt x1 y1) = snd (l_cc_from_word_gt x2 y2).
Proof. intros. exact (lk_eq_snd _ _). Qed.
Print Assumptions C01_src_cc_from_word_gt_ni.
Theorem C01_src_cc_from_u32_lt_ni : forall (x1 : Z) (y1 : Z) (x2 : Z) (y2 : Z), snd (l_cc_from_u32_lt x1 y1) = snd (l_cc_from_u32_lt x2 y2).
Proof. intros. exact (lk_eq_snd _ _). Qed.
Print Assumptions C01_src_cc_from_u32_lt_ni.
Theorem C01_src_cc_from_word_le_ni : forall (x1 : Z) (y1 : Z) (x2 : Z) (y2 : Z), snd (l_cc_from_word_le x1 y1) = snd (l_cc_from_word_le x2 y2).
Proof. intros. exact (lk_eq_snd _ _). Qed.
Print Assumptions C01_src_cc_from_word_le_ni.
Theorem C01_src_cc_from_wide_word_le_ni : forall (x1 : Z) (y1 : Z) (x2 : Z) (y2 : Z), snd (l_cc_from_wide_word_le x1 y1) = snd (l_cc_from_wide_word_le x2 y2).
Proof. intros. exact (lk_eq_snd _ _). Qed.
Print Assumptions C01_src_cc_from_wide_word_le_ni.
Theorem C01_src_cc_from_u32_le_ni : forall (x1 : Z) (y1 : Z) (x2 : Z) (y2 : Z), snd (l_cc_from_u32_le x1 y1) = snd (l_cc_from_u32_le x2 y2).
Proof. intros. exact (lk_eq_snd _ _). Qed.
Print Assumptions C01_src_cc_from_u32_le_ni.
Theorem C01_src_cc_select_word_ni : forall (self1 : Z) (a1 : Z) (b1 : Z) (self2 : Z) (a2 : Z) (b2 : Z), snd (l_cc_select_word self1 a1 b1) = snd (l_cc_select_word self2 a2 b2).
Proof. intros. exact (lk_eq_snd _ _). Qed.
Print Assumptions C01_src_cc_select_word_ni.
Theorem C01_src_cc_select_wide_word_ni : forall (self1 : Z) (a1 : Z) (b1 : Z) (self2 : Z) (a2 : Z) (b2 : Z), snd (l_cc_select_wide_word self1 a1 b1) = snd (l_cc_select_wide_word self2 a2 b2).
Proof. intros. exact (lk_eq_snd _ _). Qed.
Print Assumptions C01_src_cc_select_wide_word_ni.
Theorem C01_src_cc_select_u32_ni : forall (self1 : Z) (a1 : Z) (b1 : Z) (self2 : Z) (a2 : Z) (b2 : Z), snd (l_cc_select_u32 self1 a1 b1) = snd (l_cc_select_u32 self2 a2 b2).
Proof. intros. exact (lk_eq_snd _ _). Qed.
Print Assumptions C01_src_cc_select_u32_ni.
Theorem C01_src_cc_if_true_word_ni : forall (self1 : Z) (x1 : Z) (self2 : Z) (x2 : Z), snd (l_cc_if_true_word self1 x1) = snd (l_cc_if_true_word self2 x2).
Proof. intros. exact (lk_eq_snd _ _). Qed.
Print Assumptions C01_src_cc_if_true_word_ni.
Theorem C01_src_cc_if_true_u32_ni : forall (self1 : Z) (x1 : Z) (self2 : Z) (x2 : Z), snd (l_cc_if_true_u32 self1 x1) = snd (l_cc_if_true_u32 self2 x2).
Proof. intros. exact (lk_eq_snd _ _). Qed.
Print Assumptions C01_src_cc_if_true_u32_ni.
Theorem C01_src_cc_is_true_vartime_ni : forall (self1 : Z) (self2 : Z), snd (l_cc_is_true_vartime self1) = snd (l_cc_is_true_vartime self2).
Proof. intros. exact (lk_eq_snd _ _). Qed.
Print Assumptions C01_src_cc_is_true_vartime_ni.
Theorem C01_src_cc_to_u8_ni : forall (self1 : Z) (self2 : Z), snd (l_cc_to_u8 self1) = snd (l_cc_to_u8 self2).
Proof. intros. exact (lk_eq_snd _ _). Qed.
Print Assumptions C01_src_cc_to_u8_ni.
Theorem C01_src_cc_to_bool_vartime_ni : forall (self1 : Z) (self2 : Z), snd (l_cc_to_bool_vartime self1) = snd (l_cc_to_bool_vartime self2).
Proof. intros. exact (lk_eq_snd _ _). Qed.
Print Assumptions C01_src_cc_to_bool_vartime_ni.
(** ** Src/LeakDiv.v *)
Theorem C01_src_dl_lt_ni : forall (a1 : Z) (b1 : Z) (a2 : Z) (b2 : Z), snd (l_dl_lt a1 b1) = snd (l_dl_lt a2 b2).
Proof. intros. exact (lk_eq_snd _ _). Qed.
Print Assumptions C01_src_dl_lt_ni.
Theorem C01_src_dl_select_ni : forall (a1 : Z) (b1 : Z) (c1 : Z) (a2 : Z) (b2 : Z) (c2 : Z), snd (l_dl_select a1 b1 c1) = snd (l_dl_select a2 b2 c2).
Proof. intros. exact (lk_eq_snd _ _). Qed.
Print Assumptions C01_src_dl_select_ni.
Theorem C01_src_short_div_ni : forall dividend_bits divisor_bits dividend1 divisor1 dividend2 divisor2, snd (l_short_div dividend1 dividend_bits divisor1 divisor_bits) = snd (l_short_div dividend2 dividend_bits divisor2 divisor_bits).
Proof. exact (@l_short_div_ni). Qed.
Print Assumptions C01_src_short_div_ni.
Theorem C01_src_reciprocal_ni : forall d1 d2, snd (l_reciprocal d1) = snd (l_reciprocal d2).
Proof. exact (@l_reciprocal_ni). Qed.
Print Assumptions C01_src_reciprocal_ni.
Theorem C01_src_div2by1_ni : forall (u11 : Z) (u01 : Z) (reciprocal1 : g_Reciprocal) (u12 : Z) (u02 : Z) (reciprocal2 : g_Reciprocal), snd (l_div2by1 u11 u01 reciprocal1) = snd (l_div2by1 u12 u02 reciprocal2).
Proof. intros. exact (lk_eq_snd _ _). Qed.
Print Assumptions C01_src_div2by1_ni.
Theorem C01_src_div3by2_ni : forall u21 u11 u01 v1_reciprocal1 v01 u22 u12 u02 v1_reciprocal2 v02, snd (l_div3by2 u21 u11 u01 v1_reciprocal1 v01) = snd (l_div3by2 u22 u12 u02 v1_reciprocal2 v02).
Proof. exact (@l_div3by2_ni). Qed.
Print Assumptions C01_src_div3by2_ni.
(** ** Src/LeakUint.v *)
Theorem C01_src_limb_adc_ni : forall (self1 : Z) (rhs1 : Z) (carry1 : Z) (self2 : Z) (rhs2 : Z) (carry2 : Z), snd (l_limb_adc self1 rhs1 carry1) = snd (l_limb_adc self2 rhs2 carry2).
Proof. intros. exact (lk_eq_snd _ _). Qed.
Print Assumptions C01_src_limb_adc_ni.
Theorem C01_src_limb_sbb_ni : forall (self1 : Z) (rhs1 : Z) (borrow1 : Z) (self2 : Z) (rhs2 : Z) (borrow2 : Z), snd (l_limb_sbb self1 rhs1 borrow1) = snd (l_limb_sbb self2 rhs2 borrow2).
Proof. intros. exact (lk_eq_snd _ _). Qed.
Print Assumptions C01_src_limb_sbb_ni.
Theorem C01_src_limb_select_ni : forall (a1 : Z) (b1 : Z) (c1 : Z) (a2 : Z) (b2 : Z) (c2 : Z), snd (l_limb_select a1 b1 c1) = snd (l_limb_select a2 b2 c2).
Proof. intros. exact (lk_eq_snd _ _). Qed.
Print Assumptions C01_src_limb_select_ni.
Theorem C01_src_limb_is_nonzero_ni : forall (self1 : Z) (self2 : Z), snd (l_limb_is_nonzero self1) = snd (l_limb_is_nonzero self2).
Proof. intros. exact (lk_eq_snd _ _). Qed.
Print Assumptions C01_src_limb_is_nonzero_ni.
Theorem C01_src_uint_adc_ni : forall N self1 rhs1 carry1 self2 rhs2 carry2, snd (l_uint_adc N self1 rhs1 carry1) = snd (l_uint_adc N self2 rhs2 carry2).
Proof. exact (@l_uint_adc_ni). Qed.
Print Assumptions C01_src_uint_adc_ni.
Theorem C01_src_uint_sbb_ni : forall N self1 rhs1 borrow1 self2 rhs2 borrow2, snd (l_uint_sbb N self1 rhs1 borrow1) = snd (l_uint_sbb N self2 rhs2 borrow2).
Proof. exact (@l_uint_sbb_ni). Qed.
Print Assumptions C01_src_uint_sbb_ni.
Theorem C01_src_uint_carrying_neg_ni : forall N self1 self2, snd (l_uint_carrying_neg N self1) = snd (l_uint_carrying_neg N self2).
Proof. exact (@l_uint_carrying_neg_ni). Qed.
Print Assumptions C01_src_uint_carrying_neg_ni.
Theorem C01_src_uint_select_ni : forall N a1 b1 c1 a2 b2 c2, snd (l_uint_select N a1 b1 c1) = snd (l_uint_select N a2 b2 c2).
Proof. exact (@l_uint_select_ni). Qed.
Print Assumptions C01_src_uint_select_ni.
Theorem C01_src_uint_is_nonzero_ni : forall N self1 self2, snd (l_uint_is_nonzero N self1) = snd (l_uint_is_nonzero N self2).
Proof. exact (@l_uint_is_nonzero_ni). Qed.
Print Assumptions C01_src_uint_is_nonzero_ni.
Theorem C01_src_uint_is_odd_ni : forall N self1 self2, snd (l_uint_is_odd N self1) = snd (l_uint_is_odd N self2).
Proof. exact (@l_uint_is_odd_ni). Qed.
Print Assumptions C01_src_uint_is_odd_ni.
Theorem C01_src_uint_eq_ni : forall N lhs1 rhs1 lhs2 rhs2, snd (l_uint_eq N lhs1 rhs1) = snd (l_uint_eq N lhs2 rhs2).
Proof. exact (@l_uint_eq_ni). Qed.
Print Assumptions C01_src_uint_eq_ni.
Theorem C01_src_uint_lt_ni : forall N lhs1 rhs1 lhs2 rhs2, snd (l_uint_lt N lhs1 rhs1) = snd (l_uint_lt N lhs2 rhs2).
Proof. exact (@l_uint_lt_ni). Qed.
Print Assumptions C01_src_uint_lt_ni.
Theorem C01_src_uint_gt_ni : forall N lhs1 rhs1 lhs2 rhs2, snd (l_uint_gt N lhs1 rhs1) = snd (l_uint_gt N lhs2 rhs2).
Proof. exact (@l_uint_gt_ni). Qed.
Print Assumptions C01_src_uint_gt_ni.
Theorem C01_src_uint_lte_ni : forall N lhs1 rhs1 lhs2 rhs2, snd (l_uint_lte N lhs1 rhs1) = snd (l_uint_lte N lhs2 rhs2).
Proof. exact (@l_uint_lte_ni). Qed.
Print Assumptions C01_src_uint_lte_ni.
Theorem C01_src_uint_wrapping_add_ni : forall N self1 rhs1 self2 rhs2, snd (l_uint_wrapping_add N self1 rhs1) = snd (l_uint_wrapping_add N self2 rhs2).
Proof. exact (@l_uint_wrapping_add_ni). Qed.
Print Assumptions C01_src_uint_wrapping_add_ni.
Theorem C01_src_uint_saturating_add_ni : forall N self1 rhs1 self2 rhs2, snd (l_uint_saturating_add N self1 rhs1) = snd (l_uint_saturating_add N self2 rhs2).
Proof. exact (@l_uint_saturating_add_ni). Qed.
Print Assumptions C01_src_uint_saturating_add_ni.
Theorem C01_src_uint_wrapping_sub_ni : forall N self1 rhs1 self2 rhs2, snd (l_uint_wrapping_sub N self1 rhs1) = snd (l_uint_wrapping_sub N self2 rhs2).
Proof. exact (@l_uint_wrapping_sub_ni). Qed.
Print Assumptions C01_src_uint_wrapping_sub_ni.
Theorem C01_src_uint_saturating_sub_ni : forall N self1 rhs1 self2 rhs2, snd (l_uint_saturating_sub N self1 rhs1) = snd (l_uint_saturating_sub N self2 rhs2).
Proof. exact (@l_uint_saturating_sub_ni). Qed.
Print Assumptions C01_src_uint_saturating_sub_ni.
(** ** Src/LeakMod.v *)
Theorem C01_src_limb_wrapping_neg_ni : forall (self1 : Z) (self2 : Z), snd (l_limb_wrapping_neg self1) = snd (l_limb_wrapping_neg self2).
Proof. intros. exact (lk_eq_snd _ _). Qed.
Print Assumptions C01_src_limb_wrapping_neg_ni.
Theorem C01_src_limb_not_ni : forall (self1 : Z) (self2 : Z), snd (l_limb_not self1) = snd (l_limb_not self2).
Proof. intros. exact (lk_eq_snd _ _). Qed.
Print Assumptions C01_src_limb_not_ni.
Theorem C01_src_limb_bitand_ni : forall (self1 : Z) (rhs1 : Z) (self2 : Z) (rhs2 : Z), snd (l_limb_bitand self1 rhs1) = snd (l_limb_bitand self2 rhs2).
Proof. intros. exact (lk_eq_snd _ _). Qed.
Print Assumptions C01_src_limb_bitand_ni.
Theorem C01_src_uint_bitand_limb_ni : forall N self1 rhs1 self2 rhs2, snd (l_uint_bitand_limb N self1 rhs1) = snd (l_uint_bitand_limb N self2 rhs2).
Proof. exact (@l_uint_bitand_limb_ni). Qed.
Print Assumptions C01_src_uint_bitand_limb_ni.
Theorem C01_src_uint_from_word_ni : forall N n1 n2, snd (l_uint_from_word N n1) = snd (l_uint_from_word N n2).
Proof. exact (@l_uint_from_word_ni). Qed.
Print Assumptions C01_src_uint_from_word_ni.
Theorem C01_src_uint_add_mod_ni : forall N self1 rhs1 p1 self2 rhs2 p2, snd (l_uint_add_mod N self1 rhs1 p1) = snd (l_uint_add_mod N self2 rhs2 p2).
Proof. exact (@l_uint_add_mod_ni). Qed.
Print Assumptions C01_src_uint_add_mod_ni.
Theorem C01_src_uint_add_mod_special_ni : forall N self1 rhs1 c1 self2 rhs2 c2, snd (l_uint_add_mod_special N self1 rhs1 c1) = snd (l_uint_add_mod_special N self2 rhs2 c2).
Proof. exact (@l_uint_add_mod_special_ni). Qed.
Print Assumptions C01_src_uint_add_mod_special_ni.
Theorem C01_src_uint_sub_mod_ni : forall N self1 rhs1 p1 self2 rhs2 p2, snd (l_uint_sub_mod N self1 rhs1 p1) = snd (l_uint_sub_mod N self2 rhs2 p2).
Proof. exact (@l_uint_sub_mod_ni). Qed.
Print Assumptions C01_src_uint_sub_mod_ni.
Theorem C01_src_uint_sub_mod_with_carry_ni : forall N self1 carry1 rhs1 p1 self2 carry2 rhs2 p2, snd (l_uint_sub_mod_with_carry N self1 carry1 rhs1 p1) = snd (l_uint_sub_mod_with_carry N self2 carry2 rhs2 p2).
Proof. exact (@l_uint_sub_mod_with_carry_ni). Qed.
Print Assumptions C01_src_uint_sub_mod_with_carry_ni.
Theorem C01_src_uint_sub_mod_special_ni : forall N self1 rhs1 c1 self2 rhs2 c2, snd (l_uint_sub_mod_special N self1 rhs1 c1) = snd (l_uint_sub_mod_special N self2 rhs2 c2).
Proof. exact (@l_uint_sub_mod_special_ni). Qed.
Print Assumptions C01_src_uint_sub_mod_special_ni.
Theorem C01_src_uint_neg_mod_ni : forall N self1 p1 self2 p2, snd (l_uint_neg_mod N self1 p1) = snd (l_uint_neg_mod N self2 p2).
Proof. exact (@l_uint_neg_mod_ni). Qed.
Print Assumptions C01_src_uint_neg_mod_ni.
Theorem C01_src_uint_neg_mod_special_ni : forall N self1 c1 self2 c2, snd (l_uint_neg_mod_special N self1 c1) = snd (l_uint_neg_mod_special N self2 c2).
Proof. exact (@l_uint_neg_mod_special_ni). Qed.
Print Assumptions C01_src_uint_neg_mod_special_ni.
(** ** Src/LeakShift.v *)
Theorem C01_src_limb_HI_BIT_ni : snd (l_limb_HI_BIT ) = snd (l_limb_HI_BIT ).
Proof. intros. exact (lk_eq_snd _ _). Qed.
Print Assumptions C01_src_limb_HI_BIT_ni.
Theorem C01_src_limb_shl1_ni : forall (self1 : Z) (self2 : Z), snd (l_limb_shl1 self1) = snd (l_limb_shl1 self2).
Proof. intros. exact (lk_eq_snd _ _). Qed.
Print Assumptions C01_src_limb_shl1_ni.
Theorem C01_src_limb_shr1_ni : forall (self1 : Z) (self2 : Z), snd (l_limb_shr1 self1) = snd (l_limb_shr1 self2).
Proof. intros. exact (lk_eq_snd _ _). Qed.
Print Assumptions C01_src_limb_shr1_ni.
Theorem C01_src_limb_bitor_ni : forall (self1 : Z) (rhs1 : Z) (self2 : Z) (rhs2 : Z), snd (l_limb_bitor self1 rhs1) = snd (l_limb_bitor self2 rhs2).
Proof. intros. exact (lk_eq_snd _ _). Qed.
Print Assumptions C01_src_limb_bitor_ni.
Theorem C01_src_limb_shl_ni : forall (self1 : Z) (shift1 : Z) (self2 : Z) (shift2 : Z), snd (l_limb_shl self1 shift1) = snd (l_limb_shl self2 shift2).
Proof. intros. exact (lk_eq_snd _ _). Qed.
Print Assumptions C01_src_limb_shl_ni.
Theorem C01_src_limb_shr_ni : forall (self1 : Z) (shift1 : Z) (self2 : Z) (shift2 : Z), snd (l_limb_shr self1 shift1) = snd (l_limb_shr self2 shift2).
Proof. intros. exact (lk_eq_snd _ _). Qed.
Print Assumptions C01_src_limb_shr_ni.
Theorem C01_src_uint_overflowing_shl1_ni : forall N self1 self2, snd (l_uint_overflowing_shl1 N self1) = snd (l_uint_overflowing_shl1 N self2).
Proof. exact (@l_uint_overflowing_shl1_ni). Qed.
Print Assumptions C01_src_uint_overflowing_shl1_ni.
Theorem C01_src_uint_shr1_with_carry_ni : forall N self1 self2, snd (l_uint_shr1_with_carry N self1) = snd (l_uint_shr1_with_carry N self2).
Proof. exact (@l_uint_shr1_with_carry_ni). Qed.
Print Assumptions C01_src_uint_shr1_with_carry_ni.
Theorem C01_src_uint_shr1_ni : forall N self1 self2, snd (l_uint_shr1 N self1) = snd (l_uint_shr1 N self2).
Proof. exact (@l_uint_shr1_ni). Qed.
Print Assumptions C01_src_uint_shr1_ni.
Theorem C01_src_uint_shl_limb_ni : forall N self1 shift1 self2 shift2, snd (l_uint_shl_limb N self1 shift1) = snd (l_uint_shl_limb N self2 shift2).
Proof. exact (@l_uint_shl_limb_ni). Qed.
Print Assumptions C01_src_uint_shl_limb_ni.
Theorem C01_src_ctopt_new_ni : forall (T : Type) (value1 : T) (is_some1 : Z) (value2 : T) (is_some2 : Z), snd (l_ctopt_new value1 is_some1) = snd (l_ctopt_new value2 is_some2).
Proof. intros. exact (lk_eq_snd _ _). Qed.
Print Assumptions C01_src_ctopt_new_ni.
Theorem C01_src_ctopt_some_ni : forall (T : Type) (value1 : T) (value2 : T), snd (l_ctopt_some value1) = snd (l_ctopt_some value2).
Proof. intros. exact (lk_eq_snd _ _). Qed.
Print Assumptions C01_src_ctopt_some_ni.
Theorem C01_src_ctopt_none_ni : forall (T : Type) (dummy_value1 : T) (dummy_value2 : T), snd (l_ctopt_none dummy_value1) = snd (l_ctopt_none dummy_value2).
Proof. intros. exact (lk_eq_snd _ _). Qed.
Print Assumptions C01_src_ctopt_none_ni.
Theorem C01_src_uint_BITS_ni : forall (N : nat), snd (l_uint_BITS N) = snd (l_uint_BITS N).
Proof. intros. exact (lk_eq_snd _ _). Qed.
Print Assumptions C01_src_uint_BITS_ni.
Theorem C01_src_uint_overflowing_shl_vartime_ni : forall N shift self1 self2, snd (l_uint_overflowing_shl_vartime N self1 shift) = snd (l_uint_overflowing_shl_vartime N self2 shift).
Proof. exact (@l_uint_overflowing_shl_vartime_ni). Qed.
Print Assumptions C01_src_uint_overflowing_shl_vartime_ni.
Theorem C01_src_uint_overflowing_shr_vartime_ni : forall N shift self1 self2, snd (l_uint_overflowing_shr_vartime N self1 shift) = snd (l_uint_overflowing_shr_vartime N self2 shift).
Proof. exact (@l_uint_overflowing_shr_vartime_ni). Qed.
Print Assumptions C01_src_uint_overflowing_shr_vartime_ni.
(** ** Src/LeakMul.v *)
Theorem C01_src_limb_mac_ni : forall (self1 : Z) (b1 : Z) (c1 : Z) (carry1 : Z) (self2 : Z) (b2 : Z) (c2 : Z) (carry2 : Z), snd (l_limb_mac self1 b1 c1 carry1) = snd (l_limb_mac self2 b2 c2 carry2).
Proof. intros. exact (lk_eq_snd _ _). Qed.
Print Assumptions C01_src_limb_mac_ni.
Theorem C01_src_limb_overflowing_add_ni : forall (self1 : Z) (rhs1 : Z) (self2 : Z) (rhs2 : Z), snd (l_limb_overflowing_add self1 rhs1) = snd (l_limb_overflowing_add self2 rhs2).
Proof. intros. exact (lk_eq_snd _ _). Qed.
Print Assumptions C01_src_limb_overflowing_add_ni.
Theorem C01_src_schoolbook_multiplication_ni : forall lhs1 rhs1 lo1 hi1 lhs2 rhs2 lo2 hi2, length lhs1 = length lhs2 -> length rhs1 = length rhs2 -> length lo1 = length lo2 -> length hi1 = length hi2 -> snd (l_schoolbook_multiplication lhs1 rhs1 lo1 hi1) = snd (l_schoolbook_multiplication lhs2 rhs2 lo2 hi2).
Proof. exact (@l_schoolbook_multiplication_ni). Qed.
Print Assumptions C01_src_schoolbook_multiplication_ni.
Theorem C01_src_schoolbook_squaring_ni : forall limbs1 lo1 hi1 limbs2 lo2 hi2, length limbs1 = length limbs2 -> length lo1 = length lo2 -> length hi1 = length hi2 -> snd (l_schoolbook_squaring limbs1 lo1 hi1) = snd (l_schoolbook_squaring limbs2 lo2 hi2).
Proof. exact (@l_schoolbook_squaring_ni). Qed.
Print Assumptions C01_src_schoolbook_squaring_ni.
(** ** Src/LeakInt.v *)
Theorem C01_src_limb_bitxor_ni : forall (self1 : Z) (rhs1 : Z) (self2 : Z) (rhs2 : Z), snd (l_limb_bitxor self1 rhs1) = snd (l_limb_bitxor self2 rhs2).
Proof. intros. exact (lk_eq_snd _ _). Qed.
Print Assumptions C01_src_limb_bitxor_ni.
Theorem C01_src_uint_bitxor_ni : forall N self1 rhs1 self2 rhs2, snd (l_uint_bitxor N self1 rhs1) = snd (l_uint_bitxor N self2 rhs2).
Proof. exact (@l_uint_bitxor_ni). Qed.
Print Assumptions C01_src_uint_bitxor_ni.
Theorem C01_src_uint_to_words_ni : forall N self1 self2, snd (l_uint_to_words N self1) = snd (l_uint_to_words N self2).
Proof. exact (@l_uint_to_words_ni). Qed.
Print Assumptions C01_src_uint_to_words_ni.
Theorem C01_src_uint_from_u8_ni : forall N n1 n2, snd (l_uint_from_u8 N n1) = snd (l_uint_from_u8 N n2).
Proof. exact (@l_uint_from_u8_ni). Qed.
Print Assumptions C01_src_uint_from_u8_ni.
Theorem C01_src_uint_ONE_ni : forall N, snd (l_uint_ONE N) = snd (l_uint_ONE N).
Proof. exact (@l_uint_ONE_ni). Qed.
Print Assumptions C01_src_uint_ONE_ni.
Theorem C01_src_uint_wrapping_neg_ni : forall N self1 self2, snd (l_uint_wrapping_neg N self1) = snd (l_uint_wrapping_neg N self2).
Proof. exact (@l_uint_wrapping_neg_ni). Qed.
Print Assumptions C01_src_uint_wrapping_neg_ni.
Theorem C01_src_uint_wrapping_neg_if_ni : forall N self1 negate1 self2 negate2, snd (l_uint_wrapping_neg_if N self1 negate1) = snd (l_uint_wrapping_neg_if N self2 negate2).
Proof. exact (@l_uint_wrapping_neg_if_ni). Qed.
Print Assumptions C01_src_uint_wrapping_neg_if_ni.
Theorem C01_src_int_ONE_ni : forall N, snd (l_int_ONE N) = snd (l_int_ONE N).
Proof. exact (@l_int_ONE_ni). Qed.
Print Assumptions C01_src_int_ONE_ni.
Theorem C01_src_int_most_significant_word_ni : forall N self1 self2, snd (l_int_most_significant_word N self1) = snd (l_int_most_significant_word N self2).
Proof. exact (@l_int_most_significant_word_ni). Qed.
Print Assumptions C01_src_int_most_significant_word_ni.
Theorem C01_src_int_is_negative_ni : forall N self1 self2, snd (l_int_is_negative N self1) = snd (l_int_is_negative N self2).
Proof. exact (@l_int_is_negative_ni). Qed.
Print Assumptions C01_src_int_is_negative_ni.
Theorem C01_src_int_overflowing_add_ni : forall N self1 rhs1 self2 rhs2, snd (l_int_overflowing_add N self1 rhs1) = snd (l_int_overflowing_add N self2 rhs2).
Proof. exact (@l_int_overflowing_add_ni). Qed.
Print Assumptions C01_src_int_overflowing_add_ni.
Theorem C01_src_int_wrapping_add_ni : forall N self1 rhs1 self2 rhs2, snd (l_int_wrapping_add N self1 rhs1) = snd (l_int_wrapping_add N self2 rhs2).
Proof. exact (@l_int_wrapping_add_ni). Qed.
Print Assumptions C01_src_int_wrapping_add_ni.
Theorem C01_src_int_wrapping_sub_ni : forall N self1 v1 self2 v2, snd (l_int_wrapping_sub N self1 v1) = snd (l_int_wrapping_sub N self2 v2).
Proof. exact (@l_int_wrapping_sub_ni). Qed.
Print Assumptions C01_src_int_wrapping_sub_ni.
Theorem C01_src_int_overflowing_neg_ni : forall N self1 self2, snd (l_int_overflowing_neg N self1) = snd (l_int_overflowing_neg N self2).
Proof. exact (@l_int_overflowing_neg_ni). Qed.
Print Assumptions C01_src_int_overflowing_neg_ni.
Theorem C01_src_int_wrapping_neg_ni : forall N self1 self2, snd (l_int_wrapping_neg N self1) = snd (l_int_wrapping_neg N self2).
Proof. exact (@l_int_wrapping_neg_ni). Qed.
Print Assumptions C01_src_int_wrapping_neg_ni.
Theorem C01_src_int_wrapping_neg_if_ni : forall N self1 negate1 self2 negate2, snd (l_int_wrapping_neg_if N self1 negate1) = snd (l_int_wrapping_neg_if N self2 negate2).
Proof. exact (@l_int_wrapping_neg_if_ni). Qed.
Print Assumptions C01_src_int_wrapping_neg_if_ni.
Theorem C01_src_int_abs_sign_ni : forall N self1 self2, snd (l_int_abs_sign N self1) = snd (l_int_abs_sign N self2).
Proof. exact (@l_int_abs_sign_ni). Qed.
Print Assumptions C01_src_int_abs_sign_ni.
Theorem C01_src_int_abs_ni : forall N self1 self2, snd (l_int_abs N self1) = snd (l_int_abs N self2).
Proof. exact (@l_int_abs_ni). Qed.
Print Assumptions C01_src_int_abs_ni.
(** ** Src/LeakDivLimb.v *)
Theorem C01_src_uint_as_limbs_ni : forall (N : nat) (self1 : list Z) (self2 : list Z), snd (l_uint_as_limbs N self1) = snd (l_uint_as_limbs N self2).
Proof. intros. exact (lk_eq_snd _ _). Qed.
Print Assumptions C01_src_uint_as_limbs_ni.
Theorem C01_src_Reciprocal_new_ni : forall divisor1 divisor2, snd (l_Reciprocal_new divisor1) = snd (l_Reciprocal_new divisor2).
Proof. exact (@l_Reciprocal_new_ni). Qed.
Print Assumptions C01_src_Reciprocal_new_ni.
Theorem C01_src_div_rem_limb_with_reciprocal_ni : forall L u1 reciprocal1 u2 reciprocal2, snd (l_div_rem_limb_with_reciprocal L u1 reciprocal1) = snd (l_div_rem_limb_with_reciprocal L u2 reciprocal2).
Proof. exact (@l_div_rem_limb_with_reciprocal_ni). Qed.
Print Assumptions C01_src_div_rem_limb_with_reciprocal_ni.
Theorem C01_src_rem_limb_with_reciprocal_ni : forall L u1 reciprocal1 u2 reciprocal2, snd (l_rem_limb_with_reciprocal L u1 reciprocal1) = snd (l_rem_limb_with_reciprocal L u2 reciprocal2).
Proof. exact (@l_rem_limb_with_reciprocal_ni). Qed.
Print Assumptions C01_src_rem_limb_with_reciprocal_ni.
Theorem C01_src_rem_limb_with_reciprocal_wide_ni : forall L lo_hi1 reciprocal1 lo_hi2 reciprocal2, snd (l_rem_limb_with_reciprocal_wide L lo_hi1 reciprocal1) = snd (l_rem_limb_with_reciprocal_wide L lo_hi2 reciprocal2).
Proof. exact (@l_rem_limb_with_reciprocal_wide_ni). Qed.
Print Assumptions C01_src_rem_limb_with_reciprocal_wide_ni.
(** ** Src/LeakMonty.v *)
Theorem C01_src_limb_wrapping_mul_ni : forall (self1 : Z) (rhs1 : Z) (self2 : Z) (rhs2 : Z), snd (l_limb_wrapping_mul self1 rhs1) = snd (l_limb_wrapping_mul self2 rhs2).
Proof. intros. exact (lk_eq_snd _ _). Qed.
Print Assumptions C01_src_limb_wrapping_mul_ni.
Theorem C01_src_montgomery_reduction_inner_ni : forall upper1 lower1 modulus1 mod_neg_inv1 upper2 lower2 modulus2 mod_neg_inv2, length modulus1 = length modulus2 -> snd (l_montgomery_reduction_inner upper1 lower1 modulus1 mod_neg_inv1) = snd (l_montgomery_reduction_inner upper2 lower2 modulus2 mod_neg_inv2).
Proof. exact (@l_montgomery_reduction_inner_ni). Qed.
Print Assumptions C01_src_montgomery_reduction_inner_ni.
Theorem C01_src_montgomery_reduction_ni : forall N lower_upper1 modulus1 mod_neg_inv1 lower_upper2 modulus2 mod_neg_inv2, length modulus1 = length modulus2 -> snd (l_montgomery_reduction N lower_upper1 modulus1 mod_neg_inv1) = snd (l_montgomery_reduction N lower_upper2 modulus2 mod_neg_inv2).
Proof. exact (@l_montgomery_reduction_ni). Qed.
Print Assumptions C01_src_montgomery_reduction_ni.
(** ** Src/LeakHex.v *)
Theorem C01_src_decode_nibble_ni : forall (src1 : Z) (src2 : Z), snd (l_decode_nibble src1) = snd (l_decode_nibble src2).
Proof. intros. exact (lk_eq_snd _ _). Qed.
Print Assumptions C01_src_decode_nibble_ni.
Theorem C01_src_decode_hex_byte_ni : forall bytes1 bytes2, snd (l_decode_hex_byte bytes1) = snd (l_decode_hex_byte bytes2).
Proof. exact (@l_decode_hex_byte_ni). Qed.
Print Assumptions C01_src_decode_hex_byte_ni.
(** ** Src/LeakBits.v *)
Theorem C01_src_limb_leading_zeros_ni : forall (self1 : Z) (self2 : Z), snd (l_limb_leading_zeros self1) = snd (l_limb_leading_zeros self2).
Proof. intros. exact (lk_eq_snd _ _). Qed.
Print Assumptions C01_src_limb_leading_zeros_ni.
Theorem C01_src_slice_leading_zeros_ni : forall limbs1 limbs2, length limbs1 = length limbs2 -> snd (l_slice_leading_zeros limbs1) = snd (l_slice_leading_zeros limbs2).
Proof. exact (@l_slice_leading_zeros_ni). Qed.
Print Assumptions C01_src_slice_leading_zeros_ni.
Theorem C01_src_uint_leading_zeros_ni : forall N self1 self2, length self1 = length self2 -> snd (l_uint_leading_zeros N self1) = snd (l_uint_leading_zeros N self2).
Proof. exact (@l_uint_leading_zeros_ni). Qed.
Print Assumptions C01_src_uint_leading_zeros_ni.
Theorem C01_src_uint_bits_ni : forall N self1 self2, length self1 = length self2 -> snd (l_uint_bits N self1) = snd (l_uint_bits N self2).
Proof. exact (@l_uint_bits_ni). Qed.
Print Assumptions C01_src_uint_bits_ni.
Theorem C01_src_ctopt_uint_expect_ni : forall (N : nat) (self1 : (list Z * Z)) (msg1 : unit) (self2 : (list Z * Z)) (msg2 : unit), snd (l_ctopt_uint_expect N self1 msg1) = snd (l_ctopt_uint_expect N self2 msg2).
Proof. intros. exact (lk_eq_snd _ _). Qed.
Print Assumptions C01_src_ctopt_uint_expect_ni.
Theorem C01_src_uint_overflowing_shl_ni : forall N self1 shift1 self2 shift2,
  pubview (snd (l_uint_overflowing_shl N self1 shift1)) = pubview (snd (l_uint_overflowing_shl N self2 shift2)).
Proof. intros N self1 shift1 self2 shift2. rewrite !l_uint_overflowing_shl_eq. cbn [snd]. apply pv_uint_overflowing_shl. Qed.
Print Assumptions C01_src_uint_overflowing_shl_ni.
Theorem C01_src_uint_overflowing_shl_strict_refuted : exists N self s1 s2, snd (l_uint_overflowing_shl N self s1) <> snd (l_uint_overflowing_shl N self s2).
Proof. exists 1%nat, [5], 1, 2. apply (nth_neq 0 0). vm_compute. discriminate. Qed.
Print Assumptions C01_src_uint_overflowing_shl_strict_refuted.
Theorem C01_src_uint_shl_ni : forall N self1 shift1 self2 shift2,
  pubview (snd (l_uint_shl N self1 shift1)) = pubview (snd (l_uint_shl N self2 shift2)).
Proof. intros N self1 shift1 self2 shift2. rewrite !l_uint_shl_eq. cbn [snd]. apply pv_uint_shl. Qed.
Print Assumptions C01_src_uint_shl_ni.
Theorem C01_src_uint_shl_strict_refuted : exists N self s1 s2, snd (l_uint_shl N self s1) <> snd (l_uint_shl N self s2).
Proof. exists 1%nat, [5], 1, 2. apply (nth_neq 0 0). vm_compute. discriminate. Qed.
Print Assumptions C01_src_uint_shl_strict_refuted.
Theorem C01_src_uint_overflowing_shr_ni : forall N self1 shift1 self2 shift2,
  pubview (snd (l_uint_overflowing_shr N self1 shift1)) = pubview (snd (l_uint_overflowing_shr N self2 shift2)).
Proof. intros N self1 shift1 self2 shift2. rewrite !l_uint_overflowing_shr_eq. cbn [snd]. apply pv_uint_overflowing_shr. Qed.
Print Assumptions C01_src_uint_overflowing_shr_ni.
Theorem C01_src_uint_overflowing_shr_strict_refuted : exists N self s1 s2, snd (l_uint_overflowing_shr N self s1) <> snd (l_uint_overflowing_shr N self s2).
Proof. exists 1%nat, [5], 1, 2. apply (nth_neq 0 0). vm_compute. discriminate. Qed.
Print Assumptions C01_src_uint_overflowing_shr_strict_refuted.
Theorem C01_src_uint_shr_ni : forall N self1 shift1 self2 shift2,
  pubview (snd (l_uint_shr N self1 shift1)) = pubview (snd (l_uint_shr N self2 shift2)).
Proof. intros N self1 shift1 self2 shift2. rewrite !l_uint_shr_eq. cbn [snd]. apply pv_uint_shr. Qed.
Print Assumptions C01_src_uint_shr_ni.
Theorem C01_src_uint_shr_strict_refuted : exists N self s1 s2, snd (l_uint_shr N self s1) <> snd (l_uint_shr N self s2).
Proof. exists 1%nat, [5], 1, 2. apply (nth_neq 0 0). vm_compute. discriminate. Qed.
Print Assumptions C01_src_uint_shr_strict_refuted.
Theorem C01_src_uint_to_limbs_ni : forall (N : nat) (self1 : list Z) (self2 : list Z), snd (l_uint_to_limbs N self1) = snd (l_uint_to_limbs N self2).
Proof. intros. exact (lk_eq_snd _ _). Qed.
Print Assumptions C01_src_uint_to_limbs_ni.
(** ** Src/LeakDivCt.v *)
Theorem C01_src_limb_to_nz_ni : forall (self1 : Z) (self2 : Z), snd (l_limb_to_nz self1) = snd (l_limb_to_nz self2).
Proof. intros. exact (lk_eq_snd _ _). Qed.
Print Assumptions C01_src_limb_to_nz_ni.
Theorem C01_src_ctopt_nzlimb_expect_ni : forall (self1 : (Z * Z)) (msg1 : unit) (self2 : (Z * Z)) (msg2 : unit), snd (l_ctopt_nzlimb_expect self1 msg1) = snd (l_ctopt_nzlimb_expect self2 msg2).
Proof. intros. exact (lk_eq_snd _ _). Qed.
Print Assumptions C01_src_ctopt_nzlimb_expect_ni.
Theorem C01_src_uint_div_rem_limb_ni : forall N self1 rhs1 self2 rhs2, snd (l_uint_div_rem_limb N self1 rhs1) = snd (l_uint_div_rem_limb N self2 rhs2).
Proof. exact (@l_uint_div_rem_limb_ni). Qed.
Print Assumptions C01_src_uint_div_rem_limb_ni.
Theorem C01_src_uint_div_rem_ni : forall N self1 rhs1 self2 rhs2, length rhs1 = length rhs2 ->
  pubview (snd (l_uint_div_rem N self1 rhs1)) = pubview (snd (l_uint_div_rem N self2 rhs2)).
Proof. exact l_uint_div_rem_pv. Qed.
Print Assumptions C01_src_uint_div_rem_ni.
Theorem C01_src_uint_div_rem_strict_refuted :
  exists N self rhs1 rhs2, length rhs1 = length rhs2 /\ snd (l_uint_div_rem N self rhs1) <> snd (l_uint_div_rem N self rhs2).
Proof. exists 2%nat, [5; 7], [3; 0], [0; 1]. split; [reflexivity|]. apply (nth_neq 4 0). vm_compute. discriminate. Qed.
Print Assumptions C01_src_uint_div_rem_strict_refuted.

(** ** the traces are not trivial *)
(** Uint::adc on 3 limbs: the trip count, then per limb two reads and one write at the loop counter *)
Example C01_src_uint_adc_trace :
  snd (l_uint_adc 3 [1; 2; 3] [4; 5; 6] 0) =
  [ev_trip 3; ev_ix 0; ev_ix 0; ev_ix 0; ev_ix 1; ev_ix 1; ev_ix 1; ev_ix 2; ev_ix 2; ev_ix 2].
Proof. vm_compute. reflexivity. Qed.
(** the trace of a `_vartime` function DOES vary with its public operand: a shift by 1 bit and by one whole limb *)
Example C01_src_shl_vartime_varies :
  snd (l_uint_overflowing_shl_vartime 4 [1; 2; 3; 4] 1) <> snd (l_uint_overflowing_shl_vartime 4 [1; 2; 3; 4] 64).
Proof. vm_compute. discriminate. Qed.
(** and the long division at 3 limbs emits several hundred events, the same for two unrelated operand pairs (up to pubview) *)
Example C01_src_div_rem_nonvacuous :
  Nat.ltb 300 (length (snd (l_uint_div_rem 3 [1; 2; 3] [5; 6; 0]))) = true /\
  pubview (snd (l_uint_div_rem 3 [1; 2; 3] [5; 6; 0])) = pubview (snd (l_uint_div_rem 3 [2 ^ 64 - 1; 0; 2 ^ 63] [0; 0; 1])).
Proof. split; [vm_compute; reflexivity | apply l_uint_div_rem_pv; reflexivity]. Qed.

(** ** Square root, almost-Montgomery multiplication, special-modulus multiplication, signed division fronts (Src/LeakSqrtP.v, LeakAmmP.v, LeakMulModP.v, LeakIntDivP.v).
    Uint::sqrt / wrapping_sqrt and every division front rest on Uint::div_rem and the constant-time shifts, so their statement is
    up to [pubview] like that of Uint::div_rem, with the machine-checked witness that the strict trace varies.
    Uint::mul_mod_special calls the EXTERN `Uint::split_mul` (not translated): it is the parameter [lx] returning (value, trace), and
    the theorem ASSUMES [lx_public lx] -- the trace of lx depends on the limb count and the lengths of its arguments only.
    NonZero::new_unwrap branches on `n != 0`: the divisor of a division front is a NonZero by type, stated as the hypotheses
    [nz_limb] / [nz_uint] / [nz_int] (the test of the source text returns true), under which the branch is the same in both runs. *)
From CB Require Import Src.LeakSqrt Src.LeakSqrtP Src.LeakAmm Src.LeakAmmP Src.LeakMulMod Src.LeakMulModP.

(** ** Src/LeakSqrt.v *)
Theorem C01_src_uint_LOG2_BITS_ni : forall N, snd (l_uint_LOG2_BITS N) = snd (l_uint_LOG2_BITS N).
Proof. exact (@l_uint_LOG2_BITS_ni). Qed.
Print Assumptions C01_src_uint_LOG2_BITS_ni.
Theorem C01_src_uint_sqrt_ni : forall N self1 self2, length self1 = length self2 ->
  pubview (snd (l_uint_sqrt N self1)) = pubview (snd (l_uint_sqrt N self2)).
Proof. exact (@l_uint_sqrt_pv). Qed.
Print Assumptions C01_src_uint_sqrt_ni.
Theorem C01_src_uint_sqrt_strict_refuted : exists N self1 self2, length self1 = length self2 /\ snd (l_uint_sqrt N self1) <> snd (l_uint_sqrt N self2).
Proof. exists 1%nat, [4], [1000000]. split; [reflexivity|]. apply (nth_neq 3 0). vm_compute. discriminate. Qed.
Print Assumptions C01_src_uint_sqrt_strict_refuted.
Theorem C01_src_uint_wrapping_sqrt_ni : forall N self1 self2, length self1 = length self2 ->
  pubview (snd (l_uint_wrapping_sqrt N self1)) = pubview (snd (l_uint_wrapping_sqrt N self2)).
Proof. lk_pv. Qed.
Print Assumptions C01_src_uint_wrapping_sqrt_ni.
Theorem C01_src_uint_wrapping_sqrt_strict_refuted : exists N self1 self2, length self1 = length self2 /\ snd (l_uint_wrapping_sqrt N self1) <> snd (l_uint_wrapping_sqrt N self2).
Proof. exists 1%nat, [4], [1000000]. split; [reflexivity|]. apply (nth_neq 3 0). vm_compute. discriminate. Qed.
Print Assumptions C01_src_uint_wrapping_sqrt_strict_refuted.

(** ** Src/LeakAmm.v *)
Theorem C01_src_limb_wrapping_add_ni : forall (self1 : Z) (rhs1 : Z) (self2 : Z) (rhs2 : Z), snd (l_limb_wrapping_add self1 rhs1) = snd (l_limb_wrapping_add self2 rhs2).
Proof. intros. exact (lk_eq_snd _ _). Qed.
Print Assumptions C01_src_limb_wrapping_add_ni.
Theorem C01_src_add_mul_carry_ni : forall z1 x1 y1 z2 x2 y2, length z1 = length z2 -> length x1 = length x2 ->
  snd (l_add_mul_carry z1 x1 y1) = snd (l_add_mul_carry z2 x2 y2).
Proof. exact (@l_add_mul_carry_ni). Qed.
Print Assumptions C01_src_add_mul_carry_ni.
Theorem C01_src_add_mul_carry_and_shift_ni : forall z1 x1 y1 z2 x2 y2, length z1 = length z2 -> length x1 = length x2 ->
  snd (l_add_mul_carry_and_shift z1 x1 y1) = snd (l_add_mul_carry_and_shift z2 x2 y2).
Proof. exact (@l_add_mul_carry_and_shift_ni). Qed.
Print Assumptions C01_src_add_mul_carry_and_shift_ni.
Theorem C01_src_conditional_sub_ni : forall z1 x1 c1 z2 x2 c2, length z1 = length z2 -> length x1 = length x2 ->
  snd (l_conditional_sub z1 x1 c1) = snd (l_conditional_sub z2 x2 c2).
Proof. exact (@l_conditional_sub_ni). Qed.
Print Assumptions C01_src_conditional_sub_ni.
Theorem C01_src_almost_montgomery_mul_ni : forall z1 x1 y1 m1 k1 z2 x2 y2 m2 k2, length z1 = length z2 -> length x1 = length x2 -> length y1 = length y2 -> length m1 = length m2 ->
  snd (l_almost_montgomery_mul z1 x1 y1 m1 k1) = snd (l_almost_montgomery_mul z2 x2 y2 m2 k2).
Proof. exact (@l_almost_montgomery_mul_ni). Qed.
Print Assumptions C01_src_almost_montgomery_mul_ni.
Theorem C01_src_almost_montgomery_mul_by_one_ni : forall z1 x1 m1 k1 z2 x2 m2 k2, length z1 = length z2 -> length x1 = length x2 -> length m1 = length m2 ->
  snd (l_almost_montgomery_mul_by_one z1 x1 m1 k1) = snd (l_almost_montgomery_mul_by_one z2 x2 m2 k2).
Proof. exact (@l_almost_montgomery_mul_by_one_ni). Qed.
Print Assumptions C01_src_almost_montgomery_mul_by_one_ni.

(** ** Src/LeakMulMod.v *)
Theorem C01_src_uint_double_mod_ni : forall N self1 p1 self2 p2, snd (l_uint_double_mod N self1 p1) = snd (l_uint_double_mod N self2 p2).
Proof. exact (@l_uint_double_mod_ni). Qed.
Print Assumptions C01_src_uint_double_mod_ni.
Theorem C01_src_uint_from_words_ni : forall N arr1 arr2, snd (l_uint_from_words N arr1) = snd (l_uint_from_words N arr2).
Proof. exact (@l_uint_from_words_ni). Qed.
Print Assumptions C01_src_uint_from_words_ni.
Theorem C01_src_uint_from_wide_word_ni : forall N n1 n2, snd (l_uint_from_wide_word N n1) = snd (l_uint_from_wide_word N n2).
Proof. exact (@l_uint_from_wide_word_ni). Qed.
Print Assumptions C01_src_uint_from_wide_word_ni.
Theorem C01_src_nz_limb_new_unwrap_ni : forall n1 n2, nz_limb n1 -> nz_limb n2 -> snd (l_nz_limb_new_unwrap n1) = snd (l_nz_limb_new_unwrap n2).
Proof. intros n1 n2. unfold nz_limb. intros H1 H2. unfold l_nz_limb_new_unwrap. lk_straight. rewrite H1, H2. lk_rel_done. Qed.
Print Assumptions C01_src_nz_limb_new_unwrap_ni.
Theorem C01_src_mul_rem_ni : forall a1 b1 d1 a2 b2 d2, snd (l_mul_rem a1 b1 d1) = snd (l_mul_rem a2 b2 d2).
Proof. exact (@l_mul_rem_ni). Qed.
Print Assumptions C01_src_mul_rem_ni.
Theorem C01_src_mac_by_limb_ni : forall N a1 b1 c1 carry1 a2 b2 c2 carry2, snd (l_mac_by_limb N a1 b1 c1 carry1) = snd (l_mac_by_limb N a2 b2 c2 carry2).
Proof. exact (@l_mac_by_limb_ni). Qed.
Print Assumptions C01_src_mac_by_limb_ni.
Theorem C01_src_uint_mul_mod_special_ni : forall lx N c self1 rhs1 self2 rhs2, lx_public lx -> length self1 = length self2 -> length rhs1 = length rhs2 ->
  snd (l_uint_mul_mod_special lx N self1 rhs1 c) = snd (l_uint_mul_mod_special lx N self2 rhs2 c).
Proof. exact (@l_uint_mul_mod_special_ni). Qed.
Print Assumptions C01_src_uint_mul_mod_special_ni.
Theorem C01_src_split_mul_assumption_satisfiable : lx_public (fun N a b => l_schoolbook_multiplication a b (repeat 0 N) (repeat 0 N)).
Proof. intros N a1 b1 a2 b2 Ha Hb. apply l_schoolbook_multiplication_ni; auto. Qed.
Print Assumptions C01_src_split_mul_assumption_satisfiable.

From CB Require Import Src.LeakIntDiv Src.LeakIntDivP.
(** ** Src/LeakIntDiv.v *)
Theorem C01_src_int_MAX_ni : forall N, snd (l_int_MAX N) = snd (l_int_MAX N).
Proof. exact (@l_int_MAX_ni). Qed.
Print Assumptions C01_src_int_MAX_ni.
Theorem C01_src_int_MIN_ni : forall N, snd (l_int_MIN N) = snd (l_int_MIN N).
Proof. exact (@l_int_MIN_ni). Qed.
Print Assumptions C01_src_int_MIN_ni.
Theorem C01_src_int_from_bits_ni : forall N1 value1 N2 value2, snd (l_int_from_bits N1 value1) = snd (l_int_from_bits N2 value2).
Proof. intros. exact (lk_eq_snd _ _). Qed.
Print Assumptions C01_src_int_from_bits_ni.
Theorem C01_src_uint_as_int_ni : forall N1 self1 N2 self2, snd (l_uint_as_int N1 self1) = snd (l_uint_as_int N2 self2).
Proof. intros. exact (lk_eq_snd _ _). Qed.
Print Assumptions C01_src_uint_as_int_ni.
Theorem C01_src_int_new_from_abs_sign_ni : forall N abs1 is_negative1 abs2 is_negative2, snd (l_int_new_from_abs_sign N abs1 is_negative1) = snd (l_int_new_from_abs_sign N abs2 is_negative2).
Proof. exact (@l_int_new_from_abs_sign_ni). Qed.
Print Assumptions C01_src_int_new_from_abs_sign_ni.
Theorem C01_src_nz_uint_new_unwrap_ni : forall N n1 n2, nz_uint N n1 -> nz_uint N n2 -> snd (l_nz_uint_new_unwrap N n1) = snd (l_nz_uint_new_unwrap N n2).
Proof. exact (@l_nz_uint_new_unwrap_ni). Qed.
Print Assumptions C01_src_nz_uint_new_unwrap_ni.
Theorem C01_src_nz_int_abs_sign_ni : forall N self1 self2, nz_int N self1 -> nz_int N self2 -> snd (l_nz_int_abs_sign N self1) = snd (l_nz_int_abs_sign N self2).
Proof. exact (@l_nz_int_abs_sign_ni). Qed.
Print Assumptions C01_src_nz_int_abs_sign_ni.
Theorem C01_src_int_div_rem_base_ni : forall N self1 rhs1 self2 rhs2, nz_int N rhs1 -> nz_int N rhs2 ->
  pubview (snd (l_int_div_rem_base N self1 rhs1)) = pubview (snd (l_int_div_rem_base N self2 rhs2)).
Proof. exact (@l_int_div_rem_base_pv). Qed.
Print Assumptions C01_src_int_div_rem_base_ni.
Theorem C01_src_int_checked_div_rem_ni : forall N self1 rhs1 self2 rhs2, nz_int N rhs1 -> nz_int N rhs2 ->
  pubview (snd (l_int_checked_div_rem N self1 rhs1)) = pubview (snd (l_int_checked_div_rem N self2 rhs2)).
Proof. exact (@l_int_checked_div_rem_pv). Qed.
Print Assumptions C01_src_int_checked_div_rem_ni.
Theorem C01_src_int_rem_ni : forall N self1 rhs1 self2 rhs2, nz_int N rhs1 -> nz_int N rhs2 ->
  pubview (snd (l_int_rem N self1 rhs1)) = pubview (snd (l_int_rem N self2 rhs2)).
Proof. intros N self1 rhs1 self2 rhs2 H1 H2. pose proof (l_int_checked_div_rem_pv N self1 rhs1 self2 rhs2 H1 H2). lk_unfold_ni. lk_straight_sp. lk_pv_done. Qed.
Print Assumptions C01_src_int_rem_ni.
Theorem C01_src_int_checked_div_rem_floor_ni : forall N self1 rhs1 self2 rhs2, nz_int N rhs1 -> nz_int N rhs2 ->
  pubview (snd (l_int_checked_div_rem_floor N self1 rhs1)) = pubview (snd (l_int_checked_div_rem_floor N self2 rhs2)).
Proof. intros N self1 rhs1 self2 rhs2 H1 H2. pose proof (f_equal pubview (t_nz_int_abs_sign_ni N _ _ H1 H2)). lk_unfold_ni. lk_straight_sp. lk_pv_done. Qed.
Print Assumptions C01_src_int_checked_div_rem_floor_ni.
Theorem C01_src_int_div_rem_base_uint_ni : forall N self1 rhs1 self2 rhs2, length rhs1 = length rhs2 ->
  pubview (snd (l_int_div_rem_base_uint N self1 rhs1)) = pubview (snd (l_int_div_rem_base_uint N self2 rhs2)).
Proof. exact (@l_int_div_rem_base_uint_pv). Qed.
Print Assumptions C01_src_int_div_rem_base_uint_ni.
Theorem C01_src_int_div_rem_uint_ni : forall N self1 rhs1 self2 rhs2, length rhs1 = length rhs2 ->
  pubview (snd (l_int_div_rem_uint N self1 rhs1)) = pubview (snd (l_int_div_rem_uint N self2 rhs2)).
Proof. exact (@l_int_div_rem_uint_pv). Qed.
Print Assumptions C01_src_int_div_rem_uint_ni.
Theorem C01_src_int_div_uint_ni : forall N self1 rhs1 self2 rhs2, length rhs1 = length rhs2 ->
  pubview (snd (l_int_div_uint N self1 rhs1)) = pubview (snd (l_int_div_uint N self2 rhs2)).
Proof. exact (@l_int_div_uint_pv). Qed.
Print Assumptions C01_src_int_div_uint_ni.
Theorem C01_src_int_rem_uint_ni : forall N self1 rhs1 self2 rhs2, length rhs1 = length rhs2 ->
  pubview (snd (l_int_rem_uint N self1 rhs1)) = pubview (snd (l_int_rem_uint N self2 rhs2)).
Proof. exact (@l_int_rem_uint_pv). Qed.
Print Assumptions C01_src_int_rem_uint_ni.
Theorem C01_src_int_div_rem_floor_uint_ni : forall N self1 rhs1 self2 rhs2, length rhs1 = length rhs2 ->
  pubview (snd (l_int_div_rem_floor_uint N self1 rhs1)) = pubview (snd (l_int_div_rem_floor_uint N self2 rhs2)).
Proof. exact (@l_int_div_rem_floor_uint_pv). Qed.
Print Assumptions C01_src_int_div_rem_floor_uint_ni.
Theorem C01_src_int_div_floor_uint_ni : forall N self1 rhs1 self2 rhs2, length rhs1 = length rhs2 ->
  pubview (snd (l_int_div_floor_uint N self1 rhs1)) = pubview (snd (l_int_div_floor_uint N self2 rhs2)).
Proof. exact (@l_int_div_floor_uint_pv). Qed.
Print Assumptions C01_src_int_div_floor_uint_ni.
Theorem C01_src_int_normalized_rem_ni : forall N self1 rhs1 self2 rhs2, length rhs1 = length rhs2 ->
  pubview (snd (l_int_normalized_rem N self1 rhs1)) = pubview (snd (l_int_normalized_rem N self2 rhs2)).
Proof. exact (@l_int_normalized_rem_pv). Qed.
Print Assumptions C01_src_int_normalized_rem_ni.
Theorem C01_src_nz_int_satisfiable : nz_int 2 [3; 0] /\ nz_int 2 [2 ^ 64 - 1; 2 ^ 64 - 1] /\ nz_int 2 [0; 1].
Proof. repeat split; vm_compute; reflexivity. Qed.
Print Assumptions C01_src_nz_int_satisfiable.
Theorem C01_src_int_checked_div_rem_strict_refuted : exists N self rhs1 rhs2, nz_int N rhs1 /\ nz_int N rhs2 /\
  snd (l_int_checked_div_rem N self rhs1) <> snd (l_int_checked_div_rem N self rhs2).
Proof. exists 2%nat, [5; 7], [3; 0], [0; 1]. split; [vm_compute; reflexivity|]. split; [vm_compute; reflexivity|]. apply (nth_neq 46 0). vm_compute. discriminate. Qed.
Print Assumptions C01_src_int_checked_div_rem_strict_refuted.
Theorem C01_src_int_checked_div_rem_floor_strict_refuted : exists N self rhs1 rhs2, nz_int N rhs1 /\ nz_int N rhs2 /\
  snd (l_int_checked_div_rem_floor N self rhs1) <> snd (l_int_checked_div_rem_floor N self rhs2).
Proof. exists 2%nat, [5; 7], [3; 0], [0; 1]. split; [vm_compute; reflexivity|]. split; [vm_compute; reflexivity|]. apply (nth_neq 46 0). vm_compute. discriminate. Qed.
Print Assumptions C01_src_int_checked_div_rem_floor_strict_refuted.
Theorem C01_src_int_div_rem_uint_strict_refuted : exists N self rhs1 rhs2, length rhs1 = length rhs2 /\
  snd (l_int_div_rem_uint N self rhs1) <> snd (l_int_div_rem_uint N self rhs2).
Proof. exists 2%nat, [5; 7], [3; 0], [0; 1]. split; [reflexivity|]. apply (nth_neq 23 0). vm_compute. discriminate. Qed.
Print Assumptions C01_src_int_div_rem_uint_strict_refuted.

(** ** these traces are not trivial: one row of add_mul_carry on 2 limbs; the CIOS loop of almost_montgomery_mul on 2 limbs emits
    the same 48 events for two unrelated operand sets *)
Example C01_src_add_mul_carry_trace :
  snd (l_add_mul_carry [1; 2] [3; 4] 5) = [ev_br false; ev_trip 2; ev_ix 0; ev_ix 0; ev_ix 0; ev_ix 1; ev_ix 1; ev_ix 1].
Proof. vm_compute. reflexivity. Qed.
Example C01_src_amm_nonvacuous :
  Nat.ltb 40 (length (snd (l_almost_montgomery_mul [0; 0] [1; 2] [3; 4] [5; 6] 7))) = true /\
  snd (l_almost_montgomery_mul [0; 0] [1; 2] [3; 4] [5; 6] 7) = snd (l_almost_montgomery_mul [9; 9] [2 ^ 64 - 1; 0] [0; 2 ^ 63] [1; 1] 0).
Proof. split; [vm_compute; reflexivity | apply l_almost_montgomery_mul_ni; reflexivity]. Qed.

(** ** Uint::cmp, the Int comparisons, the byte / hex / primitive conversions, the NonZero / Odd constructors, the word-level
    kernels of safegcd. tools/rs2v_leak.py mirrors the constructs these need (i8 / i64 / i128 arithmetic, nested arrays, byte slices and &str, calls through a type alias, nested function items, deferred
    untyped lets, `loop { .. break .. }` with fuel). PUBLIC in every statement: the limb count, and the LENGTH of a byte slice / hex string
    (hypotheses [length x1 = length x2]); the bytes and hex characters themselves, every limb and every word are secret.
    NOT noninterferent at source level (each with a machine-checked witness; see Src/LeakSafeGcdP.v):
      UnsatInt::mul  branches on the SIGN of its i64 multiplicand (C01_src_unsat_mul_ni assumes the signs agree; C01_src_unsat_mul_sign_visible);
      fg             noninterferent in f, g for a PUBLIC matrix only (C01_src_fg_ni, C01_src_fg_matrix_sign_visible);
      de             C01_src_de_refuted (the sign of md / me, computed from d, e, reaches that branch); C01_src_de_ni_given_signs: nothing else;
      jump           C01_src_jump_refuted: it branches on `delta > 0` and (nested `min`) on the trailing zeros of g -- finding F10. l_jump takes
                     fuel and returns option (value * trace) ([tr_of]: the trace of a run that reached the `break`);
                     C01_src_jump_consistent: its value is g_jump's;
      iterations     `/ 17`: up to pubview only (C01_src_iterations_ni, C01_src_iterations_strict_refuted). *)
From CB Require Import Src.LeakCmp Src.LeakCmpP Src.LeakIntCmp Src.LeakIntCmpP Src.LeakConv Src.LeakConvP Src.LeakWrap Src.LeakWrapP Src.GenSafeGcd Src.LeakSafeGcd Src.LeakSafeGcdP.
(** ** Src/LeakCmp.v *)
Theorem C01_src_uint_cmp_ni : forall N lhs1 rhs1 lhs2 rhs2, snd (l_uint_cmp N lhs1 rhs1) = snd (l_uint_cmp N lhs2 rhs2).
Proof. exact (@l_uint_cmp_ni). Qed.
Print Assumptions C01_src_uint_cmp_ni.
(** ** Src/LeakIntCmp.v *)
Theorem C01_src_int_SIGN_MASK_ni : forall N, snd (l_int_SIGN_MASK N) = snd (l_int_SIGN_MASK N).
Proof. exact (@l_int_SIGN_MASK_ni). Qed.
Print Assumptions C01_src_int_SIGN_MASK_ni.
Theorem C01_src_int_invert_msb_ni : forall N self1 self2, snd (l_int_invert_msb N self1) = snd (l_int_invert_msb N self2).
Proof. exact (@l_int_invert_msb_ni). Qed.
Print Assumptions C01_src_int_invert_msb_ni.
Theorem C01_src_int_eq_ni : forall N lhs1 rhs1 lhs2 rhs2, snd (l_int_eq N lhs1 rhs1) = snd (l_int_eq N lhs2 rhs2).
Proof. exact (@l_int_eq_ni). Qed.
Print Assumptions C01_src_int_eq_ni.
Theorem C01_src_int_lt_ni : forall N lhs1 rhs1 lhs2 rhs2, snd (l_int_lt N lhs1 rhs1) = snd (l_int_lt N lhs2 rhs2).
Proof. exact (@l_int_lt_ni). Qed.
Print Assumptions C01_src_int_lt_ni.
Theorem C01_src_int_gt_ni : forall N lhs1 rhs1 lhs2 rhs2, snd (l_int_gt N lhs1 rhs1) = snd (l_int_gt N lhs2 rhs2).
Proof. exact (@l_int_gt_ni). Qed.
Print Assumptions C01_src_int_gt_ni.
Theorem C01_src_int_cmp_ni : forall N lhs1 rhs1 lhs2 rhs2, snd (l_int_cmp N lhs1 rhs1) = snd (l_int_cmp N lhs2 rhs2).
Proof. exact (@l_int_cmp_ni). Qed.
Print Assumptions C01_src_int_cmp_ni.
(** ** Src/LeakConv.v *)
Theorem C01_src_uint_from_be_slice_ni : forall N bytes1 bytes2, length bytes1 = length bytes2 -> snd (l_uint_from_be_slice N bytes1) = snd (l_uint_from_be_slice N bytes2).
Proof. exact (@l_uint_from_be_slice_ni). Qed.
Print Assumptions C01_src_uint_from_be_slice_ni.
Theorem C01_src_uint_from_le_slice_ni : forall N bytes1 bytes2, length bytes1 = length bytes2 -> snd (l_uint_from_le_slice N bytes1) = snd (l_uint_from_le_slice N bytes2).
Proof. exact (@l_uint_from_le_slice_ni). Qed.
Print Assumptions C01_src_uint_from_le_slice_ni.
Theorem C01_src_uint_from_be_hex_ni : forall N hex1 hex2, length hex1 = length hex2 -> snd (l_uint_from_be_hex N hex1) = snd (l_uint_from_be_hex N hex2).
Proof. exact (@l_uint_from_be_hex_ni). Qed.
Print Assumptions C01_src_uint_from_be_hex_ni.
Theorem C01_src_uint_from_le_hex_ni : forall N hex1 hex2, length hex1 = length hex2 -> snd (l_uint_from_le_hex N hex1) = snd (l_uint_from_le_hex N hex2).
Proof. exact (@l_uint_from_le_hex_ni). Qed.
Print Assumptions C01_src_uint_from_le_hex_ni.
Theorem C01_src_uint_from_u16_ni : forall N n1 n2, snd (l_uint_from_u16 N n1) = snd (l_uint_from_u16 N n2).
Proof. exact (@l_uint_from_u16_ni). Qed.
Print Assumptions C01_src_uint_from_u16_ni.
Theorem C01_src_uint_from_u32_ni : forall N n1 n2, snd (l_uint_from_u32 N n1) = snd (l_uint_from_u32 N n2).
Proof. exact (@l_uint_from_u32_ni). Qed.
Print Assumptions C01_src_uint_from_u32_ni.
Theorem C01_src_uint_from_u64_ni : forall N n1 n2, snd (l_uint_from_u64 N n1) = snd (l_uint_from_u64 N n2).
Proof. exact (@l_uint_from_u64_ni). Qed.
Print Assumptions C01_src_uint_from_u64_ni.
Theorem C01_src_uint_from_u128_ni : forall N n1 n2, snd (l_uint_from_u128 N n1) = snd (l_uint_from_u128 N n2).
Proof. exact (@l_uint_from_u128_ni). Qed.
Print Assumptions C01_src_uint_from_u128_ni.
Theorem C01_src_int_from_be_hex_ni : forall N hex1 hex2, length hex1 = length hex2 -> snd (l_int_from_be_hex N hex1) = snd (l_int_from_be_hex N hex2).
Proof. exact (@l_int_from_be_hex_ni). Qed.
Print Assumptions C01_src_int_from_be_hex_ni.
(** ** Src/LeakWrap.v *)
Theorem C01_src_uint_to_nz_ni : forall N self1 self2, snd (l_uint_to_nz N self1) = snd (l_uint_to_nz N self2).
Proof. exact (@l_uint_to_nz_ni). Qed.
Print Assumptions C01_src_uint_to_nz_ni.
Theorem C01_src_uint_to_odd_ni : forall N self1 self2, snd (l_uint_to_odd N self1) = snd (l_uint_to_odd N self2).
Proof. exact (@l_uint_to_odd_ni). Qed.
Print Assumptions C01_src_uint_to_odd_ni.
Theorem C01_src_int_to_nz_ni : forall N self1 self2, snd (l_int_to_nz N self1) = snd (l_int_to_nz N self2).
Proof. exact (@l_int_to_nz_ni). Qed.
Print Assumptions C01_src_int_to_nz_ni.
Theorem C01_src_int_to_odd_ni : forall N self1 self2, snd (l_int_to_odd N self1) = snd (l_int_to_odd N self2).
Proof. exact (@l_int_to_odd_ni). Qed.
Print Assumptions C01_src_int_to_odd_ni.
Theorem C01_src_odd_uint_from_be_hex_ni : forall N hex1 hex2, length hex1 = length hex2 -> snd (l_odd_uint_from_be_hex N hex1) = snd (l_odd_uint_from_be_hex N hex2).
Proof. exact (@l_odd_uint_from_be_hex_ni). Qed.
Print Assumptions C01_src_odd_uint_from_be_hex_ni.
Theorem C01_src_odd_uint_from_le_hex_ni : forall N hex1 hex2, length hex1 = length hex2 -> snd (l_odd_uint_from_le_hex N hex1) = snd (l_odd_uint_from_le_hex N hex2).
Proof. exact (@l_odd_uint_from_le_hex_ni). Qed.
Print Assumptions C01_src_odd_uint_from_le_hex_ni.
(** ** Src/LeakSafeGcd.v *)
Theorem C01_src_cc_as_u64_mask_ni : forall self1 self2, snd (l_cc_as_u64_mask self1) = snd (l_cc_as_u64_mask self2).
Proof. intros. exact (lk_eq_snd _ _). Qed.
Print Assumptions C01_src_cc_as_u64_mask_ni.
Theorem C01_src_cc_from_u64_lsb_ni : forall value1 value2, snd (l_cc_from_u64_lsb value1) = snd (l_cc_from_u64_lsb value2).
Proof. intros. exact (lk_eq_snd _ _). Qed.
Print Assumptions C01_src_cc_from_u64_lsb_ni.
Theorem C01_src_cc_from_u64_nonzero_ni : forall value1 value2, snd (l_cc_from_u64_nonzero value1) = snd (l_cc_from_u64_nonzero value2).
Proof. intros. exact (lk_eq_snd _ _). Qed.
Print Assumptions C01_src_cc_from_u64_nonzero_ni.
Theorem C01_src_cc_from_u64_eq_ni : forall x1 y1 x2 y2, snd (l_cc_from_u64_eq x1 y1) = snd (l_cc_from_u64_eq x2 y2).
Proof. intros. exact (lk_eq_snd _ _). Qed.
Print Assumptions C01_src_cc_from_u64_eq_ni.
Theorem C01_src_cc_from_u64_lt_ni : forall x1 y1 x2 y2, snd (l_cc_from_u64_lt x1 y1) = snd (l_cc_from_u64_lt x2 y2).
Proof. intros. exact (lk_eq_snd _ _). Qed.
Print Assumptions C01_src_cc_from_u64_lt_ni.
Theorem C01_src_cc_from_u64_gt_ni : forall x1 y1 x2 y2, snd (l_cc_from_u64_gt x1 y1) = snd (l_cc_from_u64_gt x2 y2).
Proof. intros. exact (lk_eq_snd _ _). Qed.
Print Assumptions C01_src_cc_from_u64_gt_ni.
Theorem C01_src_cc_select_u64_ni : forall self1 a1 b1 self2 a2 b2, snd (l_cc_select_u64 self1 a1 b1) = snd (l_cc_select_u64 self2 a2 b2).
Proof. intros. exact (lk_eq_snd _ _). Qed.
Print Assumptions C01_src_cc_select_u64_ni.
Theorem C01_src_inv_mod2_62_ni : forall value1 value2, snd (l_inv_mod2_62 value1) = snd (l_inv_mod2_62 value2).
Proof. intros. exact (lk_eq_snd _ _). Qed.
Print Assumptions C01_src_inv_mod2_62_ni.
Theorem C01_src_unsat_LIMB_BITS_ni : forall N, snd (l_unsat_LIMB_BITS N) = snd (l_unsat_LIMB_BITS N).
Proof. intros. exact (lk_eq_snd _ _). Qed.
Print Assumptions C01_src_unsat_LIMB_BITS_ni.
Theorem C01_src_unsat_MASK_ni : forall N, snd (l_unsat_MASK N) = snd (l_unsat_MASK N).
Proof. intros. exact (lk_eq_snd _ _). Qed.
Print Assumptions C01_src_unsat_MASK_ni.
Theorem C01_src_unsat_MINUS_ONE_ni : forall N, snd (l_unsat_MINUS_ONE N) = snd (l_unsat_MINUS_ONE N).
Proof. intros. exact (lk_eq_snd _ _). Qed.
Print Assumptions C01_src_unsat_MINUS_ONE_ni.
Theorem C01_src_unsat_ZERO_ni : forall N, snd (l_unsat_ZERO N) = snd (l_unsat_ZERO N).
Proof. intros. exact (lk_eq_snd _ _). Qed.
Print Assumptions C01_src_unsat_ZERO_ni.
Theorem C01_src_unsat_ONE_ni : forall N, snd (l_unsat_ONE N) = snd (l_unsat_ONE N).
Proof. intros. exact (lk_eq_snd _ _). Qed.
Print Assumptions C01_src_unsat_ONE_ni.
Theorem C01_src_unsat_is_negative_ni : forall N self1 self2, snd (l_unsat_is_negative N self1) = snd (l_unsat_is_negative N self2).
Proof. intros. exact (lk_eq_snd _ _). Qed.
Print Assumptions C01_src_unsat_is_negative_ni.
Theorem C01_src_unsat_lowest_ni : forall N self1 self2, snd (l_unsat_lowest N self1) = snd (l_unsat_lowest N self2).
Proof. intros. exact (lk_eq_snd _ _). Qed.
Print Assumptions C01_src_unsat_lowest_ni.
Theorem C01_src_unsat_add_ni : forall N self1 other1 self2 other2, snd (l_unsat_add N self1 other1) = snd (l_unsat_add N self2 other2).
Proof. intros. exact (lk_eq_snd _ _). Qed.
Print Assumptions C01_src_unsat_add_ni.
Theorem C01_src_unsat_mul_ni : forall N self1 other1 self2 other2, Z.ltb other1 0 = Z.ltb other2 0 -> snd (l_unsat_mul N self1 other1) = snd (l_unsat_mul N self2 other2).
Proof. exact (@l_unsat_mul_ni). Qed.
Print Assumptions C01_src_unsat_mul_ni.
Theorem C01_src_unsat_mul_sign_visible : exists N self other1 other2, snd (l_unsat_mul N self other1) <> snd (l_unsat_mul N self other2).
Proof. exists 1%nat, [5], 3, (-3). apply (nth_neq 0 0). vm_compute. discriminate. Qed.
Print Assumptions C01_src_unsat_mul_sign_visible.
Theorem C01_src_unsat_neg_ni : forall N self1 self2, snd (l_unsat_neg N self1) = snd (l_unsat_neg N self2).
Proof. intros. exact (lk_eq_snd _ _). Qed.
Print Assumptions C01_src_unsat_neg_ni.
Theorem C01_src_unsat_shr_ni : forall N self1 self2, snd (l_unsat_shr N self1) = snd (l_unsat_shr N self2).
Proof. intros. exact (lk_eq_snd _ _). Qed.
Print Assumptions C01_src_unsat_shr_ni.
Theorem C01_src_unsat_eq_ni : forall N self1 other1 self2 other2, snd (l_unsat_eq N self1 other1) = snd (l_unsat_eq N self2 other2).
Proof. intros. exact (lk_eq_snd _ _). Qed.
Print Assumptions C01_src_unsat_eq_ni.
Theorem C01_src_unsat_select_ni : forall N a1 b1 choice1 a2 b2 choice2, snd (l_unsat_select N a1 b1 choice1) = snd (l_unsat_select N a2 b2 choice2).
Proof. intros. exact (lk_eq_snd _ _). Qed.
Print Assumptions C01_src_unsat_select_ni.
Theorem C01_src_fg_ni : forall N t f1 g1 f2 g2, snd (l_fg N f1 g1 t) = snd (l_fg N f2 g2 t).
Proof. intros. exact (lk_eq_snd _ _). Qed.
Print Assumptions C01_src_fg_ni.
Theorem C01_src_fg_matrix_sign_visible : exists N f g t1 t2, snd (l_fg N f g t1) <> snd (l_fg N f g t2).
Proof. exists 1%nat, [5], [7], [[1; 0]; [0; 1]], [[-1; 0]; [0; 1]]. apply (nth_neq 2 0). vm_compute. discriminate. Qed.
Print Assumptions C01_src_fg_matrix_sign_visible.
Theorem C01_src_de_ni_given_signs : forall N modulus inverse t d1 e1 d2 e2, Z.ltb (fst (de_md_me N inverse t d1 e1)) 0 = Z.ltb (fst (de_md_me N inverse t d2 e2)) 0 ->
  Z.ltb (snd (de_md_me N inverse t d1 e1)) 0 = Z.ltb (snd (de_md_me N inverse t d2 e2)) 0 ->
  snd (l_de N modulus inverse t d1 e1) = snd (l_de N modulus inverse t d2 e2).
Proof. intros N modulus inverse t d1 e1 d2 e2. unfold de_md_me. cbv zeta. cbn [fst snd]. intros H1 H2. unfold l_de. lk_straight. rewrite H1, H2. lk_rel_done. Qed.
Print Assumptions C01_src_de_ni_given_signs.
Theorem C01_src_de_refuted : exists N modulus inverse t d1 e1 d2 e2, snd (l_de N modulus inverse t d1 e1) <> snd (l_de N modulus inverse t d2 e2).
Proof. exists 2%nat, [7; 0], 1, [[1; 0]; [0; 1]], [0; 0], [0; 0], [1; 0], [1; 0]. apply (nth_neq 47 0). vm_compute. discriminate. Qed.
Print Assumptions C01_src_de_refuted.
Theorem C01_src_jump_refuted : exists fuel f g1 g2 delta,
  l_jump fuel f g1 delta <> None /\ l_jump fuel f g2 delta <> None /\ tr_of (l_jump fuel f g1 delta) <> tr_of (l_jump fuel f g2 delta).
Proof. exists 3%nat, [1], [2], [3], 1. apply (tr_of_differ _ _ 28). vm_compute. reflexivity. Qed.
Print Assumptions C01_src_jump_refuted.
Theorem C01_src_jump_delta_visible : exists fuel f g delta1 delta2,
  l_jump fuel f g delta1 <> None /\ l_jump fuel f g delta2 <> None /\ tr_of (l_jump fuel f g delta1) <> tr_of (l_jump fuel f g delta2).
Proof. exists 4%nat, [1], [3], 1, (-5). apply (tr_of_differ _ _ 9). vm_compute. reflexivity. Qed.
Print Assumptions C01_src_jump_delta_visible.
Theorem C01_src_unsat_leading_zeros_ni : forall N self1 self2, snd (l_unsat_leading_zeros N self1) = snd (l_unsat_leading_zeros N self2).
Proof. intros. exact (lk_eq_snd _ _). Qed.
Print Assumptions C01_src_unsat_leading_zeros_ni.
Theorem C01_src_unsat_bits_ni : forall N self1 self2, snd (l_unsat_bits N self1) = snd (l_unsat_bits N self2).
Proof. intros. exact (lk_eq_snd _ _). Qed.
Print Assumptions C01_src_unsat_bits_ni.
Theorem C01_src_iterations_ni : forall f_bits1 g_bits1 f_bits2 g_bits2, pubview (snd (l_iterations f_bits1 g_bits1)) = pubview (snd (l_iterations f_bits2 g_bits2)).
Proof. lk_pv. Qed.
Print Assumptions C01_src_iterations_ni.
Theorem C01_src_iterations_strict_refuted : exists f1 g1 f2 g2, snd (l_iterations f1 g1) <> snd (l_iterations f2 g2).
Proof. exists 10, 20, 100, 200. apply (nth_neq 0 0). vm_compute. discriminate. Qed.
Print Assumptions C01_src_iterations_strict_refuted.
Theorem C01_src_jump_consistent : forall fuel f g delta, option_map fst (l_jump fuel f g delta) = g_jump fuel f g delta.
Proof. exact l_jump_fst. Qed.
Print Assumptions C01_src_jump_consistent.

(** ** Src/LeakLogic.v: Uint::bitand / bitor / not (both operands secret, the limb count public) *)
Theorem C01_src_uint_bitand_ni : forall N self1 rhs1 self2 rhs2, snd (l_uint_bitand N self1 rhs1) = snd (l_uint_bitand N self2 rhs2).
Proof. exact (@l_uint_bitand_ni). Qed.
Print Assumptions C01_src_uint_bitand_ni.
Theorem C01_src_uint_bitor_ni : forall N self1 rhs1 self2 rhs2, snd (l_uint_bitor N self1 rhs1) = snd (l_uint_bitor N self2 rhs2).
Proof. exact (@l_uint_bitor_ni). Qed.
Print Assumptions C01_src_uint_bitor_ni.
Theorem C01_src_uint_not_ni : forall N self1 self2, snd (l_uint_not N self1) = snd (l_uint_not N self2).
Proof. exact (@l_uint_not_ni). Qed.
Print Assumptions C01_src_uint_not_ni.
Theorem C01_src_uint_bitwise_consistent : forall N a b,
  fst (l_uint_bitand N a b) = g_uint_bitand N a b /\ fst (l_uint_bitor N a b) = g_uint_bitor N a b /\
  fst (l_uint_not N a) = g_uint_not N a.
Proof. intros N a b. repeat split; [apply l_uint_bitand_fst | apply l_uint_bitor_fst | apply l_uint_not_fst]. Qed.
Print Assumptions C01_src_uint_bitwise_consistent.

(** ** these traces are not trivial *)
Example C01_src_uint_cmp_trace : snd (l_uint_cmp 2 [1; 2] [3; 4]) = [ev_trip 2; ev_ix 0; ev_ix 0; ev_ix 1; ev_ix 1].
Proof. vm_compute. reflexivity. Qed.
Example C01_src_from_be_hex_nonvacuous :
  Nat.ltb 40 (length (snd (l_uint_from_be_hex 1 [48; 49; 50; 51; 52; 53; 54; 55; 56; 57; 97; 98; 99; 100; 101; 102]))) = true /\
  snd (l_uint_from_be_hex 1 [48; 49; 50; 51; 52; 53; 54; 55; 56; 57; 97; 98; 99; 100; 101; 102]) = snd (l_uint_from_be_hex 1 (repeat 70 16)).
Proof. split; [vm_compute; reflexivity | apply l_uint_from_be_hex_ni; reflexivity]. Qed.
