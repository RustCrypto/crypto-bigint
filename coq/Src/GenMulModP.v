(** Translator tie, group MulMod: `Uint::double_mod` (src/uint/add_mod.rs), `mac_by_limb` and `Uint::mul_mod_special`
    (src/uint/mul_mod.rs), `mul_rem` (src/uint/div_limb.rs), `Uint::from_words` (src/uint.rs), `Uint::from_wide_word`
    (src/uint/from.rs), `NonZero<Limb>::new_unwrap` (src/non_zero.rs) as regenerated from /repo's CURRENT source
    (Src/GenMulMod.v) equal the models of Model/ModArith.v for every limb count and all limb values.
    `Uint::split_mul` (Karatsuba dispatch, macro-generated: outside the translated subset) is an EXTERN: the generated
    `g_uint_mul_mod_special` takes it as its first argument [xmul], exactly as the model [mul_mod_special] takes [mulf]; the
    equality holds for EVERY [xmul] whose result has the right shape, and the exactness theorem for every [xmul] that returns
    the double-width product ([split_mul_ok]).  The model returns None where `NonZero::new_unwrap` panics (c = 0 at one limb). *)
From CB Require Import Model.SrcPrelude Model.Word Model.Limbs Model.AddSub Model.Mul Model.Div Model.ModArith.
From CB Require Import Src.GenPrim Src.GenDiv Src.GenUint Src.GenMod Src.GenShift Src.GenMul Src.GenInt Src.GenDivLimb Src.GenMulMod.
From CB Require Import Src.GenWidthP Src.GenPrimP Src.GenDivP Src.GenLoopP Src.GenIterP Src.GenUintP Src.GenModP Src.GenShiftP Src.GenMulP
  Src.GenDivLimbP.
From CB Require Import Proofs.WordP Proofs.WordPredP Proofs.LimbsP Proofs.AddSubP Proofs.DivP Proofs.DivFinalP Proofs.ModArithP Proofs.SqrtLimbsP.
From Coq Require Import Lia List.
Import ListNotations.
Open Scope Z_scope.
Transparent B.

Local Lemma Bpos : 0 < B. Proof. reflexivity. Qed.
Local Lemma mul_words a b : is_word a -> is_word b -> 0 <= a * b <= (B - 1) * (B - 1).
Proof.
  unfold is_word. intros Ha Hb. split; [apply Z.mul_nonneg_nonneg; lia|]. apply Z.mul_le_mono_nonneg; lia.
Qed.

Lemma g_uint_double_mod_eq n a p : length a = n -> length p = n -> usz n -> wf a -> wf p ->
  g_uint_double_mod n a p = double_mod a p.
Proof.
  intros Ha Hp Hn Wa Wp. unfold g_uint_double_mod, double_mod.
  rewrite g_uint_overflowing_shl1_val by assumption.
  destruct (shl1_val a) as [w carry] eqn:E1.
  assert (Hw : wf w /\ length w = n /\ is_word carry).
  { unfold shl1_val in E1. apply pair_equal_spec in E1. destruct E1 as [<- <-]. rewrite Ha.
    split; [apply wf_to_limbs|]. split; [apply length_to_limbs|].
    pose proof (eval_bounds a Wa) as Hb. rewrite Ha in Hb. pose proof B_gt1. pose proof (Bn_pos n). unfold is_word. split.
    - apply Z.div_pos; lia.
    - apply Z.div_lt_upper_bound; [lia|]. assert (Bn n * 2 <= Bn n * B) by (apply Z.mul_le_mono_nonneg_l; lia). lia. }
  destruct Hw as (Ww & Lw & Wc). apply g_add_mod_tail_eq; assumption.
Qed.

Lemma g_uint_double_mod_correct n a p : length a = n -> length p = n -> usz n -> wf a -> wf p -> eval a < eval p ->
  eval (g_uint_double_mod n a p) = (2 * eval a) mod eval p /\ wf (g_uint_double_mod n a p) /\ length (g_uint_double_mod n a p) = n.
Proof.
  intros Ha Hp Hn Wa Wp Hlt. rewrite g_uint_double_mod_eq by assumption. rewrite <- Ha.
  apply double_mod_correct; try assumption. lia.
Qed.

(* Uint::from_words, from_wide_word, NonZero<Limb>::new_unwrap *)
Lemma g_uint_from_words_eq n a : length a = n -> usz n -> g_uint_from_words n a = a.
Proof.
  intros Ha Hn. unfold g_uint_from_words.
  rewrite (iter_idx _ (fun j (out : list Z) => upd_ out j ((fun x => x) (nth j a 0))))
    by (first [exact Hn | intros i s Hi; reflexivity]).
  subst n. rewrite (loop_map1 (fun x => x) a). apply map_id.
Qed.

Lemma g_uint_from_wide_word_eq n x : (2 <= n)%nat -> 0 <= x < 2 ^ 128 -> g_uint_from_wide_word n x = from_wide_word_n n x.
Proof.
  intros Hn Hx. unfold g_uint_from_wide_word, from_wide_word_n, resize, trunc_, shr_.
  destruct n as [|[|k]]; [lia|lia|]. change (2 ^ 64) with B.
  cbn [repeat Z.to_nat upd_ firstn skipn app]. unfold zeros. cbn [repeat firstn app].
  change (Pos.to_nat 1) with 1%nat. cbn [firstn skipn app].
  f_equal. f_equal; [apply Z.mod_small; change B with (2 ^ 64); split; [apply Z.div_pos; lia | apply Z.div_lt_upper_bound; lia]|].
  clear. induction k as [|k IH]; [reflexivity|]. cbn [repeat firstn]. f_equal. exact IH.
Qed.

Lemma g_nz_limb_new_unwrap_eq d : is_word d -> d <> 0 -> g_nz_limb_new_unwrap d = d.
Proof.
  intros Wd Hd. unfold g_nz_limb_new_unwrap. rewrite g_limb_is_nonzero_eq, from_word_nonzero_spec by assumption.
  rewrite g_cc_is_true_vartime_spec. destruct (Z.eqb_spec d 0); [contradiction|reflexivity].
Qed.

(* mul_rem: Reciprocal::new, mulhilo, from_words([lo, hi]), rem_limb_with_reciprocal at two limbs *)
Lemma g_mul_rem_eq a b d : is_word a -> is_word b -> 0 < d < B ->
  g_mul_rem a b d = (let '(hi, lo) := mulhilo a b in rem_limb_with_reciprocal [lo; hi] (recip_new d)).
Proof.
  intros Wa Wb Hd. unfold g_mul_rem. rewrite g_Reciprocal_new_eq, g_mulhilo_eq by assumption.
  destruct (mulhilo a b) as [hi lo] eqn:E.
  assert (W : is_word hi /\ is_word lo).
  { unfold mulhilo in E. inversion E. pose proof (mul_words a b Wa Wb). pose proof Bpos. unfold is_word in *. split.
    - split; [apply Z.div_pos; lia | apply Z.div_lt_upper_bound; lia].
    - apply Z.mod_pos_bound. lia. }
  destruct W as [Whi Wlo].
  rewrite g_uint_from_words_eq by (first [reflexivity | unfold usz; cbn; lia]).
  apply g_rem_limb_with_reciprocal_eq; [reflexivity | lia | cbn; lia | | apply recip_for_words with (d := d); apply recip_new_correct; exact Hd].
  apply wf_cons. split; [assumption|]. apply wf_cons. split; [assumption|apply wf_nil].
Qed.

(* mac_by_limb: the in-place loop over (i, a, carry) *)
Lemma fold_mac_inplace c : is_word c -> forall a b pa pb carry, wf a -> wf b -> is_word carry ->
  length a = length b -> length pa = length pb ->
  fold_left (fun (s : list Z * Z) j =>
      let '(t0, t1) := g_limb_mac (nth j (fst s) 0) (nth j (pb ++ b) 0) c (snd s) in (upd_ (fst s) j t0, t1))
    (seq (length pa) (length a)) (pa ++ a, carry)
  = (pa ++ fst (mac_by_limb a b c carry), snd (mac_by_limb a b c carry)).
Proof.
  intros Wc. induction a as [|x a IH]; intros b pa pb carry Wa Wb Wk Hl Hp.
  - destruct b; [|discriminate]. reflexivity.
  - destruct b as [|y b]; [discriminate|]. cbn [length seq fold_left fst snd mac_by_limb].
    apply wf_cons in Wa. destruct Wa as [Wx Wa]. apply wf_cons in Wb. destruct Wb as [Wy Wb].
    rewrite nth_middle. replace (nth (length pa) (pb ++ y :: b) 0) with y by (rewrite Hp; symmetry; apply nth_middle).
    rewrite g_limb_mac_eq by assumption.
    destruct (mac x y c carry) as [v cy] eqn:E.
    destruct (mac_exact x y c carry v cy Wx Wy Wc Wk E) as (_ & Wv & Wcy).
    rewrite upd_mid.
    rewrite (app_snoc pa v a), (app_snoc pb y b), <- (last_length pa v).
    rewrite (IH b (pa ++ [v]) (pb ++ [y]) cy Wa Wb Wcy ltac:(cbn in Hl; lia) ltac:(rewrite !app_length; cbn; lia)).
    destruct (mac_by_limb a b c cy) as [r cf]. cbn [fst snd]. rewrite <- app_assoc. reflexivity.
Qed.

Lemma g_mac_by_limb_eq n a b c carry : length a = n -> length b = n -> usz n -> wf a -> wf b -> is_word c -> is_word carry ->
  g_mac_by_limb n a b c carry = mac_by_limb a b c carry.
Proof.
  intros Ha Hb Hn Wa Wb Wc Wk. unfold g_mac_by_limb. cbv zeta.
  rewrite (iter_enc _ enc3 (fun j (s : list Z * Z) =>
             let '(t0, t1) := g_limb_mac (nth j (fst s) 0) (nth j b 0) c (snd s) in (upd_ (fst s) j t0, t1)))
    with (s0 := (a, carry))
    by (first [exact Hn | intros i [a0 k0] Hi; unfold enc3; cbn [fst snd];
               destruct (g_limb_mac (nth (Z.to_nat i) a0 0) (nth (Z.to_nat i) b 0) c k0); reflexivity]).
  subst n. pose proof (fold_mac_inplace c Wc a b [] [] carry Wa Wb Wk ltac:(lia) eq_refl) as H.
  cbn [app length] in H. rewrite H. unfold enc3. cbn [fst snd]. destruct (mac_by_limb a b c carry); reflexivity.
Qed.

(* Uint::mul_mod_special, for EVERY implementation xmul of the extern Uint::split_mul *)
Definition xmul_shape (xmul : nat -> list Z -> list Z -> list Z * list Z) (n : nat) (a b : list Z) : Prop :=
  wf (fst (xmul n a b)) /\ wf (snd (xmul n a b)) /\ length (fst (xmul n a b)) = n /\ length (snd (xmul n a b)) = n.

Theorem g_uint_mul_mod_special_eq (xmul : nat -> list Z -> list Z -> list Z * list Z) dbg n a b c v :
  length a = n -> length b = n -> (1 <= n)%nat -> usz n -> wf a -> wf b -> is_word c ->
  ((2 <= n)%nat -> xmul_shape xmul n a b) ->
  mul_mod_special dbg (xmul n) a b c = Some v -> g_uint_mul_mod_special xmul n a b c = v.
Proof.
  intros Ha Hb H1 Hn Wa Wb Wc Hx E. unfold g_uint_mul_mod_special. unfold mul_mod_special in E. rewrite Ha in E.
  destruct (Nat.eqb_spec n 1) as [N1|N1].
  - (* one limb: mul_rem by 2^64 - c *)
    rewrite N1 in *. clear N1. replace (Z.of_nat 1 =? 1) with true by reflexivity.
    destruct a as [|x [|? ?]]; try discriminate Ha. destruct b as [|y [|? ?]]; try discriminate Hb.
    apply wf_cons in Wa. destruct Wa as [Wx _]. apply wf_cons in Wb. destruct Wb as [Wy _].
    unfold nthz in E. cbn [nth Z.to_nat] in *. change (sub_ 64 0 c) with (wsub 0 c).
    assert (Wd : is_word (wsub 0 c)) by (unfold wsub, wrap, is_word; apply Z.mod_pos_bound; pose proof Bpos; lia).
    destruct (Z.eqb_spec (wsub 0 c) 0) as [D0|D0]; [discriminate|].
    rewrite g_nz_limb_new_unwrap_eq by assumption.
    rewrite g_mul_rem_eq by (try assumption; unfold is_word in Wd; lia).
    destruct (mulhilo x y) as [hi lo]. inversion E. subst v.
    rewrite g_uint_from_word_eq by lia. reflexivity.
  - (* n >= 2: HAC 14.47 on the double-width product *)
    replace (Z.of_nat n =? 1) with false by (symmetry; apply Z.eqb_neq; lia).
    destruct (Hx ltac:(lia)) as (Wlo & Whi & Llo & Lhi).
    destruct (xmul n a b) as [lo hi]. cbn [fst snd] in *.
    rewrite g_mac_by_limb_eq by (try assumption; apply is_word_0').
    destruct (mac_by_limb lo hi c 0) as [lo1 k1] eqn:E1.
    destruct (mac_by_limb_correct lo hi c 0 lo1 k1 Wlo Whi ltac:(lia) Wc is_word_0' E1) as (_ & Wlo1 & Llo1 & Wk1).
    assert (Hw : add_ 128 k1 1 = k1 + 1).
    { unfold add_. apply Z.mod_small. unfold is_word in Wk1. change B with (2 ^ 64) in Wk1. lia. }
    assert (Hr : 0 <= (k1 + 1) * c < 2 ^ 128).
    { unfold is_word in *. change B with (2 ^ 64) in *. split; [apply Z.mul_nonneg_nonneg; lia|].
      assert ((k1 + 1) * c <= 2 ^ 64 * (2 ^ 64 - 1)) by (apply Z.mul_le_mono_nonneg; lia). lia. }
    assert (Hm : mul_ 128 (add_ 128 k1 1) c = (k1 + 1) * c) by (rewrite Hw; unfold mul_; apply Z.mod_small; exact Hr).
    rewrite Hm.
    rewrite g_uint_from_wide_word_eq by (try assumption; lia).
    assert (Wfw : wf (from_wide_word_n n ((k1 + 1) * c)) /\ length (from_wide_word_n n ((k1 + 1) * c)) = n).
    { destruct (eval_from_wide_word_n n ((k1 + 1) * c) ltac:(lia) ltac:(change (B * B) with (2 ^ 128); exact Hr)) as (_ & W & L). split; assumption. }
    destruct Wfw as [Wfw Lfw].
    assert (Llo1' : length lo1 = n) by lia.
    rewrite g_uint_adc_eq by (try assumption; try lia; apply is_word_0').
    destruct (adc_limbs lo1 (from_wide_word_n n ((k1 + 1) * c)) 0) as [lo2 k2] eqn:E2.
    destruct (adc_limbs_correct lo1 _ 0 lo2 k2 Wlo1 Wfw ltac:(lia) is_word_0' E2) as (_ & Wlo2 & Llo2 & Wk2 & _).
    change (sub_ 64 k2 1) with (wsub k2 1). change (Z.land (wsub k2 1) c) with (wand (wsub k2 1) c).
    rewrite g_uint_from_word_eq by lia.
    rewrite g_uint_sbb_eq; try assumption; try apply is_word_0'; [| lia | apply len_from_word | apply wf_from_word].
    + inversion E. destruct (sbb_limbs lo2 (from_word_n n (wand (wsub k2 1) c)) 0); reflexivity.
    + apply is_word_land; [apply is_word_wsub | exact Wc].
Qed.

(* composition with Proofs/ModArithP.v and the reciprocal theorem of C02: the SOURCE reduction is exact *)
Lemma recip_new_v d : r_v (recip_new d) = reciprocal (r_d (recip_new d)).
Proof. reflexivity. Qed.
Lemma recip_new_ok d : 0 < d < B -> recip_ok (r_d (recip_new d)) (reciprocal (r_d (recip_new d))).
Proof. intros Hd. destruct (recip_new_correct d Hd) as (_ & _ & _ & H). rewrite recip_new_v in H. exact H. Qed.

Lemma g_mul_rem_exact a b d : is_word a -> is_word b -> 0 < d < B -> g_mul_rem a b d = (a * b) mod d.
Proof.
  intros Wa Wb Hd. rewrite g_mul_rem_eq by assumption. apply mul_rem_exact; try assumption. apply recip_new_ok. exact Hd.
Qed.

Theorem g_uint_mul_mod_special_exact (xmul : nat -> list Z -> list Z -> list Z * list Z) n a b c :
  length a = n -> length b = n -> (1 <= n)%nat -> usz n -> wf a -> wf b -> 1 <= c < B -> 0 < psp n c ->
  split_mul_ok (xmul n) a b ->
  let r := g_uint_mul_mod_special xmul n a b c in
  eval r = (eval a * eval b) mod psp n c /\ wf r /\ length r = n.
Proof.
  intros Ha Hb H1 Hn Wa Wb Hc Hp Hok. cbv zeta.
  destruct (mul_mod_special_all_widths_given_mul_recip false (xmul n) a b c Wa Wb ltac:(lia) Hc ltac:(rewrite Ha; exact Hp) Hok
              (recip_new_ok (B - c) ltac:(lia))) as (r & E & Er & Wr & Lr).
  rewrite (g_uint_mul_mod_special_eq xmul false n a b c r Ha Hb H1 Hn Wa Wb ltac:(unfold is_word; lia)); [| |exact E].
  - rewrite Ha in *. auto.
  - intros _. unfold xmul_shape. destruct (xmul n a b) as [lo hi] eqn:Ex. cbn [fst snd].
    destruct (Hok lo hi Ex) as (Wlo & Whi & Llo & Lhi & _). repeat split; try assumption; lia.
Qed.

(* an instance of the extern: the GENERATED schoolbook multiplication on zeroed buffers (what `uint_mul_limbs`, the target of
   `split_mul` at every width without a Karatsuba instance, runs) *)
Definition xmul_schoolbook (n : nat) (a b : list Z) : list Z * list Z := g_schoolbook_multiplication a b (zeros n) (zeros n).
Lemma xmul_schoolbook_ok n a b : length a = n -> length b = n -> 2 * Z.of_nat n < 2 ^ 64 -> wf a -> wf b ->
  split_mul_ok (xmul_schoolbook n) a b.
Proof.
  intros Ha Hb Hn Wa Wb lo hi E. unfold xmul_schoolbook in E.
  rewrite <- Ha in E at 1. rewrite <- Hb in E.
  destruct (g_schoolbook_exact a b lo hi ltac:(rewrite Ha, Hb; lia) Wa Wb E) as (Ev & Wlo & Whi & Llo & Lhi).
  repeat split; try assumption; lia.
Qed.
