(** Translator tie, group DivCt: the constant-time long division `Uint::div_rem` of src/uint/div.rs (Knuth D with fixed trip
    counts and `done` / `limb_div` masks; calls Reciprocal::new, Uint::bits / shl / shr / shl_limb, div3by2, div2by1,
    Limb::mac / sbb / adc / select, Limb::to_nz, ConstCtOption::expect) as regenerated from /repo's CURRENT source
    (Src/GenDivCt.v) equals the limb-level model [uint_div_rem_l0] of Model/DivL0.v (the twin of [uint_div_rem] of Model/Div.v
    with limb-level bits / shl / shr) for every limb count n with 64 n < 2^32 and all limb values: whenever the model returns
    Some (q, r) -- i.e. no `expect` / `assert!` of the source fires -- the generated function returns (q, r).
    Loops: the outer `while xi > 0 { ..; xi -= 1 }` is a Nat.iter over (xi, carry, i, x, x_hi, x_lo); inside it the
    multiply-subtract loop `while i <= xi` over (i, tmp, carry, x, borrow) = [mulsub_go] and the masked add-back loop over
    (i, x, carry) = [addback_go]; the copy-out loop over (i, y). *)
From CB Require Import Model.SrcPrelude Model.Word Model.Limbs Model.AddSub Model.Cmp Model.Bits Model.Div Model.DivL0.
From CB Require Import Src.GenPrim Src.GenDiv Src.GenUint Src.GenShift Src.GenMul Src.GenDivLimb Src.GenBits Src.GenDivCt.
From CB Require Import Src.GenWidthP Src.GenPrimP Src.GenDivP Src.GenLoopP Src.GenIterP Src.GenUintP Src.GenShiftP Src.GenMulP
  Src.GenDivLimbP Src.GenBitsP.
From CB Require Import Proofs.WordP Proofs.WordPredP Proofs.LimbsP Proofs.BitsWordP Proofs.BitQueryP Proofs.DivP Proofs.Div3by2P Proofs.DivShiftP Proofs.RecipP
  Proofs.DivCtP Proofs.DivFinalP Proofs.DivL0P.
From Coq Require Import Lia List.
Import ListNotations.
Open Scope Z_scope.
Transparent B.

Lemma upd_upd_ (l : list Z) i v : upd_ l i v = upd l i v. Proof. reflexivity. Qed.

Lemma sbb_borrow_word a b c : is_word a -> is_word b -> is_word c -> is_word (snd (sbb a b c)).
Proof.
  intros Ha Hb Hc. destruct (sbb a b c) as [r bo] eqn:E. destruct (sbb_exact a b c r bo Ha Hb Hc E) as [_ [[-> _]|[-> _]]]; cbn [snd].
  - apply is_word_0'.
  - apply is_word_MAXW.
Qed.

Lemma add64_succ i : Z.of_nat (S i) < 2 ^ 64 -> add_ 64 (Z.of_nat i) 1 = Z.of_nat (S i).
Proof. intros H. unfold add_. rewrite Z.mod_small by lia. lia. Qed.

(* the multiply-subtract loop: x[i] -= quo * y[yoff + i] with a mac carry and an sbb borrow *)
Lemma mulsub_iter y quo (yidx : Z -> Z) (yoff : nat) (F1 : Z * Z * Z * list Z * Z -> Z * Z * Z * list Z * Z) :
  (forall i tmp c x b, F1 (i, tmp, c, x, b) =
     (add_ 64 i 1, fst (g_limb_mac 0 (nth (Z.to_nat (yidx i)) y 0) quo c), snd (g_limb_mac 0 (nth (Z.to_nat (yidx i)) y 0) quo c),
      upd_ x (Z.to_nat i) (fst (g_limb_sbb (nth (Z.to_nat i) x 0) (fst (g_limb_mac 0 (nth (Z.to_nat (yidx i)) y 0) quo c)) b)),
      snd (g_limb_sbb (nth (Z.to_nat i) x 0) (fst (g_limb_mac 0 (nth (Z.to_nat (yidx i)) y 0) quo c)) b))) ->
  wf y -> is_word quo ->
  forall cnt i tmp c x b, wf x -> is_word c -> is_word b -> (i + cnt <= length x)%nat -> Z.of_nat (i + cnt) < 2 ^ 64 ->
  (forall j, (i <= j < i + cnt)%nat -> Z.to_nat (yidx (Z.of_nat j)) = (yoff + j)%nat) ->
  exists tmp', Nat.iter cnt F1 (Z.of_nat i, tmp, c, x, b) =
    (Z.of_nat (i + cnt), tmp', snd (fst (mulsub_go cnt i x y 0 yoff quo c b)), fst (fst (mulsub_go cnt i x y 0 yoff quo c b)),
     snd (mulsub_go cnt i x y 0 yoff quo c b)).
Proof.
  intros HF Wy Wq. induction cnt as [|cnt IH]; intros i tmp c x b Wx Wc Wb Hl Hk Hidx.
  - exists tmp. cbn [Nat.iter mulsub_go fst snd]. rewrite Nat.add_0_r. reflexivity.
  - rewrite iter_shift, HF. rewrite Nat2Z.id. rewrite (Hidx i ltac:(lia)).
    assert (Wyv : is_word (nth (yoff + i) y 0)) by (apply (wf_nthz y (yoff + i) Wy)).
    assert (Wxv : is_word (nth i x 0)) by (apply (wf_nthz x i Wx)).
    rewrite (g_limb_mac_eq 0 _ quo c is_word_0' Wyv Wq Wc).
    cbn [mulsub_go]. unfold nthz. cbn [Nat.add].
    destruct (mac 0 (nth (yoff + i) y 0) quo c) as [t c1] eqn:Em.
    destruct (mac_exact 0 _ quo c t c1 is_word_0' Wyv Wq Wc Em) as (_ & Wt & Wc1). cbn [fst snd].
    rewrite (g_limb_sbb_eq _ t b Wxv Wt Wb).
    pose proof (sbb_borrow_word _ t b Wxv Wt Wb) as Wb1.
    pose proof (l0_sbb_word (nth i x 0) t b) as Wxv1.
    destruct (sbb (nth i x 0) t b) as [xv b1] eqn:Es. cbn [fst snd] in *.
    rewrite upd_upd_.
    rewrite add64_succ by lia.
    destruct (IH (S i) t c1 (upd x i xv) b1) as [tmp' E]; try assumption; try lia.
    + apply l0_wf_upd; assumption.
    + rewrite l0_length_upd by lia. lia.
    + intros j Hj. apply Hidx. lia.
    + exists tmp'. rewrite E. replace (S i + cnt)%nat with (i + S cnt)%nat by lia. reflexivity.
Qed.

(* the masked add-back loop: x[i] += mask & y[yoff + i] *)
Lemma addback_iter y (mask : bool) (yidx : Z -> Z) (yoff : nat) (F2 : Z * list Z * Z -> Z * list Z * Z) :
  (forall i x c, F2 (i, x, c) =
     (add_ 64 i 1,
      upd_ x (Z.to_nat i) (fst (g_limb_adc (nth (Z.to_nat i) x 0) (g_limb_select 0 (nth (Z.to_nat (yidx i)) y 0) (choice_of_bool mask)) c)),
      snd (g_limb_adc (nth (Z.to_nat i) x 0) (g_limb_select 0 (nth (Z.to_nat (yidx i)) y 0) (choice_of_bool mask)) c))) ->
  wf y ->
  forall cnt i x c, wf x -> is_word c -> (i + cnt <= length x)%nat -> Z.of_nat (i + cnt) < 2 ^ 64 ->
  (forall j, (i <= j < i + cnt)%nat -> Z.to_nat (yidx (Z.of_nat j)) = (yoff + j)%nat) ->
  exists c', Nat.iter cnt F2 (Z.of_nat i, x, c) = (Z.of_nat (i + cnt), addback_go cnt i x y 0 yoff mask c, c').
Proof.
  intros HF Wy. induction cnt as [|cnt IH]; intros i x c Wx Wc Hl Hk Hidx.
  - exists c. cbn [Nat.iter addback_go]. rewrite Nat.add_0_r. reflexivity.
  - rewrite iter_shift, HF. rewrite Nat2Z.id. rewrite (Hidx i ltac:(lia)).
    assert (Wyv : is_word (nth (yoff + i) y 0)) by (apply (wf_nthz y (yoff + i) Wy)).
    assert (Wxv : is_word (nth i x 0)) by (apply (wf_nthz x i Wx)).
    rewrite g_limb_select_eq, (select_word_choice mask 0 _ is_word_0' Wyv).
    assert (Wsel : is_word (if mask then nth (yoff + i) y 0 else 0)) by (destruct mask; [assumption | apply is_word_0']).
    rewrite (g_limb_adc_eq _ _ c Wxv Wsel Wc).
    cbn [addback_go]. unfold nthz, sel. cbn [Nat.add].
    destruct (adc (nth i x 0) (if mask then nth (yoff + i) y 0 else 0) c) as [xv c1] eqn:Ea.
    destruct (adc_exact _ _ c xv c1 Wxv Wsel Wc Ea) as (_ & Wxv1 & Hc1). cbn [fst snd].
    rewrite upd_upd_.
    rewrite add64_succ by lia.
    destruct (IH (S i) (upd x i xv) c1) as [c' E]; try lia.
    + apply l0_wf_upd; assumption.
    + unfold is_word. change B with (2 ^ 64). lia.
    + rewrite l0_length_upd by lia. lia.
    + intros j Hj. apply Hidx. lia.
    + exists c'. rewrite E. replace (S i + cnt)%nat with (i + S cnt)%nat by lia. reflexivity.
Qed.

(* the outer loop against [div_ct_loop] *)
Definition ct_inv (n : nat) (st : ctst) : Prop := ct_wf n st /\ is_word (c_xlo st).

Lemma ct_body_inv xi' n dwords y rc st : (S xi' < n)%nat -> ct_inv n st -> ct_inv n (ct_body xi' n dwords y rc st).
Proof.
  intros Hxi [Hw Hlo]. pose proof (l0_ct_body_wf xi' n dwords y rc st Hxi Hw) as Hw'. split; [exact Hw'|].
  destruct Hw' as (W & _ & _).
  assert (E : c_xlo (ct_body xi' n dwords y rc st)
              = sel (Z.of_nat (S xi') <? dwords - 1) (nthz (c_x (ct_body xi' n dwords y rc st)) xi') (c_xlo st)).
  { unfold ct_body. cbv zeta. destruct (knuth_step _ _ _ _ _ _ _) as [x2 mask]. reflexivity. }
  rewrite E. apply l0_word_sel; [apply wf_nthz; exact W | exact Hlo].
Qed.

Lemma ct_loop_iter n dwords y rc (F : Z * Z * Z * list Z * Z * Z -> Z * Z * Z * list Z * Z * Z) :
  (forall xi' c i st, (S xi' < n)%nat -> ct_inv n st ->
     exists c' i', F (Z.of_nat (S xi'), c, i, c_x st, c_xhi st, c_xlo st) =
       (Z.of_nat xi', c', i', c_x (ct_body xi' n dwords y rc st), c_xhi (ct_body xi' n dwords y rc st), c_xlo (ct_body xi' n dwords y rc st))) ->
  forall xi c i st, (xi < n)%nat -> ct_inv n st ->
  exists c' i', Nat.iter xi F (Z.of_nat xi, c, i, c_x st, c_xhi st, c_xlo st) =
     (0, c', i', c_x (div_ct_loop xi n dwords y rc st), c_xhi (div_ct_loop xi n dwords y rc st), c_xlo (div_ct_loop xi n dwords y rc st)).
Proof.
  intros HB. induction xi as [|xi IH]; intros c i st Hxi Hst.
  - exists c, i. reflexivity.
  - rewrite iter_shift. destruct (HB xi c i st Hxi Hst) as (c1 & i1 & E1). rewrite E1.
    rewrite div_ct_loop_S. apply IH; [lia|]. apply ct_body_inv; assumption.
Qed.

Lemma ct_inv_loop n dwords y rc : forall xi st, (xi < n)%nat -> ct_inv n st -> ct_inv n (div_ct_loop xi n dwords y rc st).
Proof. apply div_ct_loop_ind. intros. apply ct_body_inv; assumption. Qed.

Lemma mulsub_go_words y quo : wf y -> is_word quo -> forall cnt i x base yoff c b, wf x -> is_word c -> is_word b ->
  is_word (snd (fst (mulsub_go cnt i x y base yoff quo c b))) /\ is_word (snd (mulsub_go cnt i x y base yoff quo c b)).
Proof.
  intros Wy Wq. induction cnt as [|cnt IH]; intros i x base yoff c b Wx Wc Wb; [cbn [mulsub_go fst snd]; auto|].
  cbn [mulsub_go].
  assert (Wyv : is_word (nthz y (yoff + i))) by (apply wf_nthz; assumption).
  assert (Wxv : is_word (nthz x (base + i))) by (apply wf_nthz; assumption).
  destruct (mac 0 (nthz y (yoff + i)) quo c) as [t c1] eqn:Em.
  destruct (mac_exact 0 _ quo c t c1 is_word_0' Wyv Wq Wc Em) as (_ & Wt & Wc1).
  pose proof (sbb_borrow_word _ t b Wxv Wt Wb) as Wb1. pose proof (l0_sbb_word (nthz x (base + i)) t b) as Wxv1.
  destruct (sbb (nthz x (base + i)) t b) as [xv b1]. cbn [fst snd] in *.
  apply IH; try assumption. apply l0_wf_upd; assumption.
Qed.

(* the body of the outer loop, verbatim from Src/GenDivCt.v (the main proof checks by [change] that this IS
   the generated text) *)
Definition ct_F (LIMBS : nat) (v_y : list Z) (v_reciprocal : g_Reciprocal) (v_dwords : Z)
    (st : Z * Z * Z * list Z * Z * Z) : Z * Z * Z * list Z * Z * Z :=
  let '(v_xi, v_carry, v_i, v_x, v_x_hi, v_x_lo) := st in
  let v_quo := (g_div3by2 v_x_hi v_x_lo (nth (Z.to_nat (sub_ 64 v_xi 1)) v_x 0) v_reciprocal (nth (Z.to_nat (sub_ 64 (Z.of_nat LIMBS) 2)) v_y 0)) in
  let v_done := (g_cc_from_u32_lt (trunc_ 32 v_xi) (sub_ 32 v_dwords 1)) in
  let v_quo := (g_cc_select_word v_done v_quo 0) in
  let v_carry := 0 in
  let v_borrow := 0 in
  let v_tmp := 0 in
  let v_i := 0 in
  let '(v_i, v_tmp, v_carry, v_x, v_borrow) := Nat.iter (Z.to_nat (v_xi + 1 - v_i)) (fun st => let '(v_i, v_tmp, v_carry, v_x, v_borrow) := st in
  let '(tmp_0, tmp_1) := (g_limb_mac 0 (nth (Z.to_nat (sub_ 64 (add_ 64 (sub_ 64 (Z.of_nat LIMBS) v_xi) v_i) 1)) v_y 0) v_quo v_carry) in
  let v_tmp := tmp_0 in
  let v_carry := tmp_1 in
  let '(tmp_0, tmp_1) := (g_limb_sbb (nth (Z.to_nat v_i) v_x 0) v_tmp v_borrow) in
  let v_x := (upd_ v_x (Z.to_nat v_i) tmp_0) in
  let v_borrow := tmp_1 in
  let v_i := (add_ 64 v_i 1) in
  (v_i, v_tmp, v_carry, v_x, v_borrow)) (v_i, v_tmp, v_carry, v_x, v_borrow) in
  let '(tmp_0, tmp_1) := (g_limb_sbb v_x_hi v_carry v_borrow) in
  let v_borrow := tmp_1 in
  let v_ct_borrow := (g_cc_from_word_mask v_borrow) in
  let v_carry := 0 in
  let v_i := 0 in
  let '(v_i, v_x, v_carry) := Nat.iter (Z.to_nat (v_xi + 1 - v_i)) (fun st => let '(v_i, v_x, v_carry) := st in
  let '(tmp_0, tmp_1) := (g_limb_adc (nth (Z.to_nat v_i) v_x 0) (g_limb_select 0 (nth (Z.to_nat (sub_ 64 (add_ 64 (sub_ 64 (Z.of_nat LIMBS) v_xi) v_i) 1)) v_y 0) v_ct_borrow) v_carry) in
  let v_x := (upd_ v_x (Z.to_nat v_i) tmp_0) in
  let v_carry := tmp_1 in
  let v_i := (add_ 64 v_i 1) in
  (v_i, v_x, v_carry)) (v_i, v_x, v_carry) in
  let v_quo := (g_cc_select_word v_ct_borrow v_quo (satsub_ v_quo 1)) in
  let v_x_hi := (g_limb_select (nth (Z.to_nat v_xi) v_x 0) v_x_hi v_done) in
  let v_x := (upd_ v_x (Z.to_nat v_xi) (g_limb_select v_quo (nth (Z.to_nat v_xi) v_x 0) v_done)) in
  let v_x_lo := (g_limb_select (nth (Z.to_nat (sub_ 64 v_xi 1)) v_x 0) v_x_lo v_done) in
  let v_xi := (sub_ 64 v_xi 1) in
  (v_xi, v_carry, v_i, v_x, v_x_hi, v_x_lo).

(** One run of the generated loop body is [ct_body]: the index arithmetic of the source (xi - 1, LIMBS - xi + i - 1)
    is evaluated, then in source order div3by2 with its `done` mask, the multiply-subtract loop (mulsub_iter), the
    borrow of x_hi as the add-back mask, the add-back loop (addback_iter), the saturating digit correction and the
    three masked stores are each rewritten to the model's operation; word-ness of every intermediate value is what the
    generated operators need to agree with the model's. *)
Lemma ct_F_body n dwords y rc xi' c i st :
  (S xi' < n)%nat -> ct_inv n st -> wf y -> length y = n -> 64 * Z.of_nat n < 2 ^ 32 -> 1 <= dwords < 2 ^ 32 ->
  is_word (r_d rc) -> is_word (r_v rc) ->
  exists c' i', ct_F n y (g_of_recip rc) dwords (Z.of_nat (S xi'), c, i, c_x st, c_xhi st, c_xlo st) =
    (Z.of_nat xi', c', i', c_x (ct_body xi' n dwords y rc st), c_xhi (ct_body xi' n dwords y rc st), c_xlo (ct_body xi' n dwords y rc st)).
Proof.
  intros Hxi [(Wx & Lx & Whi) Wlo] Wy Ly Hn Hdw Wd Wv.
  destruct st as [x xhi xlo]. cbn [c_x c_xhi c_xlo] in *.
  unfold ct_F. cbv beta iota zeta.
  assert (E1 : sub_ 64 (Z.of_nat (S xi')) 1 = Z.of_nat xi') by (unfold sub_; rewrite Z.mod_small by lia; lia).
  assert (E2 : Z.to_nat (sub_ 64 (Z.of_nat n) 2) = (n - 2)%nat) by (unfold sub_; rewrite Z.mod_small by lia; lia).
  rewrite !E1, !E2, !Nat2Z.id.
  assert (Wxv : forall k, is_word (nth k x 0)) by (intros k; apply (wf_nthz x k Wx)).
  assert (Wyv : forall k, is_word (nth k y 0)) by (intros k; apply (wf_nthz y k Wy)).
  rewrite (g_div3by2_eq xhi xlo (nth xi' x 0) rc (nth (n - 2) y 0) Whi Wlo (Wxv _) (Wyv _) Wd Wv).
  set (quo0 := div3by2 xhi xlo (nth xi' x 0) rc (nth (n - 2) y 0)).
  assert (Wq0 : is_word quo0) by apply div3by2_is_word.
  assert (Ed : g_cc_from_u32_lt (trunc_ 32 (Z.of_nat (S xi'))) (sub_ 32 dwords 1) = choice_of_bool (Z.of_nat (S xi') <? dwords - 1)).
  { rewrite g_cc_from_u32_lt_eq. unfold trunc_, sub_. rewrite !Z.mod_small by lia. apply from_u32_lt_bool; unfold U32; lia. }
  rewrite Ed. set (done := Z.of_nat (S xi') <? dwords - 1).
  rewrite (g_select_spec done quo0 0 Wq0 is_word_0').
  set (quo := if done then 0 else quo0).
  assert (Wq : is_word quo) by (unfold quo; destruct done; [apply is_word_0' | assumption]).
  assert (Ecnt : Z.to_nat (Z.of_nat (S xi') + 1 - 0) = S (S xi')) by lia.
  rewrite !Ecnt.
  set (yidx := fun i : Z => sub_ 64 (add_ 64 (sub_ 64 (Z.of_nat n) (Z.of_nat (S xi'))) i) 1).
  assert (Hidx : forall j, (0 <= j < 0 + S (S xi'))%nat -> Z.to_nat (yidx (Z.of_nat j)) = (n - S xi' - 1 + j)%nat).
  { intros j Hj. unfold yidx, sub_, add_. rewrite (Z.mod_small (Z.of_nat n - _)) by lia.
    rewrite (Z.mod_small (Z.of_nat n - _ + _)) by lia. rewrite Z.mod_small by lia. lia. }
  (* multiply-subtract *)
  match goal with |- context [Nat.iter (S (S xi')) ?F1 (0, 0, 0, x, 0)] =>
    destruct (mulsub_iter y quo yidx (n - S xi' - 1) F1
                ltac:(intros i0 t0 c0 x0 b0; cbv beta iota; fold (yidx i0);
                      destruct (g_limb_mac 0 (nth (Z.to_nat (yidx i0)) y 0) quo c0) as [m0 m1]; cbn [fst snd];
                      destruct (g_limb_sbb (nth (Z.to_nat i0) x0 0) m0 b0); reflexivity)
                Wy Wq (S (S xi')) 0%nat 0 0 x 0 Wx is_word_0' is_word_0' ltac:(lia) ltac:(lia) Hidx) as [tmp' EM] end.
  change (Z.of_nat 0) with 0 in EM. rewrite EM. clear EM.
  destruct (mulsub_go_words y quo Wy Wq (S (S xi')) 0%nat x 0%nat (n - S xi' - 1)%nat 0 0 Wx is_word_0' is_word_0') as [Wc1 Wb1].
  destruct (l0_mulsub_go_wf (S (S xi')) 0 x y 0 (n - S xi' - 1) quo 0 0 Wx ltac:(lia)) as [Wx1 Lx1].
  unfold ct_body. cbv zeta. cbn [c_x c_xhi c_xlo]. unfold knuth_step.
  change (nthz x xi') with (nth xi' x 0). change (nthz y (n - 2)) with (nth (n - 2) y 0). fold quo0. fold done.
  change (sel done quo0 0) with quo.
  destruct (mulsub_go (S (S xi')) 0 x y 0 (n - S xi' - 1) quo 0 0) as [[x1 carry1] borrow1]. cbn [fst snd] in *.
  rewrite (g_limb_sbb_eq xhi carry1 borrow1 Whi Wc1 Wb1).
  destruct (sbb xhi carry1 borrow1) as [t borrow2] eqn:Es.
  assert (Eb2 : g_cc_from_word_mask borrow2 = choice_of_bool (negb (borrow2 =? 0))).
  { unfold g_cc_from_word_mask. destruct (sbb_exact xhi carry1 borrow1 t borrow2 Whi Wc1 Wb1 Es) as [_ [[-> _]|[-> _]]]; reflexivity. }
  rewrite Eb2. set (mask := negb (borrow2 =? 0)).
  (* add-back *)
  match goal with |- context [Nat.iter (S (S xi')) ?F2 (0, x1, 0)] =>
    destruct (addback_iter y mask yidx (n - S xi' - 1) F2
                ltac:(intros i0 x0 c0; cbv beta iota; fold (yidx i0);
                      destruct (g_limb_adc (nth (Z.to_nat i0) x0 0) (g_limb_select 0 (nth (Z.to_nat (yidx i0)) y 0) (choice_of_bool mask)) c0);
                      reflexivity)
                Wy (S (S xi')) 0%nat x1 0 Wx1 is_word_0' ltac:(lia) ltac:(lia) Hidx) as [c2 EA] end.
  change (Z.of_nat 0) with 0 in EA. rewrite EA. clear EA.
  destruct (l0_addback_go_wf (S (S xi')) 0 x1 y 0 (n - S xi' - 1) mask 0 Wx1 ltac:(lia)) as [Wx2 Lx2].
  set (x2 := addback_go (S (S xi')) 0 x1 y 0 (n - S xi' - 1) mask 0) in *.
  assert (Wx2v : forall k, is_word (nth k x2 0)) by (intros k; apply (wf_nthz x2 k Wx2)).
  (* the quotient digit and the three masked stores *)
  assert (Wsat : is_word (satsub_ quo 1)).
  { unfold satsub_. destruct (Z.ltb_spec quo 1); [apply is_word_0'|]. unfold is_word in *. change B with (2 ^ 64) in *. lia. }
  rewrite (g_select_spec mask quo (satsub_ quo 1) Wq Wsat).
  assert (Esat : satsub_ quo 1 = (if quo =? 0 then 0 else quo - 1)).
  { unfold satsub_. assert (0 <= quo) by (unfold is_word in Wq; lia). destruct (Z.ltb_spec quo 1); destruct (Z.eqb_spec quo 0); lia. }
  rewrite Esat.
  set (quo' := if mask then (if quo =? 0 then 0 else quo - 1) else quo).
  assert (Wq' : is_word quo') by (unfold quo'; destruct mask; [rewrite <- Esat|]; assumption).
  rewrite !g_limb_select_eq.
  rewrite (select_word_choice done (nth (S xi') x2 0) xhi (Wx2v _) Whi).
  rewrite (select_word_choice done quo' (nth (S xi') x2 0) Wq' (Wx2v _)).
  rewrite upd_upd_.
  set (x3 := upd x2 (S xi') (if done then nth (S xi') x2 0 else quo')).
  assert (Wx3 : wf x3) by (apply l0_wf_upd; [assumption | destruct done; [apply Wx2v | assumption]]).
  rewrite (select_word_choice done (nth xi' x3 0) xlo (wf_nthz x3 xi' Wx3) Wlo).
  exists c2, (Z.of_nat (0 + S (S xi'))). reflexivity.
Qed.

Lemma g_nz_expect d : g_ctopt_nzlimb_expect (g_limb_to_nz d) tt = d. Proof. reflexivity. Qed.

Lemma nth_upd_same (l : list Z) j v : (j < length l)%nat -> nth j (upd_ l j v) 0 = v.
Proof.
  intros H. unfold upd_. rewrite app_nth2 by (rewrite firstn_length; lia).
  rewrite firstn_length. replace (j - Nat.min j (length l))%nat with 0%nat by lia. reflexivity.
Qed.
Lemma upd_upd_same (l : list Z) j a b : (j < length l)%nat -> upd_ (upd_ l j a) j b = upd_ l j b.
Proof.
  intros H. unfold upd_.
  assert (Lf : length (firstn j l) = j) by (rewrite firstn_length; lia).
  rewrite firstn_app, Lf, Nat.sub_diag. cbn [firstn]. rewrite app_nil_r. rewrite firstn_all2 by lia.
  f_equal. f_equal.
  replace (S j) with (length (firstn j l ++ [a])) at 1 by (rewrite app_length; cbn; lia).
  replace (firstn j l ++ a :: skipn (S j) l) with ((firstn j l ++ [a]) ++ skipn (S j) l) by (rewrite <- app_assoc; reflexivity).
  rewrite skipn_app, skipn_all, Nat.sub_diag. reflexivity.
Qed.

Lemma fold_ext_inv {S} (P : S -> Prop) (f g : S -> nat -> S) : forall l,
  (forall s j, In j l -> P s -> f s j = g s j /\ P (g s j)) -> forall s, P s -> fold_left f l s = fold_left g l s.
Proof.
  induction l as [|j l IH]; intros H s Hs; [reflexivity|]. cbn [fold_left].
  destruct (H s j (or_introl eq_refl) Hs) as [E Hp]. rewrite E. apply IH; [|exact Hp].
  intros s' j' Hin. apply H. right. exact Hin.
Qed.

(* the copy-out loop: y[i] = select(select(0, x[i], i < dwords), x_hi, i == dwords - 1) for i = 1 .. n-1 *)
Definition copy_g (x : list Z) (xhi dwords : Z) (j : nat) : Z :=
  sel (Z.of_nat j =? dwords - 1) (sel (Z.of_nat j <? dwords) 0 (nthz x j)) xhi.

Lemma copy_iter n x xhi dwords yv (F3 : Z * list Z -> Z * list Z) :
  (forall i yy, F3 (i, yy) =
     (add_ 64 i 1,
      upd_ (upd_ yy (Z.to_nat i) (g_limb_select 0 (nth (Z.to_nat i) x 0) (g_cc_from_u32_lt (trunc_ 32 i) dwords))) (Z.to_nat i)
        (g_limb_select (nth (Z.to_nat i) (upd_ yy (Z.to_nat i) (g_limb_select 0 (nth (Z.to_nat i) x 0) (g_cc_from_u32_lt (trunc_ 32 i) dwords))) 0)
           xhi (g_cc_from_u32_eq (trunc_ 32 i) (sub_ 32 dwords 1))))) ->
  (1 <= n)%nat -> 64 * Z.of_nat n < 2 ^ 32 -> 1 <= dwords < 2 ^ 32 -> wf x -> is_word xhi -> length yv = n ->
  Nat.iter (n - 1) F3 (1, yv) = (Z.of_nat n, hd 0 yv :: map (copy_g x xhi dwords) (seq 1 (n - 1))).
Proof.
  intros HF H1 Hn Hdw Wx Whi Ly.
  rewrite (iter_enc_from F3 enc2 (fun j yy =>
     upd_ (upd_ yy j (g_limb_select 0 (nth j x 0) (g_cc_from_u32_lt (trunc_ 32 (Z.of_nat j)) dwords))) j
        (g_limb_select (nth j (upd_ yy j (g_limb_select 0 (nth j x 0) (g_cc_from_u32_lt (trunc_ 32 (Z.of_nat j)) dwords))) 0)
           xhi (g_cc_from_u32_eq (trunc_ 32 (Z.of_nat j)) (sub_ 32 dwords 1))))) with (i0 := 1%nat) (s0 := yv).
  2:{ intros i s Hi. unfold enc2. rewrite HF. rewrite Z2Nat.id by lia. reflexivity. }
  2:{ lia. }
  replace (1 + (n - 1))%nat with n by lia. unfold enc2. f_equal.
  rewrite (fold_ext_inv (fun s : list Z => length s = n) _ (fun o j => upd_ o j (copy_g x xhi dwords j))).
  - destruct yv as [|y0 yt]; [cbn in Ly; lia|]. cbn [hd].
    pose proof (fold_fill (copy_g x xhi dwords) (map (copy_g x xhi dwords) (seq 1 (n - 1))) [y0] yt) as FF.
    rewrite map_length, seq_length in FF. cbn [length app] in FF. rewrite FF.
    + rewrite skipn_all2 by (cbn [length] in Ly; lia). rewrite app_nil_r. reflexivity.
    + cbn [length] in Ly. lia.
    + intros k Hk. rewrite (nth_indep _ 0 (copy_g x xhi dwords 0)) by (rewrite map_length, seq_length; lia).
      rewrite map_nth, seq_nth by lia. reflexivity.
  - intros s j Hin Ls. apply in_seq in Hin. split.
    + rewrite nth_upd_same by lia. rewrite upd_upd_same by lia. f_equal.
      assert (Et : trunc_ 32 (Z.of_nat j) = Z.of_nat j) by (unfold trunc_; apply Z.mod_small; lia).
      assert (Es : sub_ 32 dwords 1 = dwords - 1) by (unfold sub_; apply Z.mod_small; lia).
      rewrite Et, Es, g_cc_from_u32_lt_eq, g_cc_from_u32_eq_eq.
      rewrite from_u32_lt_bool, from_u32_eq_bool by (unfold U32; lia).
      rewrite !g_limb_select_eq.
      assert (Wxj : is_word (nth j x 0)) by (apply (wf_nthz x j Wx)).
      rewrite (select_word_choice (Z.of_nat j <? dwords) 0 (nth j x 0) is_word_0' Wxj).
      rewrite select_word_choice; [reflexivity | destruct (Z.of_nat j <? dwords); [assumption | apply is_word_0'] | assumption].
    + rewrite upd_length by lia. exact Ls.
  - exact Ly.
Qed.

Lemma recip_new_words d : is_word (r_d (recip_new d)) /\ is_word (r_v (recip_new d)).
Proof.
  unfold recip_new. cbn [r_d r_v]. split; [apply is_word_mod|].
  rewrite <- g_reciprocal_eq by apply is_word_mod. unfold g_reciprocal. cbv zeta.
  destruct (g_mulhilo _ _) as [hi lo]. destruct (g_mulhilo _ _) as [hi2 lo2]. unfold sub_. apply (is_word_mod).
Qed.

(** Uint<1> is the limb division.  Otherwise the source computes dbits, dwords, lshift with u32 operators (Edw, Els,
    Esh: no wrap since 64 n < 2^32), shifts divisor and dividend, runs the outer loop (ct_loop_iter over ct_F_body),
    the limb_div tail, the copy-out loop (copy_iter) and the two final shifts: each is rewritten to the corresponding
    piece of [div_rem_ct_core_gen]; the `expect`s of shl / shr are the Some cases of the hypothesis. *)
Theorem g_uint_div_rem_eq n x y q r : length x = n -> length y = n -> (1 <= n)%nat -> 64 * Z.of_nat n < 2 ^ 32 -> wf x -> wf y ->
  uint_div_rem_l0 x y = Some (q, r) -> g_uint_div_rem n x y = (q, r).
Proof.
  intros Lx Ly H1 Hn Wx Wy E. unfold uint_div_rem_l0 in E. unfold g_uint_div_rem. rewrite Lx in E.
  destruct (Nat.eqb_spec n 1) as [En|En].
  - (* Uint<1>: division by the single limb *)
    rewrite En in *. clear En. change (Z.of_nat 1 =? 1) with true. cbv iota.
    change (Z.to_nat 0) with 0%nat. rewrite g_nz_expect. change (nth 0 y 0) with (nthz y 0).
    set (d := nthz y 0) in *.
    destruct (d =? 0) eqn:Ed; [discriminate|]. apply Z.eqb_neq in Ed.
    assert (Wd : is_word d) by (apply wf_nthz; assumption).
    assert (Hd : 0 < d < B) by (unfold is_word in Wd; lia).
    unfold g_uint_div_rem_limb. rewrite g_Reciprocal_new_eq.
    rewrite (g_div_rem_limb_with_reciprocal_eq 1 x (recip_new d) Lx ltac:(lia) ltac:(lia) Wx
               (recip_for_words d _ (recip_new_correct d Hd))).
    destruct (div_rem_limb_with_reciprocal x (recip_new d)) as [q0 r0]. inversion E. reflexivity.
  - assert (Ez : (Z.of_nat n =? 1) = false) by (apply Z.eqb_neq; lia). rewrite Ez. cbv iota.
    (* dbits, dwords, lshift *)
    rewrite !(g_uint_bits_eq n y Ly Wy Hn). rewrite !(g_uint_BITS_eq n Hn).
    pose proof (l0_bits_val y Wy) as Hbv. pose proof (l0_bits_of_range y Wy) as Hbr. rewrite <- Hbv, Ly in Hbr.
    set (dbits := l0_bits y) in *.
    destruct (dbits =? 0) eqn:Ed0; [discriminate|]. apply Z.eqb_neq in Ed0.
    assert (Edw : div_ceil_ dbits 64 = (dbits + 63) / 64) by (unfold div_ceil_; f_equal; lia).
    rewrite !Edw. set (dwords := (dbits + 63) / 64) in *.
    assert (Hdw : 1 <= dwords <= Z.of_nat n).
    { unfold dwords. split; [apply Z.div_le_lower_bound; lia|]. apply Z.lt_succ_r. apply Z.div_lt_upper_bound; lia. }
    assert (Els : rem_ (sub_ 32 64 (rem_ dbits 64)) 64 = (64 - dbits mod 64) mod 64).
    { unfold rem_, sub_. pose proof (Z.mod_pos_bound dbits 64 ltac:(lia)). rewrite (Z.mod_small (64 - _) (2 ^ 32)) by lia. reflexivity. }
    rewrite !Els. set (lshift := (64 - dbits mod 64) mod 64) in *.
    assert (Hls : 0 <= lshift < 64) by (apply Z.mod_pos_bound; lia).
    assert (Esh : sub_ 32 (64 * Z.of_nat n) dbits = 64 * Z.of_nat n - dbits) by (unfold sub_; apply Z.mod_small; lia).
    rewrite !Esh.
    unfold div_rem_ct_core_l0, div_rem_ct_core_gen in E. cbv zeta in E. rewrite Lx in E. fold dwords lshift in E.
    (* the normalised divisor *)
    assert (Hsr : 0 <= 64 * Z.of_nat n - dbits < 2 ^ 32) by lia.
    destruct (l0_uint_shl y (64 * Z.of_nat n - dbits)) as [ys|] eqn:Eshl; [|discriminate].
    rewrite !(g_uint_shl_eq n y _ ys Ly H1 Hn Hsr Eshl). rewrite !g_uint_to_limbs_eq.
    assert (Hys : wf ys /\ length ys = n).
    { rewrite (l0_uint_shl_val y (64 * Z.of_nat n - dbits) Wy (list_ne_of_len y n Ly H1)) in Eshl by (unfold U32; rewrite ?Ly; lia).
      inversion Eshl. unfold shl_val. rewrite Ly. split; [apply wf_to_limbs | apply length_to_limbs]. }
    destruct Hys as [Wys Lys].
    (* the shifted dividend *)
    rewrite (g_uint_shl_limb_eq n x lshift Lx H1 ltac:(lia) Wx Hls).
    destruct (shl_limb_parts x lshift Wx Hls) as (Wxs & Lxs & Wxh).
    destruct (shl_limb x lshift) as [xs xh0]. cbn [fst snd] in Wxs, Lxs, Wxh. cbv iota beta. unfold g_uint_to_limbs.
    (* the reciprocal *)
    assert (En1 : sub_ 64 (Z.of_nat n) 1 = Z.of_nat (n - 1)) by (unfold sub_; rewrite Z.mod_small by lia; lia).
    rewrite !En1, !Nat2Z.id. rewrite !g_nz_expect. rewrite !g_Reciprocal_new_eq.
    change (nth (n - 1) ys 0) with (nthz ys (n - 1)). set (rc := recip_new (nthz ys (n - 1))) in *.
    destruct (recip_new_words (nthz ys (n - 1))) as [Wrd Wrv]. fold rc in Wrd, Wrv.
    (* the main loop *)
    set (st0 := {| c_x := xs; c_xhi := xh0; c_xlo := nthz xs (n - 1) |}) in *.
    assert (Hst0 : ct_inv n st0).
    { unfold ct_inv, ct_wf, st0. cbn [c_x c_xhi c_xlo].
      split; [split; [exact Wxs | split; [lia | exact Wxh]] | apply wf_nthz; exact Wxs]. }
    match goal with |- context [Nat.iter (n - 1) ?F (Z.of_nat (n - 1), 0, 0, xs, xh0, nth (n - 1) xs 0)] =>
      change F with (ct_F n ys (g_of_recip rc) dwords);
      change (Z.of_nat (n - 1), 0, 0, xs, xh0, nth (n - 1) xs 0) with (Z.of_nat (n - 1), 0, 0, c_x st0, c_xhi st0, c_xlo st0)
    end.
    destruct (ct_loop_iter n dwords ys rc (ct_F n ys (g_of_recip rc) dwords)
                ltac:(intros xi' c0 i0 st Hxi Hst; apply ct_F_body; try assumption; lia)
                (n - 1)%nat 0 0 st0 ltac:(lia) Hst0) as (c' & i' & EL).
    rewrite EL. clear EL.
    pose proof (l0_div_ct_loop_wf (n - 1) n dwords ys rc st0 ltac:(lia) (proj1 Hst0)) as (Wxf & Lxf & Whf).
    set (stf := div_ct_loop (n - 1) n dwords ys rc st0) in *.
    (* the single-limb tail, the copy-out loop and the two final shifts *)
    pose proof (ct_inv_loop n dwords ys rc (n - 1) st0 ltac:(lia) Hst0) as [_ Wlf]. fold stf in Wlf.
    assert (Eld : g_cc_from_u32_eq 1 dwords = choice_of_bool (dwords =? 1)).
    { rewrite g_cc_from_u32_eq_eq, from_u32_eq_bool by (unfold U32; lia). rewrite Z.eqb_sym. reflexivity. }
    rewrite !Eld. set (ld := dwords =? 1) in *.
    rewrite !g_limb_select_eq. rewrite (select_word_choice ld 0 (c_xhi stf) is_word_0' Whf).
    assert (Wadj : is_word (if ld then c_xhi stf else 0)) by (destruct ld; [assumption | apply is_word_0']).
    rewrite (g_div2by1_eq _ (c_xlo stf) rc Wadj Wlf Wrd Wrv).
    change (sel ld 0 (c_xhi stf)) with (if ld then c_xhi stf else 0) in E.
    destruct (div2by1_words (if ld then c_xhi stf else 0) (c_xlo stf) rc) as [Wq2 Wr2].
    destruct (div2by1 (if ld then c_xhi stf else 0) (c_xlo stf) rc) as [quo2 rem2]. cbn [fst snd] in Wq2, Wr2.
    change (Z.to_nat 0) with 0%nat. rewrite !upd_upd_.
    assert (Wx0 : is_word (nth 0 (c_x stf) 0)) by (apply (wf_nthz (c_x stf) 0 Wxf)).
    rewrite !(g_limb_select_eq (nth 0 (c_x stf) 0) quo2).
    rewrite (select_word_choice ld (nth 0 (c_x stf) 0) quo2 Wx0 Wq2).
    change (sel ld (nthz (c_x stf) 0) quo2) with (if ld then quo2 else nth 0 (c_x stf) 0) in E.
    set (xq := upd (c_x stf) 0 (if ld then quo2 else nth 0 (c_x stf) 0)) in *.
    assert (Wxq : wf xq) by (apply l0_wf_upd; [assumption | destruct ld; assumption]).
    assert (Lxq : length xq = n) by (unfold xq; rewrite l0_length_upd by lia; lia).
    assert (Wxq0 : is_word (nth 0 xq 0)) by (apply (wf_nthz xq 0 Wxq)).
    rewrite !(g_limb_select_eq (nth 0 xq 0) rem2).
    rewrite (select_word_choice ld (nth 0 xq 0) rem2 Wxq0 Wr2).
    change (sel ld (nthz xq 0) rem2) with (if ld then rem2 else nth 0 xq 0) in E.
    replace (Z.to_nat (Z.of_nat n - 1)) with (n - 1)%nat by lia.
    match goal with |- context [Nat.iter (n - 1) ?F3 (1, ?yv)] =>
      rewrite (copy_iter n xq (c_xhi stf) dwords yv F3 ltac:(intros; reflexivity) H1 Hn ltac:(lia) Wxq Whf
                 ltac:(rewrite l0_length_upd by lia; lia)) end.
    cbv iota beta.
    assert (Ehd : hd 0 (upd_ ys 0 (if ld then rem2 else nth 0 xq 0)) = (if ld then rem2 else nth 0 xq 0)).
    { destruct ys as [|y0 yt]; [cbn in Lys; lia | reflexivity]. }
    rewrite Ehd.
    assert (Emul : mul_ 32 (sub_ 32 dwords 1) 64 = (dwords - 1) * 64).
    { unfold mul_, sub_. rewrite (Z.mod_small (dwords - 1)) by lia. apply Z.mod_small. lia. }
    rewrite Emul.
    unfold copy_g. 
    destruct (l0_uint_shr xq ((dwords - 1) * 64)) as [q'|] eqn:Eq; [|discriminate].
    match type of E with match l0_uint_shr ?yy lshift with _ => _ end = _ =>
      destruct (l0_uint_shr yy lshift) as [r'|] eqn:Er; [|discriminate] end.
    inversion E. subst q' r'.
    rewrite (g_uint_shr_eq n xq ((dwords - 1) * 64) q Lxq H1 Hn ltac:(lia) Eq).
    match goal with |- (_, g_uint_shr n ?yy lshift) = _ =>
      rewrite (g_uint_shr_eq n yy lshift r ltac:(cbn [length]; rewrite map_length, seq_length; lia) H1 Hn ltac:(lia) Er) end.
    reflexivity.
Qed.
Lemma g_uint_div_rem_exact n x y : length x = n -> length y = n -> (1 <= n)%nat -> 64 * Z.of_nat n < 2 ^ 32 ->
  wf x -> wf y -> eval y <> 0 ->
  let '(q, r) := g_uint_div_rem n x y in
  eval q = eval x / eval y /\ eval r = eval x mod eval y /\ wf q /\ wf r /\ length q = n /\ length r = n.
Proof.
  intros Lx Ly H1 Hn Wx Wy Hnz.
  destruct (uint_div_rem_l0_total x y Wx Wy ltac:(lia) ltac:(rewrite Lx; exact Hn) Hnz) as (q & r & E & Hv & Hr & Lq & Lr & Wq & Wr).
  rewrite (g_uint_div_rem_eq n x y q r Lx Ly H1 Hn Wx Wy E).
  destruct (div_mod_unique_pos (eval y) (eval q) (eval r) (eval x) Hr Hv) as [Eq Er].
  repeat split; try assumption; lia.
Qed.
