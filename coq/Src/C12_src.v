(** C12, translator tie: the const wrapper constructors of /repo's CURRENT src/uint.rs / src/int.rs (Src/GenWrap.v,
    regenerated on every run): `Uint::to_nz`, `Uint::to_odd`, `Int::to_nz`, `Int::to_odd` return a ConstCtOption that is
    `some` exactly when the value is non-zero / odd, and the wrapped value is the argument itself; then
    `Odd::from_be_hex` / `Odd::from_le_hex` of src/odd.rs: they return the decoded odd value or panic, as the model says.
    Short proofs stand here, over the lemmas of Src/GenWrapP.v. *)
From CB Require Import Model.SrcPrelude Model.Word Model.Limbs Model.AddSub Model.Cmp Model.Wrappers.
From CB Require Import Src.GenPrim Src.GenUint Src.GenUintP Src.GenShift Src.GenWrap Src.GenWrapP.
From CB Require Import Proofs.WordP Proofs.LimbsP Proofs.CmpP.
From Coq Require Import ZArith List Lia.
Import ListNotations.
Open Scope Z_scope.

(** generated function = the gate of the model (Model/Wrappers.v) *)
Theorem C12_src_uint_to_nz_model : forall n a, length a = n -> usz n -> cct_outcome (g_uint_to_nz n a) = nz_to_nz_uint a.
Proof. intros. rewrite g_uint_to_nz_eq by assumption. reflexivity. Qed.
Print Assumptions C12_src_uint_to_nz_model.
Theorem C12_src_uint_to_odd_model : forall n a, cct_outcome (g_uint_to_odd n a) = wodd_to_odd a.
Proof. intros n a. rewrite g_uint_to_odd_eq. reflexivity. Qed.
Print Assumptions C12_src_uint_to_odd_model.
Theorem C12_src_int_to_nz_model : forall n a, length a = n -> usz n -> cct_outcome (g_int_to_nz n a) = nz_to_nz_uint a.
Proof. intros. rewrite g_int_to_nz_eq by assumption. reflexivity. Qed.
Print Assumptions C12_src_int_to_nz_model.
Theorem C12_src_int_to_odd_model : forall n a, cct_outcome (g_int_to_odd n a) = wodd_to_odd a.
Proof. intros. rewrite g_int_to_odd_eq. reflexivity. Qed.
Print Assumptions C12_src_int_to_odd_model.

(** is_some <-> the value is non-zero; the wrapped value is the argument: a NonZero obtained from the SOURCE text of to_nz
    is never zero *)
Theorem C12_src_nonzero_new_valid : forall n a, length a = n -> usz n -> wf a ->
  fst (g_uint_to_nz n a) = a /\ (cc_true (snd (g_uint_to_nz n a)) = true <-> eval a <> 0).
Proof.
  intros n a Ha U W. destruct (g_uint_to_nz_spec n a Ha U W) as [E1 E2]. split; [exact E1|].
  rewrite E2, CmpWordP.cc_true_choice. destruct (Z.eqb_spec (eval a) 0); cbn; split; intros; try congruence; try discriminate; reflexivity.
Qed.
Print Assumptions C12_src_nonzero_new_valid.
Theorem C12_src_nonzero_flag_is_choice : forall n a, length a = n -> usz n -> wf a ->
  snd (g_uint_to_nz n a) = choice_of_bool (negb (eval a =? 0)).
Proof. intros n a Ha U W. exact (proj2 (g_uint_to_nz_spec n a Ha U W)). Qed.
Print Assumptions C12_src_nonzero_flag_is_choice.
(** is_some <-> the value is odd (hence non-zero) *)
Theorem C12_src_odd_new_valid : forall n a, wf a ->
  fst (g_uint_to_odd n a) = a /\ (cc_true (snd (g_uint_to_odd n a)) = true <-> Z.odd (eval a) = true) /\
  (cc_true (snd (g_uint_to_odd n a)) = true -> eval a <> 0).
Proof.
  intros n a W. destruct (g_uint_to_odd_spec n a W) as [E1 E2]. split; [exact E1|].
  rewrite E2, CmpWordP.cc_true_choice. split; [reflexivity|]. intros Ho E0. rewrite E0 in Ho. discriminate.
Qed.
Print Assumptions C12_src_odd_new_valid.
Theorem C12_src_odd_flag_is_choice : forall n a, wf a -> snd (g_uint_to_odd n a) = choice_of_bool (Z.odd (eval a)).
Proof. intros n a W. exact (proj2 (g_uint_to_odd_spec n a W)). Qed.
Print Assumptions C12_src_odd_flag_is_choice.
(** the Int forms gate on the same bits (two's complement: non-zero / odd do not depend on the sign reading) *)
Theorem C12_src_int_forms : forall n a, length a = n -> usz n ->
  g_int_to_nz n a = g_uint_to_nz n a /\ g_int_to_odd n a = g_uint_to_odd n a.
Proof. intros. split; reflexivity. Qed.
Print Assumptions C12_src_int_forms.

Example C12_src_runs :
  g_uint_to_nz 3 [0; 0; 7] = ([0; 0; 7], 2 ^ 64 - 1) /\ g_uint_to_nz 3 [0; 0; 0] = ([0; 0; 0], 0) /\
  g_uint_to_odd 3 [9; 0; 7] = ([9; 0; 7], 2 ^ 64 - 1) /\ g_uint_to_odd 3 [8; 1; 7] = ([8; 1; 7], 0) /\
  g_int_to_nz 2 [0; 2 ^ 63] = ([0; 2 ^ 63], 2 ^ 64 - 1) /\ g_int_to_odd 2 [2 ^ 64 - 1; 2 ^ 64 - 1] = ([2 ^ 64 - 1; 2 ^ 64 - 1], 2 ^ 64 - 1).
Proof. vm_compute. repeat split. Qed.

(* ================= Odd::<Uint<LIMBS>>::from_be_hex / from_le_hex (src/odd.rs; Src/GenWrap.v, proofs in Src/GenWrapP.v) ================= *)
From CB Require Import Model.Conv Src.GenHex Src.GenConv Src.GenConvP.
From CB Require Import Proofs.ConvDigitsP Proofs.ConvHexP.
Import ListNotations.

(** the source text of the Odd hex constructors is the model: it returns (the decoded limbs) exactly when the two assertions the
    translator drops hold -- the error word of the hex loop is zero and `uint.is_odd().is_true_vartime()` -- and panics otherwise;
    for every limb count and every string of the asserted length 16 n (which fits a usize) *)
Theorem C12_src_odd_from_be_hex_model : forall n cs, wfd 256 cs -> length cs = (16 * n)%nat -> Z.of_nat (16 * n) < 2 ^ 64 ->
  odd_from_be_hex n cs =
  if (g_be_hex_err n cs =? 0) && cc_true (g_uint_is_odd n (g_odd_uint_from_be_hex n cs))
  then Val [g_odd_uint_from_be_hex n cs] else PanicV.
Proof.
  intros n cs W L HB. exact (odd_hex_src_model n cs _ _ _ _ (g_uint_from_be_hex_eq n cs L HB W) (from_be_hex_spec n cs W)).
Qed.
Print Assumptions C12_src_odd_from_be_hex_model.

Theorem C12_src_odd_from_le_hex_model : forall n cs, wfd 256 cs -> length cs = (16 * n)%nat -> Z.of_nat (16 * n) < 2 ^ 64 ->
  odd_from_le_hex n cs =
  if (g_le_hex_err n cs =? 0) && cc_true (g_uint_is_odd n (g_odd_uint_from_le_hex n cs))
  then Val [g_odd_uint_from_le_hex n cs] else PanicV.
Proof.
  intros n cs W L HB. exact (odd_hex_src_model n cs _ _ _ _ (g_uint_from_le_hex_eq n cs L HB W) (from_le_hex_spec n cs W)).
Qed.
Print Assumptions C12_src_odd_from_le_hex_model.

(** the decoded value is the big- / little-endian value of the hex string, and the odd assertion of the source holds iff it is odd *)
Theorem C12_src_odd_from_be_hex : forall n cs ds, wfd 256 cs -> length cs = (16 * n)%nat -> Z.of_nat (16 * n) < 2 ^ 64 ->
  hexvals cs = Some ds ->
  g_be_hex_err n cs = 0 /\
  wf (g_odd_uint_from_be_hex n cs) /\ length (g_odd_uint_from_be_hex n cs) = n /\
  eval (g_odd_uint_from_be_hex n cs) = evalb 16 (rev ds) /\
  cc_true (g_uint_is_odd n (g_odd_uint_from_be_hex n cs)) = Z.odd (evalb 16 (rev ds)).
Proof.
  intros n cs ds W L HB Hd.
  exact (odd_hex_src_decodes n cs _ _ _ _ (g_uint_from_be_hex_eq n cs L HB W) (from_be_hex_spec n cs W) ds Hd).
Qed.
Print Assumptions C12_src_odd_from_be_hex.

Theorem C12_src_odd_from_le_hex : forall n cs ds, wfd 256 cs -> length cs = (16 * n)%nat -> Z.of_nat (16 * n) < 2 ^ 64 ->
  hexvals cs = Some ds ->
  g_le_hex_err n cs = 0 /\
  wf (g_odd_uint_from_le_hex n cs) /\ length (g_odd_uint_from_le_hex n cs) = n /\
  eval (g_odd_uint_from_le_hex n cs) = evalb 256 (nib_pairs ds) /\
  cc_true (g_uint_is_odd n (g_odd_uint_from_le_hex n cs)) = Z.odd (evalb 256 (nib_pairs ds)).
Proof.
  intros n cs ds W L HB Hd.
  exact (odd_hex_src_decodes n cs _ _ _ _ (g_uint_from_le_hex_eq n cs L HB W) (from_le_hex_spec n cs W) ds Hd).
Qed.
Print Assumptions C12_src_odd_from_le_hex.

(** a character that is not a hex digit makes the asserted error word non-zero: the constructor panics *)
Theorem C12_src_odd_from_hex_rejects : forall n cs, wfd 256 cs -> length cs = (16 * n)%nat -> Z.of_nat (16 * n) < 2 ^ 64 ->
  hexvals cs = None -> g_be_hex_err n cs <> 0 /\ g_le_hex_err n cs <> 0 /\ odd_from_be_hex n cs = PanicV /\ odd_from_le_hex n cs = PanicV.
Proof.
  intros n cs W L HB Hn.
  pose proof (proj1 (g_be_hex_err_iff n cs W L HB)) as Hb. pose proof (proj1 (g_le_hex_err_iff n cs W L HB)) as Hl.
  assert (Eb : g_be_hex_err n cs <> 0) by (intros E; apply Hb in E; destruct E as [ds E]; rewrite E in Hn; discriminate).
  assert (El : g_le_hex_err n cs <> 0) by (intros E; apply Hl in E; destruct E as [ds E]; rewrite E in Hn; discriminate).
  split; [exact Eb|]. split; [exact El|].
  rewrite C12_src_odd_from_be_hex_model, C12_src_odd_from_le_hex_model by assumption.
  destruct (Z.eqb_spec (g_be_hex_err n cs) 0); [contradiction|]. destruct (Z.eqb_spec (g_le_hex_err n cs) 0); [contradiction|]. split; reflexivity.
Qed.
Print Assumptions C12_src_odd_from_hex_rejects.

(** non-vacuity: an odd and an even 2-limb string in either byte order *)
Example C12_src_odd_hex_runs :
  g_odd_uint_from_be_hex 2 [48; 48; 48; 48; 48; 48; 48; 48; 48; 48; 48; 48; 48; 48; 102; 102; 48; 49; 50; 51; 52; 53; 54; 55; 56; 57; 97; 98; 99; 68; 69; 70] = [81985529216486895; 255] /\
  cc_true (g_uint_is_odd 2 (g_odd_uint_from_be_hex 2 [48; 48; 48; 48; 48; 48; 48; 48; 48; 48; 48; 48; 48; 48; 102; 102; 48; 49; 50; 51; 52; 53; 54; 55; 56; 57; 97; 98; 99; 68; 69; 70])) = true /\
  cc_true (g_uint_is_odd 2 (g_odd_uint_from_be_hex 2 [48; 48; 48; 48; 48; 48; 48; 48; 48; 48; 48; 48; 48; 48; 102; 102; 48; 49; 50; 51; 52; 53; 54; 55; 56; 57; 97; 98; 99; 68; 69; 69])) = false /\
  g_odd_uint_from_le_hex 2 [69; 70; 48; 48; 48; 48; 48; 48; 48; 48; 48; 48; 48; 48; 48; 48; 102; 102; 48; 48; 48; 48; 48; 48; 48; 48; 48; 48; 48; 48; 48; 48] = [239; 255] /\
  cc_true (g_uint_is_odd 2 (g_odd_uint_from_le_hex 2 [69; 70; 48; 48; 48; 48; 48; 48; 48; 48; 48; 48; 48; 48; 48; 48; 102; 102; 48; 48; 48; 48; 48; 48; 48; 48; 48; 48; 48; 48; 48; 48])) = true /\
  odd_from_be_hex 2 [48; 48; 48; 48; 48; 48; 48; 48; 48; 48; 48; 48; 48; 48; 102; 102; 48; 49; 50; 51; 52; 53; 54; 55; 56; 57; 97; 98; 99; 68; 69; 70] = Val [g_odd_uint_from_be_hex 2 [48; 48; 48; 48; 48; 48; 48; 48; 48; 48; 48; 48; 48; 48; 102; 102; 48; 49; 50; 51; 52; 53; 54; 55; 56; 57; 97; 98; 99; 68; 69; 70]] /\ odd_from_be_hex 2 [48; 48; 48; 48; 48; 48; 48; 48; 48; 48; 48; 48; 48; 48; 102; 102; 48; 49; 50; 51; 52; 53; 54; 55; 56; 57; 97; 98; 99; 68; 69; 69] = PanicV.
Proof. vm_compute. repeat split. Qed.
