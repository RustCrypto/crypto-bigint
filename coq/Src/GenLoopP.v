(** Generic facts about the shape tools/rs2v.py gives to `let mut i = 0; while i < LIMBS { ..; i += 1 }` loops over limb
    arrays: a [Nat.iter LIMBS] over a tuple state whose first component is the counter, reading `nth i a 0` and writing
    `upd_ out i w`. Such a loop is the structural recursion over the limb lists. Hand-written; depends on SrcPrelude only. *)
From CB Require Import Model.SrcPrelude.
From Coq Require Import Lia List.
Import ListNotations.
Open Scope Z_scope.

(* ---- the counter: a loop that starts at i0 (`let mut i = i0`) and is emitted as Nat.iter d visits the indices
        i0 .. i0+d-1 in order (i0 + d < 2^64: `i` is a usize); [enc i s] is the loop state (i, x1, .., xn) for the tuple s
        of the other variables *)
Lemma iter_enc_from {T St} (F : T -> T) (enc : Z -> St -> T) (step : nat -> St -> St) :
  (forall i s, 0 <= i < 2 ^ 64 - 1 -> F (enc i s) = enc (add_ 64 i 1) (step (Z.to_nat i) s)) ->
  forall i0 d s0, Z.of_nat (i0 + d) < 2 ^ 64 ->
  Nat.iter d F (enc (Z.of_nat i0) s0) = enc (Z.of_nat (i0 + d)) (fold_left (fun s j => step j s) (seq i0 d) s0).
Proof.
  intros HF i0 d s0. induction d as [|d IH]; intros Hk; [rewrite Nat.add_0_r; reflexivity|].
  change (Nat.iter (S d) F (enc (Z.of_nat i0) s0)) with (F (Nat.iter d F (enc (Z.of_nat i0) s0))).
  rewrite IH by lia. rewrite HF by lia. rewrite Nat2Z.id.
  rewrite seq_S, fold_left_app. cbn [fold_left]. f_equal.
  unfold add_. rewrite Z.mod_small by lia. lia.
Qed.

Lemma iter_enc {T St} (F : T -> T) (enc : Z -> St -> T) (step : nat -> St -> St) :
  (forall i s, 0 <= i < 2 ^ 64 - 1 -> F (enc i s) = enc (add_ 64 i 1) (step (Z.to_nat i) s)) ->
  forall k s0, Z.of_nat k < 2 ^ 64 ->
  Nat.iter k F (enc 0 s0) = enc (Z.of_nat k) (fold_left (fun s j => step j s) (seq 0 k) s0).
Proof. intros HF k s0. exact (iter_enc_from F enc step HF 0 k s0). Qed.

(* the tuple shapes *)
Definition enc2 {A} (i : Z) (s : A) : Z * A := (i, s).
Definition enc3 {A B} (i : Z) (s : A * B) : Z * A * B := (i, fst s, snd s).
Definition enc4 {A B C} (i : Z) (s : A * B * C) : Z * A * B * C := (i, fst (fst s), snd (fst s), snd s).

Lemma iter_idx {St} (F : Z * St -> Z * St) (step : nat -> St -> St) :
  (forall i s, 0 <= i -> F (i, s) = (add_ 64 i 1, step (Z.to_nat i) s)) ->
  forall k s0, Z.of_nat k < 2 ^ 64 ->
  Nat.iter k F (0, s0) = (Z.of_nat k, fold_left (fun s j => step j s) (seq 0 k) s0).
Proof. intros HF. apply (iter_enc F enc2 step). intros i s [Hi _]. exact (HF i s Hi). Qed.

Lemma iter_idx3 {X Y} (F : Z * X * Y -> Z * X * Y) (step : nat -> X * Y -> X * Y) :
  (forall i x y, 0 <= i -> F (i, x, y) = (add_ 64 i 1, fst (step (Z.to_nat i) (x, y)), snd (step (Z.to_nat i) (x, y)))) ->
  forall k x0 y0, Z.of_nat k < 2 ^ 64 ->
  Nat.iter k F (0, x0, y0) =
  (Z.of_nat k, fst (fold_left (fun s j => step j s) (seq 0 k) (x0, y0)), snd (fold_left (fun s j => step j s) (seq 0 k) (x0, y0))).
Proof.
  intros HF k x0 y0. refine (iter_enc F enc3 step _ k (x0, y0)). intros i [x y] [Hi _]. exact (HF i x y Hi).
Qed.

(* ---- structural recursions the loops denote *)
Fixpoint zipacc (f : Z -> Z -> Z -> Z * Z) (a b : list Z) (c : Z) : list Z * Z :=
  match a, b with
  | x :: a', y :: b' => let '(w, c1) := f x y c in let '(r, c2) := zipacc f a' b' c1 in (w :: r, c2)
  | _, _ => ([], c)
  end.
Fixpoint mapacc (f : Z -> Z -> Z * Z) (a : list Z) (c : Z) : list Z * Z :=
  match a with
  | x :: a' => let '(w, c1) := f x c in let '(r, c2) := mapacc f a' c1 in (w :: r, c2)
  | [] => ([], c)
  end.

(* [pre] is the part of a list that the loop has passed: when the counter steps from length pre over x, x joins it *)
Lemma app_snoc {A} (pre : list A) x l : pre ++ x :: l = (pre ++ [x]) ++ l.
Proof. rewrite <- app_assoc. reflexivity. Qed.

Lemma upd_mid pre x post v : upd_ (pre ++ x :: post) (length pre) v = pre ++ v :: post.
Proof.
  unfold upd_. rewrite firstn_app, firstn_all, Nat.sub_diag. cbn [firstn]. rewrite app_nil_r.
  rewrite <- (last_length pre x), (app_snoc pre x post), skipn_app, skipn_all, Nat.sub_diag. reflexivity.
Qed.

Lemma nth_mid_eq (pa : list Z) x a k : length pa = k -> nth k (pa ++ x :: a) 0 = x.
Proof. intros <-. apply nth_middle. Qed.

(* out + accumulator, two inputs (adc, sbb) *)
Lemma fold_zipacc f : forall a b pa pb pre c, length a = length b -> length pa = length pre -> length pb = length pre ->
  fold_left (fun (s : list Z * Z) j => let '(w, c') := f (nth j (pa ++ a) 0) (nth j (pb ++ b) 0) (snd s) in (upd_ (fst s) j w, c'))
    (seq (length pre) (length a)) (pre ++ repeat 0 (length a), c)
  = (pre ++ fst (zipacc f a b c), snd (zipacc f a b c)).
Proof.
  induction a as [|x a IH]; intros b pa pb pre c Hl Hpa Hpb.
  - cbn. rewrite app_nil_r. reflexivity.
  - destruct b as [|y b]; [discriminate|]. cbn [length seq fold_left repeat zipacc fst snd].
    rewrite (nth_mid_eq pa x a _ Hpa), (nth_mid_eq pb y b _ Hpb).
    destruct (f x y c) as [w c1]. rewrite upd_mid.
    rewrite (app_snoc pre w), (app_snoc pa x), (app_snoc pb y), <- (last_length pre w).
    rewrite IH by (rewrite ?last_length; cbn in Hl; lia).
    destruct (zipacc f a b c1) as [r c2]. cbn [fst snd]. rewrite <- app_snoc. reflexivity.
Qed.

Lemma loop_zipacc f a b c : length a = length b ->
  fold_left (fun (s : list Z * Z) j => let '(w, c') := f (nth j a 0) (nth j b 0) (snd s) in (upd_ (fst s) j w, c'))
    (seq 0 (length a)) (repeat 0 (length a), c) = zipacc f a b c.
Proof.
  intros Hl. rewrite (surjective_pairing (zipacc f a b c)). exact (fold_zipacc f a b [] [] [] c Hl eq_refl eq_refl).
Qed.

(* out + accumulator, one input (carrying_neg) *)
Lemma loop_mapacc f a c :
  fold_left (fun (s : list Z * Z) j => let '(w, c') := f (nth j a 0) (snd s) in (upd_ (fst s) j w, c'))
    (seq 0 (length a)) (repeat 0 (length a), c) = mapacc f a c.
Proof.
  rewrite (loop_zipacc (fun x _ c => f x c) a a c eq_refl).
  revert c. induction a as [|x a IH]; intros c; [reflexivity|]. cbn [zipacc mapacc].
  destruct (f x c) as [w c1]. rewrite IH. reflexivity.
Qed.

(* out only, two inputs (select): the accumulator of loop_zipacc is carried along unused *)
Lemma loop_map2 (g : Z -> Z -> Z) a b : length a = length b ->
  fold_left (fun (out : list Z) j => upd_ out j (g (nth j a 0) (nth j b 0))) (seq 0 (length a)) (repeat 0 (length a))
  = map (fun p => g (fst p) (snd p)) (combine a b).
Proof.
  intros Hl. pose proof (loop_zipacc (fun x y c => (g x y, c)) a b 0 Hl) as H.
  assert (E : forall l (s : list Z * Z),
    fold_left (fun (s : list Z * Z) j => let '(w, c') := (g (nth j a 0) (nth j b 0), snd s) in (upd_ (fst s) j w, c')) l s
    = (fold_left (fun (out : list Z) j => upd_ out j (g (nth j a 0) (nth j b 0))) l (fst s), snd s)).
  { induction l as [|j l IHl]; intros [o c]; [reflexivity|]. cbn [fold_left fst snd]. rewrite IHl. reflexivity. }
  assert (Z2 : forall a b c, zipacc (fun x y c => (g x y, c)) a b c = (map (fun p => g (fst p) (snd p)) (combine a b), c)).
  { clear. induction a as [|x a IH]; intros [|y b] c; try reflexivity. cbn [zipacc combine map fst snd]. rewrite IH. reflexivity. }
  rewrite E, Z2 in H. exact (f_equal fst H).
Qed.

(* out only, one input (bitand_limb) *)
Lemma loop_map1 (g : Z -> Z) a :
  fold_left (fun (out : list Z) j => upd_ out j (g (nth j a 0))) (seq 0 (length a)) (repeat 0 (length a)) = map g a.
Proof.
  rewrite (loop_map2 (fun x _ => g x) a a eq_refl).
  induction a as [|x a IH]; [reflexivity|]. cbn [combine map fst]. rewrite IH. reflexivity.
Qed.

(* accumulator only (is_nonzero, eq, cmp): a left fold over the limbs *)
Lemma loop_acc1 {A} (g : A -> Z -> A) a c :
  fold_left (fun acc j => g acc (nth j a 0)) (seq 0 (length a)) c = fold_left g a c.
Proof.
  assert (G : forall a pa c, fold_left (fun acc j => g acc (nth j (pa ++ a) 0)) (seq (length pa) (length a)) c = fold_left g a c).
  { clear. induction a as [|x a IH]; intros pa c; [reflexivity|]. cbn [length seq fold_left]. rewrite nth_middle.
    rewrite (app_snoc pa x), <- (last_length pa x). apply IH. }
  exact (G a [] c).
Qed.
Lemma loop_acc2 {A} (g : A -> Z * Z -> A) a b c : length a = length b ->
  fold_left (fun acc j => g acc (nth j a 0, nth j b 0)) (seq 0 (length a)) c = fold_left g (combine a b) c.
Proof.
  assert (G : forall a b pa pb c, length a = length b -> length pa = length pb ->
    fold_left (fun acc j => g acc (nth j (pa ++ a) 0, nth j (pb ++ b) 0)) (seq (length pa) (length a)) c = fold_left g (combine a b) c).
  { clear. induction a as [|x a IH]; intros [|y b] pa pb c Hl Hp; try discriminate; [reflexivity|].
    cbn [length seq fold_left combine]. rewrite nth_middle, (nth_mid_eq pb y b _ (eq_sym Hp)).
    rewrite (app_snoc pa x), (app_snoc pb y), <- (last_length pa x).
    apply IH; [cbn in Hl; lia | rewrite !last_length; lia]. }
  intros Hl. exact (G a b [] [] c Hl eq_refl).
Qed.

(* in place: ret[i] = g(ret[i]) (neg_mod) *)
Lemma loop_inplace (g : Z -> Z) : forall l pre,
  fold_left (fun (out : list Z) j => upd_ out j (g (nth j out 0))) (seq (length pre) (length l)) (pre ++ l) = pre ++ map g l.
Proof.
  induction l as [|x l IH]; intros pre; [reflexivity|]. cbn [length seq fold_left map].
  rewrite nth_middle, upd_mid. rewrite (app_snoc pre (g x)), <- (last_length pre (g x)), IH. symmetry. apply app_snoc.
Qed.
