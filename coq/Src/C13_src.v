(** C13, translator tie: the signed-integer kernels of /repo's CURRENT src/int/sign.rs, add.rs, sub.rs, neg.rs with the
    Uint / Limb helpers and constants they use (Src/GenInt.v, regenerated on every run by tools/rs2v.py) are the limb-level
    models of Model/IntArith.v, hence two's-complement exact for every limb count.  Short proofs stand here; the others
    are lemmas of Src/GenIntP.v cited by [exact].
    [g_int_* n a]: n = LIMBS, a = the limb list of the Int (= of the Uint it wraps). *)
From CB Require Import Model.SrcPrelude Model.Word Model.Limbs Model.AddSub Model.IntArith.
From CB Require Import Src.GenPrim Src.GenUint Src.GenInt Src.GenUintP Src.GenIntP Proofs.WordP Proofs.LimbsP Proofs.IntArithP.
From Coq Require Import ZArith List.
Import ListNotations.
Open Scope Z_scope.

(* ---------------- generated function = model function *)
Theorem C13_src_most_significant_word : forall n a, length a = n -> usz n -> g_int_most_significant_word n a = int_msw a.
Proof. exact g_int_msw_eq. Qed.
Print Assumptions C13_src_most_significant_word.
Theorem C13_src_is_negative : forall n a, length a = n -> usz n -> g_int_is_negative n a = int_is_negative a.
Proof. exact g_int_is_negative_eq. Qed.
Print Assumptions C13_src_is_negative.
Theorem C13_src_overflowing_add : forall n a b, length a = n -> length b = n -> usz n -> wf a -> wf b ->
  g_int_overflowing_add n a b = int_overflowing_add a b.
Proof. exact g_int_overflowing_add_eq. Qed.
Print Assumptions C13_src_overflowing_add.
Theorem C13_src_wrapping_add : forall n a b, length a = n -> length b = n -> usz n -> wf a -> wf b ->
  g_int_wrapping_add n a b = int_wrapping_add a b.
Proof. intros. unfold g_int_wrapping_add, int_wrapping_add. apply g_uint_wrapping_add_eq; assumption. Qed.
Print Assumptions C13_src_wrapping_add.
Theorem C13_src_wrapping_sub : forall n a b, length a = n -> length b = n -> usz n -> wf a -> wf b ->
  g_int_wrapping_sub n a b = int_wrapping_sub a b.
Proof. exact g_int_wrapping_sub_eq. Qed.
Print Assumptions C13_src_wrapping_sub.
(** Int::ONE = Self(Uint::from_u8(1)) exists for LIMBS >= 1 only (from_u8 asserts it) *)
Theorem C13_src_ONE : forall n, (1 <= n)%nat -> g_int_ONE n = one_limbs n.
Proof. exact g_int_ONE_eq. Qed.
Print Assumptions C13_src_ONE.
Theorem C13_src_overflowing_neg : forall n a, length a = n -> (1 <= n)%nat -> usz n -> wf a ->
  g_int_overflowing_neg n a = int_overflowing_neg a.
Proof. exact g_int_overflowing_neg_eq. Qed.
Print Assumptions C13_src_overflowing_neg.
Theorem C13_src_wrapping_neg : forall n a, length a = n -> (1 <= n)%nat -> usz n -> wf a ->
  g_int_wrapping_neg n a = int_wrapping_neg a.
Proof. intros. unfold g_int_wrapping_neg, int_wrapping_neg. rewrite g_int_overflowing_neg_eq by assumption. reflexivity. Qed.
Print Assumptions C13_src_wrapping_neg.
Theorem C13_src_wrapping_neg_if : forall n a c, length a = n -> usz n -> wf a ->
  g_int_wrapping_neg_if n a c = int_wrapping_neg_if a c.
Proof. exact g_int_wrapping_neg_if_eq. Qed.
Print Assumptions C13_src_wrapping_neg_if.
Theorem C13_src_abs_sign : forall n a, length a = n -> usz n -> wf a -> g_int_abs_sign n a = int_abs_sign a.
Proof. exact g_int_abs_sign_eq. Qed.
Print Assumptions C13_src_abs_sign.
Theorem C13_src_abs : forall n a, length a = n -> usz n -> wf a -> g_int_abs n a = int_abs a.
Proof. intros. unfold g_int_abs, int_abs. rewrite g_int_abs_sign_eq by assumption. reflexivity. Qed.
Print Assumptions C13_src_abs.

(* ---------------- hence the SOURCE text is two's-complement exact ([seval] = signed value, [to_limbs_s] = encoding) *)
Theorem C13_src_is_negative_spec : forall n a, length a = n -> usz n -> wf a ->
  g_int_is_negative n a = choice_of_bool (seval a <? 0).
Proof. intros. rewrite g_int_is_negative_eq by assumption. apply int_is_negative_spec. assumption. Qed.
Print Assumptions C13_src_is_negative_spec.
Theorem C13_src_overflowing_add_spec : forall n a b, length a = n -> length b = n -> usz n -> wf a -> wf b ->
  g_int_overflowing_add n a b = (to_limbs_s n (seval a + seval b), choice_of_bool (negb (isp_fits n (seval a + seval b)))).
Proof.
  intros n a b Ha Hb Hn Wa Wb. rewrite g_int_overflowing_add_eq by assumption. rewrite <- Ha.
  apply int_overflowing_add_spec; congruence.
Qed.
Print Assumptions C13_src_overflowing_add_spec.
Theorem C13_src_wrapping_sub_spec : forall n a b, length a = n -> length b = n -> usz n -> wf a -> wf b ->
  g_int_wrapping_sub n a b = to_limbs_s n (seval a - seval b).
Proof.
  intros n a b Ha Hb Hn Wa Wb. rewrite g_int_wrapping_sub_eq by assumption. rewrite <- Ha.
  apply int_wrapping_sub_spec; congruence.
Qed.
Print Assumptions C13_src_wrapping_sub_spec.
Theorem C13_src_overflowing_neg_spec : forall n a, length a = n -> (1 <= n)%nat -> usz n -> wf a ->
  g_int_overflowing_neg n a = (to_limbs_s n (- seval a), choice_of_bool (negb (isp_fits n (- seval a)))).
Proof.
  intros n a Ha H1 Hn Wa. rewrite g_int_overflowing_neg_eq by assumption. rewrite <- Ha. apply int_overflowing_neg_spec. assumption.
Qed.
Print Assumptions C13_src_overflowing_neg_spec.
Theorem C13_src_wrapping_neg_if_spec : forall n a (b : bool), length a = n -> usz n -> wf a ->
  g_int_wrapping_neg_if n a (choice_of_bool b) = to_limbs_s n (if b then - seval a else seval a).
Proof.
  intros n a b Ha Hn Wa. rewrite g_int_wrapping_neg_if_eq by assumption. rewrite <- Ha. apply int_wrapping_neg_if_spec. assumption.
Qed.
Print Assumptions C13_src_wrapping_neg_if_spec.
Theorem C13_src_abs_sign_spec : forall n a, length a = n -> usz n -> wf a ->
  g_int_abs_sign n a = (to_limbs n (Z.abs (seval a)), choice_of_bool (seval a <? 0)).
Proof.
  intros n a Ha Hn Wa. rewrite g_int_abs_sign_eq by assumption. rewrite <- Ha. apply int_abs_sign_spec. assumption.
Qed.
Print Assumptions C13_src_abs_sign_spec.

(** non-vacuity: the generated functions run on multi-limb inputs (MIN + MIN overflows; -MIN overflows; |-(2^64)|) *)
Example C13_src_runs :
  g_int_overflowing_add 2 [0; 2 ^ 63] [0; 2 ^ 63] = ([0; 0], 2 ^ 64 - 1) /\
  g_int_overflowing_add 2 [2 ^ 64 - 1; 2 ^ 63 - 1] [1; 0] = ([0; 2 ^ 63], 2 ^ 64 - 1) /\
  g_int_overflowing_add 2 [2 ^ 64 - 1; 2 ^ 64 - 1] [1; 0] = ([0; 0], 0) /\
  g_int_overflowing_neg 2 [0; 2 ^ 63] = ([0; 2 ^ 63], 2 ^ 64 - 1) /\
  g_int_overflowing_neg 3 [5; 0; 0] = ([2 ^ 64 - 5; 2 ^ 64 - 1; 2 ^ 64 - 1], 0) /\
  g_int_abs_sign 2 [0; 2 ^ 64 - 1] = ([0; 1], 2 ^ 64 - 1) /\
  g_int_is_negative 0 [] = 0 /\ g_int_wrapping_sub 2 [0; 0] [1; 0] = [2 ^ 64 - 1; 2 ^ 64 - 1].
Proof. vm_compute. repeat split. Qed.
