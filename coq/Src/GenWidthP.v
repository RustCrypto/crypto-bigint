(** Hacker's Delight 2-12 comparison predicates at an ARBITRARY word width w >= 1, stated on the operators of
    Model/SrcPrelude.v exactly as tools/rs2v.py emits them (used at w = 32, 64, 128 for the u32 / Word / WideWord forms of
    src/const_choice.rs and src/uint/div_limb.rs). Hand-written; no dependency on the rest of the development. *)
From CB Require Import Model.SrcPrelude.
From Coq Require Import Lia.
Open Scope Z_scope.

Section Width.
Variable w : Z.
Hypothesis Hw : 1 <= w.
Let W := 2 ^ w.
Let H := 2 ^ (w - 1).

Lemma W_2H : W = 2 * H.
Proof. unfold W, H. replace w with (1 + (w - 1)) at 1 by lia. rewrite Z.pow_add_r by lia. reflexivity. Qed.
Lemma H_pos : 0 < H. Proof. unfold H. apply Z.pow_pos_nonneg; lia. Qed.

Definition inw (x : Z) : Prop := 0 <= x < W.
Definition msbw (x : Z) : bool := H <=? x.

Lemma msb_div_w x : inw x -> shr_ x (w - 1) = b2z (msbw x).
Proof.
  unfold inw, shr_, msbw. fold H. intros Hx. pose proof W_2H. pose proof H_pos.
  destruct (Z.leb_spec H x); unfold b2z.
  - symmetry. apply (Z.div_unique x H 1 (x - H)); lia.
  - apply Z.div_small. lia.
Qed.

Lemma testbit_top x : inw x -> Z.testbit x (w - 1) = msbw x.
Proof.
  intros Hx. rewrite Z.testbit_odd, Z.shiftr_div_pow2 by lia. fold H.
  pose proof (msb_div_w x Hx) as E. unfold shr_ in E. fold H in E. rewrite E. destruct (msbw x); reflexivity.
Qed.

Lemma high_bits x n : inw x -> w <= n -> Z.testbit x n = false.
Proof.
  unfold inw, W. intros [H0 H1] Hn. destruct (Z.eq_dec x 0) as [->|Hnz]; [apply Z.bits_0|].
  apply Z.bits_above_log2; [lia|]. assert (Z.log2 x < w) by (apply Z.log2_lt_pow2; lia). lia.
Qed.
Lemma from_bits x : 0 <= x -> (forall n, w <= n -> Z.testbit x n = false) -> inw x.
Proof.
  intros H0 Hb. unfold inw, W. split; [assumption|].
  destruct (Z_lt_ge_dec x (2 ^ w)) as [|Hge]; [assumption|exfalso].
  assert (Hx : 0 < x) by (assert (0 < 2 ^ w) by (apply Z.pow_pos_nonneg; lia); lia).
  assert (w <= Z.log2 x) by (apply Z.log2_le_pow2; lia).
  pose proof (Z.bit_log2 x Hx) as Hbit. rewrite Hb in Hbit by assumption. discriminate.
Qed.

Lemma inw_lor a b : inw a -> inw b -> inw (Z.lor a b).
Proof. intros Ha Hb. apply from_bits; [apply Z.lor_nonneg; unfold inw in *; lia|].
  intros n Hn. rewrite Z.lor_spec, (high_bits a n Ha Hn), (high_bits b n Hb Hn). reflexivity. Qed.
Lemma inw_land a b : inw a -> inw b -> inw (Z.land a b).
Proof. intros Ha Hb. apply from_bits; [apply Z.land_nonneg; unfold inw in *; lia|].
  intros n Hn. rewrite Z.land_spec, (high_bits a n Ha Hn). reflexivity. Qed.
Lemma inw_lxor a b : inw a -> inw b -> inw (Z.lxor a b).
Proof. intros Ha Hb. apply from_bits; [apply Z.lxor_nonneg; unfold inw in *; lia|].
  intros n Hn. rewrite Z.lxor_spec, (high_bits a n Ha Hn), (high_bits b n Hb Hn). reflexivity. Qed.
Lemma inw_not a : inw a -> inw (not_ w a).
Proof. unfold inw, not_. fold W. lia. Qed.
Lemma inw_mod a : inw (a mod 2 ^ w).
Proof. unfold inw. fold W. apply Z.mod_pos_bound. unfold W. apply Z.pow_pos_nonneg; lia. Qed.
Lemma inw_sub a b : inw (sub_ w a b). Proof. apply inw_mod. Qed.
Lemma inw_neg a : inw (neg_ w a). Proof. apply inw_mod. Qed.

Lemma msbw_lor a b : inw a -> inw b -> msbw (Z.lor a b) = msbw a || msbw b.
Proof. intros Ha Hb. rewrite <- !testbit_top by auto using inw_lor. apply Z.lor_spec. Qed.
Lemma msbw_land a b : inw a -> inw b -> msbw (Z.land a b) = msbw a && msbw b.
Proof. intros Ha Hb. rewrite <- !testbit_top by auto using inw_land. apply Z.land_spec. Qed.
Lemma msbw_lxor a b : inw a -> inw b -> msbw (Z.lxor a b) = xorb (msbw a) (msbw b).
Proof. intros Ha Hb. rewrite <- !testbit_top by auto using inw_lxor. apply Z.lxor_spec. Qed.
Lemma msbw_not a : inw a -> msbw (not_ w a) = negb (msbw a).
Proof.
  unfold inw, not_, msbw. fold W. intros Ha. pose proof W_2H. pose proof H_pos.
  destruct (Z.leb_spec H (W - 1 - a)), (Z.leb_spec H a); simpl; try reflexivity; lia.
Qed.

Lemma neg_val x : inw x -> neg_ w x = if x =? 0 then 0 else W - x.
Proof.
  unfold inw, neg_. fold W. intros Hx. destruct (Z.eqb_spec x 0) as [->|Hnz]; [reflexivity|].
  symmetry. apply (Z.mod_unique_pos _ _ (-1)); lia.
Qed.
Lemma sub_val x y : inw x -> inw y -> sub_ w x y = if y <=? x then x - y else x - y + W.
Proof.
  unfold inw, sub_. fold W. intros Hx Hy. destruct (Z.leb_spec y x).
  - apply Z.mod_small. lia.
  - symmetry. apply (Z.mod_unique_pos _ _ (-1)); lia.
Qed.

(** (value | value.wrapping_neg()) >> (BITS - 1) *)
Lemma nonzero_bit x : inw x -> shr_ (Z.lor x (neg_ w x)) (w - 1) = b2z (negb (x =? 0)).
Proof.
  intros Hx. rewrite msb_div_w by (apply inw_lor; auto using inw_neg). f_equal.
  rewrite msbw_lor by auto using inw_neg. rewrite (neg_val x Hx).
  unfold inw in Hx. pose proof W_2H. pose proof H_pos.
  destruct (Z.eqb_spec x 0) as [->|Hnz]; [unfold msbw; simpl; destruct (Z.leb_spec H 0); [lia|reflexivity]|]. simpl.
  unfold msbw. destruct (Z.leb_spec H x), (Z.leb_spec H (W - x)); simpl; try reflexivity; lia.
Qed.

(** (((!x) & y) | (((!x) | y) & (x.wrapping_sub(y)))) >> (BITS - 1) *)
Lemma lt_bit x y : inw x -> inw y ->
  shr_ (Z.lor (Z.land (not_ w x) y) (Z.land (Z.lor (not_ w x) y) (sub_ w x y))) (w - 1) = b2z (x <? y).
Proof.
  intros Hx Hy. assert (Hnx := inw_not x Hx). assert (Hs := inw_sub x y).
  rewrite msb_div_w by (auto using inw_lor, inw_land). f_equal.
  rewrite msbw_lor, !msbw_land, msbw_lor, msbw_not
    by (auto using inw_lor, inw_land).
  rewrite (sub_val x y Hx Hy). unfold inw in Hx, Hy. pose proof W_2H. pose proof H_pos. unfold msbw.
  destruct (Z.leb_spec H x), (Z.leb_spec H y), (Z.ltb_spec x y), (Z.leb_spec y x);
    try lia; simpl; try reflexivity;
    match goal with |- context [?a <=? ?b] => destruct (Z.leb_spec a b) end; simpl; try reflexivity; lia.
Qed.

(** (((!x) | y) & ((x ^ y) | !(y.wrapping_sub(x)))) >> (BITS - 1) *)
Lemma le_bit x y : inw x -> inw y ->
  shr_ (Z.land (Z.lor (not_ w x) y) (Z.lor (Z.lxor x y) (not_ w (sub_ w y x)))) (w - 1) = b2z (x <=? y).
Proof.
  intros Hx Hy. assert (Hnx := inw_not x Hx). assert (Hs := inw_sub y x).
  assert (Hns := inw_not _ Hs). assert (Hxy := inw_lxor x y Hx Hy).
  rewrite msb_div_w by (auto using inw_lor, inw_land). f_equal.
  rewrite msbw_land, !msbw_lor, msbw_lxor, !msbw_not
    by (auto using inw_lor, inw_land).
  rewrite (sub_val y x Hy Hx). unfold inw in Hx, Hy. pose proof W_2H. pose proof H_pos. unfold msbw.
  destruct (Z.leb_spec H x), (Z.leb_spec H y), (Z.leb_spec x y);
    try lia; simpl; try reflexivity;
    match goal with |- context [?a <=? ?b] => destruct (Z.leb_spec a b) end; simpl; try reflexivity; lia.
Qed.

(** a ^ (mask & (a ^ b)) with mask all-zero / all-one *)
Lemma select_0 a b : Z.lxor a (Z.land 0 (Z.lxor a b)) = a.
Proof. rewrite Z.land_0_l. apply Z.lxor_0_r. Qed.
Lemma select_ones a b : inw a -> inw b -> Z.lxor a (Z.land (W - 1) (Z.lxor a b)) = b.
Proof.
  intros Ha Hb. assert (Hx := inw_lxor a b Ha Hb).
  replace (W - 1) with (Z.ones w) by (unfold W; rewrite Z.ones_equiv; lia).
  rewrite Z.land_comm, Z.land_ones by lia. fold W. unfold inw in Hx. rewrite Z.mod_small by lia.
  rewrite <- Z.lxor_assoc. rewrite Z.lxor_nilpotent. apply Z.lxor_0_l.
Qed.
End Width.
