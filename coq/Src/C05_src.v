(** C05, translator tie. The text regenerated on every run by tools/rs2v.py from /repo's CURRENT source equals the models:
    the single-bit and sub-limb shifts and the variable-time shifts of src/limb/shl.rs, shr.rs, src/uint/shl.rs, shr.rs with
    ConstCtOption::some / none and Uint::BITS (Src/GenShift.v); the constant-time shift ladders, leading_zeros and Uint::bits
    (Src/GenBits.v); Uint::bitand / bitor / not (Src/GenLogic.v). Hence the source text is exact for every limb count.
    Short proofs stand here; longer ones are lemmas of Src/GenShiftP.v, GenBitsP.v and GenLogicP.v cited by [exact]. *)
From CB Require Import Model.SrcPrelude Model.Word Model.Limbs Model.Mul Model.ModArith Model.Sqrt Model.Div Model.Bits.
From CB Require Import Src.GenPrim Src.GenShift Src.GenShiftP Proofs.WordP Proofs.LimbsP.
From CB Require Import Model.DivL0 Src.GenUint Src.GenBits Src.GenBitsP.
From CB Require Import Src.GenUintP Src.GenMod Src.GenLogic Src.GenLogicP.
From Coq Require Import ZArith List Lia.
Import ListNotations.
Open Scope Z_scope.

Theorem C05_src_limb_shl1 : forall x, g_limb_shl1 x = (wshl x 1, x / 2 ^ 63).
Proof. exact g_limb_shl1_eq. Qed.
Print Assumptions C05_src_limb_shl1.
Theorem C05_src_limb_shr1 : forall x, g_limb_shr1 x = (wshr x 1, wshl x 63).
Proof. exact g_limb_shr1_eq. Qed.
Print Assumptions C05_src_limb_shr1.
Theorem C05_src_limb_shl : forall x s, g_limb_shl x s = wshl x s.
Proof. exact g_limb_shl_eq. Qed.
Print Assumptions C05_src_limb_shl.
Theorem C05_src_limb_shr : forall x s, g_limb_shr x s = wshr x s.
Proof. exact g_limb_shr_eq. Qed.
Print Assumptions C05_src_limb_shr.

(** the upward loop is the limb-level doubling recursion of Model/Mul.v ... *)
Theorem C05_src_overflowing_shl1 : forall n a, length a = n -> Z.of_nat n < 2 ^ 64 -> g_uint_overflowing_shl1 n a = shl1_go a 0.
Proof. exact g_uint_overflowing_shl1_eq. Qed.
Print Assumptions C05_src_overflowing_shl1.
(** ... which is the value-level model used by double_mod (C07) *)
Theorem C05_src_overflowing_shl1_val : forall n a, length a = n -> Z.of_nat n < 2 ^ 64 -> wf a -> g_uint_overflowing_shl1 n a = shl1_val a.
Proof. exact g_uint_overflowing_shl1_val. Qed.
Print Assumptions C05_src_overflowing_shl1_val.
Theorem C05_src_overflowing_shl1_exact : forall n a w c, length a = n -> Z.of_nat n < 2 ^ 64 -> wf a ->
  g_uint_overflowing_shl1 n a = (w, c) -> eval w + Bn n * c = 2 * eval a /\ wf w /\ length w = n /\ 0 <= c <= 1.
Proof.
  intros n a w c Ha Hn Wa E. rewrite g_uint_overflowing_shl1_eq in E by assumption.
  destruct (Proofs.MulSqP.shl1_go_correct a 0 w c Wa ltac:(lia) E) as (He & Ww & Lw & Hc).
  subst n. repeat split; try assumption; lia.
Qed.
Print Assumptions C05_src_overflowing_shl1_exact.

(** the downward loop (`let mut i = LIMBS; while i > 0 { i -= 1; .. }`) is shr1_limbs; the returned choice is the bit shifted out *)
Theorem C05_src_shr1_with_carry : forall n a, length a = n -> Z.of_nat n < 2 ^ 64 -> wf a ->
  g_uint_shr1_with_carry n a = (shr1_limbs a, choice_of_bool (Z.odd (eval a))).
Proof. exact g_uint_shr1_with_carry_eq. Qed.
Print Assumptions C05_src_shr1_with_carry.
Theorem C05_src_shr1 : forall n a, length a = n -> Z.of_nat n < 2 ^ 64 -> g_uint_shr1 n a = shr1_limbs a.
Proof. exact g_uint_shr1_eq. Qed.
Print Assumptions C05_src_shr1.
Theorem C05_src_shr1_exact : forall n a, length a = n -> Z.of_nat n < 2 ^ 64 -> wf a ->
  eval (g_uint_shr1 n a) = eval a / 2 /\ wf (g_uint_shr1 n a) /\ length (g_uint_shr1 n a) = n.
Proof.
  intros n a Ha Hn Wa. rewrite g_uint_shr1_eq by assumption. rewrite <- Ha.
  apply Proofs.SqrtLimbsP.shr1_limbs_spec. assumption.
Qed.
Print Assumptions C05_src_shr1_exact.

(* Uint::shl_limb: 0 <= shift < Limb::BITS; `self.limbs[LIMBS - 1]` needs LIMBS >= 1 *)
Theorem C05_src_shl_limb : forall n a s, length a = n -> (1 <= n)%nat -> Z.of_nat n < 2 ^ 64 -> wf a -> 0 <= s < 64 ->
  g_uint_shl_limb n a s = shl_limb a s.
Proof. exact g_uint_shl_limb_eq. Qed.
Print Assumptions C05_src_shl_limb.
Theorem C05_src_shl_limb_exact : forall n a s r c, length a = n -> (1 <= n)%nat -> Z.of_nat n < 2 ^ 64 -> wf a -> 0 <= s < 64 ->
  g_uint_shl_limb n a s = (r, c) -> eval r + Bn n * c = eval a * 2 ^ s /\ wf r /\ length r = n /\ 0 <= c < 2 ^ s.
Proof.
  intros n a s r c Ha H1 Hn Wa Hs E. rewrite g_uint_shl_limb_eq in E by assumption.
  pose proof (Proofs.DivP.shl_limb_correct a s Wa Hs) as H. rewrite E, Ha in H. exact H.
Qed.
Print Assumptions C05_src_shl_limb_exact.

(* Uint::overflowing_shl_vartime / overflowing_shr_vartime: the kernels under every Uint shift of C05 *)
(** BITS = 64 * LIMBS fits the u32 `Self::BITS` (as in every instantiation of the crate); shift is a u32.
    `if shift >= Self::BITS { return none }`, the offset limb copy, `if rem == 0 { return some }` and the in-place
    carry loop (upward for shl, `while i > 0 { i -= 1; .. }` for shr) are the model's firstn / skipn / shl_carry / shr_carry *)
Theorem C05_src_BITS : forall n, 64 * Z.of_nat n < 2 ^ 32 -> g_uint_BITS n = 64 * Z.of_nat n.
Proof. exact g_uint_BITS_eq. Qed.
Print Assumptions C05_src_BITS.
Theorem C05_src_shl_vartime : forall n a s, length a = n -> 64 * Z.of_nat n < 2 ^ 32 -> 0 <= s < 2 ^ 32 ->
  g_uint_overflowing_shl_vartime n a s = uint_overflowing_shl_vartime a s.
Proof. exact g_uint_overflowing_shl_vartime_eq. Qed.
Print Assumptions C05_src_shl_vartime.
Theorem C05_src_shr_vartime : forall n a s, length a = n -> 64 * Z.of_nat n < 2 ^ 32 -> 0 <= s < 2 ^ 32 ->
  g_uint_overflowing_shr_vartime n a s = uint_overflowing_shr_vartime a s.
Proof. exact g_uint_overflowing_shr_vartime_eq. Qed.
Print Assumptions C05_src_shr_vartime.
(** hence the SOURCE text shifts exactly: (value, is_some) with is_some = (shift < BITS) *)
Theorem C05_src_shl_vartime_exact : forall n a s, length a = n -> 64 * Z.of_nat n < 2 ^ 32 -> 0 <= s < 2 ^ 32 -> wf a ->
  let r := g_uint_overflowing_shl_vartime n a s in
  snd r = choice_of_bool (s <? 64 * Z.of_nat n) /\ wf (fst r) /\ length (fst r) = n /\
  eval (fst r) = if s <? 64 * Z.of_nat n then (eval a * 2 ^ s) mod Bn n else 0.
Proof.
  intros n a s Ha Hn Hs Wa. cbv zeta. rewrite g_uint_overflowing_shl_vartime_eq by assumption. subst n.
  apply (Proofs.ShiftP.shl_vartime_correct a s Wa). lia.
Qed.
Print Assumptions C05_src_shl_vartime_exact.
Theorem C05_src_shr_vartime_exact : forall n a s, length a = n -> 64 * Z.of_nat n < 2 ^ 32 -> 0 <= s < 2 ^ 32 -> wf a ->
  let r := g_uint_overflowing_shr_vartime n a s in
  snd r = choice_of_bool (s <? 64 * Z.of_nat n) /\ wf (fst r) /\ length (fst r) = n /\
  eval (fst r) = if s <? 64 * Z.of_nat n then eval a / 2 ^ s else 0.
Proof.
  intros n a s Ha Hn Hs Wa. cbv zeta. rewrite g_uint_overflowing_shr_vartime_eq by assumption. subst n.
  apply (Proofs.ShiftP.shr_vartime_correct a s Wa). lia.
Qed.
Print Assumptions C05_src_shr_vartime_exact.

Example C05_src_vartime_runs :
  g_uint_overflowing_shl_vartime 3 [2 ^ 63 + 1; 7; 2 ^ 64 - 1] 65 = ([0; 2; 15], 2 ^ 64 - 1) /\
  g_uint_overflowing_shl_vartime 3 [1; 2; 3] 128 = ([0; 0; 1], 2 ^ 64 - 1) /\
  g_uint_overflowing_shl_vartime 3 [1; 2; 3] 192 = ([0; 0; 0], 0) /\
  g_uint_overflowing_shr_vartime 3 [2 ^ 64 - 1; 7; 2 ^ 63 + 1] 65 = ([2 ^ 63 + 3; 2 ^ 62; 0], 2 ^ 64 - 1) /\
  g_uint_overflowing_shr_vartime 3 [1; 2; 3] 64 = ([2; 3; 0], 2 ^ 64 - 1) /\
  g_uint_overflowing_shr_vartime 2 [1; 2] 4000000000 = ([0; 0], 0).
Proof. vm_compute. repeat split. Qed.

(** non-vacuity: the generated functions run on multi-limb inputs *)
Example C05_src_runs :
  g_uint_overflowing_shl1 3 [2 ^ 63; 1; 2 ^ 64 - 1] = ([0; 3; 2 ^ 64 - 2], 1) /\
  g_uint_shr1_with_carry 3 [3; 1; 2 ^ 63] = ([2 ^ 63 + 1; 0; 2 ^ 62], 2 ^ 64 - 1) /\
  g_uint_shr1 2 [4; 6] = [2; 3] /\
  g_uint_shl_limb 3 [2 ^ 63 + 1; 0; 2 ^ 62] 2 = ([4; 2; 0], 1) /\
  g_uint_shl_limb 2 [5; 7] 0 = ([5; 7], 0).
Proof. vm_compute. repeat split. Qed.


(** the constant-time shifts and the bit length (Src/GenBits.v): every limb count n >= 1 with 64 n < 2^32 (Uint::BITS is a u32) *)

(** leading_zeros (downward scan, u32 counter, ConstChoice flag) and Uint::bits are the limb-level models *)
Theorem C05_src_leading_zeros : forall ls, wf ls -> 64 * Z.of_nat (length ls) < 2 ^ 32 ->
  g_slice_leading_zeros ls = limbs_leading_zeros ls.
Proof. exact g_slice_leading_zeros_eq. Qed.
Print Assumptions C05_src_leading_zeros.

Theorem C05_src_bits_exact : forall n y, length y = n -> wf y -> 64 * Z.of_nat n < 2 ^ 32 ->
  g_uint_bits n y = (if eval y <=? 0 then 0 else Z.log2 (eval y) + 1).
Proof. exact g_uint_bits_exact. Qed.
Print Assumptions C05_src_bits_exact.

(** Uint::overflowing_shl / overflowing_shr: the ladder of log2(BITS) fixed shifts selected bit by bit. The model returns
    None where an inner `expect` of the source would panic; whenever it returns Some c the source text returns c *)
Theorem C05_src_overflowing_shl : forall n a s c, length a = n -> (1 <= n)%nat -> 64 * Z.of_nat n < 2 ^ 32 -> 0 <= s < 2 ^ 32 ->
  uint_overflowing_shl a s = Some c -> g_uint_overflowing_shl n a s = c.
Proof. exact g_uint_overflowing_shl_eq. Qed.
Print Assumptions C05_src_overflowing_shl.

Theorem C05_src_overflowing_shr : forall n a s c, length a = n -> (1 <= n)%nat -> 64 * Z.of_nat n < 2 ^ 32 -> 0 <= s < 2 ^ 32 ->
  uint_overflowing_shr a s = Some c -> g_uint_overflowing_shr n a s = c.
Proof. exact g_uint_overflowing_shr_eq. Qed.
Print Assumptions C05_src_overflowing_shr.

(** hence the SOURCE constant-time shifts are exact for EVERY u32 shift: is_some iff s < BITS, value (a * 2^s) mod 2^BITS
    resp. floor(a / 2^s) *)
Theorem C05_src_overflowing_shl_exact : forall n a s, length a = n -> (1 <= n)%nat -> 64 * Z.of_nat n < 2 ^ 32 -> 0 <= s < 2 ^ 32 -> wf a ->
  let r := g_uint_overflowing_shl n a s in
  snd r = choice_of_bool (s <? 64 * Z.of_nat n) /\ wf (fst r) /\ length (fst r) = n /\
  eval (fst r) = if s <? 64 * Z.of_nat n then (eval a * 2 ^ s) mod Bn n else 0.
Proof. exact g_uint_overflowing_shl_exact. Qed.
Print Assumptions C05_src_overflowing_shl_exact.

Theorem C05_src_overflowing_shr_exact : forall n a s, length a = n -> (1 <= n)%nat -> 64 * Z.of_nat n < 2 ^ 32 -> 0 <= s < 2 ^ 32 -> wf a ->
  let r := g_uint_overflowing_shr n a s in
  snd r = choice_of_bool (s <? 64 * Z.of_nat n) /\ wf (fst r) /\ length (fst r) = n /\
  eval (fst r) = if s <? 64 * Z.of_nat n then eval a / 2 ^ s else 0.
Proof. exact g_uint_overflowing_shr_exact. Qed.
Print Assumptions C05_src_overflowing_shr_exact.

(** Uint::shl / Uint::shr (the `expect` wrappers) *)
Theorem C05_src_shl : forall n a s v, length a = n -> (1 <= n)%nat -> 64 * Z.of_nat n < 2 ^ 32 -> 0 <= s < 2 ^ 32 ->
  l0_uint_shl a s = Some v -> g_uint_shl n a s = v.
Proof. exact g_uint_shl_eq. Qed.
Print Assumptions C05_src_shl.
Theorem C05_src_shr : forall n a s v, length a = n -> (1 <= n)%nat -> 64 * Z.of_nat n < 2 ^ 32 -> 0 <= s < 2 ^ 32 ->
  l0_uint_shr a s = Some v -> g_uint_shr n a s = v.
Proof. exact g_uint_shr_eq. Qed.
Print Assumptions C05_src_shr.

(** Uint::bitand / bitor / not as regenerated (bitxor: Src/GenIntP.v) from the source are the model maps, and the represented integer
    is Z.land / Z.lor / the complement within the width, for every limb count *)
Theorem C05_src_bitand_exact : forall n a b, wf a -> wf b -> length a = n -> length b = n -> usz n ->
  wf (g_uint_bitand n a b) /\ length (g_uint_bitand n a b) = n /\ eval (g_uint_bitand n a b) = Z.land (eval a) (eval b).
Proof.
  intros n a b Wa Wb Ha Hb Hn. rewrite g_uint_bitand_eq by assumption. subst n.
  apply Proofs.BitQueryP.limbs_and_correct; [assumption | assumption | symmetry; assumption].
Qed.
Print Assumptions C05_src_bitand_exact.
Theorem C05_src_bitor_exact : forall n a b, wf a -> wf b -> length a = n -> length b = n -> usz n ->
  wf (g_uint_bitor n a b) /\ length (g_uint_bitor n a b) = n /\ eval (g_uint_bitor n a b) = Z.lor (eval a) (eval b).
Proof.
  intros n a b Wa Wb Ha Hb Hn. rewrite g_uint_bitor_eq by assumption. subst n.
  apply Proofs.BitQueryP.limbs_or_correct; [assumption | assumption | symmetry; assumption].
Qed.
Print Assumptions C05_src_bitor_exact.
Theorem C05_src_not_exact : forall n a, wf a -> length a = n -> usz n ->
  wf (g_uint_not n a) /\ length (g_uint_not n a) = n /\ eval (g_uint_not n a) = Bn n - 1 - eval a.
Proof.
  intros n a Wa Ha Hn. rewrite g_uint_not_eq by assumption. subst n.
  apply Proofs.BitQueryP.limbs_not_correct; assumption.
Qed.
Print Assumptions C05_src_not_exact.
Theorem C05_src_bitwise_model : forall n a b, length a = n -> length b = n -> usz n ->
  g_uint_bitand n a b = limbs_and a b /\ g_uint_bitor n a b = limbs_or a b /\
  g_uint_not n a = limbs_not a.
Proof. intros n a b Ha Hb Hn. repeat split; [apply g_uint_bitand_eq | apply g_uint_bitor_eq | apply g_uint_not_eq]; assumption. Qed.
Print Assumptions C05_src_bitwise_model.
Example C05_src_bitwise_runs :
  g_uint_bitand 2 [12; 2 ^ 64 - 1] [10; 2 ^ 63] = [8; 2 ^ 63] /\ g_uint_bitor 2 [12; 0] [10; 2 ^ 63] = [14; 2 ^ 63] /\
  g_uint_not 2 [0; 2 ^ 64 - 2] = [2 ^ 64 - 1; 1].
Proof. vm_compute. repeat split. Qed.

(** non-vacuity: the generated ladders and the bit length run on 3-limb inputs (shift 65 crosses a limb; 192 = BITS overflows) *)
Example C05_src_ct_runs :
  g_uint_overflowing_shl 3 [2 ^ 64 - 1; 1; 0] 65 = ([0; 2 ^ 64 - 2; 3], 2 ^ 64 - 1) /\
  g_uint_overflowing_shl 3 [1; 0; 0] 192 = ([0; 0; 0], 0) /\
  g_uint_overflowing_shr 3 [0; 2 ^ 64 - 2; 3] 65 = ([2 ^ 64 - 1; 1; 0], 2 ^ 64 - 1) /\
  g_uint_shl 3 [5; 0; 0] 130 = [0; 0; 20] /\
  g_uint_bits 3 [5; 0; 0] = 3 /\ g_uint_bits 3 [0; 8; 0] = 68 /\ g_uint_bits 3 [0; 0; 0] = 0 /\
  g_slice_leading_zeros [5; 0; 0] = 189.
Proof. vm_compute. repeat split. Qed.
