(** C05, word level: word shifts, u32 / word comparison masks, bit length, trailing zero counts, single bits,
    the bits of [x + B * r]. *)
From CB Require Import Model.Limbs Model.AddSub Model.Bits Proofs.WordP Proofs.LimbsP.
From CB Require Export Proofs.WordPredP Proofs.BitsP.
From CB Require Proofs.BitLenP.
From Coq Require Import ZArith Lia List Bool.
Open Scope Z_scope.

Lemma B_split k : 0 <= k <= 64 -> B = 2 ^ k * 2 ^ (64 - k).
Proof. intros. rewrite B_val, <- pow2_split by lia. f_equal. lia. Qed.

Lemma pow2_lt a b : 0 <= a < b -> 2 ^ a < 2 ^ b.
Proof. intros. apply Z.pow_lt_mono_r; lia. Qed.

Lemma Bn_pow n : Bn n = 2 ^ (64 * Z.of_nat n).
Proof. apply Bn_pow2. Qed.

Lemma bounded_by_bits a n : 0 <= n -> 0 <= a -> (forall i, n <= i -> Z.testbit a i = false) -> a < 2 ^ n.
Proof.
  intros Hn Ha Hb.
  assert (E : a mod 2 ^ n = a).
  { apply Z.bits_inj'. intros i Hi. destruct (Z_lt_ge_dec i n).
    - apply Z.mod_pow2_bits_low. lia.
    - rewrite Z.mod_pow2_bits_high by lia. symmetry. apply Hb. lia. }
  rewrite <- E. apply Z.mod_pos_bound. apply pow2_pos. lia.
Qed.

Lemma land_bound a b n : 0 <= n -> 0 <= a < 2 ^ n -> 0 <= b -> 0 <= Z.land a b < 2 ^ n.
Proof.
  intros Hn Ha Hb. assert (0 <= Z.land a b) by (apply Z.land_nonneg; lia).
  split; [assumption|]. apply bounded_by_bits; try lia.
  intros i Hi. rewrite Z.land_spec, (testbit_small a n i) by lia. reflexivity.
Qed.

Lemma lor_bound a b n : 0 <= n -> 0 <= a < 2 ^ n -> 0 <= b < 2 ^ n -> 0 <= Z.lor a b < 2 ^ n.
Proof.
  intros Hn Ha Hb. assert (0 <= Z.lor a b) by (apply Z.lor_nonneg; lia).
  split; [assumption|]. apply bounded_by_bits; try lia.
  intros i Hi. rewrite Z.lor_spec, (testbit_small a n i), (testbit_small b n i) by lia. reflexivity.
Qed.

Lemma lxor_bound a b n : 0 <= n -> 0 <= a < 2 ^ n -> 0 <= b < 2 ^ n -> 0 <= Z.lxor a b < 2 ^ n.
Proof.
  intros Hn Ha Hb. assert (0 <= Z.lxor a b) by (apply Z.lxor_nonneg; lia).
  split; [assumption|]. apply bounded_by_bits; try lia.
  intros i Hi. rewrite Z.lxor_spec, (testbit_small a n i), (testbit_small b n i) by lia. reflexivity.
Qed.

(** the top bit of a w-bit value, as a quotient, as a comparison and as a bit *)
Lemma top_bit_ge v w : 0 < w -> 0 <= v < 2 ^ w -> v / 2 ^ (w - 1) = if 2 ^ (w - 1) <=? v then 1 else 0.
Proof.
  intros Hw Hv. pose proof (pow2_pos (w - 1) ltac:(lia)).
  assert (E : 2 ^ w = 2 ^ (w - 1) * 2).
  { replace w with (w - 1 + 1) at 1 by lia. rewrite pow2_split by lia. reflexivity. }
  destruct (Z.leb_spec (2 ^ (w - 1)) v).
  - assert (Hq : v / 2 ^ (w - 1) = 1 /\ v mod 2 ^ (w - 1) = v - 2 ^ (w - 1)).
    { apply div_mod_unique_pos; lia. } tauto.
  - apply Z.div_small. lia.
Qed.

Lemma testbit_top v w : 0 < w -> 0 <= v < 2 ^ w -> Z.testbit v (w - 1) = (2 ^ (w - 1) <=? v).
Proof.
  intros Hw Hv. pose proof (top_bit_ge v w Hw Hv) as E.
  destruct (2 ^ (w - 1) <=? v); [apply Z.testbit_true | apply Z.testbit_false]; try lia; rewrite E; reflexivity.
Qed.

Lemma top_bit_testbit v w : 0 < w -> 0 <= v < 2 ^ w -> v / 2 ^ (w - 1) = b2z (Z.testbit v (w - 1)).
Proof. intros Hw Hv. rewrite top_bit_ge, testbit_top by assumption. destruct (2 ^ (w - 1) <=? v); reflexivity. Qed.

(** x * 2^r over a window of w bits: the part shifted out at the top and the part that stays *)
Lemma shl_split_gen x r w : 0 <= x -> 0 <= r <= w ->
  x * 2 ^ r = 2 ^ w * (x / 2 ^ (w - r)) + (x * 2 ^ r) mod 2 ^ w /\
  (x * 2 ^ r) mod 2 ^ w = (x mod 2 ^ (w - r)) * 2 ^ r.
Proof.
  intros Hx Hr.
  pose proof (pow2_pos r ltac:(lia)). pose proof (pow2_pos (w - r) ltac:(lia)).
  assert (HB : 2 ^ w = 2 ^ r * 2 ^ (w - r)) by (rewrite <- pow2_split by lia; f_equal; lia).
  pose proof (Z.div_mod x (2 ^ (w - r)) ltac:(lia)) as Hdm.
  pose proof (Z.mod_pos_bound x (2 ^ (w - r)) ltac:(lia)) as Hmb.
  set (q := x / 2 ^ (w - r)) in *. set (m := x mod 2 ^ (w - r)) in *.
  assert (Hlt : 0 <= m * 2 ^ r < 2 ^ w).
  { split; [apply Z.mul_nonneg_nonneg; lia|]. rewrite HB, (Z.mul_comm (2 ^ r)).
    apply Z.mul_lt_mono_pos_r; lia. }
  assert (Hq : (x * 2 ^ r) / 2 ^ w = q /\ (x * 2 ^ r) mod 2 ^ w = m * 2 ^ r).
  { apply div_mod_unique_pos; [lia|]. rewrite Hdm at 1. rewrite HB. ring. }
  destruct Hq as [Hq1 Hq2]. rewrite Hq2. split; [|reflexivity].
  rewrite Hdm at 1. rewrite HB. ring.
Qed.

(** A shift inside a window of [w] bits with bits [c] coming in from below: what leaves at the top, what stays *)
Lemma shl_window w r x c : 0 <= x -> 0 <= r <= w -> 0 <= c < 2 ^ r ->
  x * 2 ^ r + c = 2 ^ w * (x / 2 ^ (w - r)) + Z.lor c ((x * 2 ^ r) mod 2 ^ w) /\
  0 <= Z.lor c ((x * 2 ^ r) mod 2 ^ w) < 2 ^ w.
Proof.
  intros Hx Hr Hc. destruct (shl_split_gen x r w Hx Hr) as [E1 E2].
  pose proof (pow2_pos r ltac:(lia)). pose proof (pow2_pos (w - r) ltac:(lia)).
  assert (HB : 2 ^ w = 2 ^ (w - r) * 2 ^ r) by (rewrite <- pow2_split by lia; f_equal; lia).
  pose proof (Z.mod_pos_bound x (2 ^ (w - r)) ltac:(lia)) as Hm.
  rewrite Z.lor_comm, E2, lor_disjoint by lia. rewrite E2 in E1.
  assert (x mod 2 ^ (w - r) * 2 ^ r <= (2 ^ (w - r) - 1) * 2 ^ r) by (apply Z.mul_le_mono_nonneg_r; lia).
  assert (0 <= x mod 2 ^ (w - r) * 2 ^ r) by (apply Z.mul_nonneg_nonneg; lia). lia.
Qed.

Lemma wshl_low x r : 0 <= x -> 0 <= r <= 64 -> wshl x r = (x mod 2 ^ (64 - r)) * 2 ^ r.
Proof. intros Hx Hr. unfold wshl, wrap. rewrite B_val. apply (shl_split_gen x r 64 Hx Hr). Qed.

Lemma wshr_bound x r : 0 <= x < B -> 0 <= r <= 64 -> 0 <= wshr x r < 2 ^ (64 - r).
Proof.
  intros Hx Hr. unfold wshr. pose proof (pow2_pos r ltac:(lia)).
  split; [apply Z.div_pos; lia|]. apply Z.div_lt_upper_bound; [lia|].
  rewrite <- B_split by lia. lia.
Qed.

Lemma is_word_wshl x r : 0 <= x -> 0 <= r <= 64 -> is_word (wshl x r).
Proof. intros _ _. apply is_word_mod. Qed.

Lemma is_word_wshr x r : is_word x -> 0 <= r <= 64 -> is_word (wshr x r).
Proof.
  unfold is_word. intros Hx Hr. pose proof (wshr_bound x r Hx Hr).
  pose proof (pow2_le (64 - r) 64 ltac:(lia)). rewrite <- B_val in *. lia.
Qed.


Definition is_choice (c : Z) : Prop := c = 0 \/ c = MAXW.
Lemma choice_of_bool_is_choice b : is_choice (choice_of_bool b).
Proof. destruct b; [right|left]; reflexivity. Qed.
Lemma choice_and_bool a b : choice_and (choice_of_bool a) (choice_of_bool b) = choice_of_bool (a && b).
Proof. destruct a, b; vm_compute; reflexivity. Qed.
Lemma from_u32_lsb_bool (b : bool) : from_u32_lsb (b2z b) = choice_of_bool b.
Proof. destruct b; vm_compute; reflexivity. Qed.
Lemma choice_MAXW_iff b : choice_of_bool b =? MAXW = b.
Proof. destruct b; vm_compute; reflexivity. Qed.

Lemma if_true_u32_bool b x : 0 <= x < U32 -> if_true_u32 (choice_of_bool b) x = if b then x else 0.
Proof.
  intros Hx. unfold if_true_u32. destruct b.
  - change (as_u32_mask (choice_of_bool true)) with (Z.ones 32). rewrite Z.land_ones by lia.
    apply Z.mod_small. exact Hx.
  - change (as_u32_mask (choice_of_bool false)) with 0. apply Z.land_0_r.
Qed.

Lemma if_true_word_bool b x : is_word x -> if_true_word (choice_of_bool b) x = if b then x else 0.
Proof.
  intros Hx. unfold if_true_word. destruct b; simpl.
  - rewrite Z.land_comm. apply land_MAXW. exact Hx.
  - apply Z.land_0_r.
Qed.

Lemma nonzero_top w v : 0 < w -> 0 <= v < 2 ^ w ->
  Z.lor v ((- v) mod 2 ^ w) / 2 ^ (w - 1) = if v =? 0 then 0 else 1.
Proof.
  intros Hw Hv. pose proof (pow2_pos (w - 1) ltac:(lia)).
  assert (E : 2 ^ w = 2 ^ (w - 1) * 2).
  { replace w with (w - 1 + 1) at 1 by lia. rewrite pow2_split by lia. reflexivity. }
  destruct (Z.eqb_spec v 0) as [->|Hnz].
  - rewrite Z.mod_0_l by lia. apply Z.div_0_l. lia.
  - assert (Hm : (- v) mod 2 ^ w = 2 ^ w - v).
    { symmetry. apply (Z.mod_unique_pos (- v) (2 ^ w) (-1)); lia. }
    rewrite Hm.
    (* v or 2^w - v reaches 2^(w-1), so one of the two top bits is set *)
    rewrite top_bit_testbit by (try apply lor_bound; lia).
    rewrite Z.lor_spec, !testbit_top by lia.
    destruct (Z.leb_spec (2 ^ (w - 1)) v); destruct (Z.leb_spec (2 ^ (w - 1)) (2 ^ w - v)); try reflexivity; lia.
Qed.

Lemma from_word_nonzero_bool v : is_word v -> from_word_nonzero v = choice_of_bool (negb (v =? 0)).
Proof. apply from_word_nonzero_spec. Qed.

Lemma from_u32_nonzero_bool v : 0 <= v < U32 -> from_u32_nonzero v = choice_of_bool (negb (v =? 0)).
Proof.
  unfold U32. intros Hv. unfold from_u32_nonzero, u32_wneg, U32.
  change 31 with (32 - 1). rewrite nonzero_top by lia.
  destruct (v =? 0); vm_compute; reflexivity.
Qed.

Lemma lxor_eqb x y : (Z.lxor x y =? 0) = (x =? y).
Proof.
  destruct (Z.eqb_spec x y) as [->|Hne]; [rewrite Z.lxor_nilpotent; reflexivity|].
  apply Z.eqb_neq. intros E. apply Z.lxor_eq in E. contradiction.
Qed.

Lemma from_u32_eq_bool x y : 0 <= x < U32 -> 0 <= y < U32 -> from_u32_eq x y = choice_of_bool (x =? y).
Proof.
  unfold U32. intros Hx Hy. unfold from_u32_eq.
  rewrite from_u32_nonzero_bool by (unfold U32; apply lxor_bound; lia).
  rewrite wnot_choice, negb_involutive, lxor_eqb. reflexivity.
Qed.

(** the x < y mask: Hacker's Delight 2-12 *)
Lemma from_u32_lt_bool x y : 0 <= x < U32 -> 0 <= y < U32 -> from_u32_lt x y = choice_of_bool (x <? y).
Proof.
  unfold U32. intros Hx Hy. unfold from_u32_lt, u32_not, u32_wsub, U32.
  set (nx := 2 ^ 32 - 1 - x). set (d := (x - y) mod 2 ^ 32).
  assert (Hnx : 0 <= nx < 2 ^ 32) by (unfold nx; lia).
  assert (Hd : 0 <= d < 2 ^ 32) by (apply Z.mod_pos_bound; lia).
  assert (Hdv : d = if x <? y then x - y + 2 ^ 32 else x - y).
  { unfold d. destruct (Z.ltb_spec x y).
    - symmetry. apply (Z.mod_unique_pos (x - y) (2 ^ 32) (-1)); lia.
    - apply Z.mod_small. lia. }
  pose proof (land_bound nx y 32 ltac:(lia) Hnx ltac:(lia)) as B1.
  pose proof (lor_bound nx y 32 ltac:(lia) Hnx Hy) as B2.
  pose proof (land_bound (Z.lor nx y) d 32 ltac:(lia) B2 ltac:(lia)) as B3.
  pose proof (lor_bound _ _ 32 ltac:(lia) B1 B3) as B4.
  change 31 with (32 - 1). rewrite top_bit_testbit by lia.
  rewrite Z.lor_spec, !Z.land_spec, Z.lor_spec, !testbit_top by lia.
  rewrite <- from_u32_lsb_bool. do 2 f_equal.
  (* the sign bits of !x, y and x - y decide the borrow *)
  change (2 ^ (32 - 1)) with 2147483648. change (2 ^ 32) with 4294967296 in *.
  destruct (Z.ltb_spec x y); destruct (Z.leb_spec 2147483648 nx); destruct (Z.leb_spec 2147483648 y);
    destruct (Z.leb_spec 2147483648 d); try reflexivity; unfold nx in *; lia.
Qed.

Lemma testbit_word_cons x r i : is_word x -> 0 <= i ->
  Z.testbit (x + B * r) i = if i <? 64 then Z.testbit x i else Z.testbit r (i - 64).
Proof.
  unfold is_word. intros Hx Hi. pose proof B_pos.
  assert (Hq : (x + B * r) / B = r /\ (x + B * r) mod B = x) by (apply div_mod_unique_pos; lia).
  destruct Hq as [Hq1 Hq2]. rewrite B_val in Hq1, Hq2.
  destruct (Z.ltb_spec i 64).
  - rewrite <- Hq2 at 2. rewrite B_val. symmetry. apply Z.mod_pow2_bits_low. lia.
  - rewrite <- Hq1 at 2. rewrite B_val. rewrite Z.div_pow2_bits by lia. f_equal. lia.
Qed.

(** the binary expansion of a limb list: bit i of the value is bit (i mod 64) of limb (i / 64) *)
Lemma testbit_eval ls : wf ls -> forall i, 0 <= i ->
  Z.testbit (eval ls) i = Z.testbit (nthz ls (Z.to_nat (i / 64))) (i mod 64).
Proof.
  induction ls as [|x ls IH]; intros Hw i Hi.
  - simpl. unfold nthz. destruct (Z.to_nat (i / 64)); simpl; rewrite !Z.bits_0; reflexivity.
  - apply wf_cons in Hw. destruct Hw as [Hx Hl]. cbn [eval].
    rewrite testbit_word_cons by assumption.
    destruct (Z.ltb_spec i 64).
    + rewrite Z.div_small, Z.mod_small by lia. reflexivity.
    + rewrite IH by (auto; lia).
      assert (Hq : i / 64 = (i - 64) / 64 + 1 /\ i mod 64 = (i - 64) mod 64).
      { pose proof (Z.div_mod (i - 64) 64 ltac:(lia)). pose proof (Z.mod_pos_bound (i - 64) 64 ltac:(lia)).
        apply div_mod_unique_pos; lia. }
      destruct Hq as [-> ->].
      assert (0 <= (i - 64) / 64) by (apply Z.div_pos; lia).
      rewrite Z2Nat.inj_add by lia. rewrite Nat.add_comm. reflexivity.
Qed.

Lemma testbit_eval_high ls i : wf ls -> 64 * Z.of_nat (length ls) <= i -> Z.testbit (eval ls) i = false.
Proof.
  intros Hw Hi. pose proof (eval_bounds ls Hw) as Hb. rewrite Bn_pow in Hb.
  apply (testbit_small _ (64 * Z.of_nat (length ls))); lia.
Qed.

Lemma bitlen_spec x : 0 < x -> 2 ^ (bitlen x - 1) <= x < 2 ^ bitlen x /\ 0 < bitlen x.
Proof. intros Hx. split; apply (BitLenP.bitlen_range x Hx). Qed.

Lemma bitlen_0 : bitlen 0 = 0. Proof. reflexivity. Qed.

Lemma bitlen_bound x n : 0 <= n -> 0 <= x < 2 ^ n -> 0 <= bitlen x <= n.
Proof. intros Hn Hx. split; [apply BitLenP.bitlen_nonneg | apply BitLenP.bitlen_le_iff; lia]. Qed.

Lemma bitlen_zero_iff x : 0 <= x -> (bitlen x = 0 <-> x = 0).
Proof.
  intros Hx. split; [|intros ->; reflexivity].
  intros E. destruct (Z.eq_dec x 0); [assumption|]. pose proof (bitlen_spec x ltac:(lia)). lia.
Qed.


(** bit length of [x + B * e] *)
Lemma bitlen_cons x e : is_word x -> 0 <= e ->
  bitlen (x + B * e) = if e =? 0 then bitlen x else 64 + bitlen e.
Proof.
  unfold is_word. intros Hx He. destruct (Z.eqb_spec e 0) as [->|Hnz]; [f_equal; lia|].
  rewrite B_val in *. apply (BitLenP.bitlen_shift x e 64); lia.
Qed.

Lemma wlz_range x : is_word x -> 0 <= wlz x <= 64.
Proof.
  unfold is_word, wlz. rewrite B_val. intros Hx. pose proof (bitlen_bound x 64 ltac:(lia) Hx). lia.
Qed.

Lemma ctz_fuel_spec f : forall x, 0 < x < 2 ^ Z.of_nat f ->
  let t := ctz_fuel f x in
  0 <= t < Z.of_nat f /\ Z.testbit x t = true /\ forall i, 0 <= i < t -> Z.testbit x i = false.
Proof.
  induction f as [|f IH]; intros x Hx.
  - simpl in Hx. lia.
  - cbn [ctz_fuel]. destruct (Z.odd x) eqn:Eo.
    + cbn zeta. repeat split; try lia. rewrite Z.bit0_odd. exact Eo.
    + assert (He : x = 2 * (x / 2)).
      { pose proof (Z.div_mod x 2 ltac:(lia)) as Hd. rewrite Zmod_odd, Eo in Hd. lia. }
      assert (Hx2 : 0 < x / 2 < 2 ^ Z.of_nat f).
      { rewrite Nat2Z.inj_succ, Z.pow_succ_r in Hx by lia. lia. }
      specialize (IH (x / 2) Hx2). cbn zeta in IH. destruct IH as (Ht & Hb & Hl).
      cbn zeta. set (t := ctz_fuel f (x / 2)) in *.
      repeat split; try lia.
      * rewrite He. replace (1 + t) with (Z.succ t) by lia. rewrite Z.testbit_even_succ by lia. exact Hb.
      * intros i Hi. destruct (Z.eq_dec i 0) as [->|].
        -- rewrite Z.bit0_odd. exact Eo.
        -- rewrite He. replace i with (Z.succ (i - 1)) by lia. rewrite Z.testbit_even_succ by lia.
           apply Hl. lia.
Qed.

(** [wtz x] is the index of the lowest set bit, or 64 for 0 *)
Lemma wtz_spec x : is_word x ->
  0 <= wtz x <= 64 /\ (wtz x = 64 <-> x = 0) /\
  (x <> 0 -> Z.testbit x (wtz x) = true) /\ forall i, 0 <= i < wtz x -> Z.testbit x i = false.
Proof.
  unfold is_word. rewrite B_val. intros Hx. unfold wtz. destruct (Z.eqb_spec x 0) as [->|Hnz].
  - repeat split; try lia. intros i _. apply Z.bits_0.
  - pose proof (ctz_fuel_spec 64 x ltac:(change (Z.of_nat 64) with 64; lia)) as H. cbn zeta in H.
    change (Z.of_nat 64) with 64 in H. destruct H as (Ht & Hb & Hl).
    repeat split; try lia; auto.
Qed.

Lemma wnot_testbit x i : is_word x -> 0 <= i < 64 -> Z.testbit (wnot x) i = negb (Z.testbit x i).
Proof.
  unfold is_word. intros Hx Hi. unfold wnot. rewrite MAXW_val.
  replace (B - 1 - x) with (Z.lnot x + 1 * B) by (unfold Z.lnot; lia).
  rewrite <- (Z.mod_pow2_bits_low _ 64) by lia. rewrite <- B_val.
  pose proof B_pos. rewrite Z.mod_add by lia. rewrite B_val, Z.mod_pow2_bits_low by lia.
  apply Z.lnot_spec. lia.
Qed.

Lemma wto_spec x : is_word x ->
  0 <= wto x <= 64 /\ (wto x = 64 <-> x = MAXW) /\
  (x <> MAXW -> Z.testbit x (wto x) = false) /\ forall i, 0 <= i < wto x -> Z.testbit x i = true.
Proof.
  intros Hx. unfold wto. pose proof (wtz_spec (wnot x) (is_word_wnot x Hx)) as (H1 & H2 & H3 & H4).
  assert (Hz : wnot x = 0 <-> x = MAXW) by (unfold wnot; lia).
  repeat split; try lia.
  - intros Hne. assert (Hnz : wnot x <> 0) by (intros E; apply Hne, Hz, E).
    specialize (H3 Hnz). assert (wtz (wnot x) <> 64) by (intros E; apply Hnz, H2, E).
    rewrite wnot_testbit in H3 by (auto; lia). destruct (Z.testbit x (wtz (wnot x))); [discriminate|reflexivity].
  - intros i Hi. specialize (H4 i Hi). rewrite wnot_testbit in H4 by (auto; lia).
    destruct (Z.testbit x i); [reflexivity|discriminate].
Qed.

Lemma land_1_mod2 x : Z.land x 1 = x mod 2.
Proof. change 1 with (Z.ones 1) at 1. rewrite Z.land_ones by lia. reflexivity. Qed.

Lemma land_pow2 x k : 0 <= k -> Z.land x (2 ^ k) = if Z.testbit x k then 2 ^ k else 0.
Proof.
  intros Hk. apply Z.bits_inj'. intros i Hi. rewrite Z.land_spec, Z.pow2_bits_eqb by lia.
  destruct (Z.eqb_spec k i) as [->|Hne].
  - rewrite andb_true_r. destruct (Z.testbit x i) eqn:E; [rewrite Z.pow2_bits_true by lia|rewrite Z.bits_0]; reflexivity.
  - rewrite andb_false_r. destruct (Z.testbit x k); [rewrite Z.pow2_bits_false by lia|rewrite Z.bits_0]; reflexivity.
Qed.

(** setting / clearing one bit, as arithmetic *)
Lemma lor_nocarry a b : Z.land a b = 0 -> Z.lor a b = a + b.
Proof. intros E. rewrite <- (Z.lxor_lor _ _ E). symmetry. apply Z.add_nocarry_lxor, E. Qed.

Lemma ldiff_add_land a m : Z.ldiff a m + Z.land a m = a.
Proof.
  rewrite <- lor_nocarry; [apply Z.lor_ldiff_and|].
  rewrite (Z.land_comm a m), Z.land_assoc, Z.land_ldiff. apply Z.land_0_l.
Qed.

Lemma lor_ldiff a m : Z.lor a m = Z.ldiff a m + m.
Proof.
  rewrite <- lor_nocarry by apply Z.land_ldiff. apply Z.bits_inj'. intros i Hi.
  rewrite !Z.lor_spec, Z.ldiff_spec. destruct (Z.testbit a i), (Z.testbit m i); reflexivity.
Qed.

Lemma setbit_val v i : 0 <= i -> Z.setbit v i = v + 2 ^ i * (1 - b2z (Z.testbit v i)).
Proof.
  intros Hi. rewrite Z.setbit_spec', lor_ldiff. pose proof (ldiff_add_land v (2 ^ i)) as E.
  rewrite land_pow2 in E by assumption. destruct (Z.testbit v i); cbn [b2z]; lia.
Qed.

Lemma clearbit_val v i : 0 <= i -> Z.clearbit v i = v - 2 ^ i * b2z (Z.testbit v i).
Proof.
  intros Hi. rewrite Z.clearbit_spec'. pose proof (ldiff_add_land v (2 ^ i)) as E.
  rewrite land_pow2 in E by assumption. destruct (Z.testbit v i); cbn [b2z]; lia.
Qed.

Lemma is_word_pow2 k : 0 <= k < 64 -> is_word (2 ^ k).
Proof.
  intros Hk. unfold is_word. rewrite B_val.
  pose proof (pow2_pos k ltac:(lia)). pose proof (pow2_lt k 64 ltac:(lia)). lia.
Qed.

Lemma wshl_1 k : 0 <= k < 64 -> wshl 1 k = 2 ^ k.
Proof. intros Hk. unfold wshl, wrap. rewrite Z.mul_1_l. apply mod_small', is_word_pow2, Hk. Qed.
