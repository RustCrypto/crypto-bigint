(** C08 proofs, part 5: operation histories.
    [history be p inputs ops] = fold_left (h_step ..) ops ([], []) runs an arbitrary list of operations on one
    representation (a [backend]).  An operation is a tuple (code, i, j, v) of Model/Monty.v ([mop]): codes 0-10, 16, 17
    push a value (new, zero, one, add, sub, neg, double, mul, square, half, select, conv, retrieve), codes 11-15 work
    in place (mul, square, add, sub, half assign); i, j index stored values or inputs.
    Invariant, proved preserved by every step by induction over the op list:
      every stored value is the canonical (< m) Montgomery form of the residue the plain Z/mZ evaluation
      ([sp_history]) holds at the same index, and every output emitted so far (as_montgomery() and retrieve() of the
      result of every step) equals the output of the Z/mZ evaluation.
    Stated for every backend satisfying [backend_ok] and instantiated for the fixed-width backend (montgomery_reduction)
    and the boxed backend (almost-Montgomery multiplication), for ALL limb counts, odd moduli and op lists. *)
From CB Require Import Model.Limbs Model.AddSub Model.Mul Model.Div Model.ModArith Model.Monty
  Proofs.WordP Proofs.LimbsP Proofs.AddSubP Proofs.ModArithP
  Proofs.MontyRedP Proofs.MontyAmmP Proofs.MontyNumP Proofs.MontyFormP.
From Coq Require Import ZArith Znumtheory Lia List Bool.
Open Scope Z_scope.
Notation length := List.length.

Lemma F2_length {A C} (R : A -> C -> Prop) l l' : Forall2 R l l' -> length l = length l'.
Proof. induction 1; cbn [length]; congruence. Qed.
Lemma F2_nth {A C} (R : A -> C -> Prop) l l' k d d' :
  Forall2 R l l' -> (k < length l)%nat -> R (nth k l d) (nth k l' d').
Proof.
  intros H. revert k. induction H; intros k Hk; cbn [length nth] in *; [lia|].
  destruct k; [assumption | apply IHForall2; lia].
Qed.
Lemma F2_set {A C} (R : A -> C -> Prop) l l' k x y : Forall2 R l l' -> R x y ->
  Forall2 R (firstn k l ++ x :: skipn (S k) l) (firstn k l' ++ y :: skipn (S k) l').
Proof.
  intros H Hxy. revert k. induction H; intros k.
  - rewrite !firstn_nil, !skipn_nil. cbn [app]. constructor; [assumption | constructor].
  - destruct k.
    + cbn [firstn skipn app]. constructor; assumption.
    + cbn [firstn app]. constructor; [assumption|].
      change (skipn (S (S k)) (x0 :: l)) with (skipn (S k) l).
      change (skipn (S (S k)) (y0 :: l')) with (skipn (S k) l'). apply IHForall2.
Qed.
Lemma set_length {A} (l : list A) k x : (k < length l)%nat -> length (firstn k l ++ x :: skipn (S k) l) = length l.
Proof. intros Hk. rewrite app_length, firstn_length. cbn [length]. rewrite skipn_length. lia. Qed.
Lemma F2_Forall_l {A C} (R : A -> C -> Prop) (P : A -> Prop) l l' :
  (forall a c, R a c -> P a) -> Forall2 R l l' -> Forall P l.
Proof. intros HP. induction 1; constructor; [eapply HP; eassumption | assumption]. Qed.

Lemma ops_ok_firstn ni ops : forall nv k, ops_ok ni nv ops = true -> ops_ok ni nv (firstn k ops) = true.
Proof.
  induction ops as [|o r IH]; intros nv k H.
  - rewrite firstn_nil. reflexivity.
  - destruct k; [reflexivity|]. cbn [firstn]. cbn [ops_ok] in *. apply andb_prop in H. destruct H as [H1 H2].
    rewrite H1. cbn [andb]. apply IH. exact H2.
Qed.

Section Hist.
Variables (m : list Z) (be : backend) (p : mparams) (inputs : list (list Z)).
Hypothesis Hm : wf m.
Hypothesis Hn : length m <> 0%nat.
Hypothesis Hodd : Z.odd (eval m) = true.
Hypothesis Hbe : backend_ok m be.
Hypothesis Hpm : mp_m p = m.
Hypothesis Hone : repr m (mp_one p) (1 mod eval m).
Hypothesis Hin : Forall (fun x => wf x /\ length x = length m) inputs.
Let n := length m.
Let M := eval m.

(** the invariant: values pairwise related, outputs equal *)
Definition hinv (st : hstate) (sst : sstate) : Prop :=
  Forall2 (repr m) (fst st) (fst sst) /\ snd st = snd sst.

Lemma getv_input i : wf (getv n inputs i) /\ length (getv n inputs i) = length m.
Proof.
  unfold getv. destruct (nth_in_or_default (Z.to_nat i) inputs (zeros n)) as [H|H].
  - rewrite Forall_forall in Hin. apply Hin. exact H.
  - rewrite H. split; [apply wf_zeros | apply length_zeros].
Qed.
Lemma getv_repr vals svals i : Forall2 (repr m) vals svals -> (Z.to_nat i < length vals)%nat ->
  repr m (getv n vals i) (sgetv svals i).
Proof. intros HF Hi. unfold getv, sgetv. apply F2_nth; assumption. Qed.
Lemma zero_repr : repr m (zeros n) 0.
Proof.
  pose proof (M_pos m Hm Hn Hodd) as HM.
  split; [split; [apply wf_zeros | split; [apply length_zeros | rewrite eval_zeros; lia]]|].
  split; [lia|]. rewrite eval_zeros, Z.mul_0_l. symmetry. apply Z.mod_0_l. lia.
Qed.

Ltac idx_hyps := repeat match goal with
  | H : (_ && _)%bool = true |- _ => apply andb_prop in H; destruct H
  | H : (_ <? _)%nat = true |- _ => apply Nat.ltb_lt in H
  end.

(** one operation maps representatives to the representative of its Z/mZ result *)
Lemma op_result_repr vals svals o : Forall2 (repr m) vals svals ->
  op_ok (length inputs) (length vals) o = true ->
  repr m (op_result be p inputs vals o) (sp_result M n inputs svals o).
Proof.
  intros HF Hok. destruct o as [[[code i] j] v]. unfold op_result, sp_result. rewrite Hpm. fold n.
  unfold op_ok in Hok.
  apply andb_prop in Hok. destruct Hok as [Hok Hidx].
  apply andb_prop in Hok. destruct Hok as [Hok Hj].
  apply andb_prop in Hok. destruct Hok as [Hok Hi].
  apply andb_prop in Hok. destruct Hok as [H0 H17].
  apply Z.leb_le in H0, H17.
  assert (Hc : code = 0 \/ code = 1 \/ code = 2 \/ code = 3 \/ code = 4 \/ code = 5 \/ code = 6 \/ code = 7 \/
               code = 8 \/ code = 9 \/ code = 10 \/ code = 11 \/ code = 12 \/ code = 13 \/ code = 14 \/ code = 15 \/
               code = 16 \/ code = 17) by lia.
  pose proof (getv_repr vals svals i HF) as Ra. pose proof (getv_repr vals svals j HF) as Rb.
  pose proof (getv_input i) as (Wx & Lx).
  repeat (destruct Hc as [Hc|Hc]); subst code; unfold op_uses_j in Hidx;
    cbn [Z.eqb Pos.eqb orb] in Hidx; cbn [Z.eqb Pos.eqb orb]; idx_hyps;
    try specialize (Ra ltac:(assumption)); try specialize (Rb ltac:(assumption)).
  - apply (ok_new m be Hbe); assumption.
  - apply zero_repr.
  - exact Hone.
  - apply (add_repr m Hm Hn Hodd); assumption.
  - apply (sub_repr m Hm Hn Hodd); assumption.
  - apply (neg_repr m Hm Hn Hodd); assumption.
  - apply (double_repr m Hm Hn Hodd); assumption.
  - apply (ok_mul m be Hbe); assumption.
  - apply (ok_square m be Hbe); assumption.
  - apply (ok_half m be Hbe); assumption.
  - apply (ok_select m be Hbe); assumption.
  - apply (ok_mul m be Hbe); assumption.
  - apply (ok_square m be Hbe); assumption.
  - apply (add_repr m Hm Hn Hodd); assumption.
  - apply (ok_sub_assign m be Hbe); assumption.
  - apply (ok_half m be Hbe); assumption.
  - exact Ra.
  - exact Ra.
Qed.

Lemma repr_limbs r v : repr m r v -> r = to_limbs n ((v * Bn n) mod M).
Proof.
  intros ((W & L & Bd) & Hv & E). unfold n, M. rewrite <- E, <- L. symmetry. apply to_limbs_eval. exact W.
Qed.

Lemma h_step_inv st sst o : hinv st sst -> op_ok (length inputs) (length (fst st)) o = true ->
  hinv (h_step be p inputs st o) (sp_step M n inputs sst o).
Proof.
  intros [HF Ho] Hok. destruct st as [vals outs], sst as [svals souts]. cbn [fst snd] in *.
  pose proof (op_result_repr vals svals o HF Hok) as Hr.
  unfold h_step, sp_step.
  set (r := op_result be p inputs vals o) in *. set (sr := sp_result M n inputs svals o) in *.
  split; cbn [fst snd].
  - destruct (op_in_place (fst (fst (fst o)))).
    + unfold setv, ssetv. apply F2_set; assumption.
    + destruct (fst (fst (fst o)) =? 17); [assumption|].
      apply Forall2_app; [assumption|]. constructor; [assumption | constructor].
  - rewrite Ho. f_equal. f_equal; [apply repr_limbs; exact Hr|]. f_equal.
    apply (ok_retrieve m be Hbe). exact Hr.
Qed.

Lemma h_step_len vals outs o : op_ok (length inputs) (length vals) o = true ->
  length (fst (h_step be p inputs (vals, outs) o)) =
  if op_in_place (fst (fst (fst o))) || (fst (fst (fst o)) =? 17) then length vals else S (length vals).
Proof.
  intros Hok. destruct o as [[[code i] j] v]. unfold h_step. cbn [fst snd].
  destruct (op_in_place code) eqn:Ep; cbn [orb].
  - unfold op_in_place in Ep. apply andb_prop in Ep. destruct Ep as [E1 E2]. apply Z.leb_le in E1, E2.
    unfold op_ok in Hok. apply andb_prop in Hok. destruct Hok as [_ Hidx].
    assert (F0 : code =? 0 = false) by (apply Z.eqb_neq; lia).
    assert (F1 : code =? 1 = false) by (apply Z.eqb_neq; lia).
    assert (F2 : code =? 2 = false) by (apply Z.eqb_neq; lia).
    rewrite F0, F1, F2 in Hidx. cbn [orb] in Hidx. apply andb_prop in Hidx. destruct Hidx as [Hi _].
    apply Nat.ltb_lt in Hi. unfold setv. apply set_length. exact Hi.
  - destruct (code =? 17); [reflexivity|]. rewrite app_length. cbn [length]. lia.
Qed.

Lemma history_inv ops : forall st sst, hinv st sst -> ops_ok (length inputs) (length (fst st)) ops = true ->
  hinv (fold_left (h_step be p inputs) ops st) (fold_left (sp_step M n inputs) ops sst).
Proof.
  induction ops as [|o r IH]; intros st sst Hinv Hok; cbn [fold_left]; [assumption|].
  cbn [ops_ok] in Hok. apply andb_prop in Hok. destruct Hok as [Ho Hr].
  apply IH; [apply h_step_inv; assumption|].
  destruct st as [vals outs]. cbn [fst] in *. rewrite h_step_len by assumption. exact Hr.
Qed.

(** every operation history tracks Z/mZ: the stored values are the canonical representatives of the residues of the plain
    evaluation, and as_montgomery() / retrieve() after every step are those of the plain evaluation *)
Theorem history_correct ops : ops_ok (length inputs) 0 ops = true ->
  Forall2 (repr m) (fst (history be p inputs ops)) (fst (sp_history M n inputs ops))
  /\ snd (history be p inputs ops) = snd (sp_history M n inputs ops).
Proof.
  intros Hok. unfold history, sp_history. apply (history_inv ops ([], []) ([], [])); [|exact Hok].
  split; [constructor | reflexivity].
Qed.

(** every stored value, after every prefix of the history, is canonical (< m) *)
Theorem history_canonical ops k : ops_ok (length inputs) 0 ops = true ->
  Forall (canon m) (fst (history be p inputs (firstn k ops))).
Proof.
  intros Hok. destruct (history_correct (firstn k ops) (ops_ok_firstn _ _ _ _ Hok)) as [HF _].
  apply (F2_Forall_l (repr m) (canon m) _ _ (repr_canon m) HF).
Qed.
End Hist.

Section Params.
Variable m : list Z.
Hypothesis Hm : wf m.
Hypothesis Hn : length m <> 0%nat.
Hypothesis Hodd : Z.odd (eval m) = true.
Let n := length m.
Let M := eval m.
Let N := Bn (length m).

(** parameter sets with the defined values: everything the histories need *)
Definition params_good (p : mparams) : Prop :=
  mp_m p = m /\ mp_one p = to_limbs n (N mod M) /\ mp_r2 p = to_limbs n ((N * N) mod M) /\
  (hd 0 m * mp_k p + 1) mod B = 0.

Lemma good_one p : params_good p -> repr m (mp_one p) (1 mod M).
Proof.
  intros (_ & E1 & _). pose proof (M_pos m Hm Hn Hodd) as HM. rewrite E1.
  destruct (canon_to_limbs m Hm Hn (N mod M) (Z.mod_pos_bound N M HM)) as (C & E).
  split; [exact C|]. split; [apply Z.mod_pos_bound; exact HM|].
  unfold n in *. rewrite E. fold N M. rewrite Zmult_mod_idemp_l. f_equal. lia.
Qed.
Lemma good_r2 p : params_good p -> canon m (mp_r2 p) /\ eval (mp_r2 p) = (N * N) mod M.
Proof.
  intros (_ & _ & E2 & _). pose proof (M_pos m Hm Hn Hodd) as HM. rewrite E2.
  apply (canon_to_limbs m Hm Hn). apply Z.mod_pos_bound. exact HM.
Qed.

(** either backend, driven by a good parameter record *)
Lemma good_backends p : params_good p -> backend_ok m (backend_fixed p) /\ backend_ok m (backend_boxed p).
Proof.
  intros G. pose proof G as (Em & _ & _ & Hk). destruct (good_r2 p G) as (C2 & E2).
  split; [apply (backend_fixed_ok m (mp_k p)) | apply (backend_boxed_ok m (mp_k p))]; auto.
Qed.
Lemma history_good be p inputs ops : params_good p -> backend_ok m be ->
  Forall (fun x => wf x /\ length x = length m) inputs -> ops_ok (length inputs) 0 ops = true ->
  Forall2 (repr m) (fst (history be p inputs ops)) (fst (sp_history M n inputs ops))
  /\ snd (history be p inputs ops) = snd (sp_history M n inputs ops).
Proof.
  intros G Hbe Hin Hok. apply (history_correct m be p inputs Hm Hn Hodd); try assumption; [apply G | apply good_one; exact G].
Qed.

Theorem history_fixed_good p inputs ops : params_good p ->
  Forall (fun x => wf x /\ length x = length m) inputs -> ops_ok (length inputs) 0 ops = true ->
  Forall2 (repr m) (fst (history (backend_fixed p) p inputs ops)) (fst (sp_history M n inputs ops))
  /\ snd (history (backend_fixed p) p inputs ops) = snd (sp_history M n inputs ops).
Proof.
  intros G. apply history_good; [exact G | apply good_backends; exact G].
Qed.
Theorem history_boxed_good p inputs ops : params_good p ->
  Forall (fun x => wf x /\ length x = length m) inputs -> ops_ok (length inputs) 0 ops = true ->
  Forall2 (repr m) (fst (history (backend_boxed p) p inputs ops)) (fst (sp_history M n inputs ops))
  /\ snd (history (backend_boxed p) p inputs ops) = snd (sp_history M n inputs ops).
Proof.
  intros G. apply history_good; [exact G | apply good_backends; exact G].
Qed.

Lemma params_fixed_good : params_good (params_fixed m).
Proof.
  destruct (params_fixed_correct m Hm Hn Hodd) as (E & Hk). cbv zeta in E.
  set (p := params_fixed m) in *. clearbody p. subst p. cbn [mp_k] in Hk.
  repeat split; try reflexivity. exact Hk.
Qed.
Lemma params_boxed_good : params_good (params_boxed m).
Proof. rewrite <- (params_constructors_agree m Hm Hn Hodd). exact params_fixed_good. Qed.
End Params.

(** the history theorem of the fixed-width forms (MontyForm / ConstMontyForm: montgomery_reduction after every product) *)
Theorem history_fixed_correct m inputs ops : wf m -> length m <> 0%nat -> Z.odd (eval m) = true ->
  Forall (fun x => wf x /\ length x = length m) inputs -> ops_ok (length inputs) 0 ops = true ->
  let h := history (backend_fixed (params_fixed m)) (params_fixed m) inputs ops in
  let s := sp_history (eval m) (length m) inputs ops in
  Forall2 (repr m) (fst h) (fst s) /\ snd h = snd s.
Proof.
  intros Hm Hn Hodd Hin Hok. cbv zeta.
  apply (history_fixed_good m Hm Hn Hodd); try assumption. apply params_fixed_good; assumption.
Qed.
(** the history theorem of BoxedMontyForm (almost-Montgomery multiplication + one conditional subtraction) *)
Theorem history_boxed_correct m inputs ops : wf m -> length m <> 0%nat -> Z.odd (eval m) = true ->
  Forall (fun x => wf x /\ length x = length m) inputs -> ops_ok (length inputs) 0 ops = true ->
  let h := history (backend_boxed (params_boxed m)) (params_boxed m) inputs ops in
  let s := sp_history (eval m) (length m) inputs ops in
  Forall2 (repr m) (fst h) (fst s) /\ snd h = snd s.
Proof.
  intros Hm Hn Hodd Hin Hok. cbv zeta.
  apply (history_boxed_good m Hm Hn Hodd); try assumption. apply params_boxed_good; assumption.
Qed.
