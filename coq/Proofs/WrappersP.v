(** C12 proofs, part 1: closed forms of the gates and of every producer of Model/Wrappers.v.
    Each producer function is rewritten into "if <plain predicate on the represented integer> then Val [value] else
    <failure>", for all limb counts; parts 2 and 3 derive validity and model = spec from these closed forms. *)
From CB Require Import Model.Limbs Model.AddSub Model.Cmp Model.Conv Model.Rand Model.Wrappers
  Proofs.WordP Proofs.LimbsP Proofs.AddSubP Proofs.WordPredP Proofs.CmpWordP Proofs.CmpP Proofs.CmpBoxedP Proofs.CmpIntP
  Proofs.ConvDigitsP Proofs.ConvBytesP Proofs.ConvHexP Proofs.ConvBoxedP Proofs.ConvCopyP Proofs.ConvP Proofs.TotalityP.
From Coq Require Import ZArith Lia List Bool String.
Import ListNotations.
Open Scope Z_scope. Open Scope list_scope.
Notation length := List.length.

(* ------------------------------------------------------------------ validity *)
Definition valid (w : wrapper) (v : list Z) : Prop :=
  match w with WNonZero => eval v <> 0 | WOdd => Z.odd (eval v) = true end.

Lemma odd_nonzero x : Z.odd x = true -> x <> 0.
Proof. intros H ->. discriminate. Qed.

Lemma valid_odd_nz v : valid WOdd v -> valid WNonZero v.
Proof. cbn [valid]. apply odd_nonzero. Qed.

Lemma w_validb_spec w v : w_validb w v = true <-> valid w v.
Proof.
  destruct w; cbn [w_validb valid]; unfold w_nzb, w_oddb.
  - rewrite negb_true_iff, Z.eqb_neq. tauto.
  - tauto.
Qed.

(* ------------------------------------------------------------------ well-formed argument lists *)
Definition w_wf_args (a : list (list Z)) : Prop := Forall wf a.

Lemma wf_wfb ls : wf ls -> wfb ls = true.
Proof.
  induction ls as [|x r IH]; intros H; [reflexivity|]. apply wf_cons in H. destruct H as [Hx Hr].
  unfold wfb in *. cbn [forallb]. rewrite IH by assumption. unfold is_wordb, is_word in *.
  destruct (Z.leb_spec 0 x); [|lia]. destruct (Z.ltb_spec x B); [reflexivity | lia].
Qed.

Lemma w_wf_args_forallb a : w_wf_args a -> forallb wfb a = true.
Proof.
  unfold w_wf_args. induction 1 as [|x l Hx Hl IH]; [reflexivity|]. cbn [forallb]. rewrite wf_wfb, IH by assumption. reflexivity.
Qed.

Lemma w_dom_ok a k : w_wf_args a -> w_dom a k = k.
Proof. intros H. unfold w_dom. rewrite w_wf_args_forallb by assumption. reflexivity. Qed.

Lemma sarg_arg1 i a x : arg i a = [x] -> sarg i a = x.
Proof. unfold sarg, arg. intros ->. reflexivity. Qed.

(* ------------------------------------------------------------------ the gates on Choice / ConstChoice *)
Lemma w_ctopt_b2z (b : bool) v : w_ctopt (b2z b) v = if b then Val [v] else NoneV.
Proof. destruct b; reflexivity. Qed.
Lemma w_cctopt_choice (b : bool) v : w_cctopt (choice_of_bool b) v = if b then Val [v] else NoneV.
Proof. unfold w_cctopt. rewrite cc_true_choice. reflexivity. Qed.
Lemma w_ccpanic_choice (b : bool) v : w_ccpanic (choice_of_bool b) v = if b then Val [v] else PanicV.
Proof. unfold w_ccpanic. rewrite cc_true_choice. reflexivity. Qed.

(* ------------------------------------------------------------------ closed forms: constructors *)
Lemma nz_new_limb_eq x : is_word x -> nz_new_limb x = if x =? 0 then NoneV else Val [[x]].
Proof.
  intros Hx. unfold nz_new_limb. rewrite limb_is_zero_spec, ch_not_b2z, w_ctopt_b2z by assumption.
  destruct (x =? 0); reflexivity.
Qed.
Lemma nz_new_uint_eq a : wf a -> nz_new_uint a = if eval a =? 0 then NoneV else Val [a].
Proof.
  intros Ha. unfold nz_new_uint. rewrite uint_is_zero_spec, ch_not_b2z, w_ctopt_b2z by assumption.
  destruct (eval a =? 0); reflexivity.
Qed.
Lemma nz_new_boxed_eq a : wf a -> nz_new_boxed a = if eval a =? 0 then NoneV else Val [a].
Proof.
  intros Ha. unfold nz_new_boxed. rewrite boxed_is_zero_spec, ch_not_b2z, w_ctopt_b2z by assumption.
  destruct (eval a =? 0); reflexivity.
Qed.
Lemma nz_to_nz_limb_eq x : is_word x -> nz_to_nz_limb x = if x =? 0 then NoneV else Val [[x]].
Proof.
  intros Hx. unfold nz_to_nz_limb, limb_is_nonzero. rewrite from_word_nonzero_spec, w_cctopt_choice by assumption.
  destruct (x =? 0); reflexivity.
Qed.
Lemma nz_to_nz_uint_eq a : wf a -> nz_to_nz_uint a = if eval a =? 0 then NoneV else Val [a].
Proof.
  intros Ha. unfold nz_to_nz_uint. rewrite uint_is_nonzero_spec, w_cctopt_choice by assumption.
  destruct (eval a =? 0); reflexivity.
Qed.
Lemma nz_new_unwrap_limb_eq x : is_word x -> nz_new_unwrap_limb x = if x =? 0 then PanicV else Val [[x]].
Proof.
  intros Hx. unfold nz_new_unwrap_limb, limb_is_nonzero. rewrite from_word_nonzero_spec, w_ccpanic_choice by assumption.
  destruct (x =? 0); reflexivity.
Qed.
Lemma nz_new_unwrap_uint_eq a : wf a -> nz_new_unwrap_uint a = if eval a =? 0 then PanicV else Val [a].
Proof.
  intros Ha. unfold nz_new_unwrap_uint. rewrite uint_is_nonzero_spec, w_ccpanic_choice by assumption.
  destruct (eval a =? 0); reflexivity.
Qed.
Lemma wodd_new_eq a : wf a -> wodd_new a = if Z.odd (eval a) then Val [a] else NoneV.
Proof. intros Ha. unfold wodd_new. rewrite integer_is_odd_spec, w_ctopt_b2z by assumption. reflexivity. Qed.
Lemma wodd_to_odd_eq a : wf a -> wodd_to_odd a = if Z.odd (eval a) then Val [a] else NoneV.
Proof. intros Ha. unfold wodd_to_odd. rewrite uint_is_odd_spec, w_cctopt_choice by assumption. reflexivity. Qed.
Lemma wodd_to_odd_unwrap_eq a : wf a -> wodd_to_odd_unwrap a = if Z.odd (eval a) then Val [a] else PanicV.
Proof. intros Ha. unfold wodd_to_odd_unwrap. rewrite uint_is_odd_spec, w_ccpanic_choice by assumption. reflexivity. Qed.

(* ------------------------------------------------------------------ constants *)
Lemma w_kind_cases k n m : wsp_kind_n k n = Some m ->
  (k = 0 /\ m = 1%nat) \/ ((k = 1 \/ k = 2) /\ m = n /\ (1 <= n)%nat).
Proof.
  unfold wsp_kind_n. destruct (Z.eqb_spec k 0) as [->|]; [intros E; injection E as <-; auto|].
  destruct (Z.eqb_spec k 1) as [->|]; cbn [orb].
  - destruct n; [discriminate|]. intros E; injection E as <-. right. split; [auto|]. split; [reflexivity | lia].
  - destruct (Z.eqb_spec k 2) as [->|]; [|discriminate].
    destruct n; [discriminate|]. intros E; injection E as <-. right. split; [auto|]. split; [reflexivity | lia].
Qed.

Lemma one_limbs_to_limbs n : (1 <= n)%nat -> to_limbs n 1 = one_limbs n.
Proof.
  intros Hn. symmetry. apply to_limbs_unique; [apply wf_one_limbs | apply length_one_limbs|].
  rewrite eval_one_limbs by lia. pose proof (Bn_pos n). destruct n; [lia|].
  rewrite Bn_S in *. pose proof B_gt1. pose proof (Bn_pos n). symmetry. apply Z.mod_small. nia.
Qed.

Lemma w_one_eq k n m : wsp_kind_n k n = Some m -> w_one k n = to_limbs m 1.
Proof.
  intros H. destruct (w_kind_cases k n m H) as [[-> ->]|[Hk [-> Hn]]]; unfold w_one.
  - cbn [Z.eqb Pos.eqb]. rewrite one_limbs_to_limbs by lia. reflexivity.
  - destruct Hk as [-> | ->]; cbn [Z.eqb Pos.eqb]; rewrite one_limbs_to_limbs by assumption; reflexivity.
Qed.

Lemma eval_w_one k n m : wsp_kind_n k n = Some m -> wf (w_one k n) /\ eval (w_one k n) = 1.
Proof.
  intros H. rewrite (w_one_eq k n m H). split; [apply wf_to_limbs|].
  rewrite eval_to_limbs. assert (1 <= m)%nat by (destruct (w_kind_cases k n m H) as [[_ ->]|[_ [-> ?]]]; lia).
  destruct m; [lia|]. rewrite Bn_S. pose proof B_gt1. pose proof (Bn_pos m). apply Z.mod_small. nia.
Qed.

Lemma w_max_facts k n m : wsp_kind_n k n = Some m ->
  wf (w_max k n) /\ length (w_max k n) = m /\ eval (w_max k n) = wsp_max_val k m /\ 0 < wsp_max_val k m < Bn m.
Proof.
  intros H. destruct (w_kind_cases k n m H) as [[-> ->]|[Hk [-> Hn]]]; unfold w_max, wsp_max_val.
  - cbn [Z.eqb Pos.eqb]. split; [apply wf_cons; split; [apply is_word_MAXW | apply wf_nil]|]. split; [reflexivity|].
    rewrite eval_one. rewrite Bn_S, Bn_0, MAXW_val. pose proof B_gt1. lia.
  - destruct Hk as [-> | ->]; cbn [Z.eqb Pos.eqb].
    + split; [apply wf_maxs|]. split; [apply length_maxs|]. rewrite eval_maxs. split; [reflexivity|].
      destruct n; [lia|]. rewrite Bn_S. pose proof B_gt1. pose proof (Bn_pos n). nia.
    + destruct n as [|n']; [lia|]. split; [apply wf_int_max|]. split; [apply length_int_max|].
      rewrite eval_int_max. unfold half. split; [reflexivity|].
      assert (Hh : Bn (S n') / 2 = 2 ^ 63 * Bn n').
      { rewrite Bn_S, B_half. replace (2 * 2 ^ 63 * Bn n') with ((2 ^ 63 * Bn n') * 2) by ring. apply Z.div_mul. lia. }
      rewrite Hh. rewrite Bn_S, B_half. pose proof (Bn_pos n'). lia.
Qed.

(* ------------------------------------------------------------------ From<core::num::NonZeroU*> *)
Lemma nz_uint_from_prim_eq bits n v : 0 <= v < 2 ^ bits -> (bits = 128 \/ 0 <= bits <= 64) ->
  nz_uint_from_prim bits n v =
    if Nat.ltb n (if bits =? 128 then 2 else 1) then PanicV else Val [to_limbs n v].
Proof.
  intros Hv Hb. unfold nz_uint_from_prim, vpanic.
  destruct (Z.eqb_spec bits 128) as [->|Hne].
  - assert (Hv' : 0 <= v < B * B) by (rewrite B_val; change (2 ^ 64 * 2 ^ 64) with (2 ^ 128); assumption).
    destruct (uint_from_u128 n v) as [r|] eqn:E.
    + destruct (uint_from_u128_spec n v r Hv' E) as (Hn & Hw & Hl & He).
      destruct (Nat.ltb_spec n 2); [lia|]. do 2 f_equal. subst n. rewrite <- He. symmetry. apply to_limbs_eval. assumption.
    + apply uint_from_u128_panics in E. destruct (Nat.ltb_spec n 2); [reflexivity | lia].
  - assert (Hw : is_word v).
    { unfold is_word. split; [lia|]. destruct Hb as [|Hb]; [contradiction|]. rewrite B_val.
      apply Z.lt_le_trans with (2 ^ bits); [lia|]. apply Z.pow_le_mono_r; lia. }
    destruct n as [|n']; [reflexivity|]. cbn [uint_from_small Nat.ltb Nat.leb].
    do 2 f_equal. apply to_limbs_unique.
    + apply wf_cons. split; [assumption | apply wf_zeros].
    + cbn [length]. rewrite length_zeros. reflexivity.
    + cbn [eval]. rewrite eval_zeros. rewrite Bn_S. pose proof (Bn_pos n'). unfold is_word in Hw.
      symmetry. rewrite Z.mul_0_r, Z.add_0_r. apply Z.mod_small. nia.
Qed.

(* ------------------------------------------------------------------ NonZero<Int>::abs_sign *)
Lemma nz_int_abs_sign_eq a : wf a -> a <> [] -> eval a <> 0 ->
  nz_int_abs_sign a = Val [to_limbs (length a) (Z.abs (seval a)); vbool (seval a <? 0)] /\ Z.abs (seval a) <> 0 /\
  0 <= Z.abs (seval a) < Bn (length a).
Proof.
  intros Ha Hn Hz. unfold nz_int_abs_sign. destruct (int_abs_sign a) as [m sg] eqn:E.
  destruct (int_abs_sign_spec a m sg Ha Hn E) as (Hsg & Hm & Hwm & Hlm).
  assert (Hs : seval a <> 0) by (intros H0; apply (seval_zero_iff a Ha) in H0; contradiction).
  rewrite uint_is_nonzero_spec, cc_true_choice by assumption.
  destruct (Z.eqb_spec (eval m) 0) as [E0|_]; [lia|]. cbn [negb].
  pose proof (eval_bounds m Hwm) as Hb. rewrite Hlm, Hm in Hb.
  split; [|split; [lia | assumption]].
  rewrite Hsg, cc_true_choice. do 2 f_equal. rewrite <- Hm, <- Hlm. symmetry. apply to_limbs_eval. assumption.
Qed.

(* ------------------------------------------------------------------ byte decoders *)
Lemma to_limbs_of r n : wf r -> length r = n -> r = to_limbs n (eval r).
Proof. intros Hw Hl. apply limbs_of_val; auto. Qed.

Lemma nz_gate_uint_closed (o : option (list Z)) n (bs : list Z) v :
  (forall r, o = Some r -> length bs = (8 * n)%nat /\ wf r /\ length r = n /\ eval r = v) ->
  (o = None -> length bs <> (8 * n)%nat) ->
  nz_gate_uint o = if Nat.eqb (length bs) (8 * n) then (if v =? 0 then NoneV else Val [to_limbs n v]) else PanicV.
Proof.
  intros HS HN. unfold nz_gate_uint. destruct o as [r|].
  - destruct (HS r eq_refl) as (Hl & Hwr & Hlr & Her).
    rewrite Hl, Nat.eqb_refl, nz_new_uint_eq, <- Her, <- (to_limbs_of r n) by assumption. reflexivity.
  - destruct (Nat.eqb_spec (length bs) (8 * n)); [elim (HN eq_refl); assumption | reflexivity].
Qed.
Lemma nz_from_le_bytes_eq n bs : wfd 256 bs -> nz_from_le_bytes n bs =
  if Nat.eqb (length bs) (8 * n) then (if evalb 256 bs =? 0 then NoneV else Val [to_limbs n (evalb 256 bs)]) else PanicV.
Proof.
  intros Hw. apply nz_gate_uint_closed; [intros r E; exact (from_le_slice_spec n bs r Hw E) | apply from_le_slice_len].
Qed.
Lemma nz_from_be_bytes_eq n bs : wfd 256 bs -> nz_from_be_bytes n bs =
  if Nat.eqb (length bs) (8 * n)
  then (if evalb 256 (rev bs) =? 0 then NoneV else Val [to_limbs n (evalb 256 (rev bs))]) else PanicV.
Proof.
  intros Hw. apply nz_gate_uint_closed; [intros r E; exact (from_be_slice_spec n bs r Hw E) | apply from_be_slice_len].
Qed.

Lemma evalb8_word bs : wfd 256 bs -> length bs = 8%nat -> is_word (evalb 256 bs).
Proof.
  intros Hw Hl. pose proof (evalb_bounds 256 bs ltac:(lia) Hw) as Hb. rewrite Hl in Hb.
  unfold is_word. rewrite B_val. change (256 ^ Z.of_nat 8) with (2 ^ 64) in Hb. assumption.
Qed.
Lemma to_limbs_1_word x : is_word x -> to_limbs 1 x = [x].
Proof. intros Hx. rewrite to_limbs_1, Z.mod_small by exact Hx. reflexivity. Qed.
Lemma nz_limb_from_le_bytes_eq bs : wfd 256 bs -> nz_limb_from_le_bytes bs =
  if Nat.eqb (length bs) 8 then (if evalb 256 bs =? 0 then NoneV else Val [to_limbs 1 (evalb 256 bs)]) else PanicV.
Proof.
  intros Hw. unfold nz_limb_from_le_bytes, word_from_le_bytes.
  destruct (Nat.eqb_spec (length bs) 8) as [Hl|]; [|reflexivity].
  pose proof (evalb8_word bs Hw Hl). rewrite nz_new_limb_eq, to_limbs_1_word by assumption. reflexivity.
Qed.
Lemma nz_limb_from_be_bytes_eq bs : wfd 256 bs -> nz_limb_from_be_bytes bs =
  if Nat.eqb (length bs) 8
  then (if evalb 256 (rev bs) =? 0 then NoneV else Val [to_limbs 1 (evalb 256 (rev bs))]) else PanicV.
Proof.
  intros Hw. unfold nz_limb_from_be_bytes, word_from_be_bytes.
  destruct (Nat.eqb_spec (length bs) 8) as [Hl|]; [|reflexivity].
  pose proof (evalb8_word (rev bs) (wfd_rev 256 bs Hw) ltac:(rewrite rev_length; assumption)).
  rewrite nz_new_limb_eq, to_limbs_1_word by assumption. reflexivity.
Qed.

(* ------------------------------------------------------------------ hex decoders *)
(* the value of a hex string under the two byte orders *)
Definition hex_value (le : bool) (ds : list Z) : Z := if le then evalb 256 (nib_pairs ds) else evalb 16 (rev ds).

Lemma odd_gate_hex_eq r : wf r -> odd_gate_hex (HexOk r) = if Z.odd (eval r) then Val [r] else PanicV.
Proof. intros Hr. unfold odd_gate_hex. rewrite uint_is_odd_spec, w_ccpanic_choice by assumption. reflexivity. Qed.

(* the gate on a decoder result [h] that meets the decoder's specification with value function [val] *)
Lemma odd_gate_hex_closed (h : hexres) n cs (val : list Z -> Z) :
  match h with
  | HexLen => length cs <> (16 * n)%nat
  | HexInvalid => length cs = (16 * n)%nat /\ hexvals cs = None
  | HexOk r => length cs = (16 * n)%nat /\ exists ds, hexvals cs = Some ds /\ wf r /\ length r = n /\ eval r = val ds
  end ->
  odd_gate_hex h =
  if Nat.eqb (length cs) (16 * n) then
    match hexvals cs with
    | Some ds => if Z.odd (val ds) then Val [to_limbs n (val ds)] else PanicV
    | None => PanicV
    end
  else PanicV.
Proof.
  destruct h as [r| |]; intros S.
  - destruct S as (Hl & ds & Hh & Hwr & Hlr & Her). rewrite Hl, Nat.eqb_refl, Hh, odd_gate_hex_eq by assumption.
    rewrite <- Her, <- (to_limbs_of r n) by assumption. reflexivity.
  - destruct S as [Hl Hh]. rewrite Hl, Nat.eqb_refl, Hh. reflexivity.
  - destruct (Nat.eqb_spec (length cs) (16 * n)); [contradiction | reflexivity].
Qed.
Lemma odd_of_hex_eq (le : bool) n cs : wfd 256 cs ->
  (if le then odd_of_le_hex n cs else odd_of_be_hex n cs) =
  if Nat.eqb (length cs) (16 * n) then
    match hexvals cs with
    | Some ds => if Z.odd (hex_value le ds) then Val [to_limbs n (hex_value le ds)] else PanicV
    | None => PanicV
    end
  else PanicV.
Proof.
  intros Hw. destruct le.
  - exact (odd_gate_hex_closed _ n cs (hex_value true) (from_le_hex_spec n cs Hw)).
  - exact (odd_gate_hex_closed _ n cs (hex_value false) (from_be_hex_spec n cs Hw)).
Qed.

(* ------------------------------------------------------------------ conditional selection *)
Lemma carg_b2z i a : carg i a = b2z (negb (sarg i a =? 0)).
Proof. reflexivity. Qed.

Lemma w_select_eq a b (c : bool) : wf a -> wf b -> length a = length b ->
  w_select a b (b2z c) = Val [if c then b else a].
Proof. intros. unfold w_select. rewrite ct_select_limbs_spec by assumption. reflexivity. Qed.
Lemma w_swap_eq a b (c : bool) : wf a -> wf b -> length a = length b ->
  w_swap a b (b2z c) = if c then Val [b; a] else Val [a; b].
Proof.
  intros. unfold w_swap. rewrite ct_swap_limbs_spec by assumption. unfold spec_select. destruct c; reflexivity.
Qed.
Lemma w_select_limb_eq x y (c : bool) : is_word x -> is_word y ->
  w_select_limb x y (b2z c) = Val [[if c then y else x]].
Proof. intros. unfold w_select_limb. rewrite st_select_spec by assumption. reflexivity. Qed.

(* ------------------------------------------------------------------ serde *)
Lemma uint_serde_de_eq n bs : wfd 256 bs -> uint_serde_de n bs =
  if Nat.ltb (length bs) 8 then ErrV 0
  else let len := evalb 256 (firstn 8 bs) in
       if Z.of_nat (length bs - 8) <? len then ErrV 0
       else if negb (len =? Z.of_nat (8 * n)) then ErrV 0
       else Val [to_limbs n (evalb 256 (firstn (8 * n) (skipn 8 bs)))].
Proof.
  intros Hw. unfold uint_serde_de, word_from_le_bytes.
  destruct (Nat.ltb_spec (length bs) 8); [reflexivity|]. cbv zeta. rewrite skipn_length.
  destruct (Z.ltb_spec (Z.of_nat (length bs - 8)) (evalb 256 (firstn 8 bs))); [reflexivity|].
  destruct (Z.eqb_spec (evalb 256 (firstn 8 bs)) (Z.of_nat (8 * n))) as [He|]; cbn [negb]; [|reflexivity].
  assert (Hl : length (firstn (8 * n) (skipn 8 bs)) = (8 * n)%nat).
  { rewrite firstn_length, skipn_length. lia. }
  assert (Hwf : wfd 256 (firstn (8 * n) (skipn 8 bs))) by (apply wfd_firstn, wfd_skipn; assumption).
  destruct (uint_from_le_slice n (firstn (8 * n) (skipn 8 bs))) as [r|] eqn:E.
  - destruct (from_le_slice_spec _ _ _ Hwf E) as (_ & Hwr & Hlr & Her).
    rewrite <- Her, <- (to_limbs_of r n) by assumption. reflexivity.
  - apply from_le_slice_len in E. contradiction.
Qed.

Lemma nz_serde_uint_eq n bs : wfd 256 bs -> nz_serde_uint n bs =
  match uint_serde_de n bs with
  | Val [r] => if eval r =? 0 then ErrV W_E_INVALID else Val [r]
  | o => o
  end.
Proof.
  intros Hw. unfold nz_serde_uint. destruct (uint_serde_de n bs) as [vs| | | |] eqn:E; try reflexivity.
  destruct vs as [|r [|? ?]]; try reflexivity.
  destruct (serde_de_strict n bs r Hw E) as (_ & _ & Hwr & _).
  rewrite uint_is_zero_spec by assumption. destruct (eval r =? 0); reflexivity.
Qed.
Lemma odd_serde_uint_eq n bs : wfd 256 bs -> odd_serde_uint n bs =
  match uint_serde_de n bs with
  | Val [r] => if Z.odd (eval r) then Val [r] else ErrV W_E_INVALID
  | o => o
  end.
Proof.
  intros Hw. unfold odd_serde_uint. destruct (uint_serde_de n bs) as [vs| | | |] eqn:E; try reflexivity.
  destruct vs as [|r [|? ?]]; try reflexivity.
  destruct (serde_de_strict n bs r Hw E) as (_ & _ & Hwr & _).
  rewrite integer_is_odd_spec by assumption. destruct (Z.odd (eval r)); reflexivity.
Qed.

Lemma nz_serde_limb_eq bs : wfd 256 bs -> nz_serde_limb bs =
  if Nat.ltb (length bs) 8 then ErrV W_E_DECODE
  else if evalb 256 (firstn 8 bs) =? 0 then ErrV W_E_INVALID else Val [to_limbs 1 (evalb 256 (firstn 8 bs))].
Proof.
  intros Hw. unfold nz_serde_limb, word_from_le_bytes. destruct (Nat.ltb_spec (length bs) 8); [reflexivity|].
  cbv zeta. assert (Hx : is_word (evalb 256 (firstn 8 bs))).
  { apply evalb8_word; [apply wfd_firstn; assumption | rewrite firstn_length; lia]. }
  rewrite limb_is_zero_spec, to_limbs_1_word by assumption. destruct (evalb 256 (firstn 8 bs) =? 0); reflexivity.
Qed.

(* ------------------------------------------------------------------ wrappers made from wrappers *)
Lemma nz_boxed_widen_eq a p : wf a -> a <> [] -> nz_boxed_widen a p =
  if p <? 64 * Z.of_nat (length a) then PanicV else Val [to_limbs (limbs_for_precision p) (eval a)].
Proof.
  intros Ha Hn. assert (Hl : (1 <= length a)%nat) by (destruct a; [congruence | cbn [length]; lia]).
  unfold nz_boxed_widen, vpanic. destruct (boxed_widen a p) as [r|] eqn:E.
  - destruct (boxed_widen_spec a p r Ha Hl E) as (Hp & Hwr & Hlr & Her).
    destruct (Z.ltb_spec p (64 * Z.of_nat (length a))); [lia|].
    rewrite <- Her, <- (to_limbs_of r _) by assumption. reflexivity.
  - apply boxed_widen_panics in E; [|assumption]. destruct (Z.ltb_spec p (64 * Z.of_nat (length a))); [reflexivity | lia].
Qed.
