(** C16 proofs, part 4: BoxedUint::from_be_slice / from_le_slice (length and precision errors),
    leading_zeros / bits, widen / shorten. *)
From CB Require Import Model.Limbs Model.Conv Proofs.WordP Proofs.LimbsP Proofs.ConvDigitsP Proofs.ConvBytesP.
From Coq Require Import ZArith Lia List Bool.
Import ListNotations.
Open Scope Z_scope.
Open Scope list_scope.

Lemma div_ceil_eq p k : 0 < k ->
  (let d := p / k in if 0 <? p mod k then d + 1 else d) = (p + (k - 1)) / k.
Proof.
  intros Hk. cbv zeta.
  pose proof (Z.div_mod p k ltac:(lia)) as Hdm. pose proof (Z.mod_pos_bound p k Hk) as Hmb.
  destruct (Z.ltb_spec 0 (p mod k)).
  - symmetry. apply (proj1 (div_mod_unique_pos k (p / k + 1) (p mod k - 1) (p + (k - 1)) ltac:(lia) ltac:(lia))).
  - symmetry. apply (proj1 (div_mod_unique_pos k (p / k) (k - 1) (p + (k - 1)) ltac:(lia) ltac:(lia))).
Qed.

Lemma limbs_for_precision_eq p : limbs_for_precision p = Z.to_nat ((p + 63) / 64).
Proof. unfold limbs_for_precision. f_equal. apply (div_ceil_eq p 64). reflexivity. Qed.

Lemma zero_with_precision_pos p : 1 <= p ->
  zero_with_precision p = zeros (limbs_for_precision p) /\ (1 <= limbs_for_precision p)%nat.
Proof.
  intros Hp. rewrite limbs_for_precision_eq.
  assert (1 <= (p + 63) / 64) by (apply Z.div_le_lower_bound; lia).
  assert (Hn : (1 <= Z.to_nat ((p + 63) / 64))%nat) by lia.
  split; [|assumption]. unfold zero_with_precision. rewrite limbs_for_precision_eq.
  destruct (Z.to_nat ((p + 63) / 64)); [lia | reflexivity].
Qed.

Lemma chunks_all_nil f k : chunks_all f k [] = [].
Proof. destruct f; reflexivity. Qed.

Lemma chunks_all_spec b k : 0 < b -> (0 < k)%nat -> forall fuel bs, (length bs <= fuel)%nat -> wfd b bs ->
  evalb (b ^ Z.of_nat k) (map (evalb b) (chunks_all fuel k bs)) = evalb b bs /\
  Forall (fun c => (length c <= k)%nat /\ wfd b c) (chunks_all fuel k bs) /\
  (k * length (chunks_all fuel k bs) < length bs + k)%nat.
Proof.
  intros Hb Hk. induction fuel as [|f IH]; intros bs Hl Hw.
  - destruct bs; [|cbn in Hl; lia]. cbn. repeat split; [constructor | lia].
  - destruct bs as [|x bs']; [cbn; repeat split; [constructor | lia]|].
    cbn [chunks_all]. remember (x :: bs') as bs eqn:Ebs.
    assert (Hlen : (length bs >= 1)%nat) by (rewrite Ebs; cbn [length]; lia).
    assert (Hs : (length (skipn k bs) <= f)%nat) by (rewrite skipn_length; lia).
    destruct (IH (skipn k bs) Hs (wfd_skipn b k bs Hw)) as (He & Hf & Hc).
    cbn [map evalb length]. rewrite He.
    split; [|split].
    + rewrite <- (firstn_skipn k bs) at 3. rewrite evalb_app.
      destruct (Nat.le_gt_cases k (length bs)) as [Hge|Hlt].
      * rewrite firstn_length_le by assumption. reflexivity.
      * rewrite (skipn_all2 bs) by lia. cbn [evalb]. lia.
    + constructor; [|assumption]. split; [rewrite firstn_length; lia | apply wfd_firstn; assumption].
    + rewrite skipn_length in Hc.
      destruct (Nat.le_gt_cases k (length bs)) as [Hge|Hlt]; [lia|].
      rewrite (skipn_all2 bs), chunks_all_nil by lia. cbn [length]. lia.
Qed.

Lemma evalb_rev_zeros b k : evalb b (rev (repeat 0 k)) = 0.
Proof.
  induction k; cbn [repeat rev]; [reflexivity|]. rewrite evalb_app, IHk. cbn [evalb]. lia.
Qed.
Lemma limb_from_le_slice_eval c : limb_from_le_slice c = evalb 256 c.
Proof. unfold limb_from_le_slice, word_from_le_bytes, zeros. rewrite evalb_app, evalb_repeat0. lia. Qed.
Lemma limb_from_be_slice_eval c : limb_from_be_slice (rev c) = evalb 256 c.
Proof.
  unfold limb_from_be_slice, word_from_be_bytes, zeros.
  rewrite rev_app_distr, rev_involutive, evalb_app, evalb_rev_zeros. lia.
Qed.

Lemma skipn_repeat {A} (x : A) n m : skipn m (repeat x n) = repeat x (n - m).
Proof.
  revert m; induction n; intros m; destruct m; cbn [repeat skipn Nat.sub]; try reflexivity. apply IHn.
Qed.

Lemma zip_assign_zeros nl vals : wf vals -> (length vals <= nl)%nat ->
  let r := zip_assign (zeros nl) vals in wf r /\ length r = nl /\ eval r = eval vals.
Proof.
  intros Hw Hl r. unfold r, zip_assign. rewrite length_zeros, firstn_all2 by lia.
  unfold zeros. rewrite skipn_repeat. fold (zeros (nl - length vals)).
  repeat split.
  - apply wf_app. split; [assumption | apply wf_zeros].
  - rewrite app_length, length_zeros. lia.
  - rewrite eval_app, eval_zeros. lia.
Qed.

Definition bitlen (v : Z) : Z := if v =? 0 then 0 else Z.log2 v + 1.

Lemma log2_shifted m l e : 0 <= m -> 1 <= l -> 0 <= e < 2 ^ m -> Z.log2 (e + 2 ^ m * l) = m + Z.log2 l.
Proof.
  intros Hm Hl He. pose proof (Z.log2_spec l ltac:(lia)) as [L1 L2]. pose proof (Z.log2_nonneg l).
  apply Z.log2_unique; [lia|].
  replace (Z.succ (m + Z.log2 l)) with (m + Z.succ (Z.log2 l)) by lia.
  rewrite !Z.pow_add_r by lia.
  assert (0 < 2 ^ m) by (apply Z.pow_pos_nonneg; lia).
  split.
  - assert (2 ^ m * 2 ^ Z.log2 l <= 2 ^ m * l) by (apply Z.mul_le_mono_nonneg_l; lia). lia.
  - assert (2 ^ m * (l + 1) <= 2 ^ m * 2 ^ Z.succ (Z.log2 l)) by (apply Z.mul_le_mono_nonneg_l; lia). lia.
Qed.

Lemma lz_scan_false ms c : lz_scan ms false c = c.
Proof. revert c; induction ms; intros; cbn [lz_scan andb]; [reflexivity | apply IHms]. Qed.

Lemma lz_scan_true ms : forall c, wf ms ->
  lz_scan ms true c = c + 64 * Z.of_nat (length ms) - bitlen (eval (rev ms)).
Proof.
  induction ms as [|l r IH]; intros c Hw.
  - cbn. lia.
  - apply wf_cons in Hw. destruct Hw as [Hl Hw]. cbn [lz_scan andb rev length].
    rewrite eval_app, rev_length. cbn [eval]. rewrite Z.mul_0_r, Z.add_0_r.
    unfold word_lz. destruct (Z.eqb_spec l 0) as [->|Hnz].
    + rewrite IH by assumption. rewrite Z.mul_0_r, Z.add_0_r. lia.
    + rewrite lz_scan_false. unfold is_word in Hl.
      pose proof (eval_bounds (rev r) ltac:(unfold wf in *; apply Forall_rev; assumption)) as Hb.
      rewrite rev_length, Bn_2 in Hb.
      unfold bitlen. rewrite Bn_2.
      assert (0 < 2 ^ Z.of_nat (64 * length r)) by (apply Z.pow_pos_nonneg; lia).
      destruct (Z.eqb_spec (eval (rev r) + 2 ^ Z.of_nat (64 * length r) * l) 0) as [E0|_]; [nia|].
      rewrite log2_shifted by lia. lia.
Qed.

Lemma boxed_bits_bitlen ls : wf ls -> boxed_bits ls = bitlen (eval ls).
Proof.
  intros Hw. unfold boxed_bits, leading_zeros, lenZ.
  rewrite lz_scan_true by (unfold wf in *; apply Forall_rev; assumption).
  rewrite rev_involutive, rev_length. lia.
Qed.

Lemma bitlen_lt p v : 0 <= p -> 0 <= v -> (p <? bitlen v) = (2 ^ p <=? v).
Proof.
  intros Hp Hv. unfold bitlen. destruct (Z.eqb_spec v 0) as [->|Hnz].
  - assert (0 < 2 ^ p) by (apply Z.pow_pos_nonneg; lia).
    destruct (Z.ltb_spec p 0); destruct (Z.leb_spec (2 ^ p) 0); lia.
  - pose proof (Z.log2_le_pow2 v p ltac:(lia)) as Hiff.
    destruct (Z.ltb_spec p (Z.log2 v + 1)); destruct (Z.leb_spec (2 ^ p) v); try reflexivity; lia.
Qed.

(** bits_precision < bits()  iff  the value does not fit the precision *)
Lemma bits_spec ls p : wf ls -> 0 <= p -> (p <? boxed_bits ls) = (2 ^ p <=? eval ls).
Proof. intros Hw Hp. rewrite boxed_bits_bitlen by assumption. apply bitlen_lt; [assumption | apply eval_nonneg; assumption]. Qed.

Lemma vals_eq (be : bool) bs :
  (if be then map limb_from_be_slice (rchunks 8 bs)
   else map limb_from_le_slice (chunks_all (length bs) 8 bs)) =
  map (evalb 256) (chunks_all (length bs) 8 (if be then rev bs else bs)).
Proof.
  destruct be.
  - unfold rchunks. rewrite map_map. apply map_ext. intros c. apply limb_from_be_slice_eval.
  - apply map_ext. intros c. apply limb_from_le_slice_eval.
Qed.

(** * BoxedUint::from_be_slice / from_le_slice: closed form of the outcome.
    InputSize exactly when the input is longer than the precision rounded up to bytes, Precision exactly
    when the value is >= 2^bits_precision, otherwise the value at the precision rounded up to limbs. *)
Theorem boxed_from_slice_spec (be : bool) bs p : wfd 256 bs -> 0 <= p ->
  let v := evalb 256 (if be then rev bs else bs) in
  boxed_from_slice be bs p =
    if Nat.eqb (length bs) 0 && (p =? 0) then Val [[0]]
    else if (p + 7) / 8 <? Z.of_nat (length bs) then ErrV E_InputSize
    else if 2 ^ p <=? v then ErrV E_Precision
    else Val [to_limbs (limbs_for_precision p) v].
Proof.
  intros Hw Hp v. unfold boxed_from_slice.
  destruct (Nat.eqb (length bs) 0 && (p =? 0)) eqn:E1; [reflexivity|].
  pose proof (div_ceil_eq p 8 eq_refl) as Hdc. cbv zeta in Hdc. change (8 - 1) with 7 in Hdc. rewrite Hdc.
  destruct (Z.ltb_spec ((p + 7) / 8) (Z.of_nat (length bs))) as [|Hlen]; [reflexivity|].
  assert (Hp1 : 1 <= p).
  { destruct (Z.eq_dec p 0) as [->|]; [|lia]. change ((0 + 7) / 8) with 0 in Hlen.
    assert (length bs = 0%nat) by lia. rewrite H in E1. cbn in E1. discriminate. }
  destruct (zero_with_precision_pos p Hp1) as [-> Hnl].
  rewrite vals_eq.
  set (bs' := if be then rev bs else bs) in *.
  assert (Hw' : wfd 256 bs') by (unfold bs'; destruct be; [apply wfd_rev|]; assumption).
  assert (Hl' : length bs' = length bs) by (unfold bs'; destruct be; [apply rev_length | reflexivity]).
  rewrite <- Hl'.
  destruct (chunks_all_spec 256 8 ltac:(reflexivity) ltac:(lia) (length bs') bs' (le_n _) Hw') as (He & Hf & Hc).
  set (cs := chunks_all (length bs') 8 bs') in *.
  assert (Hwv : wf (map (evalb 256) cs)).
  { apply (proj1 (wfd_wf _)). unfold wfd. apply Forall_forall. intros y Hy.
    apply in_map_iff in Hy. destruct Hy as (c & <- & Hc').
    rewrite Forall_forall in Hf. destruct (Hf c Hc') as [Hlc Hwc].
    pose proof (evalb_bounds 256 c ltac:(reflexivity) Hwc) as Hb. rewrite B_256.
    assert (256 ^ Z.of_nat (length c) <= 256 ^ Z.of_nat 8) by (apply Z.pow_le_mono_r; lia). lia. }
  assert (Hcnt : (length (map (evalb 256) cs) <= limbs_for_precision p)%nat).
  { rewrite map_length. rewrite limbs_for_precision_eq in *.
    pose proof (Z.div_mod (p + 7) 8 ltac:(lia)). pose proof (Z.mod_pos_bound (p + 7) 8 ltac:(lia)).
    pose proof (Z.div_mod (p + 63) 64 ltac:(lia)). pose proof (Z.mod_pos_bound (p + 63) 64 ltac:(lia)).
    assert (0 <= (p + 63) / 64) by (apply Z.div_pos; lia). lia. }
  destruct (zip_assign_zeros (limbs_for_precision p) (map (evalb 256) cs) Hwv Hcnt) as (Hwr & Hlr & Her).
  set (ret := zip_assign (zeros (limbs_for_precision p)) (map (evalb 256) cs)) in *.
  assert (Hv : eval ret = v).
  { rewrite Her, eval_evalb, B_256, He. reflexivity. }
  rewrite bits_spec by assumption. rewrite Hv.
  destruct (Z.leb_spec (2 ^ p) v); [reflexivity|].
  do 2 f_equal. apply to_limbs_unique; try assumption.
  rewrite Hv. symmetry. apply Z.mod_small. rewrite <- Hv, <- Hlr. apply eval_bounds. assumption.
Qed.

Lemma limbs_for_whole (n : nat) : limbs_for_precision (64 * Z.of_nat n) = n.
Proof.
  rewrite limbs_for_precision_eq.
  rewrite (proj1 (div_mod_unique_pos 64 (Z.of_nat n) 63 (64 * Z.of_nat n + 63) ltac:(lia) ltac:(lia))). apply Nat2Z.id.
Qed.

(** the encoders of BoxedUint are those of Uint; decoding what was encoded gives the value back *)
Lemma boxed_roundtrip (be : bool) ls : wf ls -> (1 <= length ls)%nat ->
  boxed_from_slice be (if be then uint_to_be_bytes ls else uint_to_le_bytes ls) (64 * Z.of_nat (length ls)) = Val [ls].
Proof.
  intros Hw Hn. set (bs := if be then uint_to_be_bytes ls else uint_to_le_bytes ls).
  assert (Hwb : wfd 256 bs) by (destruct be; [apply wfd_uint_to_be_bytes | apply wfd_uint_to_le_bytes]; assumption).
  assert (Hlb : length bs = (8 * length ls)%nat)
    by (destruct be; [apply length_uint_to_be_bytes | apply length_uint_to_le_bytes]; assumption).
  assert (Hv : evalb 256 (if be then rev bs else bs) = eval ls).
  { replace (if be then rev bs else bs) with (uint_to_le_bytes ls)
      by (unfold bs; destruct be; [rewrite uint_to_be_bytes_rev, rev_involutive|]; reflexivity).
    rewrite uint_to_le_bytes_digits, evalb_digits, <- Bn_256 by (assumption || reflexivity).
    apply Z.mod_small, eval_bounds. assumption. }
  rewrite (boxed_from_slice_spec be bs (64 * Z.of_nat (length ls)) Hwb ltac:(lia)). cbv zeta. rewrite Hv, Hlb.
  destruct (Nat.eqb_spec (8 * length ls) 0); [lia|]. cbn [andb].
  rewrite (proj1 (div_mod_unique_pos 8 (8 * Z.of_nat (length ls)) 7 (64 * Z.of_nat (length ls) + 7) ltac:(lia) ltac:(lia))).
  destruct (Z.ltb_spec (8 * Z.of_nat (length ls)) (Z.of_nat (8 * length ls))); [lia|].
  pose proof (eval_bounds ls Hw) as Hb. rewrite Bn_pow2 in Hb.
  destruct (Z.leb_spec (2 ^ (64 * Z.of_nat (length ls))) (eval ls)); [lia|].
  rewrite limbs_for_whole, to_limbs_eval by assumption. reflexivity.
Qed.

Lemma boxed_widen_spec a p r : wf a -> (1 <= length a)%nat -> boxed_widen a p = Some r ->
  64 * Z.of_nat (length a) <= p /\ wf r /\ length r = limbs_for_precision p /\ eval r = eval a.
Proof.
  intros Hw Hn. unfold boxed_widen, lenZ.
  destruct (Z.ltb_spec p (64 * Z.of_nat (length a))) as [|Hp]; [discriminate|].
  destruct (zero_with_precision_pos p ltac:(lia)) as [-> Hnl].
  rewrite length_zeros. destruct (Nat.ltb_spec (limbs_for_precision p) (length a)); [discriminate|].
  intros E. injection E as <-. unfold zeros. rewrite skipn_repeat. fold (zeros (limbs_for_precision p - length a)).
  split; [assumption|]. split; [apply wf_app; split; [assumption | apply wf_zeros]|].
  split; [rewrite app_length, length_zeros; lia|]. rewrite eval_app, eval_zeros. lia.
Qed.
Lemma boxed_widen_panics a p : (1 <= length a)%nat -> boxed_widen a p = None <-> p < 64 * Z.of_nat (length a).
Proof.
  intros Hn. unfold boxed_widen, lenZ. destruct (Z.ltb_spec p (64 * Z.of_nat (length a))) as [|Hp]; [tauto|].
  destruct (zero_with_precision_pos p ltac:(lia)) as [-> Hnl]. rewrite length_zeros.
  destruct (Nat.ltb_spec (limbs_for_precision p) (length a)) as [Hc|]; [|split; [discriminate | lia]].
  exfalso. rewrite limbs_for_precision_eq in Hc.
  assert (Z.of_nat (length a) <= (p + 63) / 64) by (apply Z.div_le_lower_bound; lia). lia.
Qed.

Lemma boxed_shorten_spec a p r : wf a -> 1 <= p -> boxed_shorten a p = Some r ->
  p <= 64 * Z.of_nat (length a) /\ wf r /\ length r = limbs_for_precision p /\
  eval r = eval a mod Bn (limbs_for_precision p).
Proof.
  intros Hw Hp. unfold boxed_shorten, lenZ.
  destruct (Z.ltb_spec (64 * Z.of_nat (length a)) p) as [|Hle]; [discriminate|].
  destruct (zero_with_precision_pos p Hp) as [-> Hnl]. rewrite length_zeros.
  destruct (Nat.ltb_spec (length a) (limbs_for_precision p)) as [|Hn]; [discriminate|].
  intros E. injection E as <-. split; [assumption|]. split; [apply wf_firstn; assumption|].
  split; [apply firstn_length_le; assumption | apply eval_firstn; assumption].
Qed.
Lemma boxed_shorten_panics a p : 1 <= p -> boxed_shorten a p = None <-> 64 * Z.of_nat (length a) < p.
Proof.
  intros Hp. unfold boxed_shorten, lenZ. destruct (Z.ltb_spec (64 * Z.of_nat (length a)) p) as [|Hle]; [tauto|].
  destruct (zero_with_precision_pos p Hp) as [-> Hnl]. rewrite length_zeros.
  destruct (Nat.ltb_spec (length a) (limbs_for_precision p)) as [Hc|]; [|split; [discriminate | lia]].
  exfalso. rewrite limbs_for_precision_eq in Hc.
  assert ((p + 63) / 64 <= Z.of_nat (length a)).
  { apply Z.lt_succ_r. apply Z.div_lt_upper_bound; lia. }
  lia.
Qed.
