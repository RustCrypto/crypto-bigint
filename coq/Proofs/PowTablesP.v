(** C09 proofs, part 7: the table theorem.  Every entry of [ops_pow_model] returns the outcome of its [ops_pow_spec]
    entry wherever the specification is defined (spec entry <> Unsupported), for all well-formed argument lists, every
    number of limbs of modulus / bases / exponents, every exponent_bits and every number of bases / terms, in both
    build profiles.  Together with the sampled equality impl = model this covers every API form of C09. *)
From CB Require Import Model.Limbs Model.AddSub Model.ModArith Model.Cmp Model.Pow
  Proofs.WordP Proofs.LimbsP Proofs.AddSubP Proofs.ModArithTablesP Proofs.PowMathP Proofs.PowLadderP Proofs.PowFixedP
  Proofs.PowBoxedP Proofs.PowLincombP Proofs.PowApiP.
From Coq Require Import ZArith Lia List Bool String.
Import ListNotations.
Open Scope Z_scope.
Open Scope list_scope.
Notation length := List.length.

Definition run_op9 (t : list (string * opfn)) (k : string) (dbg : bool) (args : list (list Z)) : outcome :=
  match lookup k t with Some f => f dbg args | None => Unsupported end.
Notation M9 := (run_op9 ops_pow_model).
Notation S9 := (run_op9 ops_pow_spec).

Ltac table_open9 :=
  unfold run_op9;
  lazy beta iota zeta delta [lookup ops_pow_model ops_pow_spec String.eqb Ascii.eqb Bool.eqb].

Definition pow_keys : list string :=
  ["pow.fixed"; "pow.boxed"; "multiexp.array"; "multiexp.slice"; "lincomb.fixed"; "lincomb.boxed"]%string.

Lemma wf_args_skipn c a : wf_args a -> wf_args (skipn c a).
Proof.
  unfold wf_args. intros H. rewrite <- (firstn_skipn c a) in H. apply Forall_app in H. exact (proj2 H).
Qed.

Lemma pairs_of_wf : forall (fuel : nat) l, (length l <= fuel)%nat -> wf_args l ->
  Forall (fun ab => wf (fst ab) /\ wf (snd ab)) (pairs_of l).
Proof.
  induction fuel as [|f IH]; intros l Hl Hw.
  - destruct l; [constructor | cbn [length] in Hl; lia].
  - destruct l as [|x [|y r]]; [constructor | constructor |].
    cbn [pairs_of]. inversion Hw as [|x' l' Hx Hr]; subst. inversion Hr as [|y' l'' Hy Hr']; subst.
    constructor; [split; assumption|]. apply IH; [cbn [length] in Hl; lia | exact Hr'].
Qed.

Lemma margs_wf a : wf_args a -> Forall (fun ab => wf (fst ab) /\ wf (snd ab)) (margs a).
Proof. intros H. unfold margs. apply (pairs_of_wf (length (skipn 2 a))); [lia | apply wf_args_skipn; exact H]. Qed.
Lemma largs_wf a : wf_args a -> Forall (fun ab => wf (fst ab) /\ wf (snd ab)) (largs a).
Proof. intros H. unfold largs. apply (pairs_of_wf (length (skipn 1 a))); [lia | apply wf_args_skipn; exact H]. Qed.

Lemma sp_modulus_ok_spec mL : sp_modulus_ok mL = true -> Z.odd (eval mL) = true /\ length mL <> 0%nat.
Proof.
  unfold sp_modulus_ok. intros H. apply andb_prop in H. destruct H as [H1 H2]. split; [exact H1|].
  apply negb_true_iff in H2. apply Nat.eqb_neq in H2. exact H2.
Qed.

Lemma prod_pows_spec m bes k : 0 <= k -> prod_pows bes k m = prod_spec bes k mod m.
Proof.
  intros Hk. induction bes as [|[b e] r IH]; [reflexivity|].
  cbn [prod_pows prod_spec fst snd]. rewrite IH.
  rewrite powmod_correct by (apply Z.mod_pos_bound; apply Z.pow_pos_nonneg; lia).
  rewrite mulmod_both. reflexivity.
Qed.

Section Keys.
Variables (dbg : bool) (a : list (list Z)).
Hypothesis Hwf : wf_args a.

Lemma entry_pow (f : list Z -> list Z -> list Z -> Z -> outcome) :
  (forall mL x e k, wf mL -> length mL <> 0%nat -> Z.odd (eval mL) = true -> wf x -> wf e -> 0 <= k <= bitsZ e ->
     f mL x e k = sp_out (length mL) (eval mL) ((eval x ^ (eval e mod 2 ^ k)) mod eval mL)) ->
  spec_pow (arg 0 a) (arg 1 a) (arg 2 a) (sarg 3 a) <> Unsupported ->
  f (arg 0 a) (arg 1 a) (arg 2 a) (sarg 3 a) = spec_pow (arg 0 a) (arg 1 a) (arg 2 a) (sarg 3 a).
Proof.
  intros Hf. unfold spec_pow.
  destruct (sp_modulus_ok (arg 0 a) && sp_res_ok (arg 0 a) (arg 1 a) && (0 <=? sarg 3 a) && (sarg 3 a <=? bitsZ (arg 2 a)))%bool eqn:D;
    [|intros H; contradiction H; reflexivity].
  intros _. dom_hyps D. dom_conv. destruct (sp_modulus_ok_spec _ D) as [Hodd Hn].
  rewrite Hf; try assumption; try (apply wf_arg; assumption); [|lia].
  rewrite powmod_correct by (apply Z.mod_pos_bound; apply Z.pow_pos_nonneg; lia). reflexivity.
Qed.

Lemma entry_multiexp slice :
  (if even_tail a 2 then spec_multiexp (arg 0 a) (sarg 1 a) (margs a) else Unsupported) <> Unsupported ->
  api_multiexp_fixed slice (arg 0 a) (sarg 1 a) (margs a) =
  (if even_tail a 2 then spec_multiexp (arg 0 a) (sarg 1 a) (margs a) else Unsupported).
Proof.
  destruct (even_tail a 2); [|intros H; contradiction H; reflexivity].
  unfold spec_multiexp.
  destruct (sp_modulus_ok (arg 0 a) &&
            forallb (fun be => sp_res_ok (arg 0 a) (fst be) && (sarg 1 a <=? bitsZ (snd be))) (margs a) &&
            (0 <=? sarg 1 a))%bool eqn:D; [|intros H; contradiction H; reflexivity].
  intros _. dom_hyps D. dom_conv. destruct (sp_modulus_ok_spec _ D) as [Hodd Hn].
  rewrite api_multiexp_correct; try assumption; try (apply wf_arg; assumption).
  - rewrite prod_pows_spec by assumption. reflexivity.
  - pose proof (margs_wf a Hwf) as Hm. rewrite forallb_forall in D1. rewrite Forall_forall in *.
    intros be Hin. destruct (Hm be Hin) as [H1 H2]. specialize (D1 be Hin). apply andb_prop in D1. destruct D1 as [_ D1].
    apply Z.leb_le in D1. repeat split; assumption.
Qed.

Lemma entry_lincomb boxed :
  (if even_tail a 1 then spec_lincomb (arg 0 a) (largs a) else Unsupported) <> Unsupported ->
  api_lincomb boxed dbg (arg 0 a) (largs a) =
  (if even_tail a 1 then spec_lincomb (arg 0 a) (largs a) else Unsupported).
Proof.
  destruct (even_tail a 1); [|intros H; contradiction H; reflexivity].
  unfold spec_lincomb.
  destruct (sp_modulus_ok (arg 0 a) &&
            forallb (fun ab => sp_res_ok (arg 0 a) (fst ab) && sp_res_ok (arg 0 a) (snd ab)) (largs a))%bool eqn:D;
    [|intros H; contradiction H; reflexivity].
  intros _. dom_hyps D. destruct (sp_modulus_ok_spec _ D) as [Hodd Hn].
  destruct (largs a) as [|t0 tr] eqn:El; [reflexivity|]. rewrite <- El.
  rewrite api_lincomb_correct; try assumption; try (apply wf_arg; assumption).
  - reflexivity.
  - rewrite El. discriminate.
  - apply largs_wf. assumption.
Qed.

Lemma tbl_pow_fixed : S9 "pow.fixed" dbg a <> Unsupported -> M9 "pow.fixed" dbg a = S9 "pow.fixed" dbg a.
Proof. table_open9. apply entry_pow. intros; apply api_pow_fixed_correct; assumption. Qed.
Lemma tbl_pow_boxed : S9 "pow.boxed" dbg a <> Unsupported -> M9 "pow.boxed" dbg a = S9 "pow.boxed" dbg a.
Proof. table_open9. apply entry_pow. intros; apply api_pow_boxed_correct; assumption. Qed.
Lemma tbl_multiexp_array : S9 "multiexp.array" dbg a <> Unsupported -> M9 "multiexp.array" dbg a = S9 "multiexp.array" dbg a.
Proof. table_open9. apply entry_multiexp. Qed.
Lemma tbl_multiexp_slice : S9 "multiexp.slice" dbg a <> Unsupported -> M9 "multiexp.slice" dbg a = S9 "multiexp.slice" dbg a.
Proof. table_open9. apply entry_multiexp. Qed.
Lemma tbl_lincomb_fixed : S9 "lincomb.fixed" dbg a <> Unsupported -> M9 "lincomb.fixed" dbg a = S9 "lincomb.fixed" dbg a.
Proof. table_open9. apply entry_lincomb. Qed.
Lemma tbl_lincomb_boxed : S9 "lincomb.boxed" dbg a <> Unsupported -> M9 "lincomb.boxed" dbg a = S9 "lincomb.boxed" dbg a.
Proof. table_open9. apply entry_lincomb. Qed.
End Keys.

(** names for the interface to C08 (used in the statements of Props/C09.v) *)

(** what the ladders need of mul_montgomery_form / square_montgomery_form: canonical result, x*y*R^-1 mod m *)
Definition monty_mul_contract (n : nat) (m rinv : Z) (mmul : list Z -> list Z -> list Z) : Prop :=
  forall x y, Mf n m x -> Mf n m y ->
    Mf n m (mmul x y) /\ eval (mmul x y) mod m = (eval x * eval y * rinv) mod m.
Definition monty_sq_contract (n : nat) (m rinv : Z) (msq : list Z -> list Z) : Prop :=
  forall x, Mf n m x -> Mf n m (msq x) /\ eval (msq x) mod m = (eval x * eval x * rinv) mod m.
(** what the boxed ladder needs of almost_montgomery_mul: n limbs, the right residue, and a * R < x * y + m * R *)
Definition amm_contract (n : nat) (m rinv : Z) (amm : list Z -> list Z -> list Z) : Prop :=
  forall x y, Bf n x -> Bf n y ->
    Bf n (amm x y) /\ V m rinv (amm x y) = (V m rinv x * V m rinv y) mod m /\
    eval (amm x y) * Bn n < eval x * eval y + m * Bn n.
