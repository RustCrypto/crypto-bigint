(** C11, area cmp (Model/Cmp.v, owner C06): on well-typed arguments every entry of the model table returns what the spec
    entry returns (Proofs/CmpTablesP.v): the debug assertions inside Ord::cmp (Limb, BoxedUint) never fire; the unwrapping
    forms panic exactly on `none`.  The five Ord keys of Limb are proved directly: the table theorem assumes one-limb
    arguments, this statement does not. *)
From CB Require Import Model.Limbs Model.AddSub Model.Cmp Proofs.WordP Proofs.LimbsP Proofs.CmpWordP Proofs.CmpP Proofs.CmpBoxedP
  Proofs.CmpAllP Proofs.TotalityP Proofs.CmpTablesP.
From Coq Require Import ZArith Lia List String Bool.
Open Scope Z_scope.
Notation length := List.length.

Lemma cmp_cover : covers cmp_keys ops_cmp_model = true.
Proof. vm_compute. reflexivity. Qed.
Lemma cmp_quiet : quiet_keys_ok ops_cmp_model ops_cmp_spec cmp_quiet_keys.
Proof. unfold cmp_quiet_keys. quiet_tac ops_cmp_model ops_cmp_spec. Qed.

Local Ltac start := start_key ops_cmp_model ops_cmp_spec cmp_ty.

(* ---- Ord on Limb / BoxedUint: the debug assertion inside cmp never fires (anchor const_choice.rs / cmp.rs) ---- *)
Lemma limb_cmp_some dbg a : wf_args a -> limb_cmp dbg (sarg 0 a) (sarg 1 a) = Some (ordz (sarg 0 a) (sarg 1 a)).
Proof. intros Hwf. apply limb_cmp_spec; apply sarg_word; assumption. Qed.
Lemma boxed_cmp_some dbg a : wf_args a ->
  boxed_cmp dbg (arg 0 a) (arg 1 a) = Some (ordz (eval (arg 0 a)) (eval (arg 1 a))).
Proof. intros Hwf. apply boxed_order_spec; apply wf_arg; assumption. Qed.

(* the comparison returns [Some]: neither table panics *)
Local Ltac ord_key lem := start; rewrite (lem _ _ ltac:(eassumption)); apply never_iff; discriminate.

(* the typing side conditions of [cmp_ty] give the boolean ones of [cmp_tbl_ty] *)
Lemma limb1_b a : limb1 a -> limb_1 a = true.
Proof. intros H. apply Nat.eqb_eq. exact H. Qed.
Lemma nonempty0_b a : nonempty0 a -> nonempty a = true.
Proof. unfold nonempty0, nonempty, ln. destruct (arg 0 a); [intros H; contradiction H; reflexivity | reflexivity]. Qed.
Lemma same_len_b a : same_len a -> same_n a = true.
Proof. intros H. apply Nat.eqb_eq. exact H. Qed.

Lemma key_limb_cmp : key_ok ops_cmp_model ops_cmp_spec cmp_ty "limb.cmp". Proof. ord_key limb_cmp_some. Qed.
Lemma key_limb_lt : key_ok ops_cmp_model ops_cmp_spec cmp_ty "limb.lt". Proof. ord_key limb_cmp_some. Qed.
Lemma key_limb_le : key_ok ops_cmp_model ops_cmp_spec cmp_ty "limb.le". Proof. ord_key limb_cmp_some. Qed.
Lemma key_limb_gt : key_ok ops_cmp_model ops_cmp_spec cmp_ty "limb.gt". Proof. ord_key limb_cmp_some. Qed.
Lemma key_limb_ge : key_ok ops_cmp_model ops_cmp_spec cmp_ty "limb.ge". Proof. ord_key limb_cmp_some. Qed.
Lemma key_boxed_cmp : key_ok ops_cmp_model ops_cmp_spec cmp_ty "boxed.cmp".
Proof. apply key_of_eq. intros dbg a Hwf Hty _. exact (tbl_boxed_cmp dbg a Hwf eq_refl). Qed.
Lemma key_boxed_lt : key_ok ops_cmp_model ops_cmp_spec cmp_ty "boxed.lt".
Proof. apply key_of_eq. intros dbg a Hwf Hty _. exact (tbl_boxed_lt dbg a Hwf eq_refl). Qed.
Lemma key_boxed_le : key_ok ops_cmp_model ops_cmp_spec cmp_ty "boxed.le".
Proof. apply key_of_eq. intros dbg a Hwf Hty _. exact (tbl_boxed_le dbg a Hwf eq_refl). Qed.
Lemma key_boxed_gt : key_ok ops_cmp_model ops_cmp_spec cmp_ty "boxed.gt".
Proof. apply key_of_eq. intros dbg a Hwf Hty _. exact (tbl_boxed_gt dbg a Hwf eq_refl). Qed.
Lemma key_boxed_ge : key_ok ops_cmp_model ops_cmp_spec cmp_ty "boxed.ge".
Proof. apply key_of_eq. intros dbg a Hwf Hty _. exact (tbl_boxed_ge dbg a Hwf eq_refl). Qed.
Lemma key_limb_nz_new_unwrap : key_ok ops_cmp_model ops_cmp_spec cmp_ty "limb.nz_new_unwrap".
Proof. apply key_of_eq. intros dbg a Hwf Hty _. exact (tbl_limb_nz_new_unwrap dbg a Hwf (limb1_b a Hty)). Qed.
Lemma key_uint_ctopt_expect : key_ok ops_cmp_model ops_cmp_spec cmp_ty "uint.ctopt_expect".
Proof. apply key_of_eq. intros dbg a Hwf Hty _. exact (tbl_uint_ctopt_expect dbg a Hwf eq_refl). Qed.
Lemma key_int_new_from_abs_sign_expect : key_ok ops_cmp_model ops_cmp_spec cmp_ty "int.new_from_abs_sign_expect".
Proof. apply key_of_eq. intros dbg a Hwf Hty _. exact (tbl_int_new_from_abs_sign_expect dbg a Hwf (nonempty0_b a Hty)). Qed.
Lemma key_boxed_select : key_ok ops_cmp_model ops_cmp_spec cmp_ty "boxed.select".
Proof. apply key_of_eq. intros dbg a Hwf Hty _. exact (tbl_boxed_select dbg a Hwf (same_len_b a Hty)). Qed.
Lemma key_boxed_swap : key_ok ops_cmp_model ops_cmp_spec cmp_ty "boxed.swap".
Proof. apply key_of_eq. intros dbg a Hwf Hty _. exact (tbl_boxed_swap dbg a Hwf (same_len_b a Hty)). Qed.

#[export] Hint Resolve key_limb_cmp key_limb_lt key_limb_le key_limb_gt key_limb_ge key_boxed_cmp key_boxed_lt
  key_boxed_le key_boxed_gt key_boxed_ge key_limb_nz_new_unwrap key_uint_ctopt_expect
  key_int_new_from_abs_sign_expect key_boxed_select key_boxed_swap : c11keys.
