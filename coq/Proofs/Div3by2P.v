(** C02: the 3-by-2 quotient estimate (Knuth's Algorithm D step D3 / Theorem B) as coded in div3by2. *)
From CB Require Import Model.Limbs Model.Div Proofs.WordP Proofs.LimbsP Proofs.DivP.
From Coq Require Import ZArith Lia List.
Open Scope Z_scope.

(** one correction round is an exact test of [q * V <= U] *)
Lemma div3by2_round_spec d v0 u0 T q rem :
  0 < d < B -> is_word v0 -> is_word u0 -> 0 <= q < B -> 0 <= rem -> q * d + rem = T ->
  div3by2_round v0 d u0 (q, rem) =
    if q * (d * B + v0) <=? T * B + u0 then (q, rem) else (q - 1, rem + d).
Proof.
  unfold is_word. intros Hd Hv0 Hu0 Hq Hrem HT. pose proof B_gt1 as HB. pose proof BB_val as HBB.
  unfold div3by2_round, sel, wsub, wrap, wrap2.
  assert (Hqv : 0 <= q * v0) by (apply Z.mul_nonneg_nonneg; lia).
  assert (Hqv2 : q * v0 <= (B - 1) * (B - 1)).
  { transitivity ((B - 1) * v0); [apply Z.mul_le_mono_nonneg_r; lia | apply Z.mul_le_mono_nonneg_l; lia]. }
  assert (HE : q * (d * B + v0) - (T * B + u0) = q * v0 - (rem * B + u0)).
  { subst T. ring. }
  destruct (Z_lt_ge_dec rem B) as [Hlt|Hge].
  - assert (Hdiv : rem / B = 0) by (apply Z.div_small; lia).
    rewrite Hdiv. change (0 =? 0) with true. cbn [negb orb].
    assert (Hrb : 0 <= rem * B) by (apply Z.mul_nonneg_nonneg; lia).
    assert (Hrb2 : rem * B <= (B - 1) * B) by (apply Z.mul_le_mono_nonneg_r; lia).
    rewrite (Z.mod_small (rem * B) BB) by (rewrite HBB; lia).
    destruct (q * v0 <=? rem * B + u0) eqn:E1.
    + apply Z.leb_le in E1. assert (q * (d * B + v0) <=? T * B + u0 = true) as -> by (apply Z.leb_le; lia).
      reflexivity.
    + apply Z.leb_gt in E1. assert (q * (d * B + v0) <=? T * B + u0 = false) as -> by (apply Z.leb_gt; lia).
      assert (q <> 0) by (intros ->; lia).
      rewrite Z.mod_small by lia. reflexivity.
  - assert (Hdiv : 1 <= rem / B) by (apply Z.div_le_lower_bound; lia).
    assert (rem / B =? 0 = false) as -> by (apply Z.eqb_neq; lia). cbn [negb orb].
    assert (B * B <= rem * B) by (apply Z.mul_le_mono_nonneg_r; lia).
    assert (q * (d * B + v0) <=? T * B + u0 = true) as -> by (apply Z.leb_le; lia).
    reflexivity.
Qed.

Definition U3 (u2 u1 u0 : Z) : Z := u2 * B * B + u1 * B + u0.

(** The estimate is the exact quotient of the top three dividend limbs by the top two divisor limbs,
    capped at B - 1 (the cap can only bind when u2 = d).
    Proof: div2by1 (or the cap MAXW when u2 = d) gives q0 with q0 d + rem0 = T, the top two limbs; each round is
    the exact test q V <= U (div3by2_round_spec) and lowers q by one when it fails; q0 is never too small, and by
    Knuth's Theorem B (d normalised) q0 - 2 is never too large, so two rounds reach the quotient. *)
Theorem div3by2_correct u2 u1 u0 rc v0 :
  normalized (r_d rc) -> recip_ok (r_d rc) (r_v rc) ->
  is_word u1 -> is_word u0 -> is_word v0 -> 0 <= u2 <= r_d rc ->
  div3by2 u2 u1 u0 rc v0 = Z.min (U3 u2 u1 u0 / (r_d rc * B + v0)) (B - 1).
Proof.
  intros Hn Hrec Hu1 Hu0 Hv0 Hu2. pose proof B_gt1 as HB.
  set (d := r_d rc) in *. set (V := d * B + v0).
  assert (Hd : 0 < d < B) by (destruct Hn; lia).
  assert (Hd2 : B <= 2 * d) by (destruct Hn; lia).
  set (T := u2 * B + u1).
  assert (HU : U3 u2 u1 u0 = T * B + u0) by (unfold U3, T; ring).
  rewrite HU.
  (* the initial estimate *)
  assert (Hinit : exists q0 rem0,
    (let '(quo, rem) := div2by1 (sel (u2 =? d) u2 0) u1 rc in
     (sel (u2 =? d) quo MAXW, if u2 =? d then u2 + u1 else rem)) = (q0, rem0)
    /\ 0 <= q0 < B /\ 0 <= rem0 /\ q0 * d + rem0 = T
    /\ ((u2 < d /\ rem0 < d) \/ (u2 = d /\ q0 = B - 1))).
  { unfold sel. destruct (u2 =? d) eqn:Em.
    - apply Z.eqb_eq in Em.
      destruct (div2by1 0 u1 rc) as [quo rem]. exists MAXW, (u2 + u1).
      rewrite MAXW_val. unfold is_word in Hu1. unfold T. split; [reflexivity|].
      repeat split; lia.
    - apply Z.eqb_neq in Em.
      pose proof (div2by1_correct u2 u1 rc Hu1 ltac:(fold d; lia) Hn Hrec) as H.
      destruct (div2by1 u2 u1 rc) as [quo rem]. fold d in H. destruct H as (He & Hr & Hq).
      exists quo, rem. split; [reflexivity|]. unfold T. repeat split; try lia. }
  destruct Hinit as (q0 & rem0 & Einit & Hq0 & Hrem0 & HT & Hcase).
  unfold div3by2. fold d.
  destruct (div2by1 (sel (u2 =? d) u2 0) u1 rc) as [quo rem]. rewrite Einit. clear Einit.
  unfold is_word in *.
  assert (HV : 0 < V) by (unfold V; nia).
  assert (HUpos : 0 <= T * B + u0) by (unfold T; nia).
  rewrite (div3by2_round_spec d v0 u0 T q0 rem0) by (unfold is_word; auto; lia).
  fold V.
  (* characterisation of the result r *)
  assert (Hgoal : forall r, r * V <= T * B + u0 -> 0 <= r <= B - 1 ->
            (T * B + u0 < (r + 1) * V \/ r = B - 1) -> r = Z.min ((T * B + u0) / V) (B - 1)).
  { intros r H1 H2 H3.
    assert (Hle : r <= (T * B + u0) / V) by (apply Z.div_le_lower_bound; lia).
    destruct H3 as [H3| ->]; [|lia].
    assert ((T * B + u0) / V < r + 1) by (apply Z.div_lt_upper_bound; lia). lia. }
  (* the first estimate is not too small *)
  assert (Hup : T * B + u0 < (q0 + 1) * V \/ q0 = B - 1).
  { destruct Hcase as [[Hlt Hr]|[_ Hm]]; [left|right; assumption].
    assert ((T + 1) * B <= (q0 + 1) * d * B) by (apply Z.mul_le_mono_nonneg_r; lia).
    assert (0 <= (q0 + 1) * v0) by (apply Z.mul_nonneg_nonneg; lia).
    unfold V. lia. }
  destruct (q0 * V <=? T * B + u0) eqn:E1.
  - apply Z.leb_le in E1. cbn [fst].
    rewrite (div3by2_round_spec d v0 u0 T q0 rem0) by (unfold is_word; auto; lia). fold V.
    apply Z.leb_le in E1. rewrite E1. cbn [fst]. apply Z.leb_le in E1.
    apply Hgoal; lia.
  - apply Z.leb_gt in E1.
    assert (Hq1 : 1 <= q0) by (destruct (Z_lt_ge_dec q0 1); [assert (q0 = 0) by lia; subst q0; lia | lia]).
    rewrite (div3by2_round_spec d v0 u0 T (q0 - 1) (rem0 + d)) by (unfold is_word; auto; lia). fold V.
    destruct ((q0 - 1) * V <=? T * B + u0) eqn:E2; cbn [fst].
    + apply Z.leb_le in E2. apply Hgoal; try lia.
    + apply Z.leb_gt in E2.
      assert (Hq2 : q0 <> 1) by (intros ->; replace ((1 - 1) * V) with 0 in E2 by ring; lia).
      apply Hgoal; try lia.
      * (* Theorem B: two corrections are enough *)
        assert (Hqd : q0 * d <= T) by lia.
        assert (Hv : (q0 - 1 - 1) * v0 <= (B - 1) * (B - 1)).
        { destruct (Z_lt_ge_dec (q0 - 1 - 1) 0).
          - assert ((q0 - 1 - 1) * v0 <= 0) by (apply Z.mul_nonpos_nonneg; lia).
            assert (0 <= (B - 1) * (B - 1)) by (apply Z.mul_nonneg_nonneg; lia). lia.
          - transitivity ((B - 1) * v0); [apply Z.mul_le_mono_nonneg_r; lia | apply Z.mul_le_mono_nonneg_l; lia]. }
        assert (Hdd : B * B <= 2 * d * B) by (apply Z.mul_le_mono_nonneg_r; lia).
        assert (Hm : (q0 - 1 - 1) * V = (q0 * d) * B - 2 * d * B + (q0 - 1 - 1) * v0) by (unfold V; ring).
        assert (q0 * d * B <= T * B) by (apply Z.mul_le_mono_nonneg_r; lia).
        lia.
Qed.

(** when the leading dividend limb is below the leading divisor limb the cap does not bind *)
Corollary div3by2_exact u2 u1 u0 rc v0 :
  normalized (r_d rc) -> recip_ok (r_d rc) (r_v rc) ->
  is_word u1 -> is_word u0 -> is_word v0 -> 0 <= u2 <= r_d rc ->
  U3 u2 u1 u0 < (r_d rc * B + v0) * B ->
  div3by2 u2 u1 u0 rc v0 = U3 u2 u1 u0 / (r_d rc * B + v0).
Proof.
  intros Hn Hrec Hu1 Hu0 Hv0 Hu2 Hlt. rewrite div3by2_correct by assumption.
  apply Z.min_l. pose proof B_gt1. destruct Hn. unfold is_word in *.
  assert (0 < r_d rc * B + v0) by nia.
  assert (U3 u2 u1 u0 / (r_d rc * B + v0) < B) by (apply Z.div_lt_upper_bound; lia). lia.
Qed.

(** the estimate is a word for ANY inputs: every path ends in a wrapping subtraction, MAXW, or a div2by1 quotient *)
Lemma div3by2_round_word v0 d u0 st : is_word (fst st) -> is_word (fst (div3by2_round v0 d u0 st)).
Proof.
  destruct st as [quo rem]. cbn [fst]. intros H. unfold div3by2_round, sel. cbn [fst].
  destruct (_ || _); [assumption | apply is_word_mod].
Qed.

Lemma div3by2_is_word u2 u1 u0 rc v0 : is_word (div3by2 u2 u1 u0 rc v0).
Proof.
  unfold div3by2. pose proof (div2by1_words (sel (u2 =? r_d rc) u2 0) u1 rc) as [Hq _].
  destruct (div2by1 (sel (u2 =? r_d rc) u2 0) u1 rc) as [quo rem]. cbn [fst] in Hq.
  do 2 apply div3by2_round_word. cbn [fst]. unfold sel.
  destruct (u2 =? r_d rc); [|assumption]. unfold is_word. rewrite MAXW_val. pose proof B_gt1. lia.
Qed.

Lemma div3by2_word u2 u1 u0 rc v0 :
  normalized (r_d rc) -> recip_ok (r_d rc) (r_v rc) ->
  is_word u1 -> is_word u0 -> is_word v0 -> 0 <= u2 <= r_d rc ->
  is_word (div3by2 u2 u1 u0 rc v0).
Proof. intros. apply div3by2_is_word. Qed.
