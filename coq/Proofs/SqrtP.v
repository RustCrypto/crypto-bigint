(** C20, part 3: the square root models compute floor(sqrt) — constant-time (fixed LOG2_BITS + 2 rounds),
    vartime (until non-decreasing), Uint and BoxedUint, and the checked forms. *)
From CB Require Import Model.Limbs Model.AddSub Model.Sqrt Proofs.WordP Proofs.WordPredP Proofs.LimbsP Proofs.AddSubP
  Proofs.SqrtMathP Proofs.SqrtLimbsP.
From CB Require Model.Bits Proofs.ShiftP Proofs.LadderP.
From Coq Require Import ZArith Lia List Bool.
Open Scope Z_scope.

Lemma one_limbs_spec n : n <> 0%nat -> wf (one_limbs n) /\ length (one_limbs n) = n /\ eval (one_limbs n) = 1.
Proof.
  destruct n as [|k]; [congruence|]. intros _. cbn [one_limbs eval length].
  rewrite eval_zeros, length_zeros. split; [|split; [reflexivity|lia]].
  apply wf_cons. split; [|apply wf_zeros]. unfold is_word. pose proof B_gt1. lia.
Qed.

Definition good (len : nat) (x : list Z) : Prop := wf x /\ length x = len.

Lemma good_zeros len : good len (zeros len).
Proof. split; [apply wf_zeros|apply length_zeros]. Qed.

Lemma div_val_spec a d : wf a -> 0 <= eval d ->
  good (length a) (div_val a d) /\ eval (div_val a d) = eval a / eval d.
Proof.
  intros Ha Hd. unfold div_val. split; [split; [apply wf_to_limbs|apply length_to_limbs]|].
  rewrite eval_to_limbs. apply Z.mod_small. pose proof (eval_bounds a Ha).
  destruct (Z.eq_dec (eval d) 0) as [->|]. { rewrite Zdiv_0_r. lia. }
  split; [apply Z.div_pos; lia|].
  assert (eval a / eval d <= eval a); [|lia]. apply Z.div_le_upper_bound; [lia|].
  assert (1 * eval a <= eval d * eval a) by (apply Z.mul_le_mono_nonneg_r; lia). lia.
Qed.

Lemma half_pow len : len <> 0%nat ->
  let H := 2 ^ (32 * Z.of_nat len) in Bn len = H * H /\ 2 ^ 32 <= H.
Proof.
  intros Hn H. split.
  - subst H. rewrite Bn_pow2, <- Z.pow_add_r by lia. f_equal. lia.
  - subst H. apply Z.pow_le_mono_r; lia.
Qed.

(* overflowing_shl: the cascade of Model/Sqrt.v is the shift ladder of Model/Bits.v, whose theory is Proofs/LadderP.v *)
Lemma shl_bits_loop_carry ls rem : forall c, shl_bits_loop ls rem c = Bits.shl_carry ls rem c.
Proof. induction ls as [|x r IH]; intros c; [reflexivity|]. cbn [shl_bits_loop Bits.shl_carry]. rewrite IH. reflexivity. Qed.

Lemma shl_vartime_expect a d : shl_vartime_limbs a d = Bits.ct_expect (Bits.uint_overflowing_shl_vartime a d).
Proof.
  unfold shl_vartime_limbs, Bits.uint_overflowing_shl_vartime. destruct (64 * Z.of_nat (length a) <=? d); [reflexivity|].
  rewrite shl_bits_loop_carry. destruct (d mod 64 =? 0); unfold Bits.ct_some; rewrite LadderP.ct_expect_some; reflexivity.
Qed.

Lemma shl_ct_loop_ladder k : forall i shift res,
  shl_ct_loop k i shift res = Bits.ladder Bits.uint_overflowing_shl_vartime k i shift res.
Proof.
  induction k as [|k IH]; intros i shift res; [reflexivity|]. cbn [shl_ct_loop Bits.ladder].
  rewrite shl_vartime_expect. destruct (Bits.ct_expect _); [|reflexivity].
  rewrite IH. unfold from_word_lsb, Bits.from_u32_lsb.
  replace (Z.land (shift / 2 ^ i) 1) with ((shift / 2 ^ i) mod 2) by (symmetry; exact (Z.land_ones _ 1 ltac:(lia))). reflexivity.
Qed.

Lemma overflowing_shl_limbs_spec a shift : wf a -> length a <> 0%nat -> 0 <= shift < 64 * Z.of_nat (length a) ->
  exists r, overflowing_shl_limbs a shift = Some (r, 0) /\ wf r /\ length r = length a /\
            eval r = (eval a * 2 ^ shift) mod Bn (length a).
Proof.
  intros Hw Hn Hs. unfold overflowing_shl_limbs, lenZ. rewrite shl_ct_loop_ladder.
  set (bits := 64 * Z.of_nat (length a)) in *.
  replace (Z.log2 (bits - 1) + 1) with (Bits.shift_bits bits)
    by (unfold Bits.shift_bits, Bits.u32_lz, Bits.bitlen; destruct (Z.leb_spec (bits - 1) 0); lia).
  destruct (LadderP.ladder_masked _ _ LadderP.shl_kernel a shift Hw ltac:(intros ->; apply Hn; reflexivity) ltac:(lia))
    as (r & Er & Hv).
  unfold ShiftP.bitsZ' in Er, Hv. fold bits in Er, Hv. rewrite Er.
  destruct (Z.ltb_spec shift bits); [|lia]. destruct (Z.leb_spec bits shift); [lia|].
  eexists. split; [reflexivity | exact Hv].
Qed.

Lemma est_shift_bound len N : 0 <= N < Bn len ->
  0 <= (bitlen N + 1) / 2 <= 32 * Z.of_nat len.
Proof.
  intros HN. rewrite Bn_pow2 in HN.
  pose proof (bitlen_le N (64 * Z.of_nat len) ltac:(lia) HN). pose proof (bitlen_nonneg N).
  split; [apply Z.div_pos; lia|].
  assert ((bitlen N + 1) / 2 < 32 * Z.of_nat len + 1); [|lia]. apply Z.div_lt_upper_bound; lia.
Qed.

Lemma sqrt_init_spec a : wf a -> length a <> 0%nat ->
  exists x0, sqrt_init a = Some x0 /\ boxed_sqrt_init a = Some x0 /\ good (length a) x0 /\ eval x0 = est (eval a).
Proof.
  intros Hw Hn. unfold sqrt_init, boxed_sqrt_init, est. rewrite bits_limbs_spec by assumption.
  destruct (one_limbs_spec (length a) Hn) as (Hw1 & Hl1 & He1).
  pose proof (est_shift_bound (length a) (eval a) (eval_bounds a Hw)) as Hc.
  set (c := (bitlen (eval a) + 1) / 2) in *.
  destruct (overflowing_shl_limbs_spec (one_limbs (length a)) c Hw1 ltac:(lia) ltac:(rewrite Hl1; lia))
    as (r & Er & Hwr & Hlr & Her).
  rewrite Er. cbn [Z.eqb]. exists r. split; [reflexivity|]. split; [reflexivity|].
  rewrite Hl1 in *. split; [split; assumption|].
  assert (Hp : 2 ^ c <= 2 ^ (32 * Z.of_nat (length a))) by (apply Z.pow_le_mono_r; lia).
  assert (Hp2 : 2 ^ (32 * Z.of_nat (length a)) < Bn (length a)).
  { rewrite Bn_pow2. apply Z.pow_lt_mono_r; lia. }
  assert (0 < 2 ^ c) by (apply Z.pow_pos_nonneg; lia).
  rewrite Her, He1, Z.mul_1_l. apply Z.mod_small. lia.
Qed.

Definition stepz (N X : Z) : Z := if X =? 0 then 0 else newton N X.
Definition fits (len : nat) (N X : Z) : Prop := X = 0 \/ (0 < X /\ X + N / X < Bn len).

Lemma add_shr1_good x q len : good len x -> good len q -> good len (shr1_limbs (uint_wrapping_add x q)).
Proof.
  intros [Hwx Hlx] [Hwq Hlq]. destruct (wrapping_add_spec x q Hwx Hwq ltac:(lia)) as (_ & Hw & Hl).
  destruct (shr1_limbs_spec _ Hw) as (_ & Hw2 & Hl2). split; [assumption|lia].
Qed.

Lemma add_shr1_spec x q len : good len x -> good len q -> eval x + eval q < Bn len ->
  good len (shr1_limbs (uint_wrapping_add x q)) /\ eval (shr1_limbs (uint_wrapping_add x q)) = (eval x + eval q) / 2.
Proof.
  intros Gx Gq Hfit. split; [apply add_shr1_good; assumption|]. destruct Gx as [Hwx Hlx]. destruct Gq as [Hwq Hlq].
  destruct (wrapping_add_spec x q Hwx Hwq ltac:(lia)) as (He & Hw & Hl).
  destruct (shr1_limbs_spec _ Hw) as (He2 & _). rewrite He2, He, Hlx.
  rewrite Z.mod_small; [reflexivity|]. pose proof (eval_nonneg x Hwx). pose proof (eval_nonneg q Hwq). lia.
Qed.

(* a round keeps the shape of the estimate whatever its value; with [fits] (no overflow in x + n / x) it is [stepz] *)
Lemma ct_step_good nl x : wf nl -> length nl <> 0%nat -> good (length nl) x -> good (length nl) (sqrt_ct_step nl x).
Proof.
  intros Hn Hlen Gx. pose proof Gx as [Hwx Hlx]. unfold sqrt_ct_step.
  destruct (one_limbs_spec (length nl) Hlen) as (Hw1 & Hl1 & He1).
  rewrite is_nonzero_limbs_spec by assumption.
  rewrite (select_limbs_choice _ (one_limbs (length nl)) x) by (auto; lia).
  set (d := if negb (eval x =? 0) then x else one_limbs (length nl)).
  assert (Hd : 0 <= eval d) by (subst d; destruct (negb (eval x =? 0)); [apply eval_nonneg; assumption | lia]).
  destruct (div_val_spec nl d Hn Hd) as [Gq _]. destruct (add_shr1_good x _ _ Gx Gq) as [Hws Hls].
  rewrite select_limbs_choice by (auto using wf_zeros; rewrite length_zeros; lia).
  destruct (negb (eval x =? 0)); [split; assumption | apply good_zeros].
Qed.

Lemma ct_step_spec nl x : wf nl -> length nl <> 0%nat -> good (length nl) x -> fits (length nl) (eval nl) (eval x) ->
  good (length nl) (sqrt_ct_step nl x) /\ eval (sqrt_ct_step nl x) = stepz (eval nl) (eval x).
Proof.
  intros Hn Hlen Gx Hfit. split; [apply ct_step_good; assumption|]. pose proof Gx as [Hwx Hlx]. unfold sqrt_ct_step, stepz.
  destruct (one_limbs_spec (length nl) Hlen) as (Hw1 & Hl1 & He1).
  rewrite is_nonzero_limbs_spec by assumption.
  rewrite (select_limbs_choice _ (one_limbs (length nl)) x) by (auto; lia).
  destruct (Z.eqb_spec (eval x) 0) as [E0|E0]; cbn [negb].
  - destruct (div_val_spec nl (one_limbs (length nl)) Hn ltac:(lia)) as [Gq _].
    destruct (add_shr1_good x _ _ Gx Gq) as [Hws Hls].
    rewrite select_limbs_choice by (auto using wf_zeros; rewrite length_zeros; lia). apply eval_zeros.
  - destruct Hfit as [?|[Hpos Hfit]]; [contradiction|].
    destruct (div_val_spec nl x Hn ltac:(lia)) as [Gq Heq].
    destruct (add_shr1_spec x (div_val nl x) (length nl) Gx Gq ltac:(rewrite Heq; assumption)) as [[Hws Hls] Hes].
    rewrite select_limbs_choice by (auto using wf_zeros; rewrite length_zeros; lia). rewrite Hes, Heq. reflexivity.
Qed.

Lemma boxed_step_spec nl x nzx : wf nl -> length nl <> 0%nat -> good (length nl) x -> good (length nl) nzx ->
  fits (length nl) (eval nl) (eval x) ->
  fst (boxed_sqrt_step nl x nzx) = sqrt_ct_step nl x /\ good (length nl) (snd (boxed_sqrt_step nl x nzx)).
Proof.
  intros Hn Hlen [Hwx Hlx] [Hwz Hlz] Hfit.
  destruct (ct_step_spec nl x Hn Hlen ltac:(split; assumption) Hfit) as [[Hwc Hlc] Hec].
  unfold boxed_sqrt_step. cbn [fst snd].
  rewrite boxed_is_nonzero_limbs_spec by assumption.
  rewrite (select_limbs_choice _ nzx x) by (auto; lia).
  rewrite select_word_choice by (apply is_word_0 || apply is_word_MAXW).
  unfold stepz in Hec.
  destruct (Z.eqb_spec (eval x) 0) as [E0|E0]; cbn [negb].
  - split; [|split; assumption].
    destruct (div_val_spec nl nzx Hn (eval_nonneg _ Hwz)) as [[Hwq Hlq] _].
    rewrite map_wand_0, length_resize.
    destruct (wrapping_add_spec x (zeros (length x)) Hwx (wf_zeros _) ltac:(rewrite length_zeros; reflexivity)) as (He & Hw & Hl).
    destruct (shr1_limbs_spec _ Hw) as (He2 & Hw2 & Hl2).
    apply eval_inj; try assumption; [unfold uint_wrapping_add in *; lia|].
    unfold uint_wrapping_add in *. rewrite He2, He, eval_zeros, E0, Hec. reflexivity.
  - destruct Hfit as [?|[Hpos Hfit]]; [contradiction|].
    split; [|split; assumption].
    destruct (div_val_spec nl x Hn ltac:(lia)) as [[Hwq Hlq] Heq].
    replace (length x) with (length (div_val nl x)) by lia. rewrite resize_same, map_wand_MAXW by assumption.
    destruct (add_shr1_spec x (div_val nl x) (length nl) ltac:(split; assumption) ltac:(split; assumption)
                ltac:(rewrite Heq; assumption)) as [[Hws Hls] Hes].
    apply eval_inj; try assumption; [unfold uint_wrapping_add in *; lia|].
    unfold uint_wrapping_add in *. rewrite Hes, Heq, Hec. reflexivity.
Qed.

(* the loops under an invariant P of the estimate: limb level against the integer iteration [iterz] / [vtz] *)
Fixpoint iterz (k : nat) (N X : Z) : Z :=
  match k with O => X | S k' => iterz k' N (stepz N X) end.

Section Loop.
  Variable nl : list Z.
  Variable P : Z -> Prop.
  Hypothesis Hn : wf nl.
  Hypothesis Hlen : length nl <> 0%nat.
  Hypothesis HP : forall X, P X -> fits (length nl) (eval nl) X /\ P (stepz (eval nl) X).

  Lemma ct_loop_spec k : forall x xp p q, good (length nl) x -> P (eval x) ->
    sqrt_ct_loop k nl x xp = (p, q) ->
    good (length nl) q /\ eval q = iterz k (eval nl) (eval x) /\
    match k with
    | O => p = xp
    | S k' => good (length nl) p /\ eval p = iterz k' (eval nl) (eval x)
    end.
  Proof.
    induction k as [|k IH]; intros x xp p q Hg Hp E.
    - cbn [sqrt_ct_loop] in E. inv_pair E. auto.
    - cbn [sqrt_ct_loop] in E. destruct (HP _ Hp) as [Hfit Hp'].
      destruct (ct_step_spec nl x Hn Hlen Hg Hfit) as [Hg' He'].
      rewrite <- He' in Hp'.
      destruct (IH _ _ _ _ Hg' Hp' E) as (Hgq & Heq & Hprev).
      split; [assumption|]. split; [rewrite Heq, He'; reflexivity|].
      destruct k as [|k'].
      + subst p. split; [assumption|reflexivity].
      + destruct Hprev as [Hgp Hep]. split; [assumption|]. rewrite Hep, He'. reflexivity.
  Qed.

  Lemma boxed_loop_eq k : forall x xp nzx, good (length nl) x -> good (length nl) nzx -> P (eval x) ->
    boxed_sqrt_loop k nl x xp nzx = sqrt_ct_loop k nl x xp.
  Proof.
    induction k as [|k IH]; intros x xp nzx Hg Hgz Hp; [reflexivity|].
    cbn [boxed_sqrt_loop sqrt_ct_loop]. destruct (HP _ Hp) as [Hfit Hp'].
    destruct (boxed_step_spec nl x nzx Hn Hlen Hg Hgz Hfit) as [E1 Hgz'].
    destruct (ct_step_spec nl x Hn Hlen Hg Hfit) as [Hg' He'].
    destruct (boxed_sqrt_step nl x nzx) as [x' nzx'] eqn:Eb. cbn [fst snd] in *. subst x'.
    apply IH; try assumption. rewrite He'. assumption.
  Qed.

  Lemma vt_loop_spec fuel : forall x, good (length nl) x -> P (eval x) ->
    match vtz fuel (eval nl) (eval x) with
    | Some v => exists r, sqrt_vt_loop fuel nl x = SOk r /\ good (length nl) r /\ eval r = v
    | None => sqrt_vt_loop fuel nl x = SFuel
    end.
  Proof.
    induction fuel as [|f IH]; intros x Hg Hp; [reflexivity|].
    destruct Hg as [Hwx Hlx]. cbn [vtz sqrt_vt_loop].
    rewrite cmp_vartime_limbs_spec by (auto using wf_zeros; rewrite length_zeros; reflexivity).
    rewrite cmp_code_eq, eval_zeros.
    destruct (Z.eqb_spec (eval x) 0) as [E0|E0].
    - exists x. repeat split; auto.
    - destruct (HP _ Hp) as [[?|[Hpos Hfit]] Hp']; [contradiction|].
      destruct (div_val_spec nl x Hn ltac:(lia)) as [Hgq Heq].
      destruct (add_shr1_spec x (div_val nl x) (length nl) ltac:(split; assumption) Hgq ltac:(rewrite Heq; assumption)) as [[Hws Hls] Hes].
      rewrite cmp_vartime_limbs_spec by (auto; lia). rewrite cmp_code_gt, Hes, Heq.
      fold (newton (eval nl) (eval x)).
      destruct (Z.ltb_spec (newton (eval nl) (eval x)) (eval x)).
      + assert (Hs : stepz (eval nl) (eval x) = newton (eval nl) (eval x)).
        { unfold stepz. destruct (Z.eqb_spec (eval x) 0); [contradiction|reflexivity]. }
        rewrite Hs in Hp'.
        specialize (IH (shr1_limbs (uint_wrapping_add x (div_val nl x))) ltac:(split; assumption)).
        rewrite Hes, Heq in IH. apply IH. assumption.
      + exists x. repeat split; auto.
  Qed.
End Loop.

(* the invariant of all loops: the estimate stays between the root and 2^(BITS/2); for N = 0 it is 1, then 0 *)
Definition inv (len : nat) (N X : Z) : Prop := Z.sqrt N <= X <= 2 ^ (32 * Z.of_nat len) /\ (N = 0 -> X <= 1).

Lemma sqrt_lt_half len N : len <> 0%nat -> 0 <= N < Bn len -> Z.sqrt N < 2 ^ (32 * Z.of_nat len).
Proof.
  intros Hl HN. destruct (half_pow len Hl) as [HB Hh]. set (H := 2 ^ (32 * Z.of_nat len)) in *.
  pose proof (sqrt_bounds N ltac:(lia)) as [Hs _]. pose proof (Z.sqrt_nonneg N).
  destruct (Z_lt_le_dec (Z.sqrt N) H); [assumption|exfalso].
  assert (H * H <= Z.sqrt N * Z.sqrt N) by (apply Z.mul_le_mono_nonneg; lia). lia.
Qed.

Lemma inv_step len N : len <> 0%nat -> 0 <= N < Bn len ->
  forall X, inv len N X -> fits len N X /\ inv len N (stepz N X).
Proof.
  intros Hl HN X [[Hlo Hhi] H0]. destruct (half_pow len Hl) as [HB Hh]. set (H := 2 ^ (32 * Z.of_nat len)) in *.
  assert (3 * H <= H * H) by (apply Z.mul_le_mono_nonneg_r; lia).
  pose proof (Z.sqrt_nonneg N) as Hs0. unfold stepz, inv. fold H.
  destruct (Z.eqb_spec X 0) as [->|HX]; [split; [left; reflexivity | lia]|].
  destruct (Z.eq_dec N 0) as [->|HN0].
  - assert (X = 1) as -> by (change (Z.sqrt 0) with 0 in Hlo; lia).
    split; [right; change (0 / 1) with 0; lia | change (newton 0 1) with 0; change (Z.sqrt 0) with 0; lia].
  - pose proof (sqrt_lt_half len N Hl HN) as HsH. fold H in HsH.
    pose proof (sqrt_bounds N ltac:(lia)) as [Hsl Hsu]. assert (0 < Z.sqrt N) by (apply Z.sqrt_pos; lia).
    split.
    + right. split; [lia|].
      assert (N / X < Z.sqrt N + 3).
      { apply Z.div_lt_upper_bound; [lia|].
        assert (Z.sqrt N * (Z.sqrt N + 3) <= X * (Z.sqrt N + 3)) by (apply Z.mul_le_mono_nonneg_r; lia). lia. }
      lia.
    + split; [|lia]. split; [apply newton_ge; lia|].
      destruct (Z.eq_dec X (Z.sqrt N)) as [->|Hne].
      * pose proof (newton_root N ltac:(lia)). lia.
      * pose proof (newton_lt N X ltac:(lia) ltac:(lia)). lia.
Qed.

Lemma inv_est len N : 0 <= N < Bn len -> inv len N (est N).
Proof.
  intros HN. pose proof (est_shift_bound len N HN) as Hc.
  assert (est N <= 2 ^ (32 * Z.of_nat len)) by (apply Z.pow_le_mono_r; lia).
  destruct (Z.eq_dec N 0) as [->|HN0]; [repeat split; try assumption; discriminate|].
  pose proof (init_bounds N ltac:(lia)). repeat split; lia.
Qed.

Lemma iterz_iter k : forall N X, 0 < N -> Z.sqrt N <= X -> iterz k N X = SqrtMathP.iter k N X.
Proof.
  induction k as [|k IH]; intros N X HN HX; [reflexivity|].
  assert (Hs0 : 0 < Z.sqrt N) by (apply Z.sqrt_pos; lia).
  cbn [iterz SqrtMathP.iter]. unfold stepz. destruct (Z.eqb_spec X 0); [lia|]. apply IH; [assumption|]. apply newton_ge; lia.
Qed.

Lemma iterz_S k : forall N X, iterz (S k) N X = stepz N (iterz k N X).
Proof. induction k as [|k IH]; intros N X; [reflexivity|]. cbn [iterz] in *. apply IH. Qed.

Lemma iterz_zero k : iterz k 0 0 = 0.
Proof. induction k; [reflexivity|]. cbn [iterz]. exact IHk. Qed.

Lemma log2_bits_rounds len : len <> 0%nat ->
  0 <= log2_bits len /\ 32 * Z.of_nat len <= 2 ^ Z.of_nat (Z.to_nat (log2_bits len)) - 1.
Proof.
  intros Hl. unfold log2_bits. pose proof (Z.log2_nonneg (64 * Z.of_nat len)). split; [assumption|].
  rewrite Z2Nat.id by assumption.
  pose proof (log2_rounds (64 * Z.of_nat len) ltac:(lia)) as Hr.
  replace (64 * Z.of_nat len) with (2 * (32 * Z.of_nat len)) in Hr at 1 2 by ring.
  rewrite Z.even_mul in Hr. specialize (Hr eq_refl).
  rewrite (Z.mul_comm 2), Z.div_mul in Hr by lia. exact Hr.
Qed.

Lemma select_min len xp x : len <> 0%nat -> good len xp -> good len x ->
  good len (select_limbs (gt_limbs xp x) xp x) /\ eval (select_limbs (gt_limbs xp x) xp x) = Z.min (eval xp) (eval x).
Proof.
  intros Hl [Hwp Hlp] [Hwx Hlx]. rewrite gt_limbs_spec by (auto; lia).
  rewrite select_limbs_choice by (auto; lia).
  destruct (Z.ltb_spec (eval x) (eval xp)); (split; [split; assumption|lia]).
Qed.

(* the constant-time square root, any positive number of rounds: the fixed and the boxed model return the same
        limbs, whose value is the smaller of the last two estimates of the integer iteration *)
Lemma sqrt_rounds_spec k a : wf a -> length a <> 0%nat ->
  exists r, uint_sqrt_rounds (S k) a = SOk r /\ boxed_sqrt_rounds (S k) a = SOk r /\ good (length a) r /\
            eval r = Z.min (iterz k (eval a) (est (eval a))) (iterz (S k) (eval a) (est (eval a))).
Proof.
  intros Hw Hl. destruct (sqrt_init_spec a Hw Hl) as (x0 & E1 & E2 & Hg0 & He0).
  pose proof (inv_step (length a) (eval a) Hl (eval_bounds a Hw)) as Hstep.
  pose proof (inv_est (length a) (eval a) (eval_bounds a Hw)) as Hi0. rewrite <- He0 in *.
  unfold uint_sqrt_rounds, boxed_sqrt_rounds. rewrite E1, E2.
  rewrite (boxed_loop_eq a _ Hw Hl Hstep) by assumption.
  destruct (sqrt_ct_loop (S k) a x0 x0) as [p q] eqn:E.
  destruct (ct_loop_spec a _ Hw Hl Hstep (S k) x0 x0 p q Hg0 Hi0 E) as (Hgq & Heq & Hgp & Hep).
  destruct (select_min (length a) p q Hl Hgp Hgq) as [Hgr Her].
  eexists. split; [reflexivity|]. split; [reflexivity|]. split; [assumption|]. rewrite Her, Hep, Heq. reflexivity.
Qed.

(* with LOG2_BITS + 2 rounds that value is the root *)
Lemma ct_rounds_value len N : len <> 0%nat -> 0 <= N < Bn len ->
  let k := S (Z.to_nat (log2_bits len)) in
  Z.min (iterz k N (est N)) (iterz (S k) N (est N)) = Z.sqrt N.
Proof.
  intros Hl HN k. destruct (Z.eq_dec N 0) as [->|HN0].
  - (* est 0 = 1, then 0 for ever *)
    subst k. change (est 0) with 1. cbn [iterz]. change (stepz 0 1) with 0. change (stepz 0 0) with 0.
    rewrite iterz_zero. reflexivity.
  - destruct (log2_bits_rounds len Hl) as [_ HLr].
    pose proof (init_bounds N ltac:(lia)) as Hi.
    pose proof (sqrt_lt_half len N Hl HN) as HsH.
    pose proof (ct_rounds_enough N (est N) (32 * Z.of_nat len) _ ltac:(lia) ltac:(lia) HsH HLr ltac:(lia)) as Hr.
    rewrite !iterz_iter by lia. fold k in Hr |- *. rewrite (iter_S k). apply ct_result; lia.
Qed.

Definition computes_sqrt (f : list Z -> sres) : Prop := forall a, wf a -> length a <> 0%nat ->
  exists r, f a = SOk r /\ wf r /\ length r = length a /\ eval r = Z.sqrt (eval a).

Lemma ct_sqrt_correct a : wf a -> length a <> 0%nat ->
  exists r, uint_sqrt a = SOk r /\ boxed_sqrt a = SOk r /\ wf r /\ length r = length a /\ eval r = Z.sqrt (eval a).
Proof.
  intros Hw Hl. destruct (log2_bits_rounds (length a) Hl) as [HL0 _].
  unfold uint_sqrt, boxed_sqrt.
  replace (Z.to_nat (log2_bits (length a) + 2)) with (S (S (Z.to_nat (log2_bits (length a))))) by lia.
  destruct (sqrt_rounds_spec (S (Z.to_nat (log2_bits (length a)))) a Hw Hl) as (r & E1 & E2 & [Hwr Hlr] & Her).
  rewrite (ct_rounds_value (length a) (eval a) Hl (eval_bounds a Hw)) in Her. exists r. auto.
Qed.

Lemma uint_sqrt_correct : computes_sqrt uint_sqrt.
Proof. intros a Hw Hl. destruct (ct_sqrt_correct a Hw Hl) as (r & E & _ & H). exists r. auto. Qed.

Lemma boxed_sqrt_correct : computes_sqrt boxed_sqrt.
Proof. intros a Hw Hl. destruct (ct_sqrt_correct a Hw Hl) as (r & _ & E & H). exists r. auto. Qed.

(* the outcome on a concrete input is read off the root of its value *)
Lemma computes_sqrt_run f a s : computes_sqrt f -> wf a -> wf s -> length s = length a -> length a <> 0%nat ->
  Z.sqrt (eval a) = eval s -> f a = SOk s.
Proof.
  intros Hf Hw Hws Hls Hl Hs. destruct (Hf a Hw Hl) as (r & -> & Hwr & Hlr & Her).
  f_equal. apply eval_inj; try assumption; congruence.
Qed.

Lemma vtz_est len N : len <> 0%nat -> 0 <= N < Bn len -> vtz (64 * len) N (est N) = Some (Z.sqrt N).
Proof.
  intros Hl HN. destruct (Z.eq_dec N 0) as [->|HN0].
  - (* the loop still terminates: 1 -> 0 *)
    replace (64 * len)%nat with (S (S (64 * len - 2))) by lia. reflexivity.
  - pose proof (init_bounds N ltac:(lia)). pose proof (inv_est len N HN) as [[_ Hle] _].
    apply vtz_correct; try lia.
    rewrite Nat2Z.inj_mul. change (Z.of_nat 64) with 64.
    assert (2 ^ (32 * Z.of_nat len) <= 2 ^ (64 * Z.of_nat len - 1)) by (apply Z.pow_le_mono_r; lia).
    pose proof (Z.sqrt_nonneg N). lia.
Qed.

Lemma vt_loop_result a x0 : wf a -> length a <> 0%nat -> good (length a) x0 -> eval x0 = est (eval a) ->
  exists r, sqrt_vt_loop (sqrt_fuel a) a x0 = SOk r /\ good (length a) r /\ eval r = Z.sqrt (eval a).
Proof.
  intros Hw Hl Hg0 He0. pose proof (eval_bounds a Hw) as Hb.
  pose proof (vt_loop_spec a _ Hw Hl (inv_step (length a) (eval a) Hl Hb) (sqrt_fuel a) x0 Hg0) as Hloop.
  rewrite He0 in Hloop. specialize (Hloop (inv_est (length a) (eval a) Hb)).
  unfold sqrt_fuel in Hloop at 1. rewrite (vtz_est (length a) (eval a) Hl Hb) in Hloop. exact Hloop.
Qed.

Lemma uint_sqrt_vartime_correct : computes_sqrt uint_sqrt_vartime.
Proof.
  intros a Hw Hl. unfold uint_sqrt_vartime.
  rewrite cmp_vartime_limbs_spec by (auto using wf_zeros; rewrite length_zeros; reflexivity).
  rewrite cmp_code_eq, eval_zeros.
  destruct (Z.eqb_spec (eval a) 0) as [E0|E0].
  - exists (zeros (length a)). rewrite E0, eval_zeros, length_zeros. auto using wf_zeros.
  - destruct (sqrt_init_spec a Hw Hl) as (x0 & E1 & _ & Hg0 & He0). rewrite E1.
    destruct (vt_loop_result a x0 Hw Hl Hg0 He0) as (r & Er & [Hwr Hlr] & Her).
    exists r. auto.
Qed.

Lemma boxed_sqrt_vartime_correct : computes_sqrt boxed_sqrt_vartime.
Proof.
  intros a Hw Hl. unfold boxed_sqrt_vartime.
  destruct (sqrt_init_spec a Hw Hl) as (x0 & _ & E1 & Hg0 & He0). rewrite E1.
  destruct (vt_loop_result a x0 Hw Hl Hg0 He0) as (r & -> & [Hwr Hlr] & Her).
  rewrite boxed_is_nonzero_limbs_spec, choice_to_bool_choice by assumption.
  destruct (Z.eqb_spec (eval a) 0) as [E0|E0]; cbn [negb].
  - exists (zeros (length a)). rewrite E0, eval_zeros, length_zeros. auto using wf_zeros.
  - exists r. auto.
Qed.

Lemma is_square_iff N : spec_is_square N = true <-> exists t, N = t * t.
Proof.
  unfold spec_is_square. rewrite Z.eqb_eq. split.
  - intros E. exists (Z.sqrt N). lia.
  - intros [t ->]. rewrite <- (Z.abs_square t), Z.sqrt_square by apply Z.abs_nonneg. reflexivity.
Qed.

Lemma checked_of_spec a eqf r :
  wf a -> (forall b, wf b -> length a = length b -> eqf a b = choice_of_bool (eval a =? eval b)) ->
  wf r -> length r = length a -> eval r = Z.sqrt (eval a) ->
  checked_of a eqf (SOk r) = (SOk r, spec_is_square (eval a)).
Proof.
  intros Hw Heqf Hwr Hlr Her. unfold checked_of, wrapping_mul_val. f_equal.
  rewrite Heqf by (try apply wf_to_limbs; rewrite length_to_limbs; lia).
  rewrite choice_to_bool_choice, eval_to_limbs, Her, Hlr.
  pose proof (eval_bounds a Hw) as Hb. pose proof (sqrt_bounds (eval a) ltac:(lia)) as [Hs _].
  pose proof (Z.sqrt_nonneg (eval a)).
  rewrite Z.mod_small by (split; [apply Z.mul_nonneg_nonneg; lia|lia]).
  unfold spec_is_square. apply Z.eqb_sym.
Qed.

Definition computes_checked_sqrt (f : list Z -> sres * bool) : Prop := forall a, wf a -> length a <> 0%nat ->
  exists r, f a = (SOk r, spec_is_square (eval a)) /\ wf r /\ length r = length a /\ eval r = Z.sqrt (eval a).

Lemma checked_correct f eqf : computes_sqrt f ->
  (forall a b, wf a -> wf b -> length a = length b -> eqf a b = choice_of_bool (eval a =? eval b)) ->
  computes_checked_sqrt (fun a => checked_of a eqf (f a)).
Proof.
  intros Hf Heqf a Hw Hl. destruct (Hf a Hw Hl) as (r & E & Hwr & Hlr & Her).
  exists r. rewrite E, (checked_of_spec a eqf r) by auto. auto.
Qed.

Lemma computes_checked_sqrt_run f a s b : computes_checked_sqrt f -> wf a -> wf s -> length s = length a ->
  length a <> 0%nat -> Z.sqrt (eval a) = eval s -> spec_is_square (eval a) = b -> f a = (SOk s, b).
Proof.
  intros Hf Hw Hws Hls Hl Hs <-. destruct (Hf a Hw Hl) as (r & -> & Hwr & Hlr & Her).
  do 2 f_equal. apply eval_inj; try assumption; congruence.
Qed.

Lemma uint_checked_sqrt_correct : computes_checked_sqrt uint_checked_sqrt.
Proof. exact (checked_correct _ _ uint_sqrt_correct eq_limbs_spec). Qed.
Lemma uint_checked_sqrt_vartime_correct : computes_checked_sqrt uint_checked_sqrt_vartime.
Proof. exact (checked_correct _ _ uint_sqrt_vartime_correct eq_limbs_spec). Qed.
Lemma boxed_checked_sqrt_correct : computes_checked_sqrt boxed_checked_sqrt.
Proof. exact (checked_correct _ _ boxed_sqrt_correct boxed_eq_limbs_spec). Qed.
Lemma boxed_checked_sqrt_vartime_correct : computes_checked_sqrt boxed_checked_sqrt_vartime.
Proof. exact (checked_correct _ _ boxed_sqrt_vartime_correct boxed_eq_limbs_spec). Qed.

(* floor(sqrt x) in the form "the s with s^2 <= x < (s+1)^2" *)
Definition is_floor_sqrt (x s : Z) : Prop := 0 <= s /\ s * s <= x < (s + 1) * (s + 1).

Lemma is_floor_sqrt_eq x s : is_floor_sqrt x s -> s = Z.sqrt x.
Proof. intros [Hs H]. symmetry. apply sqrt_unique_le; assumption. Qed.

Lemma is_floor_sqrt_unique x s t : is_floor_sqrt x s -> is_floor_sqrt x t -> s = t.
Proof. intros Hs Ht. rewrite (is_floor_sqrt_eq x s Hs), (is_floor_sqrt_eq x t Ht). reflexivity. Qed.

Lemma is_floor_sqrt_sqrt x : 0 <= x -> is_floor_sqrt x (Z.sqrt x).
Proof. intros H. pose proof (sqrt_bounds x H). pose proof (Z.sqrt_nonneg x). unfold is_floor_sqrt. lia. Qed.

Definition sqrt_exact (f : list Z -> sres) : Prop := forall a, wf a -> length a <> 0%nat ->
  exists r, f a = SOk r /\ wf r /\ length r = length a /\ is_floor_sqrt (eval a) (eval r).

Definition checked_sqrt_exact (f : list Z -> sres * bool) : Prop := forall a, wf a -> length a <> 0%nat ->
  exists r b, f a = (SOk r, b) /\ (b = true <-> exists t, eval a = t * t) /\
              wf r /\ length r = length a /\ is_floor_sqrt (eval a) (eval r).

Lemma sqrt_exact_of f : computes_sqrt f -> sqrt_exact f.
Proof.
  intros H a Hw Hl. destruct (H a Hw Hl) as (r & E & Hwr & Hlr & Her). exists r.
  rewrite Her. repeat split; auto; apply is_floor_sqrt_sqrt, eval_nonneg, Hw.
Qed.
Lemma checked_sqrt_exact_of f : computes_checked_sqrt f -> checked_sqrt_exact f.
Proof.
  intros H a Hw Hl. destruct (H a Hw Hl) as (r & E & Hwr & Hlr & Her). exists r, (spec_is_square (eval a)).
  rewrite Her. split; [assumption|]. split; [apply is_square_iff|].
  repeat split; auto; apply is_floor_sqrt_sqrt, eval_nonneg, Hw.
Qed.

Lemma uint_sqrt_exact : sqrt_exact uint_sqrt.
Proof. apply sqrt_exact_of, uint_sqrt_correct. Qed.
Lemma uint_sqrt_vartime_exact : sqrt_exact uint_sqrt_vartime.
Proof. apply sqrt_exact_of, uint_sqrt_vartime_correct. Qed.
Lemma boxed_sqrt_exact : sqrt_exact boxed_sqrt.
Proof. apply sqrt_exact_of, boxed_sqrt_correct. Qed.
Lemma boxed_sqrt_vartime_exact : sqrt_exact boxed_sqrt_vartime.
Proof. apply sqrt_exact_of, boxed_sqrt_vartime_correct. Qed.

Lemma sqrt_to_limbs a r : wf a -> wf r -> length r = length a -> eval r = Z.sqrt (eval a) ->
  r = to_limbs (length a) (spec_sqrt (eval a)).
Proof.
  intros Hw Hwr Hlr Her. apply to_limbs_unique; try assumption. unfold spec_sqrt. rewrite Her.
  symmetry. apply Z.mod_small. pose proof (eval_bounds r Hwr). rewrite <- Her, <- Hlr. assumption.
Qed.

Definition entries_agree (m s : string * opfn) : Prop :=
  fst m = fst s /\ forall dbg args, wf (arg 0 args) -> snd m dbg args = snd s dbg args.

Lemma tbl_sqrt f : computes_sqrt f -> forall args, wf (arg 0 args) -> nonempty args (out_sres (f (arg 0 args))) = sp_sqrt args.
Proof.
  intros H args Hw. unfold sp_sqrt, nonempty. destruct (arg 0 args) as [|y l] eqn:E; [reflexivity|].
  destruct (H (y :: l) Hw ltac:(discriminate)) as (r & -> & Hwr & Hlr & Her).
  cbn [out_sres]. rewrite (sqrt_to_limbs (y :: l) r) by assumption. reflexivity.
Qed.
Lemma tbl_checked f : computes_checked_sqrt f -> forall args, wf (arg 0 args) -> nonempty args (out_checked (f (arg 0 args))) = sp_checked_sqrt args.
Proof.
  intros H args Hw. unfold sp_checked_sqrt, nonempty. destruct (arg 0 args) as [|y l] eqn:E; [reflexivity|].
  destruct (H (y :: l) Hw ltac:(discriminate)) as (r & -> & Hwr & Hlr & Her).
  cbn [out_checked]. rewrite (sqrt_to_limbs (y :: l) r) by assumption. cbv zeta.
  change (spec_sqrt (eval (y :: l)) * spec_sqrt (eval (y :: l)) =? eval (y :: l)) with (spec_is_square (eval (y :: l))).
  destruct (spec_is_square (eval (y :: l))); reflexivity.
Qed.

Lemma sqrt_tables_agree : Forall2 entries_agree ops_sqrt_model ops_sqrt_spec.
Proof.
  unfold ops_sqrt_model, ops_sqrt_spec.
  repeat (apply Forall2_cons; [split; [reflexivity|intros dbg args Hw; cbn [snd]]|]); try apply Forall2_nil.
  - apply tbl_sqrt; [apply uint_sqrt_correct|assumption].
  - apply tbl_sqrt; [apply uint_sqrt_vartime_correct|assumption].
  - apply tbl_checked; [apply uint_checked_sqrt_correct|assumption].
  - apply tbl_checked; [apply uint_checked_sqrt_vartime_correct|assumption].
  - apply tbl_sqrt; [apply boxed_sqrt_correct|assumption].
  - apply tbl_sqrt; [apply boxed_sqrt_vartime_correct|assumption].
  - apply tbl_checked; [apply boxed_checked_sqrt_correct|assumption].
  - apply tbl_checked; [apply boxed_checked_sqrt_vartime_correct|assumption].
Qed.

(* the slack in the round count is exactly one round (the source's TODO #378 asks whether LOG2_BITS rounds
        would do): for a 448-bit input LOG2_BITS rounds give root + 1, LOG2_BITS + 1 rounds give the root *)
(* estimates x7 >= x8 = x9 + 1 with x9 the root: the smaller of x7, x8 is root + 1 *)
Lemma one_round_short N x7 x8 x9 :
  (x8 <=? x7) && (x8 =? x9 + 1) && (0 <=? x9) && (x9 * x9 <=? N) && (N <? x8 * x8) = true ->
  Z.min x7 x8 = Z.sqrt N + 1 /\ Z.min x8 x9 = Z.sqrt N.
Proof.
  intros C. rewrite !andb_true_iff, !Z.leb_le, Z.eqb_eq, Z.ltb_lt in C. destruct C as ((((C1 & C2) & C3) & C4) & C5).
  assert (Hs : Z.sqrt N = x9) by (apply sqrt_unique_le; [assumption | rewrite <- C2; lia]).
  lia.
Qed.

Definition slow_input_448 : list Z := [255; 0; 0; 1048576; 0; 0; 1073741824].
Lemma log2_bits_rounds_not_enough :
  log2_bits 7 = 8 /\
  (exists r, uint_sqrt_rounds 8 slow_input_448 = SOk r /\ eval r = Z.sqrt (eval slow_input_448) + 1) /\
  (exists r, boxed_sqrt_rounds 8 slow_input_448 = SOk r /\ eval r = Z.sqrt (eval slow_input_448) + 1) /\
  (exists r, uint_sqrt_rounds 9 slow_input_448 = SOk r /\ eval r = Z.sqrt (eval slow_input_448)).
Proof.
  assert (Hw : wf slow_input_448) by (repeat (apply wf_cons; split; [apply is_word_bound; lia|]); apply wf_nil).
  destruct (sqrt_rounds_spec 7 slow_input_448 Hw ltac:(discriminate)) as (r8 & E8 & E8b & _ & V8).
  destruct (sqrt_rounds_spec 8 slow_input_448 Hw ltac:(discriminate)) as (r9 & E9 & _ & _ & V9).
  rewrite (iterz_S 8) in V9. rewrite (iterz_S 7) in V8, V9.
  (* the integer iteration is evaluated once: seven rounds, then two single rounds from the computed estimates *)
  assert (H : exists x7 x8 x9, iterz 7 (eval slow_input_448) (est (eval slow_input_448)) = x7 /\
                stepz (eval slow_input_448) x7 = x8 /\ stepz (eval slow_input_448) x8 = x9 /\
                (x8 <=? x7) && (x8 =? x9 + 1) && (0 <=? x9) && (x9 * x9 <=? eval slow_input_448)
                  && (eval slow_input_448 <? x8 * x8) = true).
  { do 3 eexists. do 3 (split; [vm_compute; reflexivity|]). vm_compute. reflexivity. }
  destruct H as (x7 & x8 & x9 & H7 & H8 & H9 & C). rewrite H7, H8 in V8. rewrite H7, H8, H9 in V9.
  destruct (one_round_short _ x7 x8 x9 C) as [M8 M9]. rewrite M8 in V8. rewrite M9 in V9.
  split; [reflexivity|]. split; [exact (ex_intro _ r8 (conj E8 V8))|].
  split; [exact (ex_intro _ r8 (conj E8b V8)) | exact (ex_intro _ r9 (conj E9 V9))].
Qed.
