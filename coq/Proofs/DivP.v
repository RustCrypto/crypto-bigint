(** C02 proofs: the 2-by-1 division kernel, the limb shift shl_limb, division by one limb, Reciprocal::new. *)
From CB Require Import Model.Limbs Model.Div Proofs.WordP Proofs.WordPredP Proofs.LimbsP Proofs.BitsP Proofs.Div2by1G.
From Coq Require Import ZArith Lia List.
Open Scope Z_scope.

(** v is the Moeller-Granlund reciprocal of the divisor word d:  floor((B^2 - 1) / d) - B *)
Definition recip_ok (d v : Z) : Prop := v = (B * B - 1) / d - B.
(** a divisor word with its top bit set *)
Definition normalized (d : Z) : Prop := B <= 2 * d /\ d < B.

Lemma recip_range d v : normalized d -> recip_ok d v -> 0 <= v < B.
Proof.
  unfold normalized, recip_ok. intros [H1 H2] ->. pose proof B_gt1.
  assert (0 < d) by lia.
  pose proof (Z.div_mod (B * B - 1) d ltac:(lia)) as Hdm.
  pose proof (Z.mod_pos_bound (B * B - 1) d ltac:(lia)) as Hmb.
  set (k := (B * B - 1) / d) in *.
  assert (B <= k).
  { apply Z.div_le_lower_bound; [lia|]. assert (d * B <= (B - 1) * B) by (apply Z.mul_le_mono_nonneg_r; lia). lia. }
  assert (k < 2 * B).
  { apply Z.div_lt_upper_bound; [lia|]. assert (B * B <= d * (2 * B)) by nia. lia. }
  lia.
Qed.

Lemma div2by1_eq_generic u1 u0 d v :
  is_word u0 -> 0 <= u1 < d -> normalized d -> recip_ok d v ->
  div2by1 u1 u0 {| r_d := d; r_shift := 0; r_v := v |} = div2by1_g B u1 u0 d v.
Proof.
  intros Hu0 Hu1 Hn Hrec. pose proof (recip_range d v Hn Hrec) as Hv. destruct Hn as [Hd1 Hd2]. unfold is_word in Hu0. pose proof B_gt1.
  unfold div2by1, div2by1_g, mulhilo, addhilo, wrap2, r_d, r_v, ltw, sel, wadd, wsub, wmul, wrap.
  pose proof BB_val as HBB.
  pose proof (Z.div_mod (v * u1) B ltac:(lia)) as Hm.
  replace (v * u1 / B * B + (v * u1) mod B) with (v * u1) by lia.
  set (q := v * u1 + (u1 * B + u0)).
  assert (Hq : 0 <= q < BB).
  { rewrite HBB. unfold q. assert (0 <= v * u1) by (apply Z.mul_nonneg_nonneg; lia).
    assert (0 <= u1 * B) by (apply Z.mul_nonneg_nonneg; lia).
    assert (Hvd : (v + B) * d <= B * B - 1).
    { unfold recip_ok in Hrec. rewrite Hrec. replace ((B * B - 1) / d - B + B) with ((B * B - 1) / d) by lia.
      rewrite Z.mul_comm. apply Z.mul_div_le. lia. }
    assert (u1 * (v + B) <= (d - 1) * (v + B)) by (apply Z.mul_le_mono_nonneg_r; lia).
    lia. }
  rewrite (Z.mod_small q BB) by lia.
  assert (Hq1 : 0 <= q / B < B).
  { split; [apply Z.div_pos; lia | apply Z.div_lt_upper_bound; lia]. }
  rewrite (Z.mod_small (q / B) B) by lia.
  rewrite (Zminus_mod_idemp_r u0 (((q / B + 1) mod B) * d) B).
  destruct (q mod B <? (u0 - (q / B + 1) mod B * d) mod B);
    match goal with |- context [d <=? ?r] => destruct (d <=? r) end; reflexivity.
Qed.

Theorem div2by1_correct u1 u0 rc :
  is_word u0 -> 0 <= u1 < r_d rc -> normalized (r_d rc) -> recip_ok (r_d rc) (r_v rc) ->
  let '(q, r) := div2by1 u1 u0 rc in
  u1 * B + u0 = q * r_d rc + r /\ 0 <= r < r_d rc /\ 0 <= q < B.
Proof.
  intros Hu0 Hu1 Hn Hr. destruct rc as [d sh v]. cbn [r_d r_v] in *.
  pose proof (recip_range d v Hn Hr) as Hv.
  assert (E : div2by1 u1 u0 {| r_d := d; r_shift := sh; r_v := v |} = div2by1 u1 u0 {| r_d := d; r_shift := 0; r_v := v |}) by reflexivity.
  rewrite E, div2by1_eq_generic by assumption.
  destruct Hn as [Hd1 Hd2]. unfold is_word in Hu0. pose proof B_gt1.
  apply (div2by1_correct B ltac:(lia) u1 u0 d v); auto; lia.
Qed.

(** both results are stored through wrapping word operations: they are words for ANY inputs *)
Lemma div2by1_words u1 u0 rc : is_word (fst (div2by1 u1 u0 rc)) /\ is_word (snd (div2by1 u1 u0 rc)).
Proof.
  unfold div2by1. destruct (mulhilo (r_v rc) u1) as [q1 q0]. destruct (addhilo q1 q0 u1 u0) as [q1' q0'].
  cbn [fst snd]. unfold sel. split.
  - destruct (r_d rc <=? _); [apply is_word_mod|]. destruct (ltw _ _); apply is_word_mod.
  - destruct (r_d rc <=? _); [apply is_word_mod|]. destruct (ltw _ _); apply is_word_mod.
Qed.

(* division of a limb list by a normalized word, most significant limb first *)
Lemma divlimb_go_correct rc : normalized (r_d rc) -> recip_ok (r_d rc) (r_v rc) ->
  forall us r qs rf, wf us -> 0 <= r < r_d rc ->
  divlimb_go (rev us) r rc = (qs, rf) ->
  r * Bn (length us) + eval us = eval (rev qs) * r_d rc + rf /\ 0 <= rf < r_d rc /\ wf (rev qs) /\ length qs = length us.
Proof.
  intros Hn Hr us. induction us as [|x us IH] using rev_ind; intros r qs rf Hw Hrr E.
  - simpl in E. inv_pair E. simpl. rewrite Bn_0. repeat split; try lia. apply wf_nil.
  - rewrite rev_app_distr in E. cbn [rev app divlimb_go] in E.
    apply wf_app in Hw. destruct Hw as [Hw Hx]. apply wf_cons in Hx. destruct Hx as [Hx _].
    pose proof (div2by1_correct r x rc Hx Hrr Hn Hr) as Hd.
    destruct (div2by1 r x rc) as [q r'] eqn:E1. destruct Hd as (He & Hr' & Hq).
    destruct (divlimb_go (rev us) r' rc) as [qs' rf'] eqn:E2. inv_pair E.
    specialize (IH r' qs' rf' Hw Hr' E2). destruct IH as (IHe & IHr & IHw & IHl).
    cbn [rev].
    rewrite app_length, !eval_app. cbn [length eval]. rewrite Nat.add_1_r, Bn_S.
    replace (length (rev qs')) with (length us) by (rewrite rev_length; auto).
    pose proof (Bn_pos (length us)).
    repeat split; try lia.
    apply wf_app. split; [assumption|]. apply wf_one. unfold is_word. lia.
Qed.

Lemma last_In (w : Z) r d : In (last (w :: r) d) (w :: r).
Proof.
  revert w. induction r as [|y r IH]; intros w; [left; reflexivity|]. right.
  change (last (w :: y :: r) d) with (last (y :: r) d). apply (IH y).
Qed.
Lemma last_word x d : wf x -> is_word d -> is_word (last x d).
Proof.
  intros Hw Hd. destruct x as [|w r]; [assumption|].
  unfold wf in Hw. rewrite Forall_forall in Hw. apply Hw, last_In.
Qed.
Lemma last_cons (w : Z) r d : last (w :: r) d = last r w.
Proof.
  revert w d. induction r as [|y r IH]; intros w d; [reflexivity|].
  transitivity (last (y :: r) d); [reflexivity|]. rewrite (IH y d), (IH y w). reflexivity.
Qed.

(** a word shifted left by s: a multiple of 2^s with room for a carry-in below 2^s *)
Lemma wshl_mult w s : is_word w -> 0 < s < 64 ->
  exists j, wshl w s = j * 2 ^ s /\ 0 <= j /\ wshl w s + 2 ^ s <= B.
Proof.
  intros Hw Hs. destruct (wshl_split w s Hw Hs) as (_ & _ & j & Hj & Hj0). exists j. split; [assumption|]. split; [assumption|].
  assert (H2s : 0 < 2 ^ s) by (apply Z.pow_pos_nonneg; lia).
  assert (H2t : 0 < 2 ^ (64 - s)) by (apply Z.pow_pos_nonneg; lia).
  assert (Hp : B = 2 ^ (64 - s) * 2 ^ s) by (rewrite B_val, <- Z.pow_add_r by lia; f_equal; lia).
  assert (Hlt : j * 2 ^ s < B) by (rewrite <- Hj; unfold wshl, wrap; pose proof B_pos; apply Z.mod_pos_bound; lia).
  rewrite Hj. rewrite Hp in *.
  assert (j < 2 ^ (64 - s)) by (apply (Z.mul_lt_mono_pos_r (2 ^ s)); lia).
  assert ((j + 1) * 2 ^ s <= 2 ^ (64 - s) * 2 ^ s) by (apply Z.mul_le_mono_nonneg_r; lia). lia.
Qed.

Lemma shl_limb_go_correct s : 0 < s < 64 -> forall x prev, wf x -> is_word prev ->
  eval (shl_limb_go prev x s) + Bn (length x) * (last x prev / 2 ^ (64 - s)) = eval x * 2 ^ s + prev / 2 ^ (64 - s)
  /\ wf (shl_limb_go prev x s) /\ length (shl_limb_go prev x s) = length x.
Proof.
  intros Hs x. induction x as [|w r IH]; intros prev Hw Hp.
  - simpl. rewrite Bn_0. repeat split; try lia. apply wf_nil.
  - apply wf_cons in Hw. destruct Hw as [Hw Hr]. specialize (IH w Hr Hw). destruct IH as (IHe & IHw & IHl).
    cbn [shl_limb_go]. assert (s =? 0 = false) as -> by (apply Z.eqb_neq; lia).
    rewrite last_cons. cbn [eval length]. rewrite Bn_S.
    destruct (wshl_split w s Hw Hs) as (Hsplit & Hhi & _).
    destruct (wshl_mult w s Hw Hs) as (k & Hk & Hk0 & Hkb).
    destruct (wshl_split prev s Hp Hs) as (_ & Hphi & _).
    assert (Hlor : Z.lor (wshl w s) (prev / 2 ^ (64 - s)) = wshl w s + prev / 2 ^ (64 - s)).
    { rewrite Hk. apply lor_disjoint; lia. }
    rewrite Hlor. repeat split.
    + assert (B * (eval (shl_limb_go w r s) + Bn (length r) * (last r w / 2 ^ (64 - s))) =
              B * (eval r * 2 ^ s + w / 2 ^ (64 - s))) by (rewrite IHe; reflexivity).
      lia.
    + apply wf_cons. split; [|assumption]. unfold is_word in *.
      assert (0 <= wshl w s) by (rewrite Hk; apply Z.mul_nonneg_nonneg; lia). lia.
    + simpl. rewrite IHl. reflexivity.
Qed.

Lemma shl_limb_go_0 x prev : wf x -> shl_limb_go prev x 0 = x.
Proof.
  revert prev. induction x as [|w r IH]; intros prev Hw; [reflexivity|].
  apply wf_cons in Hw. destruct Hw as [Hw Hr]. cbn [shl_limb_go]. change (0 =? 0) with true. cbv iota.
  rewrite Z.lor_0_r. unfold wshl, wrap. rewrite Z.pow_0_r, Z.mul_1_r, mod_small' by assumption.
  rewrite IH by assumption. reflexivity.
Qed.

Theorem shl_limb_correct x s : wf x -> 0 <= s < 64 ->
  let '(r, c) := shl_limb x s in
  eval r + Bn (length x) * c = eval x * 2 ^ s /\ wf r /\ length r = length x /\ 0 <= c < 2 ^ s.
Proof.
  intros Hw Hs. unfold shl_limb. destruct (s =? 0) eqn:Es.
  - apply Z.eqb_eq in Es. subst s. rewrite shl_limb_go_0 by assumption. rewrite Z.pow_0_r. repeat split; auto; lia.
  - apply Z.eqb_neq in Es. assert (Hs' : 0 < s < 64) by lia.
    destruct (shl_limb_go_correct s Hs' x 0 Hw is_word_0') as (He & Hwr & Hl).
    rewrite Z.div_0_l in He by (apply Z.pow_nonzero; lia).
    destruct (wshl_split _ s (last_word x 0 Hw is_word_0') Hs') as (_ & Hb & _).
    repeat split; auto; lia.
Qed.

(** rc is what Reciprocal::new must return for the limb d: shift, d shifted to a normalised word, its reciprocal *)
Definition recip_for (d : Z) (rc : recip) : Prop :=
  0 <= r_shift rc < 64 /\ r_d rc = d * 2 ^ r_shift rc /\ normalized (r_d rc) /\ recip_ok (r_d rc) (r_v rc).

(** exact division from the normalised equation  X * S = R + (Y0 * S) * Q,  0 <= R < Y0 * S *)
Lemma denormalise X S R Y0 Q : 0 < S -> X * S = R + (Y0 * S) * Q -> 0 <= R < Y0 * S ->
  X = Q * Y0 + R / S /\ 0 <= R / S < Y0.
Proof.
  intros HS He HR. assert (Hm : R = (X - Q * Y0) * S) by lia.
  assert (Hd : R / S = X - Q * Y0) by (rewrite Hm; apply Z.div_mul; lia).
  rewrite Hd. set (t := X - Q * Y0) in *. split; [lia|]. split.
  - destruct (Z_lt_ge_dec t 0); [|lia]. assert (t * S <= (-1) * S) by (apply Z.mul_le_mono_nonneg_r; lia). lia.
  - destruct (Z_lt_ge_dec t Y0); [assumption|]. assert (Y0 * S <= t * S) by (apply Z.mul_le_mono_nonneg_r; lia). lia.
Qed.

Theorem div_rem_limb_correct u d rc :
  wf u -> 0 < d -> recip_for d rc ->
  let '(q, r) := div_rem_limb_with_reciprocal u rc in
  eval u = eval q * d + r /\ 0 <= r < d /\ wf q /\ length q = length u.
Proof.
  intros Hw Hd (Hs & Hdn & Hn & Hr). unfold div_rem_limb_with_reciprocal.
  pose proof (shl_limb_correct u (r_shift rc) Hw Hs) as Hshl.
  destruct (shl_limb u (r_shift rc)) as [us uhi]. destruct Hshl as (He & Hwus & Hlus & Huhi).
  assert (H2s : 0 < 2 ^ r_shift rc) by (apply Z.pow_pos_nonneg; lia).
  assert (Huhi' : 0 <= uhi < r_d rc) by (rewrite Hdn; nia).
  destruct (divlimb_go (rev us) uhi rc) as [qs rf] eqn:E.
  pose proof (divlimb_go_correct rc Hn Hr us uhi qs rf Hwus Huhi' E) as (Hq & Hrf & Hwq & Hlq).
  rewrite Hlus in Hq. rewrite Hdn in Hq, Hrf.
  destruct (denormalise (eval u) (2 ^ r_shift rc) rf d (eval (rev qs)) H2s ltac:(lia) Hrf) as [Hfin Hfin2].
  repeat split; try lia; [assumption | rewrite rev_length; lia].
Qed.

Lemma recip_new_for d :
  0 < d < B -> recip_ok (r_d (recip_new d)) (reciprocal (r_d (recip_new d))) -> recip_for d (recip_new d).
Proof.
  intros Hd Hrec. unfold recip_for, recip_new in *. cbn [r_d r_shift r_v] in *.
  unfold leading_zeros_word, bits_of in *. assert (Hd0 : d <=? 0 = false) by (apply Z.leb_gt; lia). rewrite Hd0 in *.
  pose proof (Z.log2_spec d ltac:(lia)) as [Hlo Hhi].
  pose proof (Z.log2_nonneg d).
  assert (Hl64 : Z.log2 d < 64).
  { apply Z.log2_lt_pow2; [lia|]. rewrite <- B_val. lia. }
  set (l := Z.log2 d) in *. replace (64 - (l + 1)) with (63 - l) in * by lia.
  assert (Hp : 2 ^ 63 = 2 ^ l * 2 ^ (63 - l)) by (rewrite <- pow2_split by lia; f_equal; lia).
  assert (Hp1 : 2 ^ 64 = 2 ^ Z.succ l * 2 ^ (63 - l)) by (rewrite <- pow2_split by lia; f_equal; lia).
  assert (0 < 2 ^ (63 - l)) by (apply Z.pow_pos_nonneg; lia).
  assert (Hdn : wshl d (63 - l) = d * 2 ^ (63 - l)).
  { unfold wshl, wrap. apply Z.mod_small. rewrite B_val, Hp1. nia. }
  rewrite Hdn in *. split; [lia|]. split; [reflexivity|]. split; [|assumption].
  unfold normalized. rewrite B_val, Hp1. replace (2 ^ Z.succ l) with (2 * 2 ^ l) by (rewrite Z.pow_succ_r by lia; reflexivity). nia.
Qed.
