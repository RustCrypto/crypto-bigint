(** Correctness of the word predicates of src/const_choice.rs (Model/Word.v) for ALL 64-bit words:
    from_word_nonzero / eq / lt / gt / le / msb by sign-bit case analysis through [Z.testbit _ 63];
    closure of words under the bit operations. Rests on Proofs/WordP.v; Model/Limbs.v is imported for [b2z]. *)
From CB Require Import Model.Word Model.Limbs Proofs.WordP.
From Coq Require Import ZArith Lia List Bool.
Open Scope Z_scope.

Definition msbb (x : Z) : bool := 2 ^ 63 <=? x.

Lemma msbb_true x : msbb x = true <-> 2 ^ 63 <= x.
Proof. unfold msbb. apply Z.leb_le. Qed.
Lemma msbb_false x : msbb x = false <-> x < 2 ^ 63.
Proof. unfold msbb. apply Z.leb_gt. Qed.

Lemma msb_div x : is_word x -> x / 2 ^ 63 = b2z (msbb x).
Proof.
  unfold is_word. intros H. word_facts. destruct (msbb x) eqn:E.
  - apply msbb_true in E.
    assert (Hq : x / 2 ^ 63 = 1 /\ x mod 2 ^ 63 = x - 2 ^ 63) by (apply div_mod_unique_pos; lia).
    destruct Hq as [-> _]. reflexivity.
  - apply msbb_false in E. rewrite div_small_pos by lia. reflexivity.
Qed.

Lemma testbit63 x : is_word x -> Z.testbit x 63 = msbb x.
Proof.
  intros H. rewrite Z.testbit_odd, Z.shiftr_div_pow2 by lia. rewrite (msb_div x H).
  destruct (msbb x); reflexivity.
Qed.

Lemma word_high_bits x n : is_word x -> 64 <= n -> Z.testbit x n = false.
Proof.
  unfold is_word. rewrite B_val. intros [H0 H1] Hn.
  destruct (Z.eq_dec x 0) as [->|Hnz]; [apply Z.bits_0|].
  apply Z.bits_above_log2; [lia|]. assert (Z.log2 x < 64) by (apply Z.log2_lt_pow2; lia). lia.
Qed.

Lemma word_from_bits x : 0 <= x -> (forall n, 64 <= n -> Z.testbit x n = false) -> is_word x.
Proof.
  intros H0 Hb. unfold is_word. rewrite B_val. split; [assumption|].
  destruct (Z_lt_ge_dec x (2 ^ 64)) as [|Hge]; [assumption|exfalso].
  assert (Hx : 0 < x) by lia.
  assert (64 <= Z.log2 x) by (apply Z.log2_le_pow2; lia).
  pose proof (Z.bit_log2 x Hx) as Hbit. rewrite Hb in Hbit by assumption. discriminate.
Qed.

Lemma is_word_lor a b : is_word a -> is_word b -> is_word (Z.lor a b).
Proof.
  intros Ha Hb. apply word_from_bits.
  - apply Z.lor_nonneg. unfold is_word in *. lia.
  - intros n Hn. rewrite Z.lor_spec, (word_high_bits a n Ha Hn), (word_high_bits b n Hb Hn). reflexivity.
Qed.
Lemma is_word_land a b : is_word a -> is_word b -> is_word (Z.land a b).
Proof.
  intros Ha Hb. apply word_from_bits.
  - apply Z.land_nonneg. unfold is_word in *. lia.
  - intros n Hn. rewrite Z.land_spec, (word_high_bits a n Ha Hn). reflexivity.
Qed.
Lemma is_word_lxor a b : is_word a -> is_word b -> is_word (Z.lxor a b).
Proof.
  intros Ha Hb. apply word_from_bits.
  - apply Z.lxor_nonneg. unfold is_word in *. lia.
  - intros n Hn. rewrite Z.lxor_spec, (word_high_bits a n Ha Hn), (word_high_bits b n Hb Hn). reflexivity.
Qed.
Lemma is_word_wnot a : is_word a -> is_word (wnot a).
Proof. unfold is_word, wnot. pose proof MAXW_val. lia. Qed.
Lemma is_word_wneg a : is_word (wneg a).
Proof. apply is_word_mod. Qed.
Lemma is_word_wsub a b : is_word (wsub a b).
Proof. apply is_word_mod. Qed.
Lemma is_word_0' : is_word 0. Proof. exact is_word_0. Qed.
Lemma is_word_1 : is_word 1. Proof. unfold is_word. pose proof B_gt1. lia. Qed.
Lemma is_word_MAXW : is_word MAXW. Proof. unfold is_word. pose proof MAXW_val. pose proof B_gt1. lia. Qed.
Lemma is_word_p63 : is_word (2 ^ 63). Proof. unfold is_word. word_facts. lia. Qed.
Lemma is_word_choice b : is_word (choice_of_bool b).
Proof. destruct b; [apply is_word_MAXW | apply is_word_0']. Qed.
Lemma is_word_b2z b : is_word (b2z b).
Proof. destruct b; [apply is_word_1 | apply is_word_0']. Qed.

Lemma msbb_lor a b : is_word a -> is_word b -> msbb (Z.lor a b) = msbb a || msbb b.
Proof. intros Ha Hb. rewrite <- !testbit63 by auto using is_word_lor. apply Z.lor_spec. Qed.
Lemma msbb_land a b : is_word a -> is_word b -> msbb (Z.land a b) = msbb a && msbb b.
Proof. intros Ha Hb. rewrite <- !testbit63 by auto using is_word_land. apply Z.land_spec. Qed.
Lemma msbb_lxor a b : is_word a -> is_word b -> msbb (Z.lxor a b) = xorb (msbb a) (msbb b).
Proof. intros Ha Hb. rewrite <- !testbit63 by auto using is_word_lxor. apply Z.lxor_spec. Qed.
Lemma msbb_wnot a : is_word a -> msbb (wnot a) = negb (msbb a).
Proof.
  unfold is_word, wnot, msbb. intros H. pose proof MAXW_val. word_facts.
  destruct (Z.leb_spec (2 ^ 63) (MAXW - a)), (Z.leb_spec (2 ^ 63) a); simpl; try reflexivity; lia.
Qed.

Lemma wneg_val x : is_word x -> wneg x = if x =? 0 then 0 else B - x.
Proof.
  unfold is_word, wneg, wrap. intros H. pose proof B_pos.
  destruct (Z.eqb_spec x 0) as [->|Hnz]; [reflexivity|].
  symmetry. apply (Z.mod_unique_pos _ _ (-1)); lia.
Qed.
Lemma wsub_val x y : is_word x -> is_word y -> wsub x y = if y <=? x then x - y else x - y + B.
Proof.
  unfold is_word, wsub, wrap. intros Hx Hy. pose proof B_pos.
  destruct (Z.leb_spec y x).
  - apply Z.mod_small. lia.
  - symmetry. apply (Z.mod_unique_pos _ _ (-1)); lia.
Qed.

Lemma from_word_lsb_b2z b : from_word_lsb (b2z b) = choice_of_bool b.
Proof. exact (from_word_lsb_bool b). Qed.
Lemma wnot_choice b : wnot (choice_of_bool b) = choice_of_bool (negb b).
Proof. destruct b; reflexivity. Qed.

Lemma choice_to_bool_choice b : choice_to_bool (choice_of_bool b) = b.
Proof. destruct b; reflexivity. Qed.

(** ConstChoice::from_word_msb *)
Lemma from_word_msb_spec x : is_word x -> from_word_msb x = choice_of_bool (2 ^ 63 <=? x).
Proof. intros H. unfold from_word_msb. rewrite (msb_div x H). apply from_word_lsb_b2z. Qed.

(** ConstChoice::from_word_nonzero : truthy exactly for the non-zero words *)
Lemma from_word_nonzero_spec x : is_word x -> from_word_nonzero x = choice_of_bool (negb (x =? 0)).
Proof.
  intros H. unfold from_word_nonzero, wor.
  rewrite msb_div by (apply is_word_lor; auto using is_word_wneg).
  rewrite from_word_lsb_b2z. f_equal.
  rewrite msbb_lor by auto using is_word_wneg. rewrite (wneg_val x H).
  unfold is_word in H. word_facts.
  destruct (Z.eqb_spec x 0) as [->|Hnz]; [reflexivity|]. simpl.
  unfold msbb. destruct (Z.leb_spec (2 ^ 63) x), (Z.leb_spec (2 ^ 63) (B - x)); simpl; try reflexivity; lia.
Qed.

(** ConstChoice::from_word_eq *)
Lemma from_word_eq_spec x y : is_word x -> is_word y -> from_word_eq x y = choice_of_bool (x =? y).
Proof.
  intros Hx Hy. unfold from_word_eq, wxor. rewrite from_word_nonzero_spec by auto using is_word_lxor.
  rewrite wnot_choice, negb_involutive. f_equal.
  destruct (Z.eqb_spec x y) as [->|Hne].
  - rewrite Z.lxor_nilpotent. reflexivity.
  - apply Z.eqb_neq. intros E. apply Z.lxor_eq in E. contradiction.
Qed.

(** ConstChoice::from_word_lt (Hacker's Delight 2-12): truthy exactly when x < y as unsigned words *)
Lemma from_word_lt_spec x y : is_word x -> is_word y -> from_word_lt x y = choice_of_bool (x <? y).
Proof.
  intros Hx Hy. unfold from_word_lt, wor, wand.
  assert (Hnx := is_word_wnot x Hx). assert (Hs := is_word_wsub x y).
  rewrite msb_div by (auto using is_word_lor, is_word_land).
  rewrite from_word_lsb_b2z. f_equal.
  rewrite msbb_lor, !msbb_land, msbb_lor, msbb_wnot
    by (auto using is_word_lor, is_word_land).
  rewrite (wsub_val x y Hx Hy). unfold is_word in Hx, Hy. word_facts. unfold msbb.
  destruct (Z.leb_spec (2 ^ 63) x), (Z.leb_spec (2 ^ 63) y), (Z.ltb_spec x y), (Z.leb_spec y x);
    try lia; simpl; try reflexivity;
    match goal with |- context [?a <=? ?b] => destruct (Z.leb_spec a b) end; simpl; try reflexivity; lia.
Qed.

Lemma from_word_gt_spec x y : is_word x -> is_word y -> from_word_gt x y = choice_of_bool (y <? x).
Proof. intros. unfold from_word_gt. apply from_word_lt_spec; assumption. Qed.

(** ConstChoice::from_word_le *)
Lemma from_word_le_spec x y : is_word x -> is_word y -> from_word_le x y = choice_of_bool (x <=? y).
Proof.
  intros Hx Hy. unfold from_word_le, wor, wand, wxor.
  assert (Hnx := is_word_wnot x Hx). assert (Hs := is_word_wsub y x).
  assert (Hns := is_word_wnot _ Hs). assert (Hxy := is_word_lxor x y Hx Hy).
  rewrite msb_div by (auto using is_word_lor, is_word_land).
  rewrite from_word_lsb_b2z. f_equal.
  rewrite msbb_land, !msbb_lor, msbb_lxor, !msbb_wnot
    by (auto using is_word_lor, is_word_land).
  rewrite (wsub_val y x Hy Hx). unfold is_word in Hx, Hy. word_facts. unfold msbb.
  destruct (Z.leb_spec (2 ^ 63) x), (Z.leb_spec (2 ^ 63) y), (Z.leb_spec x y);
    try lia; simpl; try reflexivity;
    match goal with |- context [?a <=? ?b] => destruct (Z.leb_spec a b) end; simpl; try reflexivity; lia.
Qed.

Lemma land_p63_small x : 0 <= x < 2 ^ 63 -> Z.land x (2 ^ 63) = 0.
Proof.
  intros H. apply Z.bits_inj'. intros n Hn. rewrite Z.land_spec, Z.bits_0, Z.pow2_bits_eqb by lia.
  destruct (Z.eqb_spec 63 n) as [<-|]; [|apply andb_false_r].
  rewrite andb_true_r. destruct (Z.eq_dec x 0) as [->|]; [apply Z.bits_0|].
  apply Z.bits_above_log2; [lia|]. apply Z.log2_lt_pow2; lia.
Qed.
Lemma lxor_p63 x : is_word x -> Z.lxor x (2 ^ 63) = if 2 ^ 63 <=? x then x - 2 ^ 63 else x + 2 ^ 63.
Proof.
  unfold is_word. intros H. word_facts. destruct (Z.leb_spec (2 ^ 63) x).
  - assert (E : x = Z.lxor (x - 2 ^ 63) (2 ^ 63)).
    { rewrite <- Z.add_nocarry_lxor by (apply land_p63_small; lia). lia. }
    rewrite E at 1. rewrite Z.lxor_assoc, Z.lxor_nilpotent, Z.lxor_0_r. reflexivity.
  - rewrite <- Z.add_nocarry_lxor by (apply land_p63_small; lia). reflexivity.
Qed.
