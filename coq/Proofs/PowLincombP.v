(** C09 proofs, part 5: src/modular/lincomb.rs, limb level.
    impl_longa_monty_lincomb! returns EXACTLY (sum a_i*b_i + Q*m) / R in (u, hi_carry): no carry of the two-level
    accumulator (hi, hi_carry) is ever lost, for any number of terms below 2^64 - 4.  When the terms of one call
    satisfy sum a_i*b_i < m*R (guaranteed by count <= 2^leading_zeros) the value is below 2m, so hi_carry <= 1 and the
    single conditional subtraction of sub_mod_with_carry returns the canonical residue; the window drivers of the
    three representations therefore return the canonical sum for ANY number of terms. *)
From CB Require Import Model.Limbs Model.AddSub Model.ModArith Model.Cmp Model.Pow
  Proofs.WordP Proofs.LimbsP Proofs.AddSubP Proofs.WordPredP Proofs.CmpWordP Proofs.CmpP
  Proofs.ModArithP Proofs.MontyRedP Proofs.PowMathP Proofs.PowLadderP Proofs.PowFixedP.
From Coq Require Import ZArith Lia List Bool.
Open Scope Z_scope.
Notation length := List.length.

Ltac inv_triple E := apply pair_equal_spec in E; let E1 := fresh E in destruct E as [E1 <-]; inv_pair E1.

(** both rows of the macro are [mac_by_limb] of Model/ModArith.v (the multiplier as second factor) *)
Lemma mac_row_eq u : forall b aj carry, mac_row u b aj carry = mac_by_limb u b aj carry.
Proof.
  induction u as [|x u IH]; intros b aj carry; [destruct b; reflexivity|].
  destruct b as [|y b]; [reflexivity|]. cbn [mac_row mac_by_limb]. rewrite (mac_comm x aj y).
  destruct (mac x y aj carry) as [v cy]. rewrite IH. reflexivity.
Qed.
Lemma red_row_eq u : forall m q carry, red_row u m q carry = mac_by_limb u m q carry.
Proof.
  induction u as [|x u IH]; intros m q carry; [destruct m; reflexivity|].
  destruct m as [|y m]; [reflexivity|]. cbn [red_row mac_by_limb]. rewrite (mac_comm x q y).
  destruct (mac x y q carry) as [v cy]. rewrite IH. reflexivity.
Qed.

Lemma mac_row_spec u b aj carry r cf :
  wf u -> wf b -> length u = length b -> is_word aj -> is_word carry ->
  mac_row u b aj carry = (r, cf) ->
  eval r + Bn (length u) * cf = eval u + aj * eval b + carry /\ wf r /\ length r = length u /\ is_word cf.
Proof. rewrite mac_row_eq, (Z.mul_comm aj). apply mac_by_limb_correct. Qed.

Fixpoint row_sum (prods : list (list Z * list Z)) (j : nat) : Z :=
  match prods with [] => 0 | ab :: r => nthz (fst ab) j * eval (snd ab) + row_sum r j end.
(** sum of (a_i mod B^j) * b_i : what has been accumulated after j outer iterations *)
Fixpoint part_sum (prods : list (list Z * list Z)) (j : nat) : Z :=
  match prods with [] => 0 | ab :: r => (eval (fst ab) mod Bn j) * eval (snd ab) + part_sum r j end.
Fixpoint lin_sum (prods : list (list Z * list Z)) : Z :=
  match prods with [] => 0 | ab :: r => eval (fst ab) * eval (snd ab) + lin_sum r end.

Definition term_ok (n : nat) (ab : list Z * list Z) : Prop :=
  wf (fst ab) /\ length (fst ab) = n /\ wf (snd ab) /\ length (snd ab) = n.

Lemma part_sum_0 prods : part_sum prods 0 = 0.
Proof. induction prods as [|ab r IH]; [reflexivity|]. cbn [part_sum]. rewrite IH, Bn_0, Z.mod_1_r. lia. Qed.

Lemma part_sum_S prods j : Forall (fun ab => wf (fst ab)) prods ->
  part_sum prods (S j) = part_sum prods j + Bn j * row_sum prods j.
Proof.
  induction prods as [|ab r IH]; intros H; [cbn; lia|].
  inversion H as [|ab' r' Ha Hr]; subst. cbn [part_sum row_sum]. rewrite IH by assumption.
  rewrite nthz_eval by assumption. rewrite Bn_S. pose proof (Bn_pos j). pose proof B_pos.
  rewrite (Z.mul_comm B (Bn j)). rewrite Z.rem_mul_r by lia. ring.
Qed.

Lemma part_sum_full n prods : Forall (term_ok n) prods -> part_sum prods n = lin_sum prods.
Proof.
  induction prods as [|ab r IH]; intros H; [reflexivity|].
  inversion H as [|ab' r' (Ha & Hla & _) Hr]; subst ab' r'. cbn [part_sum lin_sum]. rewrite IH by assumption.
  pose proof (eval_bounds _ Ha) as Hb. rewrite Hla in Hb. rewrite Z.mod_small by assumption. reflexivity.
Qed.

Lemma lin_sum_app p q : lin_sum (p ++ q) = lin_sum p + lin_sum q.
Proof. induction p as [|ab r IH]; [reflexivity|]. cbn [app lin_sum]. rewrite IH. lia. Qed.

Lemma lin_sum_nonneg n prods : Forall (term_ok n) prods -> 0 <= lin_sum prods.
Proof.
  induction prods as [|ab r IH]; intros H; [cbn; lia|].
  inversion H as [|ab' r' (Ha & _ & Hb & _) Hr]; subst ab' r'. cbn [lin_sum]. specialize (IH Hr).
  pose proof (eval_nonneg _ Ha). pose proof (eval_nonneg _ Hb).
  assert (0 <= eval (fst ab) * eval (snd ab)) by (apply Z.mul_nonneg_nonneg; assumption). lia.
Qed.

(** the accumulation over the terms: (u, hi, hi_carry) is a three-level exact accumulator *)

Section Acc.
Variable n : nat.

Lemma acc_terms_spec j prods : forall u hi hic u' hi' hic',
  Forall (term_ok n) prods -> wf u -> length u = n -> is_word hi -> 0 <= hic ->
  hic + Z.of_nat (length prods) < B ->
  acc_terms prods j u hi hic = (u', hi', hic') ->
  eval u' + Bn n * (hi' + B * hic') = eval u + Bn n * (hi + B * hic) + row_sum prods j
  /\ wf u' /\ length u' = n /\ is_word hi' /\ hic <= hic' <= hic + Z.of_nat (length prods).
Proof.
  induction prods as [|[a b] r IH]; intros u hi hic u' hi' hic' Hp Hu Hl Hhi Hc Hlen E.
  - cbn [acc_terms] in E. inv_triple E. cbn [row_sum length]. split; [lia|]. split; [assumption|]. split; [assumption|]. split; [assumption | lia].
  - inversion Hp as [|ab' r' (Ha & Hla & Hb & Hlb) Hr]; subst ab' r'. cbn [fst snd] in *.
    cbn [acc_terms] in E. cbn [length] in Hlen. rewrite Nat2Z.inj_succ in Hlen.
    destruct (mac_row u b (nthz a j) 0) as [u1 carry] eqn:E1.
    destruct (adc hi carry 0) as [hi1 c1] eqn:E2.
    assert (Haj : is_word (nthz a j)) by (rewrite nthz_eval by assumption; apply is_word_mod).
    destruct (mac_row_spec u b (nthz a j) 0 u1 carry Hu Hb ltac:(lia) Haj is_word_0 E1) as (H1 & Hu1 & Hl1 & Hcy).
    destruct (adc_exact hi carry 0 hi1 c1 Hhi Hcy is_word_0 E2) as (H2 & Hhi1 & _).
    pose proof (adc_carry_small hi carry 0 hi1 c1 Hhi Hcy ltac:(lia) E2) as Hc1.
    assert (Hw : wadd hic c1 = hic + c1) by (unfold wadd, wrap; apply Z.mod_small; lia).
    rewrite Hw in E.
    destruct (IH u1 hi1 (hic + c1) u' hi' hic' Hr Hu1 ltac:(lia) Hhi1 ltac:(lia) ltac:(lia) E) as (H3 & Hu' & Hl' & Hhi' & Hr').
    cbn [row_sum fst snd length]. rewrite Nat2Z.inj_succ.
    split; [|split; [assumption|]; split; [assumption|]; split; [assumption | lia]].
    rewrite H3. rewrite Hl in H1. nia.
Qed.
End Acc.

(** one Montgomery reduction step: divide the accumulator by B exactly *)

Section Red.
Variable n : nat.
Variables (mL : list Z) (ninv : Z).
Hypothesis HmL : wf mL.
Hypothesis HmLn : length mL = n.
Hypothesis Hninv : is_word ninv.
Hypothesis Hinv : (eval mL * ninv + 1) mod B = 0.

(** [red_step] is the reduction row of C08 (multiplier u0 * ninv, low word dropped) with hi added on top *)
Lemma red_step_eq u hi hic : u <> [] -> mL <> [] ->
  red_step u mL ninv hi hic =
  let '(row, carry) := mac_by_limb u mL (wmul (hd 0 u) ninv) 0 in
  let '(top, c2) := adc hi carry 0 in (tl row ++ [top], wadd hic c2).
Proof.
  destruct u as [|u0 ut]; [contradiction|]. destruct mL as [|m0 mt]; [contradiction|]. intros _ _.
  cbn [red_step mac_by_limb hd]. rewrite (mac_comm u0 (wmul u0 ninv) m0).
  destruct (mac u0 m0 (wmul u0 ninv) 0) as [lo carry]. rewrite red_row_eq.
  destruct (mac_by_limb ut mt (wmul u0 ninv) carry). reflexivity.
Qed.

Lemma red_step_spec u hi hic u2 hic2 : wf u -> length u = n -> n <> 0%nat -> is_word hi -> 0 <= hic -> hic + 2 < B ->
  red_step u mL ninv hi hic = (u2, hic2) ->
  exists q, 0 <= q < B /\
  B * (eval u2 + Bn n * hic2) = eval u + Bn n * (hi + B * hic) + q * eval mL
  /\ wf u2 /\ length u2 = n /\ hic <= hic2 <= hic + 2.
Proof.
  intros Hu Hl Hn Hhi Hc Hcb E. rewrite <- HmLn in *.
  rewrite red_step_eq in E by (intros ->; cbn [length] in *; lia).
  destruct (mac_by_limb u mL (wmul (hd 0 u) ninv) 0) as [row carry] eqn:E1.
  destruct (adc hi carry 0) as [top c2] eqn:E2. inv_pair E.
  assert (Hk : (hd 0 mL * ninv + 1) mod B = 0).
  { pose proof Hinv as Hi. rewrite (eval_hd_tl mL) in Hi. pose proof B_pos.
    replace ((hd 0 mL + B * eval (tl mL)) * ninv + 1) with (hd 0 mL * ninv + 1 + eval (tl mL) * ninv * B) in Hi by ring.
    rewrite Z.mod_add in Hi by lia. exact Hi. }
  destruct (red_row_exact mL ninv HmL Hn Hk u row carry Hu Hl E1) as (Hwr & Hlr & Hcy & Hrow).
  destruct (adc_exact hi carry 0 top c2 Hhi Hcy is_word_0 E2) as (H3 & Htop & _).
  pose proof (adc_carry_small hi carry 0 top c2 Hhi Hcy ltac:(lia) E2) as Hc2.
  assert (Hw : wadd hic c2 = hic + c2) by (unfold wadd, wrap; apply Z.mod_small; lia).
  rewrite Hw. exists (wmul (hd 0 u) ninv). split; [apply is_word_wmul|].
  split; [|split; [apply wf_app; split; [assumption | apply wf_cons; split; [assumption | apply wf_nil]]
                  | split; [rewrite app_length, Hlr; cbn [length]; lia | lia]]].
  rewrite eval_app. cbn [eval]. rewrite Hlr, (Bn_pred _ Hn) in *. lia.
Qed.
End Red.

(** the whole macro: exact division by R of (sum a_i*b_i + Q*m) *)

Section Longa.
Variable n : nat.
Variables (mL : list Z) (ninv : Z).
Hypothesis HmL : wf mL.
Hypothesis HmLn : length mL = n.
Hypothesis Hn : n <> 0%nat.
Hypothesis Hninv : is_word ninv.
Hypothesis Hinv : (eval mL * ninv + 1) mod B = 0.
Notation M := (eval mL).
Notation R := (Bn n).

Lemma lincomb_loop_spec prods : Forall (term_ok n) prods -> Z.of_nat (length prods) + 4 < B ->
  forall cnt j u hic u' hic', (j + cnt = n)%nat -> wf u -> length u = n ->
  0 <= hic <= Z.of_nat (length prods) + 2 ->
  (exists Q, 0 <= Q < Bn j /\ (eval u + R * hic) * Bn j = part_sum prods j + Q * M) ->
  lincomb_loop prods mL ninv j cnt u hic = (u', hic') ->
  wf u' /\ length u' = n /\ 0 <= hic' /\
  exists Q, 0 <= Q < R /\ (eval u' + R * hic') * R = part_sum prods n + Q * M.
Proof.
  intros Hp Hlen. induction cnt as [|c IH]; intros j u hic u' hic' Hj Hu Hl Hc HQ E.
  - cbn [lincomb_loop] in E. inv_pair E. replace j with n in HQ by lia.
    split; [assumption|]. split; [assumption|]. split; [lia | exact HQ].
  - cbn [lincomb_loop] in E.
    destruct (acc_terms prods j u hic 0) as [[u1 hi] hic1] eqn:E1.
    destruct (red_step u1 mL ninv hi hic1) as [u2 hic2] eqn:E2.
    assert (Hhw : is_word hic) by (unfold is_word; lia).
    destruct (acc_terms_spec n j prods u hic 0 u1 hi hic1 Hp Hu Hl Hhw ltac:(lia) ltac:(lia) E1)
      as (H1 & Hu1 & Hl1 & Hhi & Hc1).
    destruct (red_step_spec n mL ninv HmL HmLn Hinv u1 hi hic1 u2 hic2 Hu1 Hl1 Hn Hhi ltac:(lia) ltac:(lia) E2)
      as (q & Hq & H2 & Hu2 & Hl2 & Hc2).
    apply (IH (S j) u2 hic2 u' hic'); try assumption; try lia.
    destruct HQ as (Q & HQr & HQe). rewrite Z.mul_comm in HQe.
    destruct (quot_chain (Bn j) B Q q _ _ (eval u2 + R * hic2) (row_sum prods j) M HQr Hq HQe ltac:(lia)) as [HQ' HE'].
    exists (Q + Bn j * q). rewrite Bn_S, (Z.mul_comm B). split; [exact HQ'|].
    rewrite part_sum_S by (apply Forall_impl with (2 := Hp); intros ab (Ha & _); exact Ha). lia.
Qed.

(** hi_carry never loses a carry: the returned pair is the exact quotient *)
Theorem longa_exact prods u c : Forall (term_ok n) prods -> Z.of_nat (length prods) + 4 < B ->
  longa_lincomb prods mL ninv = (u, c) ->
  wf u /\ length u = n /\ 0 <= c /\
  exists Q, 0 <= Q < R /\ (eval u + R * c) * R = lin_sum prods + Q * M.
Proof.
  intros Hp Hlen E. unfold longa_lincomb in E. rewrite HmLn in E.
  destruct (lincomb_loop_spec prods Hp Hlen n 0%nat (zeros n) 0 u c ltac:(lia) (wf_zeros n) (length_zeros n) ltac:(lia)) as (H1 & H2 & H3 & Q & HQ & HE); try assumption.
  - exists 0. rewrite Bn_0, eval_zeros, part_sum_0. lia.
  - rewrite (part_sum_full n) in HE by assumption. split; [assumption|]. split; [assumption|]. split; [assumption|].
    exists Q. split; assumption.
Qed.

(** inside one window (sum < m*R) the accumulator stays below 2m: hi_carry <= 1 *)
Theorem lincomb_window_bound prods u c : Forall (term_ok n) prods -> Z.of_nat (length prods) + 4 < B ->
  0 < M <= R -> lin_sum prods < M * R ->
  longa_lincomb prods mL ninv = (u, c) ->
  0 <= eval u + R * c < 2 * M /\ 0 <= c <= 1 /\ ((eval u + R * c) * R) mod M = lin_sum prods mod M
  /\ wf u /\ length u = n.
Proof.
  intros Hp Hlen HM Hs E. destruct (longa_exact prods u c Hp Hlen E) as (Hu & Hl & Hc & Q & HQ & HE).
  pose proof (eval_bounds u Hu) as Bu. rewrite Hl in Bu. pose proof (Bn_pos n) as HR.
  assert (HQM : Q * M <= (R - 1) * M) by (apply Z.mul_le_mono_nonneg_r; lia).
  assert (HW : eval u + R * c < 2 * M).
  { apply Z.mul_lt_mono_pos_r with R; [assumption|]. rewrite HE. lia. }
  assert (Hc1 : c <= 1).
  { destruct (Z_le_gt_dec c 1); [assumption|]. assert (R * 2 <= R * c) by (apply Z.mul_le_mono_nonneg_l; lia). lia. }
  split; [split; [assert (0 <= R * c) by (apply Z.mul_nonneg_nonneg; lia); lia | assumption]|].
  split; [lia|]. split; [rewrite HE; apply Z.mod_add; lia|]. split; assumption.
Qed.
End Longa.

(** outside the debug assertion this is the model function of C08 *)
Lemma smwc_eq_monty dbg a carry b p : (dbg && (1 <? carry))%bool = false ->
  sub_mod_with_carry dbg a carry b p = Some (Monty.sub_mod_with_carry a carry b p).
Proof.
  intros H. unfold sub_mod_with_carry, Monty.sub_mod_with_carry, carry_mask. rewrite H.
  destruct (sbb_limbs a b 0). reflexivity.
Qed.

Lemma smwc_spec dbg a carry p : wf a -> wf p -> length a = length p -> length a <> 0%nat -> 0 <= carry <= 1 ->
  0 < eval p -> 0 <= eval a + Bn (length a) * carry < 2 * eval p ->
  exists r, sub_mod_with_carry dbg a carry p p = Some r /\
            eval r = (eval a + Bn (length a) * carry) mod eval p /\ wf r /\ length r = length a.
Proof.
  intros Ha Hp Hl Hn Hc Hp0 HV.
  rewrite smwc_eq_monty by (apply andb_false_iff; right; apply Z.ltb_ge; lia).
  destruct (sub_mod_with_carry_correct a carry p p Ha Hp Hp Hl Hl Hn Hc ltac:(lia)) as (He & Hw & Hlr).
  eexists. split; [reflexivity|]. split; [|split; assumption]. rewrite He.
  replace (eval a + Bn (length a) * carry - eval p) with (eval a + Bn (length a) * carry + (-1) * eval p) by ring.
  apply Z.mod_add. lia.
Qed.

(** the boxed variant (sbb_assign, conditional_adc_assign) computes the same limbs *)
Lemma boxed_smwc_eq dbg a carry p : wf a -> wf p -> length a = length p -> length a <> 0%nat -> 0 <= carry <= 1 ->
  boxed_sub_mod_with_carry dbg a carry p p = sub_mod_with_carry dbg a carry p p.
Proof.
  intros Ha Hp Hl Hn Hc. unfold boxed_sub_mod_with_carry, sub_mod_with_carry.
  destruct (dbg && (1 <? carry))%bool; [reflexivity|].
  destruct (sbb_limbs a p 0) as [out borrow] eqn:E.
  pose proof (sbb_limbs_correct a p 0 out borrow Ha Hp Hl is_word_0 E) as (Hw & Hlo & [(Hz & _)|(_ & Hib & He)]); [contradiction|].
  f_equal. unfold uint_wrapping_add. f_equal. f_equal. f_equal.
  assert (carry = 0 \/ carry = 1) as [-> | ->] by lia.
  - unfold carry_mask. rewrite carry_mask_0 by (apply is_borrow_word; assumption).
    destruct Hib as [-> | ->]; vm_compute; reflexivity.
  - unfold carry_mask. rewrite carry_mask_1. vm_compute. reflexivity.
Qed.

Section Drivers.
Variable n : nat.
Variables (mL : list Z) (ninv lz : Z).
Hypothesis HmL : wf mL.
Hypothesis HmLn : length mL = n.
Hypothesis Hn : n <> 0%nat.
Hypothesis Hninv : is_word ninv.
Hypothesis Hinv : (eval mL * ninv + 1) mod B = 0.
Notation M := (eval mL).
Notation R := (Bn n).
Hypothesis HM : 0 < M.
Hypothesis Hlz : 0 <= lz <= 63.
Hypothesis Hlzm : M * 2 ^ lz <= R.          (* lz does not exceed the real number of leading zero bits *)

Definition mterm_ok (ab : list Z * list Z) : Prop := Mf n M (fst ab) /\ Mf n M (snd ab).

Lemma mterm_term prods : Forall mterm_ok prods -> Forall (term_ok n) prods.
Proof.
  intros H. apply Forall_impl with (2 := H). intros ab ((H1 & H2 & _) & (H3 & H4 & _)). repeat split; assumption.
Qed.

Lemma lin_sum_bound prods : Forall mterm_ok prods -> lin_sum prods <= Z.of_nat (length prods) * ((M - 1) * (M - 1)).
Proof.
  induction prods as [|ab r IH]; intros H; [cbn; lia|].
  inversion H as [|ab' r' ((Ha & _ & Hla) & (Hb & _ & Hlb)) Hr]; subst ab' r'. specialize (IH Hr).
  cbn [lin_sum length]. rewrite Nat2Z.inj_succ.
  pose proof (eval_nonneg _ Ha). pose proof (eval_nonneg _ Hb).
  assert (eval (fst ab) * eval (snd ab) <= (M - 1) * (M - 1)) by (apply Z.mul_le_mono_nonneg; lia).
  lia.
Qed.

Lemma pow_lz_range : 1 <= 2 ^ lz <= 2 ^ 63.
Proof.
  split; [assert (0 < 2 ^ lz) by (apply Z.pow_pos_nonneg; lia); lia | apply Z.pow_le_mono_r; lia].
Qed.

Lemma MleR : M <= R.
Proof.
  pose proof pow_lz_range. assert (M * 1 <= M * 2 ^ lz) by (apply Z.mul_le_mono_nonneg_l; lia). lia.
Qed.

(** at most 2^lz terms below m: the sum of their products stays below m * R *)
Lemma window_sum_bound w : Forall mterm_ok w -> Z.of_nat (length w) <= 2 ^ lz ->
  Z.of_nat (length w) + 4 < B /\ lin_sum w < M * R.
Proof.
  intros Hw Hlen. pose proof pow_lz_range as Hp. pose proof MleR as HMR. pose proof (Bn_pos n) as HR.
  split; [rewrite B_val; change (2 ^ 64) with (2 * 2 ^ 63); change (2 ^ 63) with 9223372036854775808 in *; lia|].
  pose proof (lin_sum_bound w Hw) as Hb.
  assert (H1 : Z.of_nat (length w) * ((M - 1) * (M - 1)) <= 2 ^ lz * ((M - 1) * (M - 1))).
  { apply Z.mul_le_mono_nonneg_r; [apply Z.mul_nonneg_nonneg; lia | assumption]. }
  assert (H2 : 2 ^ lz * ((M - 1) * (M - 1)) <= (M * 2 ^ lz) * (M - 1)).
  { replace (2 ^ lz * ((M - 1) * (M - 1))) with ((M - 1) * 2 ^ lz * (M - 1)) by ring.
    apply Z.mul_le_mono_nonneg_r; [lia|]. apply Z.mul_le_mono_nonneg_r; lia. }
  assert (H3 : M * 2 ^ lz * (M - 1) <= R * (M - 1)) by (apply Z.mul_le_mono_nonneg_r; lia).
  lia.
Qed.

(** the accumulation bound in terms of the term count: at most 2^lz terms below m keep the two-level carry at <= 1
    (no word of the accumulator (u, hi, hi_carry) overflows) and the reduced value below 2m *)
Theorem lincomb_count_bound w u c : Forall mterm_ok w -> Z.of_nat (length w) <= 2 ^ lz ->
  longa_lincomb w mL ninv = (u, c) ->
  0 <= c <= 1 /\ 0 <= eval u + R * c < 2 * M /\ ((eval u + R * c) * R) mod M = lin_sum w mod M /\ wf u /\ length u = n.
Proof.
  intros Hw Hlen E. destruct (window_sum_bound w Hw Hlen) as [HlenB Hsum]. pose proof MleR as HMR.
  destruct (lincomb_window_bound n mL ninv HmL HmLn Hn Hinv w u c (mterm_term w Hw) HlenB ltac:(lia) Hsum E)
    as (HW & Hc & Hcong & Hu & Hl).
  split; [exact Hc|]. split; [exact HW|]. split; [exact Hcong|]. split; assumption.
Qed.

Lemma window_ok dbg w : Forall mterm_ok w -> Z.of_nat (length w) <= 2 ^ lz ->
  exists buf, (let '(u, c) := longa_lincomb w mL ninv in sub_mod_with_carry dbg u c mL mL) = Some buf /\
              Mf n M buf /\ (eval buf * R) mod M = lin_sum w mod M.
Proof.
  intros Hw Hlen. destruct (longa_lincomb w mL ninv) as [u c] eqn:E.
  destruct (lincomb_count_bound w u c Hw Hlen E) as (Hc & HW & Hcong & Hu & Hl).
  destruct (smwc_spec dbg u c mL Hu HmL ltac:(lia) ltac:(lia) Hc HM ltac:(rewrite Hl; exact HW)) as (r & Hr & Her & Hrw & Hrl).
  exists r. split; [exact Hr|]. rewrite Hl in Her.
  pose proof (Z.mod_pos_bound (eval u + R * c) M HM).
  split; [split; [assumption | split; [lia | lia]]|].
  rewrite Her, mulmod_l. exact Hcong.
Qed.

(** ... where the boxed subtraction (sbb_assign, conditional_adc_assign) returns the same limbs, since hi_carry <= 1 *)
Lemma boxed_window_eq dbg w : Forall mterm_ok w -> Z.of_nat (length w) <= 2 ^ lz ->
  (let '(u, c) := longa_lincomb w mL ninv in boxed_sub_mod_with_carry dbg u c mL mL) =
  (let '(u, c) := longa_lincomb w mL ninv in sub_mod_with_carry dbg u c mL mL).
Proof.
  intros Hw Hlen. destruct (longa_lincomb w mL ninv) as [u c] eqn:E.
  destruct (lincomb_count_bound w u c Hw Hlen E) as (Hc & _ & _ & Hu & Hl).
  apply boxed_smwc_eq; try assumption; lia.
Qed.

Lemma Mf_zeros : Mf n M (zeros n).
Proof. split; [apply wf_zeros|]. split; [apply length_zeros | rewrite eval_zeros; assumption]. Qed.

Lemma add_mod_Mf ret buf : Mf n M ret -> Mf n M buf ->
  Mf n M (add_mod ret buf mL) /\ eval (add_mod ret buf mL) = (eval ret + eval buf) mod M.
Proof.
  intros (Hrw & Hrl & Hrlt) (Hbw & Hbl & Hblt).
  destruct (add_mod_correct ret buf mL Hrw Hbw HmL ltac:(lia) ltac:(lia) Hrlt Hblt) as (Hae & Haw & Hal).
  split; [|exact Hae]. split; [assumption|]. split; [lia|]. rewrite Hae. apply Z.mod_pos_bound. assumption.
Qed.

(** the window loops take the first min(len, 2^lz) terms, at least one *)
Lemma first_window prods : prods <> [] -> Forall mterm_ok prods ->
  let count := split_count prods (2 ^ lz) in
  Forall mterm_ok (firstn count prods) /\ Z.of_nat (length (firstn count prods)) <= 2 ^ lz /\
  Forall mterm_ok (skipn count prods) /\ (length (skipn count prods) < length prods)%nat.
Proof.
  intros Hne Hp count. pose proof pow_lz_range.
  assert (0 < length prods)%nat by (destruct prods; [contradiction | cbn [length]; lia]).
  assert (Hc : (1 <= count <= length prods)%nat /\ Z.of_nat count <= 2 ^ lz) by (unfold count, split_count; lia).
  rewrite <- (firstn_skipn count prods) in Hp. apply Forall_app in Hp.
  rewrite firstn_length_le, skipn_length by lia. split; [apply Hp|]. split; [lia|]. split; [apply Hp | lia].
Qed.

Lemma lincomb_windows_S f dbg prods ma ret : prods <> [] ->
  lincomb_windows (S f) dbg prods mL ninv ma ret =
  let count := split_count prods ma in
  let '(buf, carry) := longa_lincomb (firstn count prods) mL ninv in
  match sub_mod_with_carry dbg buf carry mL mL with
  | None => None
  | Some buf' => lincomb_windows f dbg (skipn count prods) mL ninv ma (add_mod ret buf' mL)
  end.
Proof. destruct prods; [contradiction | reflexivity]. Qed.

Lemma boxed_lincomb_windows_S f dbg prods ma ret : prods <> [] ->
  boxed_lincomb_windows (S f) dbg prods mL ninv ma ret =
  let count := split_count prods ma in
  let '(buf, carry) := longa_lincomb (firstn count prods) mL ninv in
  match boxed_sub_mod_with_carry dbg buf carry mL mL with
  | None => None
  | Some buf' =>
      let '(s, c) := adc_limbs ret buf' 0 in
      match boxed_sub_mod_with_carry dbg s c mL mL with
      | None => None
      | Some ret' => boxed_lincomb_windows f dbg (skipn count prods) mL ninv ma ret'
      end
  end.
Proof. destruct prods; [contradiction | reflexivity]. Qed.

Lemma lincomb_windows_spec dbg : forall fuel prods ret, (length prods <= fuel)%nat -> Forall mterm_ok prods -> Mf n M ret ->
  exists z, lincomb_windows fuel dbg prods mL ninv (2 ^ lz) ret = Some z /\ Mf n M z /\
            (eval z * R) mod M = (eval ret * R + lin_sum prods) mod M.
Proof.
  induction fuel as [|f IH]; intros prods ret Hf Hp Hret.
  - destruct prods; [|cbn [length] in Hf; lia]. cbn [lincomb_windows lin_sum]. exists ret. rewrite Z.add_0_r. split; [reflexivity|]. split; [assumption | reflexivity].
  - assert (Hne : prods = [] \/ prods <> []) by (destruct prods; [left; reflexivity | right; discriminate]).
    destruct Hne as [->|Hne].
    + cbn [lincomb_windows lin_sum]. exists ret. rewrite Z.add_0_r. split; [reflexivity|]. split; [assumption | reflexivity].
    + rewrite lincomb_windows_S by assumption. cbv zeta.
      destruct (first_window prods Hne Hp) as (Hw & Hwl & Hr & Hrl). set (count := split_count prods (2 ^ lz)) in *.
      destruct (window_ok dbg (firstn count prods) Hw Hwl) as (buf & Hb & Hbm & Hbc).
      destruct (longa_lincomb (firstn count prods) mL ninv) as [u c]. rewrite Hb.
      destruct (add_mod_Mf ret buf Hret Hbm) as [Hret' Hae].
      destruct (IH (skipn count prods) (add_mod ret buf mL) ltac:(lia) Hr Hret') as (z & Hz & Hzm & Hzc).
      exists z. split; [exact Hz|]. split; [exact Hzm|].
      assert (Hsplit : lin_sum prods = lin_sum (firstn count prods) + lin_sum (skipn count prods)) by (rewrite <- lin_sum_app, firstn_skipn; reflexivity).
      rewrite Hzc, Hae, Hsplit.
      rewrite Zplus_mod, mulmod_l, <- Zplus_mod.
      replace ((eval ret + eval buf) * R + lin_sum (skipn count prods)) with (eval buf * R + (eval ret * R + lin_sum (skipn count prods))) by ring.
      rewrite Zplus_mod, Hbc, <- Zplus_mod. f_equal. ring.
Qed.

(** lincomb_monty_form / lincomb_const_monty_form: canonical, and R * result = sum a_i*b_i (mod m), ANY term count *)
Theorem lincomb_fixed_correct dbg prods : Forall mterm_ok prods ->
  exists z, lincomb_fixed dbg prods mL ninv lz = Some z /\ Mf n M z /\ (eval z * R) mod M = lin_sum prods mod M.
Proof.
  intros Hp. unfold lincomb_fixed. cbv zeta.
  destruct (Z.leb_spec (Z.of_nat (length prods)) (2 ^ lz)) as [Hle|Hgt].
  - apply (window_ok dbg prods Hp Hle).
  - rewrite HmLn.
    destruct (lincomb_windows_spec dbg (length prods) prods (zeros n) (le_n _) Hp Mf_zeros) as (z & Hz & Hzm & Hzc).
    exists z. split; [exact Hz|]. split; [exact Hzm|]. rewrite Hzc, eval_zeros. f_equal.
Qed.

(** BoxedMontyForm: the in-place forms give the same limbs *)
Lemma boxed_add_step dbg ret buf : Mf n M ret -> Mf n M buf ->
  (let '(s, c) := adc_limbs ret buf 0 in boxed_sub_mod_with_carry dbg s c mL mL) = Some (add_mod ret buf mL).
Proof.
  intros Hret Hbuf. destruct (add_mod_Mf ret buf Hret Hbuf) as [(Haw & Hal & _) Hae].
  destruct Hret as (Hrw & Hrl & Hrlt). destruct Hbuf as (Hbw & Hbl & Hblt).
  destruct (adc_limbs ret buf 0) as [s c] eqn:E.
  pose proof (adc_limbs_correct ret buf 0 s c Hrw Hbw ltac:(lia) is_word_0 E) as (He & Hs & Hls & Hco & Hsm).
  specialize (Hsm ltac:(lia)). unfold is_word in Hco.
  pose proof (eval_nonneg ret Hrw). pose proof (eval_nonneg buf Hbw).
  rewrite boxed_smwc_eq by (try assumption; lia).
  destruct (smwc_spec dbg s c mL Hs HmL ltac:(lia) ltac:(lia) ltac:(lia) HM ltac:(rewrite Hls; lia)) as (r & Hr & Her & Hrw' & Hrl').
  rewrite Hr. f_equal.
  apply eval_inj; try assumption; [lia|]. rewrite Her, Hae, Hls. f_equal. lia.
Qed.

Lemma boxed_windows_eq dbg : forall fuel prods ret, Forall mterm_ok prods -> Mf n M ret ->
  boxed_lincomb_windows fuel dbg prods mL ninv (2 ^ lz) ret = lincomb_windows fuel dbg prods mL ninv (2 ^ lz) ret.
Proof.
  induction fuel as [|f IH]; intros prods ret Hp Hret; [reflexivity|].
  assert (Hne : prods = [] \/ prods <> []) by (destruct prods; [left; reflexivity | right; discriminate]).
  destruct Hne as [->|Hne]; [reflexivity|].
  rewrite boxed_lincomb_windows_S, lincomb_windows_S by assumption. cbv zeta.
  destruct (first_window prods Hne Hp) as (Hw & Hwl & Hr & _). set (count := split_count prods (2 ^ lz)) in *.
  pose proof (boxed_window_eq dbg (firstn count prods) Hw Hwl) as Hbox.
  destruct (window_ok dbg (firstn count prods) Hw Hwl) as (buf & Hb & Hbm & _).
  destruct (longa_lincomb (firstn count prods) mL ninv) as [u c]. rewrite Hbox, Hb.
  pose proof (boxed_add_step dbg ret buf Hret Hbm) as Hstep.
  destruct (adc_limbs ret buf 0) as [s cs]. rewrite Hstep.
  apply IH; [assumption | apply add_mod_Mf; assumption].
Qed.

Theorem lincomb_boxed_correct dbg prods : Forall mterm_ok prods ->
  lincomb_boxed dbg prods mL ninv lz = lincomb_fixed dbg prods mL ninv lz.
Proof.
  intros Hp. unfold lincomb_boxed, lincomb_fixed. cbv zeta.
  destruct (Z.leb_spec (Z.of_nat (length prods)) (2 ^ lz)) as [Hle|Hgt].
  - apply (boxed_window_eq dbg prods Hp Hle).
  - rewrite HmLn. apply boxed_windows_eq; [assumption | exact Mf_zeros].
Qed.
End Drivers.
