(** C05: conjunctions of related statements, as the totality proofs (Proofs/TotalityBitsP.v, HalveP.v) use them. *)
From CB Require Import Model.Limbs Model.AddSub Model.Bits Proofs.WordP Proofs.LimbsP Proofs.AddSubP
  Proofs.BitsWordP Proofs.ShiftP Proofs.LadderP Proofs.BitQueryP Proofs.IntShiftP Proofs.WideP.
From Coq Require Import ZArith List Bool.
Open Scope Z_scope.

Lemma boxed_overflowing_shift_all :
  (forall a s, wf a -> a <> [] -> 0 <= s ->
  let bits := 64 * Z.of_nat (length a) in
  exists v, boxed_overflowing_shl a s = Some (v, negb (s <? bits)) /\ wf v /\ length v = length a /\
            eval v = if s <? bits then (eval a * 2 ^ s) mod Bn (length a) else 0) /\
  (forall a s, wf a -> a <> [] -> 0 <= s ->
  let bits := 64 * Z.of_nat (length a) in
  exists v, boxed_overflowing_shr a s = Some (v, negb (s <? bits)) /\ wf v /\ length v = length a /\
            eval v = if s <? bits then eval a / 2 ^ s else 0).
Proof. exact (conj boxed_overflowing_shl_correct boxed_overflowing_shr_correct). Qed.

Lemma limb_all :
  (forall lft dbg x s, is_word x -> 0 <= s ->
     limb_shift lft dbg x s = if s <? 64 then Val [[if lft then (x * 2 ^ s) mod B else x / 2 ^ s]] else PanicV) /\
  (forall (lft : bool) x s, is_word x -> 0 <= s < 64 -> is_word (if lft then (x * 2 ^ s) mod B else x / 2 ^ s)) /\
  (forall x, is_word x -> 64 - wlz x = spec_bits x) /\
  (forall x, is_word x -> wtz x = spec_trailing_zeros 64 x) /\
  (forall x, is_word x -> wto x = spec_trailing_ones 64 x).
Proof.
  exact (conj limb_shift_correct (conj limb_shift_is_word (conj limb_bits_correct
          (conj limb_trailing_zeros_correct limb_trailing_ones_correct)))).
Qed.

Lemma bit_length_all :
  (forall ls, wf ls ->
  limbs_leading_zeros ls = 64 * Z.of_nat (length ls) - spec_bits (eval ls)) /\
  (forall ls, wf ls -> ls <> [] -> limbs_bits_vartime ls = Some (spec_bits (eval ls))) /\
  (forall ls, wf ls -> ls <> [] ->
  limbs_bits_vartime ls = Some (64 * Z.of_nat (length ls) - limbs_leading_zeros ls)) /\
  (forall v, 0 < v ->
  Z.testbit v (spec_bits v - 1) = true /\ forall i, spec_bits v <= i -> Z.testbit v i = false).
Proof.
  exact (conj limbs_leading_zeros_correct (conj limbs_bits_vartime_correct (conj bits_ct_eq_vartime spec_bits_testbit))).
Qed.

Lemma set_bit_all :
  (forall ls index b,
  wf ls -> Z.of_nat (length ls) < U32 -> 0 <= index < 64 * Z.of_nat (length ls) ->
  let r := limbs_set_bit ls index (choice_of_bool b) in
  wf r /\ length r = length ls /\ eval r = spec_set_bit (eval ls) index b) /\
  (forall ls index b,
  wf ls -> Z.of_nat (length ls) < U32 -> 64 * Z.of_nat (length ls) <= index < U32 ->
  limbs_set_bit ls index (choice_of_bool b) = ls) /\
  (forall ls index b, wf ls -> 0 <= index ->
  if index <? 64 * Z.of_nat (length ls)
  then exists r, limbs_set_bit_vartime ls index b = Some r /\ wf r /\ length r = length ls /\
                 eval r = spec_set_bit (eval ls) index b
  else limbs_set_bit_vartime ls index b = None) /\
  (forall v i b j, 0 <= v -> 0 <= i -> 0 <= j ->
  Z.testbit (spec_set_bit v i b) j = if j =? i then b else Z.testbit v j).
Proof.
  exact (conj limbs_set_bit_correct (conj limbs_set_bit_out_of_range
          (conj limbs_set_bit_vartime_correct spec_set_bit_testbit))).
Qed.

