(** C18: the defects of the code as found, as closed terms (vm_compute on the faithful model, fx = false). *)
From CB Require Import Model.Limbs Model.Conv Model.Der.
From Coq Require Import ZArith List.
Import ListNotations.
Open Scope Z_scope.

(** F8: U64::from_der of an INTEGER with nine significant octets (2^64) panics *)
Lemma der_from_any_oversize_refuted : der_from_any false 1 [2; 9; 1; 0; 0; 0; 0; 0; 0; 0; 0] = Pn.
Proof. vm_compute. reflexivity. Qed.
Lemma der_from_uintref_oversize_refuted : der_from_uintref false 1 [1; 0; 0; 0; 0; 0; 0; 0; 0] = Pn.
Proof. vm_compute. reflexivity. Qed.
