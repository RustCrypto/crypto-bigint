(** C17 proofs, part 5: radix_encode_limbs_by_shifting (radix 2, 4, 8, 16, 32) writes the fixed-width
    big-endian digit string of the value; with the leading zeros stripped this is the canonical numeral. *)
From CB Require Import Model.Limbs Model.Conv Model.Radix Proofs.WordP Proofs.WordPredP Proofs.LimbsP Proofs.ConvDigitsP Proofs.BitsP Proofs.DivShiftP
  Proofs.RadixSpecP Proofs.RadixParseP Proofs.RadixParamsP.
From Coq Require Import ZArith Znumtheory Lia List Bool.
Import ListNotations.
Open Scope Z_scope.
Open Scope list_scope.

Section Pow2.
Variable rb : Z.
Hypothesis Hrb : 1 <= rb <= 5.
Let r := 2 ^ rb.

Lemma r_ge2 : 2 <= r.
Proof. unfold r. assert (2 ^ 1 <= 2 ^ rb) by (apply Z.pow_le_mono_r; lia). lia. Qed.
Lemma r_pow (e : nat) : r ^ Z.of_nat e = 2 ^ (rb * Z.of_nat e).
Proof. unfold r. rewrite <- Z.pow_mul_r by lia. reflexivity. Qed.

Lemma digit_mask_mod dg : Z.land (dg mod 256) (r - 1) = dg mod r.
Proof.
  replace (r - 1) with (Z.ones rb) by (rewrite Z.ones_equiv; unfold r; lia).
  rewrite Z.land_ones by lia. fold r. symmetry. apply Zmod_div_mod; [pose proof r_ge2; lia | lia|].
  exists (2 ^ (8 - rb)). unfold r. rewrite <- Z.pow_add_r by lia. replace (8 - rb + rb) with 8 by lia. reflexivity.
Qed.

Lemma emit_shift_spec : forall cnt dg db w,
  emit_shift cnt rb (r - 1) dg db w =
  (dg / r ^ Z.of_nat cnt, db - rb * Z.of_nat cnt, map digit_char (rev (digits r cnt dg)) ++ w).
Proof.
  pose proof r_ge2 as Hr.
  induction cnt as [|c IH]; intros dg db w.
  - cbn [emit_shift digits rev map app]. change (Z.of_nat 0) with 0. rewrite Z.pow_0_r, Z.div_1_r. f_equal. f_equal. lia.
  - cbn [emit_shift digits rev]. rewrite IH, digit_mask_mod. fold r. rewrite map_app, <- app_assoc. cbn [map app].
    rewrite pow_S_nat, Z.div_div by (try apply pow_pos_nat; lia). f_equal. f_equal. lia.
Qed.

Lemma Bn_split (p e : nat) : rb * Z.of_nat e <= 64 * Z.of_nat p ->
  Bn p = r ^ Z.of_nat e * 2 ^ (64 * Z.of_nat p - rb * Z.of_nat e).
Proof.
  intros H. rewrite Bn_2, r_pow, <- Z.pow_add_r by lia. f_equal. lia.
Qed.

Lemma low_digits_ext (p e : nat) P l : rb * Z.of_nat e <= 64 * Z.of_nat p ->
  digits r e (P + Bn p * l) = digits r e P.
Proof.
  intros H. pose proof r_ge2. rewrite <- (digits_mod r e (P + Bn p * l)), <- (digits_mod r e P) by lia. f_equal.
  rewrite (Bn_split p e H).
  replace (P + r ^ Z.of_nat e * 2 ^ (64 * Z.of_nat p - rb * Z.of_nat e) * l)
    with (P + (2 ^ (64 * Z.of_nat p - rb * Z.of_nat e) * l) * r ^ Z.of_nat e) by ring.
  apply Z_mod_plus_full.
Qed.

(* `digits |= limb << (digit_bits % 64)`: with e digits written of the p-limb prefix P, the pending bits are
   P / r^e (fewer than rb of them); or-ing in the next limb l gives the pending part of the longer number *)
Lemma pending_next_limb (p e : nat) P l dg db : 0 <= P < Bn p -> 0 <= l < B ->
  db = 64 * Z.of_nat p - rb * Z.of_nat e -> 0 <= db < rb -> dg = P / r ^ Z.of_nat e ->
  Z.lor dg (wrap2 (l * 2 ^ ((db + 64) mod 64))) = (P + Bn p * l) / r ^ Z.of_nat e.
Proof.
  intros HPb Hl Hdb Hlt Hdg. pose proof r_ge2 as Hr. pose proof (pow_pos_nat r e ltac:(lia)) as Hre.
  assert (H2db : 0 < 2 ^ db) by (apply Z.pow_pos_nonneg; lia).
  pose proof (Bn_split p e ltac:(lia)) as HBs. rewrite <- Hdb in HBs.
  assert (Hdglt : 0 <= dg < 2 ^ db).
  { rewrite Hdg. split; [apply Z.div_pos; lia | apply Z.div_lt_upper_bound; lia]. }
  assert (Hmod : (db + 64) mod 64 = db).
  { replace (db + 64) with (db + 1 * 64) by lia. rewrite Z_mod_plus_full. apply Z.mod_small. lia. }
  assert (Hwr : wrap2 (l * 2 ^ db) = l * 2 ^ db).
  { unfold wrap2. apply Z.mod_small. rewrite BB_val. pose proof B_gt1.
    assert (2 ^ db <= 2 ^ 5) by (apply Z.pow_le_mono_r; lia). assert (2 ^ 5 < B) by (rewrite B_val; reflexivity). nia. }
  rewrite Hmod, Hwr, Z.lor_comm, lor_disjoint by lia. rewrite HBs.
  replace (P + r ^ Z.of_nat e * 2 ^ db * l) with (P + (l * 2 ^ db) * r ^ Z.of_nat e) by ring.
  rewrite Z.div_add by lia. rewrite Hdg. ring.
Qed.

(* invariant of the outer loop, [pre] the limbs consumed so far: [w] holds the low |w| digits of [pre]; while
   places are left ([oi] > 0) [dg] holds the bits of [pre] not yet written and [db] < rb counts them *)
Lemma shift_go_spec (size : nat) : forall ls pre dg db oi w,
  wf pre -> wf ls ->
  (oi + length w = size)%nat ->
  w = map digit_char (rev (digits r (length w) (eval pre))) ->
  rb * Z.of_nat (length w) <= 64 * Z.of_nat (length pre) ->
  (oi = 0%nat \/ (db = 64 * Z.of_nat (length pre) - rb * Z.of_nat (length w) /\ db < rb /\
                  dg = eval pre / r ^ Z.of_nat (length w))) ->
  forall oi' w', shift_go rb (r - 1) ls dg db oi w = (oi', w') ->
  (oi' + length w' = size)%nat /\ w' = map digit_char (rev (digits r (length w') (eval (pre ++ ls)))) /\
  rb * Z.of_nat (length w') <= 64 * Z.of_nat (length (pre ++ ls)) /\
  (oi' = 0%nat \/ 64 * Z.of_nat (length (pre ++ ls)) - rb * Z.of_nat (length w') < rb).
Proof.
  pose proof r_ge2 as Hr.
  induction ls as [|l t IH]; intros pre dg db oi w Hwp Hwl Hsz Hw Hle Hst oi' w' E.
  - cbn [shift_go] in E. inv_pair E. rewrite app_nil_r. repeat split; try assumption.
    destruct Hst as [H0|(Hdb & Hlt & _)]; [left; assumption | right; lia].
  - apply wf_cons in Hwl. destruct Hwl as [Hl Hwt]. cbn [shift_go] in E.
    set (p := length pre) in *. set (e := length w) in *. set (P := eval pre) in *.
    assert (Hpre' : wf (pre ++ [l])) by (apply wf_app; split; [assumption | apply wf_cons; split; [assumption | apply wf_nil]]).
    assert (HP' : eval (pre ++ [l]) = P + Bn p * l) by (apply eval_snoc).
    assert (Hlen' : length (pre ++ [l]) = S p) by (rewrite app_length; cbn [length]; lia).
    assert (Happ : (pre ++ [l]) ++ t = pre ++ l :: t) by (rewrite <- app_assoc; reflexivity).
    destruct Hst as [H0|(Hdb & Hlt & Hdg)].
    + (* the output is already full *)
      subst oi. rewrite Nat.min_0_r in E. cbn [emit_shift] in E. cbn [Nat.sub] in E.
      rewrite <- Happ. refine (IH (pre ++ [l]) _ _ _ _ Hpre' Hwt _ _ _ _ oi' w' E).
      * assumption.
      * rewrite HP'. fold e. rewrite low_digits_ext by assumption. assumption.
      * rewrite Hlen'. fold e. lia.
      * left. reflexivity.
    + unfold is_word in Hl. pose proof (eval_bounds pre Hwp) as HPb. fold P p in HPb.
      assert (Hdb0 : 0 <= db) by lia.
      rewrite (pending_next_limb p e P l dg db HPb Hl Hdb ltac:(lia) Hdg), <- HP' in E.
      set (P' := eval (pre ++ [l])) in *.
      set (cnt := Nat.min (Z.to_nat ((db + 64) / rb)) oi) in *.
      rewrite emit_shift_spec in E.
      assert (Havail : 0 <= (db + 64) / rb) by (apply Z.div_pos; lia).
      assert (Hcnt : rb * Z.of_nat cnt <= db + 64).
      { assert (Z.of_nat cnt <= (db + 64) / rb) by (unfold cnt; lia).
        pose proof (Z.mul_div_le (db + 64) rb ltac:(lia)). nia. }
      assert (Hlw2 : forall x, length (map digit_char (rev (digits r cnt x)) ++ w) = (cnt + e)%nat).
      { intros x. rewrite app_length, map_length, rev_length, length_digits. reflexivity. }
      rewrite <- Happ. refine (IH (pre ++ [l]) _ _ _ _ Hpre' Hwt _ _ _ _ oi' w' E).
      * rewrite Hlw2. unfold cnt. lia.
      * rewrite Hlw2. fold P'.
        rewrite (Nat.add_comm cnt e), digits_app by lia. rewrite rev_app_distr, map_app. f_equal.
        rewrite HP'. rewrite low_digits_ext by assumption. exact Hw.
      * rewrite Hlw2. rewrite Hlen'. lia.
      * rewrite Hlw2. rewrite Hlen'.
        destruct (Nat.eq_dec cnt oi) as [Heq|Hneq]; [left; lia|]. right.
        assert (Hc : Z.of_nat cnt = (db + 64) / rb) by (unfold cnt in *; lia).
        split; [lia|]. split.
        -- rewrite Hc. pose proof (Z.mod_pos_bound (db + 64) rb ltac:(lia)) as Hmb. rewrite Z.mod_eq in Hmb by lia. lia.
        -- fold P'. rewrite Z.div_div by (try apply pow_pos_nat; lia). rewrite <- pow_add_nat.
           rewrite (Nat.add_comm cnt e). reflexivity.
Qed.

Lemma by_shifting_correct limbs (size : nat) : wf limbs -> limbs <> [] ->
  64 * Z.of_nat (length limbs) <= rb * Z.of_nat size -> rb * Z.of_nat size < 64 * Z.of_nat (length limbs) + rb ->
  shift_go rb (r - 1) (limbs ++ [0]) 0 0 size [] = (0%nat, map digit_char (rev (digits r size (eval limbs)))).
Proof.
  intros Hw Hne Hlo Hhi. pose proof r_ge2 as Hr.
  destruct (shift_go rb (r - 1) (limbs ++ [0]) 0 0 size []) as [oi' w'] eqn:E.
  assert (Hwl : wf (limbs ++ [0])) by (apply wf_app; split; [assumption | apply wf_cons; split; [apply is_word_0' | apply wf_nil]]).
  pose proof (shift_go_spec size (limbs ++ [0]) [] 0 0 size [] wf_nil Hwl ltac:(cbn [length]; lia) eq_refl
                ltac:(cbn [length]; lia)
                ltac:(right; cbn [length eval]; change (Z.of_nat 0) with 0; rewrite Z.pow_0_r; repeat split; try lia; reflexivity)
                oi' w' E) as (H1 & H2 & H3 & H4).
  cbn [app] in H2, H3, H4. rewrite app_length in H3, H4. cbn [length] in H3, H4.
  assert (Hev : eval (limbs ++ [0]) = eval limbs) by (rewrite eval_snoc; lia).
  rewrite Hev in H2.
  assert (oi' = 0%nat).
  { destruct H4 as [|H4]; [assumption|]. destruct oi'; [reflexivity|]. exfalso.
    assert (Z.of_nat (length w') <= Z.of_nat size - 1) by lia.
    assert (rb * Z.of_nat (length w') <= rb * (Z.of_nat size - 1)) by (apply Z.mul_le_mono_nonneg_l; lia). lia. }
  subst oi'. assert (length w' = size) by lia. rewrite H in H2. rewrite H2. reflexivity.
Qed.

End Pow2.

Lemma div_ceil_nat_spec a b : 0 <= a -> 0 < b ->
  a <= b * Z.of_nat (div_ceil_nat a b) /\ b * Z.of_nat (div_ceil_nat a b) < a + b.
Proof.
  intros Ha Hb. unfold div_ceil_nat. pose proof (Z.div_mod a b ltac:(lia)). pose proof (Z.mod_pos_bound a b Hb).
  assert (0 <= a / b) by (apply Z.div_pos; lia).
  destruct (Z.ltb_spec 0 (a mod b)); rewrite Z2Nat.id by lia; nia.
Qed.

(** power-of-two radixes: the formatter returns the canonical numeral *)
Theorem format_pow2_correct fixed r limbs : 2 <= r <= 36 -> is_power_of_two r = true -> wf limbs -> limbs <> [] ->
  radix_encode_limbs_to_string fixed r limbs = Some (numeral r (eval limbs)).
Proof.
  intros Hr Hp Hw Hne. destruct (pow2_facts r Hr Hp) as [Hrb Hrr].
  unfold radix_encode_limbs_to_string. destruct (Z.ltb_spec r 2); [lia|]. destruct (Z.ltb_spec 36 r); [lia|]. cbn [orb].
  rewrite Hp. f_equal. set (rb := trailing_zeros r) in *.
  assert (Hlen : (1 <= length limbs)%nat) by (destruct limbs; [contradiction | cbn [length]; lia]).
  unfold lenZ. destruct (div_ceil_nat_spec (Z.of_nat (length limbs) * 64) rb ltac:(lia) ltac:(lia)) as [Hlo Hhi].
  set (size := div_ceil_nat (Z.of_nat (length limbs) * 64) rb) in *.
  unfold radix_encode_limbs_by_shifting. fold rb.
  rewrite Hrr at 1.
  rewrite (by_shifting_correct rb Hrb limbs size Hw Hne ltac:(lia) ltac:(lia)). cbn [repeat app].
  rewrite <- Hrr.
  rewrite (map_ext digit_char sp_digit_char digit_char_sp).
  apply numeral_fixed; [assumption | |].
  - destruct size; [lia | lia].
  - pose proof (eval_bounds limbs Hw) as Hb. rewrite Bn_2 in Hb. split; [lia|].
    assert (2 ^ Z.of_nat (64 * length limbs) <= r ^ Z.of_nat size).
    { rewrite Hrr, <- Z.pow_mul_r by lia. apply Z.pow_le_mono_r; lia. }
    lia.
Qed.
