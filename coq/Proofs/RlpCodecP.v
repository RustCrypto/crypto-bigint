(** C18 proofs, part 4: the RLP model against the specification. *)
From CB Require Import Model.Limbs Model.Conv Model.Der Proofs.WordP Proofs.LimbsP Proofs.ConvDigitsP Proofs.ConvBytesP
  Proofs.DerSpecP Proofs.DerCodecP.
From Coq Require Import ZArith Lia List Bool.
Import ListNotations.
Open Scope Z_scope.
Open Scope list_scope.
Lemma payload_spec x : 0 <= x ->
  wfd 256 (sp_rlp_payload x) /\ no_lead0 (sp_rlp_payload x) /\ bev (sp_rlp_payload x) = x /\ lenZ (sp_rlp_payload x) = sp_octets x.
Proof.
  intros Hx. unfold sp_rlp_payload. repeat split.
  - apply wfd_sp_be.
  - apply minimal_no_lead0. assumption.
  - apply bev_minimal. assumption.
  - apply lenZ_sp_be, sp_octets_nonneg.
Qed.
Lemma payload_unique d : wfd 256 d -> no_lead0 d -> d = sp_rlp_payload (bev d).
Proof. apply minimal_unique. Qed.
Lemma octets_small x : 0 < x < 128 -> sp_octets x = 1.
Proof. intros. apply sp_octets_unique; simpl; lia. Qed.
Lemma octets_ge2 x : 256 <= x -> 2 <= sp_octets x.
Proof.
  intros H. destruct (sp_octets_range x ltac:(lia)) as (H1 & _ & Hu).
  destruct (Z.leb_spec 2 (sp_octets x)); [assumption|]. assert (sp_octets x = 1) as E by lia. rewrite E in Hu. simpl in Hu. lia.
Qed.
Lemma rlp_header_size_ok x : 0 <= x ->
  sp_rlp_header_size (sp_rlp_header x ++ sp_rlp_payload x) = length (sp_rlp_header x).
Proof.
  intros Hx. unfold sp_rlp_header_size, sp_rlp_header.
  destruct (Z.eqb_spec x 0) as [->|Hn]; [reflexivity|].
  destruct (Z.ltb_spec x 128) as [Hs|Hs].
  - cbn [app length]. unfold sp_rlp_payload. rewrite octets_small by lia. change (sp_be 1 x) with [x mod 256]. rewrite Z.mod_small by lia.
    cbn [nthz nth]. rewrite ltb_true by lia. reflexivity.
  - pose proof (sp_octets_range x ltac:(lia)) as (H1 & _).
    destruct (Z.leb_spec (sp_octets x) 55).
    + cbn [app nthz nth length]. rewrite ltb_false by lia. rewrite leb_true by lia. reflexivity.
    + cbn [app nthz nth length]. pose proof (sp_octets_range (sp_octets x) ltac:(lia)) as (H2 & _).
      rewrite ltb_false by lia. rewrite leb_false by lia. rewrite length_sp_be. lia.
Qed.
Theorem sp_rlp_decode_iff n bs v : wfd 256 bs ->
  sp_rlp_decode n bs = Some v <-> (0 <= v < Bn n /\ bs = sp_rlp_encode v).
Proof.
  intros Hw. split.
  - intros H. apply (sp_decode_at_some _ _ _ _ _ _ Hw) in H. exact H.
  - intros [Hv ->]. unfold sp_rlp_decode, sp_rlp_encode. rewrite rlp_header_size_ok by lia.
    apply (sp_decode_at_complete sp_rlp_header sp_rlp_payload n v Hv). apply payload_spec. lia.
Qed.
Lemma head_value_bounds b r : wfd 256 (b :: r) -> b <> 0 ->
  0 < bev (b :: r) /\ (r <> [] -> 256 <= bev (b :: r)) /\ (r = [] -> bev (b :: r) = b).
Proof.
  intros Hw Hb. pose proof Hw as Hw'. apply wfd_cons in Hw'.
  destruct (bev_head_window b r 0 8 Hw) as [Hpos [Hl _]]; [lia | change (2 ^ 0) with 1; change (2 ^ 8) with 256; lia|].
  repeat split; [assumption | | intros ->; apply bev_single].
  intros Hn. destruct r as [|c r']; [contradiction|]. rewrite lenZ_cons in Hl. pose proof (lenZ_nonneg r').
  assert (2 ^ 8 <= 2 ^ (8 * (1 + lenZ r') + 0)) by (apply Z.pow_le_mono_r; lia). change (2 ^ 8) with 256 in *. lia.
Qed.
Lemma rlp_size_bytes_spec len : 0 <= len < 4294967296 ->
  rlp_size_bytes len = sp_be (sp_octets len) len.
Proof.
  intros H. unfold rlp_size_bytes. rewrite Z.mod_small by assumption. change (rev (digits 256 4 len)) with (sp_be 4 len).
  apply strip_all_sp_be; [lia|]. change (256 ^ 4) with 4294967296. assumption.
Qed.
Lemma rlp_encode_value_spec p : wfd 256 p -> no_lead0 p -> lenZ p < 4294967296 ->
  rlp_encode_value p = sp_rlp_header (bev p) ++ p.
Proof.
  intros Hw Hn Hl. destruct p as [|first r]; [reflexivity|]. cbn [no_lead0] in Hn.
  pose proof (head_value_bounds first r Hw Hn) as (Hpos & Hbig & Hone).
  pose proof (octets_of_string first r Hw Hn) as Ho. set (x := bev (first :: r)) in *.
  pose proof Hw as Hw'. apply wfd_cons in Hw'. destruct Hw' as [Hf _].
  unfold rlp_encode_value, sp_rlp_header. fold x. rewrite Ho. rewrite (eqb_false x 0) by lia.
  set (len := lenZ (first :: r)) in *. assert (1 <= len) by (unfold len; rewrite lenZ_cons; pose proof (lenZ_nonneg r); lia).
  destruct (Z.leb_spec len 55) as [H55|H55].
  - destruct (Z.eqb_spec len 1) as [E1|N1].
    + assert (r = []). { destruct r; [reflexivity|]. unfold len in E1. rewrite !lenZ_cons in E1. pose proof (lenZ_nonneg r). lia. }
      subst r. rewrite (Hone eq_refl). cbn [andb]. destruct (Z.ltb_spec first 128); reflexivity.
    + cbn [andb]. assert (r <> []). { intros ->. apply N1. reflexivity. }
      rewrite ltb_false by (specialize (Hbig H0); lia). reflexivity.
  - assert (r <> []). { intros ->. unfold len in H55. unfold lenZ in H55. cbn [length] in H55. lia. }
    rewrite ltb_false by (specialize (Hbig H0); lia).
    rewrite rlp_size_bytes_spec by lia. rewrite lenZ_sp_be by apply sp_octets_nonneg. reflexivity.
Qed.
Theorem rlp_encode_spec ls : wf ls -> 8 * Z.of_nat (length ls) < 4294967296 ->
  rlp_encode ls = sp_rlp_encode (eval ls).
Proof.
  intros Hw Hb. pose proof (eval_bounds ls Hw) as Hx. rewrite Bn_256 in Hx.
  unfold rlp_encode. rewrite uint_to_be_bytes_sp by assumption. rewrite strip_all_sp_be by lia.
  change (sp_be (sp_octets (eval ls)) (eval ls)) with (sp_rlp_payload (eval ls)).
  destruct (payload_spec (eval ls) ltac:(lia)) as (Hwp & Hnp & Hbp & Hlp).
  rewrite rlp_encode_value_spec; try assumption.
  - rewrite Hbp. reflexivity.
  - rewrite Hlp. pose proof (sp_octets_le (eval ls) (Z.of_nat (8 * length ls)) ltac:(lia) ltac:(lia) ltac:(lia)). lia.
Qed.
Lemma slice_app hdr d rest : slice (hdr ++ d ++ rest) (lenZ hdr) (lenZ hdr + lenZ d) = d.
Proof.
  unfold slice, lenZ. replace (Z.of_nat (length hdr) + Z.of_nat (length d) - Z.of_nat (length hdr)) with (Z.of_nat (length d)) by lia.
  rewrite !Nat2Z.id. rewrite skipn_app_len by reflexivity. apply firstn_app_len. reflexivity.
Qed.
Lemma slice_head l x rest : slice (l :: x ++ rest) 1 (1 + lenZ x) = x.
Proof. exact (slice_app [l] x rest). Qed.
Lemma slice_tail hdr d : slice (hdr ++ d) (lenZ hdr) (lenZ hdr + lenZ d) = d.
Proof. rewrite <- (app_nil_r d) at 1. apply slice_app. Qed.
Lemma slice_cons l bs k : 0 <= k -> slice (l :: bs) 1 (1 + k) = firstn (Z.to_nat k) bs.
Proof. intros. unfold slice. replace (1 + k - 1) with k by lia. reflexivity. Qed.
Lemma decode_usize_ok lb : lb <> [] -> no_lead0 lb -> lenZ lb <= 8 -> decode_usize lb = Ok (bev lb).
Proof.
  intros Hn H0 Hl. unfold decode_usize. rewrite (proj2 (Nat.leb_le _ _)) by (unfold lenZ in Hl; lia).
  destruct lb as [|b r]; [contradiction|]. cbn [no_lead0] in H0. rewrite eqb_false by assumption. rewrite horner_bev. reflexivity.
Qed.
Lemma decode_usize_inv lb v : decode_usize lb = Ok v -> lb <> [] /\ no_lead0 lb /\ lenZ lb <= 8 /\ v = bev lb.
Proof.
  unfold decode_usize. destruct (Nat.leb_spec (length lb) 8); [|discriminate]. destruct lb as [|b r]; [discriminate|].
  destruct (Z.eqb_spec b 0); [discriminate|]. intros E. apply ok_inj in E. rewrite horner_bev in E.
  repeat split; try discriminate; try assumption; try (unfold lenZ; lia); auto.
Qed.
Lemma decode_usize_nopn lb : lb <> [] -> decode_usize lb <> Pn.
Proof. intros H. unfold decode_usize. destruct (Nat.leb (length lb) 8); [|discriminate]. destruct lb; [contradiction|]. destruct (z =? 0); discriminate. Qed.

Lemma rlp_glue_run n d : wfd 256 d -> no_lead0 d ->
  rlp_glue n d = if Nat.ltb (8 * n) (length d) then Er R_IsTooBig else Ok (to_limbs n (bev d)).
Proof.
  intros Hw Hn. unfold rlp_glue.
  assert (E : match d with b :: _ => b =? 0 | [] => false end = false).
  { destruct d as [|b r]; [reflexivity|]. cbn [no_lead0] in Hn. apply eqb_false. assumption. }
  rewrite E. destruct (Nat.ltb_spec (8 * n) (length d)); [reflexivity|].
  destruct (from_be_pad n d Hw ltac:(lia)) as [-> _]. reflexivity.
Qed.
Lemma rlp_glue_ok n d v : wfd 256 d -> rlp_glue n d = Ok v ->
  no_lead0 d /\ (length d <= 8 * n)%nat /\ v = to_limbs n (bev d) /\ 0 <= bev d < Bn n.
Proof.
  intros Hw H. assert (Hn : no_lead0 d).
  { unfold rlp_glue in H. destruct d as [|b r]; [exact I|]. cbn [no_lead0]. destruct (Z.eqb_spec b 0); [discriminate | assumption]. }
  rewrite rlp_glue_run in H by assumption. destruct (Nat.ltb_spec (8 * n) (length d)); [discriminate|].
  apply ok_inj in H. destruct (from_be_pad n d Hw ltac:(lia)) as [_ Hb]. auto.
Qed.
Lemma rlp_glue_nopn n d : rlp_glue n d <> Pn.
Proof.
  unfold rlp_glue. destruct (match d with b :: _ => b =? 0 | [] => false end); [discriminate|].
  destruct (Nat.ltb_spec (8 * n) (length d)); [discriminate|].
  apply from_be_pad_nopn. lia.
Qed.
Definition rlp_shape (strict : bool) (hdr d : list Z) : Prop :=
  (hdr = [] /\ exists l, d = [l] /\ l <= 127) \/
  (hdr = [128 + lenZ d] /\ lenZ d <= 55 /\ ~ (exists b, d = [b] /\ b < 128)) \/
  (exists lb, hdr = (183 + lenZ lb) :: lb /\ lb <> [] /\ lenZ lb <= 8 /\ no_lead0 lb /\ bev lb = lenZ d /\
              (strict = true -> 55 < lenZ d)).

Lemma lenZ_single (b : Z) : lenZ [b] = 1. Proof. reflexivity. Qed.
Lemma lenZ_1_inv (d : list Z) : lenZ d = 1 -> exists b, d = [b].
Proof. destruct d as [|b [|c r]]; unfold lenZ; cbn [length]; intros; try lia. exists b. reflexivity. Qed.

(** BasicDecoder::decode_value on an item of one of the three shapes hands the payload to the closure *)
Lemma rdv_run {A} (f : list Z -> res A) strict hdr d rest : rlp_shape strict hdr d ->
  lenZ (hdr ++ d ++ rest) < USIZE -> rlp_decode_value f (hdr ++ d ++ rest) = f d.
Proof.
  intros Hs Hl. destruct Hs as [(-> & l & -> & Hl127) | [(-> & H55 & Hnb) | (lb & -> & Hne & H8 & Hn0 & Hbv & _)]].
  - cbn [app rlp_decode_value]. rewrite leb_true by assumption. reflexivity.
  - pose proof (lenZ_nonneg d) as Hd. cbn [app rlp_decode_value].
    rewrite leb_false by lia. rewrite leb_true by lia.
    replace (1 + (128 + lenZ d) - 128) with (1 + lenZ d) by lia.
    rewrite lenZ_cons, lenZ_app. pose proof (lenZ_nonneg rest). rewrite ltb_false by lia.
    rewrite slice_head.
    destruct (Z.eqb_spec (128 + lenZ d) 129) as [E|N]; [|reflexivity].
    destruct (lenZ_1_inv d ltac:(lia)) as (b & ->). cbn [nthz nth andb].
    destruct (Z.ltb_spec b 128); [|reflexivity]. exfalso. apply Hnb. exists b. auto.
  - pose proof (lenZ_nonneg d) as Hd. pose proof (lenZ_nonneg rest) as Hr.
    assert (1 <= lenZ lb). { destruct lb; [contradiction|]. rewrite lenZ_cons. pose proof (lenZ_nonneg lb). lia. }
    cbn [app rlp_decode_value]. rewrite leb_false by lia. rewrite leb_false by lia. rewrite leb_true by lia.
    replace (183 + lenZ lb - 183) with (lenZ lb) by lia.
    cbn [app] in Hl. rewrite lenZ_cons, !lenZ_app in *.
    rewrite ltb_false by lia.
    rewrite slice_head, decode_usize_ok by assumption. cbn [bind]. rewrite Hbv.
    rewrite leb_false by lia. rewrite ltb_false by lia.
    f_equal. rewrite <- (lenZ_cons (183 + lenZ lb) lb). apply (slice_app (183 + lenZ lb :: lb)).
Qed.

(** payload_info on a strict item (whatever follows it) *)
Lemma pi_run_rest hdr d rest : rlp_shape true hdr d -> lenZ (hdr ++ d ++ rest) < USIZE ->
  payload_info (hdr ++ d ++ rest) = Ok (lenZ hdr, lenZ d).
Proof.
  intros Hs Hl. pose proof (lenZ_nonneg rest) as Hrest.
  destruct Hs as [(-> & l & -> & Hl127) | [(-> & H55 & Hnb) | (lb & -> & Hne & H8 & Hn0 & Hbv & Hst)]].
  - cbn [app] in *. unfold payload_info, payload_from. rewrite leb_true by assumption. cbn [bind fst snd].
    rewrite lenZ_cons in *. rewrite ltb_true by lia. rewrite leb_true by lia. reflexivity.
  - pose proof (lenZ_nonneg d) as Hd. cbn [app] in *. unfold payload_info, payload_from.
    rewrite leb_false by lia. rewrite leb_true by lia. cbn [bind fst snd].
    rewrite lenZ_cons, lenZ_app in *. replace (128 + lenZ d - 128) with (lenZ d) by lia.
    rewrite ltb_true by lia. rewrite leb_true by lia. cbn [andb]. reflexivity.
  - specialize (Hst eq_refl). pose proof (lenZ_nonneg d) as Hd.
    assert (1 <= lenZ lb). { destruct lb; [contradiction|]. rewrite lenZ_cons. pose proof (lenZ_nonneg lb). lia. }
    cbn [app] in *. rewrite lenZ_cons, !lenZ_app in Hl. unfold payload_info, payload_from.
    rewrite leb_false by lia. rewrite leb_false by lia. rewrite leb_true by lia.
    replace (183 + lenZ lb - 183) with (lenZ lb) by lia. unfold calculate_payload_info.
    destruct lb as [|b1 lb']; [contradiction|]. cbn [no_lead0] in Hn0. cbn [app]. rewrite eqb_false by assumption.
    rewrite !lenZ_cons, !lenZ_app in *. pose proof (lenZ_nonneg lb'). rewrite ltb_false by lia.
    assert (Es : slice (183 + (1 + lenZ lb') :: b1 :: lb' ++ d ++ rest) 1 (1 + (1 + lenZ lb')) = b1 :: lb').
    { rewrite slice_cons by lia. change (b1 :: lb' ++ d ++ rest) with ((b1 :: lb') ++ d ++ rest). apply firstn_app_len.
      cbn [length]. unfold lenZ. lia. }
    rewrite Es. rewrite decode_usize_ok; [|discriminate|exact Hn0|rewrite lenZ_cons; lia]. cbn [bind].
    rewrite Hbv. rewrite leb_false by lia. cbn [bind fst snd].
    rewrite ltb_true by lia. rewrite leb_true by lia. reflexivity.
Qed.
Lemma pi_run hdr d : rlp_shape true hdr d -> lenZ (hdr ++ d) < USIZE ->
  payload_info (hdr ++ d) = Ok (lenZ hdr, lenZ d).
Proof. intros Hs Hl. pose proof (pi_run_rest hdr d [] Hs) as H. rewrite app_nil_r in H. apply H. assumption. Qed.

(** an item of strict shape whose payload has no leading zero is the canonical encoding of its value *)
Lemma shape_canonical hdr d : wfd 256 d -> no_lead0 d -> rlp_shape true hdr d ->
  (forall lb, hdr = (183 + lenZ lb) :: lb -> wfd 256 lb) -> hdr = sp_rlp_header (bev d).
Proof.
  intros Hw Hn Hs Hwl. unfold sp_rlp_header.
  destruct Hs as [(-> & l & -> & Hl127) | [(-> & H55 & Hnb) | (lb & -> & Hne & H8 & Hn0 & Hbv & Hst)]].
  - cbn [no_lead0] in Hn. apply wfd_cons in Hw. destruct Hw as [Hl _]. rewrite bev_single.
    rewrite eqb_false by assumption. rewrite ltb_true by lia. reflexivity.
  - destruct d as [|b r].
    + reflexivity.
    + cbn [no_lead0] in Hn. pose proof (head_value_bounds b r Hw Hn) as (Hpos & Hbig & Hone).
      rewrite octets_of_string by assumption. rewrite eqb_false by lia.
      destruct (Z.ltb_spec (bev (b :: r)) 128) as [Hs|Hs].
      * exfalso. apply Hnb. destruct r as [|c r']; [|specialize (Hbig ltac:(discriminate)); lia].
        exists b. split; [reflexivity|]. rewrite (Hone eq_refl) in Hs. assumption.
      * rewrite leb_true by assumption. reflexivity.
  - specialize (Hst eq_refl). specialize (Hwl lb eq_refl).
    destruct d as [|b r]; [unfold lenZ in Hst; cbn [length] in Hst; lia|].
    cbn [no_lead0] in Hn. pose proof (head_value_bounds b r Hw Hn) as (Hpos & Hbig & Hone).
    rewrite octets_of_string by assumption. rewrite eqb_false by lia.
    assert (r <> []). { intros ->. unfold lenZ in Hst. cbn [length] in Hst. lia. }
    rewrite ltb_false by (specialize (Hbig H); lia). rewrite leb_false by lia.
    rewrite <- Hbv. destruct lb as [|c lb']; [contradiction|]. cbn [no_lead0] in Hn0.
    rewrite octets_of_string by assumption. f_equal. rewrite sp_be_bev by assumption. reflexivity.
Qed.
(** ... and conversely the canonical encoding has the strict shape *)
Lemma spec_shape x : 0 <= x -> sp_octets x < USIZE -> rlp_shape true (sp_rlp_header x) (sp_rlp_payload x).
Proof.
  intros Hx Hu. destruct (payload_spec x Hx) as (Hwp & Hnp & Hbp & Hlp). unfold rlp_shape, sp_rlp_header.
  destruct (Z.eqb_spec x 0) as [->|Hnz].
  - right. left. repeat split; try reflexivity; try (cbn; lia). intros (b & E & _). discriminate.
  - destruct (Z.ltb_spec x 128) as [Hs|Hs].
    + left. split; [reflexivity|]. exists x. split; [|lia]. unfold sp_rlp_payload. rewrite octets_small by lia.
      change (sp_be 1 x) with [x mod 256]. rewrite Z.mod_small by lia. reflexivity.
    + right. destruct (Z.leb_spec (sp_octets x) 55) as [H55|H55].
      * left. rewrite Hlp. repeat split; try assumption. intros (b & E & Hb). rewrite E in Hbp. rewrite bev_single in Hbp. lia.
      * right. exists (sp_be (sp_octets (sp_octets x)) (sp_octets x)).
        pose proof (sp_octets_range (sp_octets x) ltac:(lia)) as (H1 & _).
        rewrite lenZ_sp_be by lia. rewrite Hlp. repeat split; try lia.
        -- intros E. apply (f_equal (@length Z)) in E. rewrite length_sp_be in E. cbn [length] in E. lia.
        -- apply sp_octets_le; try lia. unfold USIZE in Hu. change (256 ^ 8) with 18446744073709551616. lia.
        -- apply minimal_no_lead0. lia.
        -- apply bev_minimal. lia.
Qed.
Theorem rlp_decode_run fx n x : 0 <= x -> lenZ (sp_rlp_encode x) < USIZE ->
  rlp_decode fx n (sp_rlp_encode x) = rlp_glue n (sp_rlp_payload x).
Proof.
  intros Hx Hl. destruct (payload_spec x Hx) as (Hwp & Hnp & Hbp & Hlp).
  assert (Hu : sp_octets x < USIZE).
  { unfold sp_rlp_encode in Hl. rewrite lenZ_app, Hlp in Hl. pose proof (lenZ_nonneg (sp_rlp_header x)). lia. }
  pose proof (spec_shape x Hx Hu) as Hs. unfold rlp_decode, sp_rlp_encode in *.
  assert (Hr : rlp_decode_value (rlp_glue n) (sp_rlp_header x ++ sp_rlp_payload x) = rlp_glue n (sp_rlp_payload x)).
  { rewrite <- (app_nil_r (sp_rlp_payload x)) at 1. apply (rdv_run _ true); [assumption | rewrite app_nil_r; assumption]. }
  destruct fx; [|assumption].
  rewrite pi_run by assumption. cbn [bind fst snd]. rewrite lenZ_app, Z.eqb_refl. cbn [negb]. assumption.
Qed.

Lemma slice_cons2 l bs a k : 0 <= a -> slice (l :: bs) (1 + a) (1 + a + k) = firstn (Z.to_nat k) (skipn (Z.to_nat a) bs).
Proof.
  intros Ha. unfold slice. replace (1 + a + k - (1 + a)) with k by lia.
  replace (Z.to_nat (1 + a)) with (S (Z.to_nat a)) by lia. reflexivity.
Qed.
Lemma firstn_lenZ (bs : list Z) k : lenZ bs <= k -> firstn (Z.to_nat k) bs = bs.
Proof. intros H. apply firstn_all2. unfold lenZ in H. lia. Qed.
Lemma lenZ_firstn (bs : list Z) k : 0 <= k <= lenZ bs -> lenZ (firstn (Z.to_nat k) bs) = k.
Proof. intros H. unfold lenZ in *. rewrite firstn_length. lia. Qed.
Lemma lenZ_skipn (bs : list Z) k : 0 <= k <= lenZ bs -> lenZ (skipn (Z.to_nat k) bs) = lenZ bs - k.
Proof. intros H. unfold lenZ in *. rewrite skipn_length. lia. Qed.

(** what the repaired decoder accepts: an item of strict shape that spans the input.
    [payload_info] and [decode_value] are inverted together, case by case on the first octet: [payload_info] gives the
    lengths and the strictness of the long form, [decode_value] the rule that a single octet below 0x80 has no header *)
Theorem rlp_decode_ok n bs v : wfd 256 bs -> rlp_decode true n bs = Ok v ->
  exists hdr d, bs = hdr ++ d /\ rlp_shape true hdr d /\ (forall lb, hdr = (183 + lenZ lb) :: lb -> wfd 256 lb) /\
                wfd 256 d /\ rlp_glue n d = Ok v.
Proof.
  intros Hw H. unfold rlp_decode in H. inv_bind H. destruct a as [hl vl]. cbn [fst snd] in H.
  destruct (Z.eqb_spec (hl + vl) (lenZ bs)) as [Et|]; [|discriminate]. cbn [negb] in H.
  unfold payload_info in Ha. inv_bind Ha. destruct a as [hl' vl']. cbn [fst snd] in Ha.
  destruct ((hl' + vl' <? USIZE) && (hl' + vl' <=? lenZ bs)) eqn:Eb; [|discriminate].
  apply ok_inj, pair_inj in Ha. destruct Ha as [-> ->]. apply andb_prop in Eb. destruct Eb as [Eu _]. apply Z.ltb_lt in Eu.
  destruct bs as [|l bs']; [discriminate|]. pose proof Hw as Hw'. apply wfd_cons in Hw'. destruct Hw' as [Hl Hwb].
  pose proof (lenZ_nonneg bs') as Hnb. unfold payload_from in Ha0. cbn [rlp_decode_value] in H. rewrite lenZ_cons in *.
  destruct (Z.leb_spec l 127) as [HA|HA].
  { (* a single octet below 0x80 *)
    apply ok_inj, pair_inj in Ha0. destruct Ha0 as [<- <-].
    assert (bs' = []) by (destruct bs'; [reflexivity | rewrite lenZ_cons in Et; pose proof (lenZ_nonneg bs'); lia]). subst bs'.
    exists [], [l]. repeat split; try assumption.
    - left. split; [reflexivity|]. exists l. auto.
    - intros lb E. discriminate. }
  destruct (Z.leb_spec l 183) as [HB|HB].
  { (* short string *)
    apply ok_inj, pair_inj in Ha0. destruct Ha0 as [<- <-].
    replace (1 + l - 128) with (1 + (l - 128)) in H by lia. rewrite slice_cons in H by lia.
    rewrite ltb_false in H by lia. rewrite firstn_lenZ in H by lia.
    exists [l], bs'. assert (El : l = 128 + lenZ bs') by lia.
    destruct ((l =? 129) && (nthz bs' 0 <? 128)) eqn:Ec; [discriminate|].
    repeat split; try assumption.
    - right. left. split; [rewrite El at 1; reflexivity|]. split; [lia|].
      intros (b & E & Hb). subst bs'. unfold lenZ in El. cbn [length] in El. cbn [nthz nth] in Ec.
      rewrite (proj2 (Z.eqb_eq l 129)) in Ec by lia. rewrite ltb_true in Ec by assumption. discriminate.
    - intros lb E. apply cons_inj in E. destruct E as [_ <-]. apply wfd_nil. }
  destruct (Z.leb_spec l 191) as [HC|HC].
  { (* long string *)
    set (lol := l - 183) in *. assert (Hlol : 1 <= lol <= 8) by (unfold lol; lia).
    unfold calculate_payload_info in Ha0. destruct bs' as [|b1 bs'']; [discriminate|].
    destruct (Z.eqb_spec b1 0); [discriminate|].
    destruct (Z.ltb_spec (lenZ (l :: b1 :: bs'')) (1 + lol)) as [|Hlen]; [discriminate|]. rewrite lenZ_cons in Hlen.
    inv_bind Ha0. rewrite slice_cons in Ha by lia.
    set (lb := firstn (Z.to_nat lol) (b1 :: bs'')) in *. set (d := skipn (Z.to_nat lol) (b1 :: bs'')).
    apply decode_usize_inv in Ha. destruct Ha as (Hne & Hn0 & H8 & ->).
    destruct (Z.leb_spec (bev lb) 55) as [|H55]; [discriminate|]. apply ok_inj, pair_inj in Ha0. destruct Ha0 as [<- <-].
    assert (Llb : lenZ lb = lol) by (apply lenZ_firstn; lia).
    assert (Ld : lenZ d = bev lb) by (unfold d; rewrite lenZ_skipn by lia; lia).
    rewrite ltb_false in H by lia. rewrite slice_cons in H by lia. fold lb in H.
    rewrite decode_usize_ok in H by assumption. cbn [bind] in H.
    destruct (Z.leb_spec USIZE (1 + lol + bev lb)); [discriminate|].
    rewrite ltb_false in H by lia.
    rewrite slice_cons2 in H by lia. fold d in H. rewrite firstn_lenZ in H by lia.
    assert (Esplit : b1 :: bs'' = lb ++ d) by (symmetry; apply firstn_skipn).
    exists (l :: lb), d. rewrite Esplit in Hwb. apply wfd_app in Hwb. destruct Hwb as [Hwlb Hwd].
    repeat split; try assumption.
    - cbn [app]. rewrite <- Esplit. reflexivity.
    - right. right. exists lb. repeat split; try assumption; try lia. rewrite Llb. unfold lol. f_equal. lia.
    - intros lb0 E. apply cons_inj in E. destruct E as [_ <-]. assumption. }
  discriminate.
Qed.
Theorem rlp_decode_sound n bs v : wfd 256 bs -> rlp_decode true n bs = Ok v ->
  wf v /\ length v = n /\ 0 <= eval v < Bn n /\ v = to_limbs n (eval v) /\ bs = sp_rlp_encode (eval v).
Proof.
  intros Hw H. destruct (rlp_decode_ok n bs v Hw H) as (hdr & d & -> & Hs & Hwl & Hwd & Hg).
  apply rlp_glue_ok in Hg; [|assumption]. destruct Hg as (Hn0 & Hl & -> & Hb).
  rewrite to_limbs_small by assumption. repeat split; try lia.
  - apply wf_to_limbs.
  - apply length_to_limbs.
  - unfold sp_rlp_encode. rewrite <- (shape_canonical hdr d Hwd Hn0 Hs Hwl). rewrite <- payload_unique by assumption. reflexivity.
Qed.
Lemma payload_fits n x : 0 <= x < Bn n -> (length (sp_rlp_payload x) <= 8 * n)%nat.
Proof.
  intros Hx. unfold sp_rlp_payload. rewrite length_sp_be. pose proof (sp_octets_Bn n x Hx). lia.
Qed.
Lemma payload_over n x : Bn n <= x -> (8 * n < length (sp_rlp_payload x))%nat.
Proof.
  intros Hx. pose proof (length_mag0_over n x Hx) as H. pose proof (Bn_pos n). unfold mag0 in H. rewrite eqb_false in H by lia. exact H.
Qed.
Theorem rlp_decode_complete fx n x : 0 <= x < Bn n -> lenZ (sp_rlp_encode x) < USIZE ->
  rlp_decode fx n (sp_rlp_encode x) = Ok (to_limbs n x).
Proof.
  intros Hx Hl. rewrite rlp_decode_run by (assumption || lia). destruct (payload_spec x ltac:(lia)) as (Hwp & Hnp & Hbp & _).
  rewrite rlp_glue_run by assumption. pose proof (payload_fits n x Hx).
  rewrite (proj2 (Nat.ltb_ge _ _) H), Hbp. reflexivity.
Qed.
Theorem rlp_oversize_err fx n x : Bn n <= x -> lenZ (sp_rlp_encode x) < USIZE ->
  rlp_decode fx n (sp_rlp_encode x) = Er R_IsTooBig.
Proof.
  intros Hx Hl. pose proof (Bn_pos n). rewrite rlp_decode_run by (assumption || lia).
  destruct (payload_spec x ltac:(lia)) as (Hwp & Hnp & _ & _). rewrite rlp_glue_run by assumption.
  rewrite (proj2 (Nat.ltb_lt _ _) (payload_over n x Hx)). reflexivity.
Qed.

Lemma slice_nonempty l bs k : 1 <= k -> 1 + k <= lenZ (l :: bs) -> slice (l :: bs) 1 (1 + k) <> [].
Proof.
  intros Hk Hl. rewrite slice_cons by lia. rewrite lenZ_cons in Hl. intros E. apply (f_equal lenZ) in E.
  rewrite lenZ_firstn in E by (pose proof (lenZ_nonneg bs); lia). unfold lenZ in E. cbn [length] in E. lia.
Qed.
Lemma rdv_nopn {A} (f : list Z -> res A) bs : (forall d, f d <> Pn) -> rlp_decode_value f bs <> Pn.
Proof.
  intros Hf. destruct bs as [|l bs']; [discriminate|]. cbn [rlp_decode_value].
  destruct (l <=? 127); [apply Hf|]. destruct (Z.leb_spec l 183).
  { destruct (_ <? _); [discriminate|]. destruct (_ && _); [discriminate | apply Hf]. }
  destruct (Z.leb_spec l 191); [|discriminate].
  destruct (Z.ltb_spec (lenZ (l :: bs')) (1 + (l - 183))); [discriminate|].
  apply bind_nopn; [apply decode_usize_nopn, slice_nonempty; lia|].
  intros len _. destruct (_ <=? _); [discriminate|]. destruct (_ <? _); [discriminate | apply Hf].
Qed.
Lemma payload_info_nopn bs : payload_info bs <> Pn.
Proof.
  unfold payload_info. apply bind_nopn; [|intros p _; destruct (_ && _); discriminate].
  unfold payload_from. destruct bs as [|l bs']; [discriminate|].
  assert (Hc : forall lol, 1 <= lol -> calculate_payload_info (l :: bs') lol <> Pn).
  { intros lol Hl. unfold calculate_payload_info. destruct bs' as [|b1 bs'']; [discriminate|].
    destruct (b1 =? 0); [discriminate|]. destruct (Z.ltb_spec (lenZ (l :: b1 :: bs'')) (1 + lol)); [discriminate|].
    apply bind_nopn; [apply decode_usize_nopn, slice_nonempty; lia|]. intros vl _. destruct (vl <=? 55); discriminate. }
  destruct (l <=? 127); [discriminate|]. destruct (Z.leb_spec l 183); [discriminate|].
  destruct (Z.leb_spec l 191); [apply Hc; lia|]. destruct (Z.leb_spec l 247); [discriminate | apply Hc; lia].
Qed.
(** neither the code as found nor the repaired code can panic *)
Theorem rlp_decode_nopn fx n bs : rlp_decode fx n bs <> Pn.
Proof.
  unfold rlp_decode. destruct fx; [|apply rdv_nopn, rlp_glue_nopn].
  apply bind_nopn; [apply payload_info_nopn|]. intros p _. destruct (negb _); [discriminate | apply rdv_nopn, rlp_glue_nopn].
Qed.

Lemma lenZ_rlp_encode_le x K : 0 <= K < 4294967296 -> 0 <= x < 256 ^ K -> lenZ (sp_rlp_encode x) <= K + 5.
Proof.
  intros HK Hx. destruct (payload_spec x ltac:(lia)) as (_ & _ & _ & Hlp). unfold sp_rlp_encode. rewrite lenZ_app, Hlp.
  pose proof (sp_octets_le x K ltac:(lia) ltac:(lia) ltac:(lia)). pose proof (sp_octets_nonneg x). unfold sp_rlp_header.
  destruct (x =? 0); [unfold lenZ; cbn [length]; lia|]. destruct (x <? 128); [unfold lenZ; cbn [length]; lia|].
  destruct (sp_octets x <=? 55); [unfold lenZ; cbn [length]; lia|]. rewrite lenZ_cons, lenZ_sp_be by apply sp_octets_nonneg.
  assert (sp_octets (sp_octets x) <= 4); [|lia].
  apply sp_octets_le; [lia | lia |]. change (256 ^ 4) with 4294967296. lia.
Qed.
Theorem rlp_roundtrip fx ls : wf ls -> 8 * Z.of_nat (length ls) < 4294967296 ->
  rlp_decode fx (length ls) (rlp_encode ls) = Ok ls.
Proof.
  intros Hw Hb. rewrite rlp_encode_spec by assumption. pose proof (eval_bounds ls Hw) as Hx.
  rewrite rlp_decode_complete; [rewrite to_limbs_eval by assumption; reflexivity | assumption |].
  rewrite Bn_256 in Hx. pose proof (lenZ_rlp_encode_le (eval ls) (Z.of_nat (8 * length ls)) ltac:(lia) Hx). unfold USIZE. lia.
Qed.
(** decode bs = Ok v  ->  bs is THE encoding the encoder produces for v (repaired decoder) *)
Theorem rlp_canonical n bs v : wfd 256 bs -> 8 * Z.of_nat n < 4294967296 -> rlp_decode true n bs = Ok v -> rlp_encode v = bs.
Proof.
  intros Hw Hb H. destruct (rlp_decode_sound n bs v Hw H) as (Hwv & Hlv & _ & _ & ->).
  apply rlp_encode_spec; [assumption | rewrite Hlv; assumption].
Qed.
Theorem rlp_decode_item_nopn fx n bs : rlp_decode_item fx n bs <> Pn.
Proof. unfold rlp_decode_item. apply bind_nopn; [apply payload_info_nopn | intros; apply rlp_decode_nopn]. Qed.
Lemma payload_info_total bs hl vl : payload_info bs = Ok (hl, vl) -> hl + vl <= lenZ bs.
Proof.
  unfold payload_info. intros H. inv_bind H. destruct ((fst a + snd a <? USIZE) && (fst a + snd a <=? lenZ bs)) eqn:E; [|discriminate].
  apply ok_inj in H. subst a. cbn [fst snd] in E. apply andb_prop in E. destruct E as [_ E]. apply Z.leb_le in E. assumption.
Qed.
(** a canonical item followed by anything: val_at cuts it out and decodes it *)
Theorem rlp_decode_item_run fx n x rest : 0 <= x -> lenZ (sp_rlp_encode x ++ rest) < USIZE ->
  rlp_decode_item fx n (sp_rlp_encode x ++ rest) = rlp_decode fx n (sp_rlp_encode x).
Proof.
  intros Hx Hl. destruct (payload_spec x Hx) as (Hwp & Hnp & Hbp & Hlp).
  assert (Hu : sp_octets x < USIZE).
  { unfold sp_rlp_encode in Hl. rewrite !lenZ_app, Hlp in Hl. pose proof (lenZ_nonneg (sp_rlp_header x)). pose proof (lenZ_nonneg rest). lia. }
  pose proof (spec_shape x Hx Hu) as Hs. unfold rlp_decode_item, sp_rlp_encode in *. rewrite <- app_assoc in *.
  rewrite pi_run_rest by assumption. cbn [bind fst snd]. rewrite <- lenZ_app. unfold lenZ at 1. rewrite Nat2Z.id.
  rewrite app_assoc. rewrite firstn_app_len by reflexivity. reflexivity.
Qed.
