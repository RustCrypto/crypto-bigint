(** C06 proofs, part 1: Limb and Uint<N> comparison / equality / zero tests / selection,
    for limb lists of any length. *)
From CB Require Import Model.Limbs Model.AddSub Model.Cmp Proofs.WordP Proofs.LimbsP Proofs.AddSubP Proofs.CmpWordP.
From Coq Require Import ZArith Lia List Bool.
Open Scope Z_scope.

Lemma ordz_lt x y : x < y -> ordz x y = -1.
Proof. intros. unfold ordz. destruct (Z.ltb_spec x y); [reflexivity | lia]. Qed.
Lemma ordz_eq x : ordz x x = 0.
Proof. unfold ordz. rewrite Z.ltb_irrefl, Z.eqb_refl. reflexivity. Qed.
Lemma ordz_gt x y : y < x -> ordz x y = 1.
Proof.
  intros. unfold ordz. destruct (Z.ltb_spec x y); [lia|]. destruct (Z.eqb_spec x y); [lia | reflexivity].
Qed.
Lemma ordz_shift x y k : ordz (x + k) (y + k) = ordz x y.
Proof.
  unfold ordz. destruct (Z.ltb_spec (x + k) (y + k)), (Z.ltb_spec x y); try lia; try reflexivity.
  destruct (Z.eqb_spec (x + k) (y + k)), (Z.eqb_spec x y); try lia; reflexivity.
Qed.

Lemma ltb_shift x y k : (x + k <? y + k) = (x <? y).
Proof. destruct (Z.ltb_spec (x + k) (y + k)), (Z.ltb_spec x y); lia || reflexivity. Qed.

Lemma eval_zero_iff a : wf a -> (eval a = 0 <-> a = zeros (length a)).
Proof.
  intros Ha. split.
  - intros E. apply eval_inj; auto using wf_zeros.
    + rewrite length_zeros. reflexivity.
    + rewrite eval_zeros. assumption.
  - intros E. rewrite E. apply eval_zeros.
Qed.

Lemma eval_eq_iff a b : wf a -> wf b -> length a = length b -> (eval a = eval b <-> a = b).
Proof. intros Ha Hb Hl. split; [apply eval_inj; assumption | intros ->; reflexivity]. Qed.

Lemma eqb_eval_list a b : wf a -> wf b -> length a = length b -> (eval a =? eval b) = list_eqb a b.
Proof.
  revert b. induction a as [|x a IH]; intros [|y b] Ha Hb Hl; try discriminate; [reflexivity|].
  apply wf_cons in Ha. destruct Ha as [Hx Ha]. apply wf_cons in Hb. destruct Hb as [Hy Hb].
  simpl in Hl. cbn [list_eqb eval]. rewrite <- IH by (auto; lia).
  pose proof (eval_bounds a Ha). pose proof (eval_bounds b Hb). unfold is_word in *. pose proof B_pos.
  destruct (Z.eqb_spec x y) as [->|Hne]; simpl.
  - destruct (Z.eqb_spec (eval a) (eval b)) as [->|Hn]; [apply Z.eqb_refl|]. apply Z.eqb_neq. nia.
  - apply Z.eqb_neq. intros E.
    assert (x - y = B * (eval b - eval a)) by lia.
    assert (eval b - eval a = 0) by nia. lia.
Qed.

Lemma limb_ct_eq_spec x y : is_word x -> is_word y -> limb_ct_eq x y = b2z (x =? y).
Proof. apply st_ct_eq_spec. Qed.
Lemma limb_ct_ne_spec x y : is_word x -> is_word y -> limb_ct_ne x y = b2z (negb (x =? y)).
Proof. intros. unfold limb_ct_ne. rewrite st_ct_eq_spec by assumption. apply ch_not_b2z. Qed.
Lemma limb_ct_lt_spec x y : is_word x -> is_word y -> limb_ct_lt x y = b2z (x <? y).
Proof. intros. unfold limb_ct_lt. rewrite from_word_lt_spec by assumption. apply to_choice_choice. Qed.
Lemma limb_ct_gt_spec x y : is_word x -> is_word y -> limb_ct_gt x y = b2z (y <? x).
Proof. intros. unfold limb_ct_gt. rewrite from_word_gt_spec by assumption. apply to_choice_choice. Qed.
Lemma limb_is_zero_spec x : is_word x -> limb_is_zero x = b2z (x =? 0).
Proof. intros. unfold limb_is_zero. apply st_ct_eq_spec; [assumption | apply is_word_0']. Qed.

(** Ord::cmp on Limb never trips its debug assertion and returns the order of the words *)
Lemma limb_cmp_spec dbg x y : is_word x -> is_word y -> limb_cmp dbg x y = Some (ordz x y).
Proof.
  intros Hx Hy. unfold limb_cmp.
  rewrite limb_ct_eq_spec, limb_ct_gt_spec, limb_ct_lt_spec by assumption.
  unfold ord_assign, ordz.
  destruct (Z.eqb_spec x y) as [->|Hne].
  - rewrite Z.ltb_irrefl. simpl. rewrite andb_false_r. reflexivity.
  - destruct (Z.ltb_spec y x), (Z.ltb_spec x y); try lia; simpl; rewrite andb_false_r; reflexivity.
Qed.
Lemma limb_cmp_vartime_spec x y : limb_cmp_vartime x y = ordz x y.
Proof. reflexivity. Qed.

Lemma fold_or_zero a : forall acc, wf a -> is_word acc ->
  is_word (fold_left wor a acc) /\ (fold_left wor a acc = 0 <-> acc = 0 /\ eval a = 0).
Proof.
  induction a as [|x a IH]; intros acc Ha Hacc; simpl.
  - split; [assumption | tauto].
  - apply wf_cons in Ha. destruct Ha as [Hx Ha].
    assert (Hw : is_word (wor acc x)) by (apply is_word_lor; assumption).
    destruct (IH (wor acc x) Ha Hw) as [H1 H2]. split; [assumption|].
    rewrite H2. unfold wor. rewrite Z.lor_eq_0_iff.
    pose proof (eval_nonneg a Ha). unfold is_word in Hx. pose proof B_pos. split.
    + intros [[-> ->] ->]. split; [reflexivity | lia].
    + intros [-> E]. assert (x = 0 /\ eval a = 0) by nia. tauto.
Qed.

Lemma uint_is_nonzero_spec a : wf a -> uint_is_nonzero a = choice_of_bool (negb (eval a =? 0)).
Proof.
  intros Ha. unfold uint_is_nonzero.
  destruct (fold_or_zero a 0 Ha is_word_0') as [Hw Hz].
  rewrite from_word_nonzero_spec by assumption. f_equal. f_equal.
  destruct (Z.eqb_spec (eval a) 0) as [E|E].
  - apply Z.eqb_eq. apply Hz. tauto.
  - apply Z.eqb_neq. intros F. apply Hz in F. tauto.
Qed.

Lemma fold_xor_zero a : forall b acc, wf a -> wf b -> length a = length b -> is_word acc ->
  let r := fold_left (fun acc p => wor acc (wxor (fst p) (snd p))) (combine a b) acc in
  is_word r /\ (r = 0 <-> acc = 0 /\ a = b).
Proof.
  induction a as [|x a IH]; intros [|y b] acc Ha Hb Hl Hacc; try discriminate; simpl.
  - split; [assumption | tauto].
  - apply wf_cons in Ha. destruct Ha as [Hx Ha]. apply wf_cons in Hb. destruct Hb as [Hy Hb].
    assert (Hw : is_word (wor acc (wxor x y))) by (apply is_word_lor; [|apply is_word_lxor]; assumption).
    simpl in Hl. destruct (IH b (wor acc (wxor x y)) Ha Hb ltac:(lia) Hw) as [H1 H2].
    split; [exact H1|]. cbv zeta in H2. rewrite H2. unfold wor, wxor. rewrite Z.lor_eq_0_iff. split.
    + intros [[-> E] ->]. apply Z.lxor_eq in E. subst. tauto.
    + intros [-> E]. inversion E. subst. rewrite Z.lxor_nilpotent. tauto.
Qed.

(** Uint::eq (xor-accumulate): truthy exactly when the represented integers are equal *)
Lemma uint_eq_spec a b : wf a -> wf b -> length a = length b ->
  uint_eq a b = choice_of_bool (eval a =? eval b).
Proof.
  intros Ha Hb Hl. unfold uint_eq, cc_not.
  destruct (fold_xor_zero a b 0 Ha Hb Hl is_word_0') as [Hw Hz]. cbv zeta in Hw, Hz.
  rewrite from_word_nonzero_spec by assumption. rewrite wnot_choice, negb_involutive. f_equal.
  destruct (Z.eqb_spec (eval a) (eval b)) as [E|E].
  - apply Z.eqb_eq. apply Hz. split; [reflexivity|]. apply eval_inj; assumption.
  - apply Z.eqb_neq. intros F. apply Hz in F. destruct F as [_ ->]. contradiction.
Qed.

Lemma uint_ct_eq_spec a b : wf a -> wf b -> length a = length b ->
  uint_ct_eq a b = b2z (eval a =? eval b).
Proof. intros. unfold uint_ct_eq. rewrite uint_eq_spec by assumption. apply to_choice_choice. Qed.

Lemma sbb_limbs_borrow a b r bo : wf a -> wf b -> length a = length b ->
  sbb_limbs a b 0 = (r, bo) ->
  bo = choice_of_bool (eval a <? eval b) /\ wf r /\ length r = length a /\
  eval r = eval a - eval b + (if eval a <? eval b then Bn (length a) else 0).
Proof.
  intros Ha Hb Hl E. destruct (sbb0_cases a b r bo Ha Hb Hl E) as (Hw & Hlr & Hbr & Hc).
  destruct Hc as [[-> He]|[-> He]]; destruct (Z.ltb_spec (eval a) (eval b)); repeat split; auto; lia.
Qed.

Lemma uint_lt_spec a b : wf a -> wf b -> length a = length b ->
  uint_lt a b = choice_of_bool (eval a <? eval b).
Proof.
  intros Ha Hb Hl. unfold uint_lt. destruct (sbb_limbs a b 0) as [r bo] eqn:E. cbn [snd].
  apply (sbb_limbs_borrow a b r bo Ha Hb Hl E).
Qed.
Lemma uint_gt_spec a b : wf a -> wf b -> length a = length b ->
  uint_gt a b = choice_of_bool (eval b <? eval a).
Proof. intros. unfold uint_gt. fold (uint_lt b a). apply uint_lt_spec; auto. Qed.
Lemma uint_lte_spec a b : wf a -> wf b -> length a = length b ->
  uint_lte a b = choice_of_bool (eval a <=? eval b).
Proof.
  intros. unfold uint_lte, cc_not. rewrite uint_gt_spec, wnot_choice by assumption. f_equal.
  rewrite Z.leb_antisym. reflexivity.
Qed.

Lemma cmp_loop_sbb a : forall b bw d,
  cmp_loop a b bw d = (fold_left wor (fst (sbb_limbs b a bw)) d, snd (sbb_limbs b a bw)).
Proof.
  induction a as [|x a IH]; intros [|y b] bw d; try reflexivity.
  cbn [cmp_loop sbb_limbs]. destruct (sbb y x bw) as [w bo]. rewrite IH.
  destruct (sbb_limbs b a bo) as [r b2]. reflexivity.
Qed.

Lemma uint_cmp_spec a b : wf a -> wf b -> length a = length b -> uint_cmp a b = ordz (eval a) (eval b).
Proof.
  intros Ha Hb Hl. unfold uint_cmp. rewrite cmp_loop_sbb.
  destruct (sbb_limbs b a 0) as [r bo] eqn:E. cbn [fst snd].
  destruct (sbb_limbs_borrow b a r bo Hb Ha (eq_sym Hl) E) as (-> & Hw & Hlr & He).
  destruct (fold_or_zero r 0 Hw is_word_0') as [Hwd Hz].
  rewrite from_word_nonzero_spec by assumption. rewrite to_choice_choice.
  pose proof (eval_bounds a Ha). pose proof (eval_bounds b Hb). rewrite Hl in *.
  destruct (Z.ltb_spec (eval b) (eval a)).
  - rewrite ordz_gt by assumption.
    destruct (Z.eqb_spec (fold_left wor r 0) 0) as [F|F]; [apply Hz in F; lia | reflexivity].
  - destruct (Z.eq_dec (eval a) (eval b)) as [Eq|Ne].
    + rewrite Eq, ordz_eq.
      destruct (Z.eqb_spec (fold_left wor r 0) 0) as [F|F]; [reflexivity|]. exfalso. apply F. apply Hz. lia.
    + rewrite ordz_lt by lia.
      destruct (Z.eqb_spec (fold_left wor r 0) 0) as [F|F]; [apply Hz in F; lia | reflexivity].
Qed.

Lemma sbb_word_zero x y v bo : is_word x -> is_word y -> sbb x y 0 = (v, bo) ->
  (v = 0 <-> x = y) /\ (bo = 0 <-> y <= x).
Proof.
  intros Hx Hy E. pose proof (sbb_exact x y 0 v bo Hx Hy is_word_0' E) as (Hv & Hc).
  rewrite bin_0 in Hc. unfold is_word in *. pose proof MAXW_val. pose proof B_gt1.
  destruct Hc as [[-> Hd]|[-> Hd]]; split; split; intros; lia.
Qed.

Lemma cmp_vartime_rev_spec ra : forall rb, wf ra -> wf rb -> length ra = length rb ->
  cmp_vartime_rev ra rb = ordz (eval (rev ra)) (eval (rev rb)).
Proof.
  induction ra as [|x ra IH]; intros [|y rb] Ha Hb Hl; try discriminate; [reflexivity|].
  apply wf_cons in Ha. destruct Ha as [Hx Ha]. apply wf_cons in Hb. destruct Hb as [Hy Hb].
  simpl in Hl. cbn [cmp_vartime_rev rev]. rewrite !eval_app, !rev_length. cbn [eval].
  assert (Hl' : length ra = length rb) by lia. rewrite <- Hl'.
  assert (Hwa := wf_rev ra Ha). assert (Hwb := wf_rev rb Hb).
  pose proof (eval_bounds _ Hwa) as Ba. pose proof (eval_bounds _ Hwb) as Bb.
  rewrite rev_length in Ba, Bb. rewrite <- Hl' in Bb.
  destruct (sbb x y 0) as [v bo] eqn:E.
  destruct (sbb_word_zero x y v bo Hx Hy E) as [Hv Hbo].
  pose proof (Bn_pos (length ra)). unfold is_word in Hx, Hy.
  destruct (Z.eqb_spec v 0) as [Ev|Ev].
  - apply Hv in Ev. subst y. rewrite IH by auto.
    symmetry. apply ordz_shift.
  - assert (x <> y) by tauto.
    destruct (Z.eqb_spec bo 0) as [Eb|Eb].
    + assert (y < x) by (apply Hbo in Eb; lia). symmetry. apply ordz_gt. nia.
    + assert (x < y) by (destruct (Z_le_gt_dec y x); [exfalso; tauto | lia]). symmetry. apply ordz_lt. nia.
Qed.

Lemma uint_cmp_vartime_spec a b : wf a -> wf b -> length a = length b ->
  uint_cmp_vartime a b = ordz (eval a) (eval b).
Proof.
  intros Ha Hb Hl. unfold uint_cmp_vartime.
  rewrite cmp_vartime_rev_spec; rewrite ?rev_involutive, ?rev_length; auto using wf_rev.
Qed.

Lemma eval_one_limbs n : n <> 0%nat -> eval (one_limbs n) = 1.
Proof. destruct n; [congruence|]. intros _. cbn [one_limbs eval]. rewrite eval_zeros. lia. Qed.
Lemma wf_one_limbs n : wf (one_limbs n).
Proof. destruct n; [apply wf_nil|]. simpl. apply wf_cons. split; [apply is_word_1 | apply wf_zeros]. Qed.
Lemma length_one_limbs n : length (one_limbs n) = n.
Proof. destruct n; [reflexivity|]. simpl. rewrite length_zeros. reflexivity. Qed.

Lemma uint_is_zero_spec a : wf a -> uint_is_zero a = b2z (eval a =? 0).
Proof.
  intros Ha. unfold uint_is_zero. rewrite uint_ct_eq_spec; auto using wf_zeros.
  - rewrite eval_zeros. reflexivity.
  - rewrite length_zeros. reflexivity.
Qed.
Lemma uint_is_one_spec a : wf a -> a <> [] -> uint_is_one a = b2z (eval a =? 1).
Proof.
  intros Ha Hn. unfold uint_is_one. rewrite uint_ct_eq_spec; auto using wf_one_limbs.
  - rewrite eval_one_limbs; [reflexivity|]. destruct a; [congruence | discriminate].
  - rewrite length_one_limbs. reflexivity.
Qed.

Lemma odd_eval x a : Z.odd (eval (x :: a)) = Z.odd x.
Proof. cbn [eval]. rewrite B_half, <- Z.mul_assoc. apply Z.odd_add_mul_2. Qed.

Lemma integer_is_odd_spec a : wf a -> integer_is_odd a = b2z (Z.odd (eval a)).
Proof.
  destruct a as [|x a]; intros _; [reflexivity|]. rewrite odd_eval. apply limb_is_odd_spec.
Qed.

Lemma uint_is_odd_spec a : wf a -> uint_is_odd a = choice_of_bool (Z.odd (eval a)).
Proof.
  intros Ha. unfold uint_is_odd, nthz, wand.
  assert (E : Z.land (nth 0 a 0) 1 = b2z (Z.odd (eval a))).
  { destruct a as [|x a]; [reflexivity|]. rewrite odd_eval. cbn [nth].
    change 1 with (Z.ones 1) at 1. rewrite Z.land_ones by lia. change (2 ^ 1) with 2.
    rewrite Zmod_odd. destruct (Z.odd x); reflexivity. }
  rewrite E. apply from_word_lsb_b2z.
Qed.

Lemma ct_select_limbs_spec a b (c : bool) : wf a -> wf b -> length a = length b ->
  ct_select_limbs a b (b2z c) = spec_select c a b.
Proof.
  intros Ha Hb Hl. unfold ct_select_limbs, st_select.
  replace (wneg (b2z c)) with (choice_of_bool c) by (destruct c; reflexivity).
  apply (select_limbs_choice c a b Ha Hb Hl).
Qed.

Lemma ct_swap_limbs_spec a b (c : bool) : wf a -> wf b -> length a = length b ->
  ct_swap_limbs a b (b2z c) = (spec_select c a b, spec_select c b a).
Proof.
  intros Ha Hb Hl. unfold ct_swap_limbs. cbv zeta.
  rewrite !ct_select_limbs_spec by auto. reflexivity.
Qed.

Lemma uint_select_spec a b (c : bool) : wf a -> wf b -> length a = length b ->
  uint_select a b (choice_of_bool c) = spec_select c a b.
Proof. intros. unfold uint_select. apply select_limbs_choice; assumption. Qed.

Lemma wrapping_neg_facts a : wf a ->
  wf (uint_wrapping_neg a) /\ length (uint_wrapping_neg a) = length a /\
  eval (uint_wrapping_neg a) = (- eval a) mod Bn (length a).
Proof. intros Ha. destruct (wrapping_neg_spec a Ha) as (He & Hw & Hl). auto. Qed.

(** wrapping_neg_if (ConstChoice) and conditional_negate (Choice): the value is negated exactly when asked *)
Lemma uint_neg_if_spec a (c : bool) : wf a ->
  eval (uint_neg_if a (choice_of_bool c)) = (if c then - eval a else eval a) mod Bn (length a)
  /\ wf (uint_neg_if a (choice_of_bool c)) /\ length (uint_neg_if a (choice_of_bool c)) = length a.
Proof.
  intros Ha. destruct (wrapping_neg_facts a Ha) as (Hw & Hl & He).
  unfold uint_neg_if. rewrite uint_select_spec by auto.
  destruct c; cbn [spec_select]; repeat split; auto.
  symmetry. apply Z.mod_small. apply eval_bounds. assumption.
Qed.

Lemma conditional_negate_spec a (c : bool) : wf a ->
  let r := ct_select_limbs a (uint_wrapping_neg a) (b2z c) in
  eval r = (if c then - eval a else eval a) mod Bn (length a) /\ wf r /\ length r = length a.
Proof.
  intros Ha. destruct (wrapping_neg_facts a Ha) as (Hw & Hl & He). cbv zeta.
  rewrite ct_select_limbs_spec by auto.
  destruct c; cbn [spec_select]; repeat split; auto.
  symmetry. apply Z.mod_small. apply eval_bounds. assumption.
Qed.
