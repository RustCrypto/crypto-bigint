(** C06: per-form lemmas of CmpP / CmpIntP / CmpBoxedP grouped by type, where a proof uses the group as a whole. *)
From CB Require Import Model.Limbs Model.AddSub Model.Cmp Proofs.WordP Proofs.LimbsP Proofs.AddSubP
  Proofs.CmpWordP Proofs.CmpP Proofs.CmpIntP Proofs.CmpBoxedP.
From Coq Require Import ZArith Lia List Bool.
Open Scope Z_scope.

Lemma int_order_spec a b : wf a -> wf b -> length a = length b -> a <> [] ->
  uint_eq a b = choice_of_bool (seval a =? seval b) /\
  int_lt a b = choice_of_bool (seval a <? seval b) /\
  int_gt a b = choice_of_bool (seval b <? seval a) /\
  int_cmp a b = ordz (seval a) (seval b) /\
  int_cmp_vartime a b = ordz (seval a) (seval b).
Proof.
  intros. repeat split;
    [apply int_eq_spec | apply int_lt_spec | apply int_gt_spec | apply int_cmp_spec | apply int_cmp_vartime_spec];
    assumption.
Qed.

Lemma boxed_order_spec dbg a b : wf a -> wf b ->
  boxed_ct_eq a b = b2z (eval a =? eval b) /\
  boxed_ct_lt a b = b2z (eval a <? eval b) /\
  boxed_ct_gt a b = b2z (eval b <? eval a) /\
  boxed_cmp dbg a b = Some (ordz (eval a) (eval b)).
Proof.
  intros. repeat split;
    [apply boxed_ct_eq_spec | apply boxed_ct_lt_spec | apply boxed_ct_gt_spec | apply boxed_cmp_spec]; assumption.
Qed.

Lemma boxed_select_swap_partial dbg a b (c : bool) : wf a -> wf b -> length a = length b ->
  boxed_ct_select dbg a b (b2z c) = Some (spec_select c a b) /\
  boxed_ct_swap dbg a b (b2z c) = Some (spec_select c a b, spec_select c b a).
Proof. intros. split; [apply boxed_ct_select_partial | apply boxed_ct_swap_partial]; assumption. Qed.
