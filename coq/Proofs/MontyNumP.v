(** C08 proofs, part 3: the arithmetic of Z/mZ for odd m used by the specification:
    cancellation of powers of two, the halving map, x * R^-1 as 64n halvings (redc_spec) and its uniqueness,
    the two computations of m^-1 mod 2^64 (bit-serial loop of inv_mod2k_vartime, Hensel lifting of the spec). *)
From CB Require Import Model.Limbs Model.AddSub Model.Mul Model.Div Model.ModArith Model.Monty
  Proofs.WordP Proofs.LimbsP.
From Coq Require Import ZArith Znumtheory Zpow_facts Lia List Bool.
Open Scope Z_scope.

Lemma odd_mod2 m : Z.odd m = true -> m mod 2 = 1.
Proof. intros H. rewrite Zmod_odd, H. reflexivity. Qed.

Lemma odd_rel_prime_2 m : Z.odd m = true -> rel_prime m 2.
Proof.
  intros H. apply rel_prime_sym. apply prime_rel_prime; [apply prime_2|].
  intros D. apply Zdivide_mod in D. rewrite (odd_mod2 m H) in D. discriminate.
Qed.
Lemma odd_rel_prime_pow2 m e : Z.odd m = true -> 0 <= e -> rel_prime m (2 ^ e).
Proof. intros H He. apply rel_prime_Zpower_r; [assumption | apply odd_rel_prime_2; assumption]. Qed.
Lemma odd_rel_prime_B m : Z.odd m = true -> rel_prime m B.
Proof. intros H. rewrite B_val. apply odd_rel_prime_pow2; [assumption | lia]. Qed.
Lemma odd_rel_prime_Bn m n : Z.odd m = true -> rel_prime m (Bn n).
Proof. intros H. rewrite Bn_pow2. apply odd_rel_prime_pow2; [assumption | lia]. Qed.

Lemma cancel_mod c m x y : 0 < m -> rel_prime m c -> (c * x) mod m = (c * y) mod m -> x mod m = y mod m.
Proof.
  intros Hm Hrp E.
  assert (D : (m | c * (x - y))).
  { apply Z.mod_divide; [lia|]. rewrite Z.mul_sub_distr_l, Zminus_mod, E, Z.sub_diag. apply Z.mod_0_l. lia. }
  apply Gauss in D; [|assumption]. destruct D as [q Hq].
  replace x with (y + q * m) by lia. apply Z.mod_add. lia.
Qed.
Lemma cancel_mod_r c m x y : 0 < m -> rel_prime m c -> (x * c) mod m = (y * c) mod m -> x mod m = y mod m.
Proof. intros Hm Hrp E. apply (cancel_mod c m); auto. rewrite !(Z.mul_comm c). exact E. Qed.

Lemma residue_unique m r s : 0 <= r < m -> 0 <= s < m -> r mod m = s mod m -> r = s.
Proof. intros Hr Hs E. rewrite !Z.mod_small in E by lia. exact E. Qed.

Lemma half_mod_correct m x : Z.odd m = true -> 0 < m -> 0 <= x < m ->
  0 <= half_mod m x < m /\ (2 * half_mod m x = x \/ 2 * half_mod m x = x + m).
Proof.
  intros Ho Hm Hx. unfold half_mod. destruct (Z.even x) eqn:Ex.
  - pose proof (Zmod_even x) as Hp. rewrite Ex in Hp. cbv iota in Hp.
    pose proof (Z.div_mod x 2 ltac:(lia)). split; [|left]; lia.
  - pose proof (Zmod_even (x + m)) as Hp. rewrite Z.even_add, Ex in Hp.
    rewrite <- Z.negb_odd, Ho in Hp. cbn in Hp.
    pose proof (Z.div_mod (x + m) 2 ltac:(lia)). split; [|right]; lia.
Qed.
Lemma half_mod_congr m x : Z.odd m = true -> 0 < m -> 0 <= x < m -> (2 * half_mod m x) mod m = x mod m.
Proof.
  intros Ho Hm Hx. destruct (half_mod_correct m x Ho Hm Hx) as (_ & [-> | ->]); [reflexivity|].
  replace (x + m) with (x + 1 * m) by lia. apply Z.mod_add. lia.
Qed.

Lemma iter_half_correct m : Z.odd m = true -> 0 < m -> forall k y, 0 <= y < m ->
  0 <= Nat.iter k (half_mod m) y < m /\ (2 ^ Z.of_nat k * Nat.iter k (half_mod m) y) mod m = y mod m.
Proof.
  intros Ho Hm. induction k as [|k IH]; intros y Hy.
  - change (Nat.iter 0 (half_mod m) y) with y. split; [assumption|]. change (Z.of_nat 0) with 0. rewrite Z.pow_0_r, Z.mul_1_l. reflexivity.
  - change (Nat.iter (S k) (half_mod m) y) with (half_mod m (Nat.iter k (half_mod m) y)). destruct (IH y Hy) as (Hb & Hc). set (r := Nat.iter k (half_mod m) y) in *.
    destruct (half_mod_correct m r Ho Hm Hb) as (Hb' & _). split; [assumption|].
    rewrite Nat2Z.inj_succ, Z.pow_succ_r by lia.
    replace (2 * 2 ^ Z.of_nat k * half_mod m r) with (2 ^ Z.of_nat k * (2 * half_mod m r)) by ring.
    rewrite Zmult_mod, (half_mod_congr m r Ho Hm Hb), <- Zmult_mod. exact Hc.
Qed.

(** redc_spec n m x is THE r in [0, m) with r * R = x (mod m) *)
Theorem redc_spec_char n m x : Z.odd m = true -> 0 < m ->
  0 <= redc_spec n m x < m /\ (redc_spec n m x * Bn n) mod m = x mod m.
Proof.
  intros Ho Hm. unfold redc_spec.
  destruct (iter_half_correct m Ho Hm (64 * n) (x mod m) (Z.mod_pos_bound x m Hm)) as (Hb & Hc).
  split; [assumption|]. rewrite Bn_pow2, Z.mul_comm.
  replace (64 * Z.of_nat n) with (Z.of_nat (64 * n)) by lia. rewrite Hc. apply Z.mod_mod. lia.
Qed.
Theorem redc_spec_unique n m x r : Z.odd m = true -> 0 < m ->
  0 <= r < m -> (r * Bn n) mod m = x mod m -> r = redc_spec n m x.
Proof.
  intros Ho Hm Hr E. destruct (redc_spec_char n m x Ho Hm) as (Hb & Hc).
  apply (residue_unique m); try assumption.
  apply (cancel_mod_r (Bn n) m); [assumption | apply odd_rel_prime_Bn; assumption | congruence].
Qed.

(** m^-1 mod 2^64 : the bit-serial loop of inv_mod2k_vartime *)
(* invariant: a * x + 2^i * b = 1 (mod 2^64) with x < 2^i.  The next bit of the inverse is the low bit of b; after it
   is added, b - a (resp. b) is even and is halved *)
Lemma inv2k_loop_correct a : Z.odd a = true -> 0 <= a < B -> forall cnt i x b,
  0 <= i -> 0 <= x < 2 ^ i -> 0 <= b < B -> (a * x + 2 ^ i * b) mod B = 1 ->
  let r := inv2k_loop cnt i a x b in
  0 <= r < 2 ^ (i + Z.of_nat cnt) /\ exists b', 0 <= b' < B /\ (a * r + 2 ^ (i + Z.of_nat cnt) * b') mod B = 1.
Proof.
  intros Ho Ha. induction cnt as [|c IH]; intros i x b Hi Hx Hb Hinv.
  - cbn [inv2k_loop]. rewrite Z.add_0_r. split; [assumption|]. exists b. split; assumption.
  - cbn [inv2k_loop]. cbv zeta.
    replace (i + Z.of_nat (S c)) with ((i + 1) + Z.of_nat c) by lia.
    pose proof B_pos. pose proof (Z.pow_pos_nonneg 2 i ltac:(lia) Hi) as Hp.
    assert (Hp1 : 2 ^ (i + 1) = 2 * 2 ^ i) by (rewrite Z.pow_add_r by lia; lia).
    assert (Beven : B mod 2 = 0) by (rewrite B_val; reflexivity).
    pose proof (Z.mod_pos_bound b 2 ltac:(lia)) as Hb2.
    pose proof (odd_mod2 a Ho) as Ha2.
    apply IH; try lia.
    + destruct (b mod 2 =? 1) eqn:Eb; [apply Z.eqb_eq in Eb; rewrite Eb | apply Z.eqb_neq in Eb; replace (b mod 2) with 0 by lia]; lia.
    + destruct (b mod 2 =? 1) eqn:Eb.
      * unfold wsub, wrap. pose proof (Z.mod_pos_bound (b - a) B ltac:(lia)).
        split; [apply Z.div_pos; lia | apply Z.div_lt_upper_bound; lia].
      * split; [apply Z.div_pos; lia | apply Z.div_lt_upper_bound; lia].
    + destruct (b mod 2 =? 1) eqn:Eb.
      * apply Z.eqb_eq in Eb. rewrite Eb. unfold wsub, wrap.
        (* (b - a) mod B is even *)
        set (d := (b - a) mod B).
        assert (Hd : exists e, d = b - a + e * B).
        { exists (- ((b - a) / B)). unfold d. rewrite Z.mod_eq by lia. ring. }
        destruct Hd as [e He].
        assert (Hd2 : d mod 2 = 0).
        { rewrite He. rewrite Zplus_mod, Zmult_mod, Beven, Z.mul_0_r, Zmod_0_l, Z.add_0_r, Z.mod_mod by lia.
          rewrite Zminus_mod, Eb, Ha2. reflexivity. }
        pose proof (Z.div_mod d 2 ltac:(lia)) as Dd. rewrite Hd2 in Dd.
        replace (a * (x + 1 * 2 ^ i) + 2 ^ (i + 1) * (d / 2)) with (a * x + 2 ^ i * b + (2 ^ i * e) * B) by (rewrite Hp1; nia).
        rewrite Z.mod_add by lia. exact Hinv.
      * apply Z.eqb_neq in Eb. assert (Hb0 : b mod 2 = 0) by lia. rewrite Hb0.
        pose proof (Z.div_mod b 2 ltac:(lia)) as Db. rewrite Hb0 in Db.
        replace (a * (x + 0 * 2 ^ i) + 2 ^ (i + 1) * (b / 2)) with (a * x + 2 ^ i * b) by (rewrite Hp1; nia).
        exact Hinv.
Qed.

Theorem inv_mod2k_word_correct a : Z.odd a = true -> 0 <= a < B ->
  0 <= inv_mod2k_word a < B /\ (a * inv_mod2k_word a) mod B = 1.
Proof.
  intros Ho Ha. unfold inv_mod2k_word. pose proof B_gt1.
  destruct (inv2k_loop_correct a Ho Ha 64 0 0 1 ltac:(lia) ltac:(cbn; lia) ltac:(lia)) as (Hr & b' & Hb' & Hinv).
  { replace (a * 0 + 2 ^ 0 * 1) with 1 by (cbn; lia). apply Z.mod_small. lia. }
  cbv zeta in *. change (0 + Z.of_nat 64) with 64 in *. rewrite <- B_val in *.
  split; [assumption|]. rewrite <- (Z.mod_add (a * inv2k_loop 64 0 a 0 1) b' B) by lia. rewrite (Z.mul_comm b' B). exact Hinv.
Qed.

(** mod_neg_inv = -(m^-1) mod 2^64 *)
Lemma neg_of_inverse m0 x : (m0 * x) mod B = 1 -> (m0 * ((0 - x) mod B) + 1) mod B = 0.
Proof.
  intros Hinv. pose proof B_gt1.
  rewrite Z.sub_0_l. rewrite Zplus_mod, Zmult_mod, Z.mod_mod, <- Zmult_mod, <- Zplus_mod by lia.
  replace (m0 * - x + 1) with (1 - m0 * x) by ring.
  rewrite Zminus_mod, Hinv. rewrite Z.mod_1_l by lia. rewrite Z.sub_diag. apply Z.mod_0_l. lia.
Qed.
Theorem mod_neg_inv_of_correct m0 : Z.odd m0 = true -> 0 <= m0 < B ->
  is_word (wsub 0 (inv_mod2k_word m0)) /\ (m0 * wsub 0 (inv_mod2k_word m0) + 1) mod B = 0.
Proof.
  intros Ho Hm0. destruct (inv_mod2k_word_correct m0 Ho Hm0) as (Hx & Hinv).
  split; [apply is_word_mod | apply neg_of_inverse; exact Hinv].
Qed.

Lemma neg_inv_unique m0 k1 k2 : Z.odd m0 = true -> is_word k1 -> is_word k2 ->
  (m0 * k1 + 1) mod B = 0 -> (m0 * k2 + 1) mod B = 0 -> k1 = k2.
Proof.
  intros Ho H1 H2 E1 E2. pose proof B_pos. apply (residue_unique B); try assumption.
  apply (cancel_mod m0 B); [lia | apply rel_prime_sym; apply odd_rel_prime_B; assumption|].
  assert (F : forall k, (m0 * k + 1) mod B = 0 -> (m0 * k) mod B = (-1) mod B).
  { intros k E. apply Z.mod_divide in E; [|lia]. destruct E as [q Hq].
    replace (m0 * k) with (-1 + q * B) by lia. apply Z.mod_add. lia. }
  rewrite (F k1 E1), (F k2 E2). reflexivity.
Qed.

(** m^-1 mod 2^64 : Hensel lifting (the specification's computation) *)
Lemma hensel_step a x e : 0 <= e -> 2 * e <= 64 -> (2 ^ e | 1 - a * x) ->
  (2 ^ (2 * e) | 1 - a * ((x * (2 - a * x)) mod B)).
Proof.
  intros He He2 [q Hq]. pose proof B_pos.
  assert (HB : (2 ^ (2 * e) | B)).
  { rewrite B_val. exists (2 ^ (64 - 2 * e)). rewrite <- Z.pow_add_r by lia. f_equal. lia. }
  rewrite Z.mod_eq by lia.
  replace (1 - a * (x * (2 - a * x) - B * (x * (2 - a * x) / B)))
    with ((1 - a * x) * (1 - a * x) + (a * (x * (2 - a * x) / B)) * B) by ring.
  apply Z.divide_add_r; [|apply Z.divide_mul_r; assumption].
  rewrite Hq. exists (q * q). replace (2 * e) with (e + e) by lia. rewrite Z.pow_add_r by lia. ring.
Qed.

Lemma inverse_of_divides a x : (B | 1 - a * x) -> (a * x) mod B = 1.
Proof.
  intros [q Hq]. pose proof B_gt1. replace (a * x) with (1 + (- q) * B) by lia.
  rewrite Z.mod_add by lia. apply Z.mod_1_l. lia.
Qed.
Theorem hensel_inv_correct a : Z.odd a = true -> (a * hensel_inv a) mod B = 1.
Proof.
  intros Ho. apply inverse_of_divides. rewrite B_val.
  unfold hensel_inv. cbv [Nat.iter nat_rect].
  assert (H1 : (2 ^ 1 | 1 - a * 1)).
  { apply Z.mod_divide; [lia|]. change (2 ^ 1) with 2. rewrite Zminus_mod, Z.mul_1_r, (odd_mod2 a Ho). reflexivity. }
  apply (hensel_step a 1 1) in H1; try lia. change (2 * 1) with 2 in H1.
  apply (hensel_step a _ 2) in H1; try lia. change (2 * 2) with 4 in H1.
  apply (hensel_step a _ 4) in H1; try lia. change (2 * 4) with 8 in H1.
  apply (hensel_step a _ 8) in H1; try lia. change (2 * 8) with 16 in H1.
  apply (hensel_step a _ 16) in H1; try lia. change (2 * 16) with 32 in H1.
  apply (hensel_step a _ 32) in H1; try lia. change (2 * 32) with 64 in H1.
  exact H1.
Qed.

Theorem spec_neg_inv_correct m0 : Z.odd m0 = true -> is_word (spec_neg_inv m0) /\ (m0 * spec_neg_inv m0 + 1) mod B = 0.
Proof.
  intros Ho. unfold spec_neg_inv. split; [apply is_word_mod|].
  rewrite <- Z.sub_0_l. apply neg_of_inverse. apply hensel_inv_correct. exact Ho.
Qed.

Theorem neg_inv_model_eq_spec m0 : Z.odd m0 = true -> 0 <= m0 < B ->
  wsub 0 (inv_mod2k_word m0) = spec_neg_inv m0.
Proof.
  intros Ho Hm0. destruct (mod_neg_inv_of_correct m0 Ho Hm0) as (A & C). destruct (spec_neg_inv_correct m0 Ho) as (D & E).
  apply (neg_inv_unique m0); assumption.
Qed.
