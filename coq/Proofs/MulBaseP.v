(** C03 proofs, part 1: list surgery, one multiply-accumulate row, schoolbook multiplication,
    adc_mul_limbs (out += xs * ys with final carry). All statements for arbitrary lengths. *)
From CB Require Import Model.Limbs Model.AddSub Model.Mul Proofs.WordP Proofs.LimbsP Proofs.AddSubP.
From Coq Require Import ZArith Lia List.
Open Scope Z_scope.

Lemma skipn_skipn' {A} (a b : nat) (l : list A) : skipn a (skipn b l) = skipn (b + a) l.
Proof.
  revert l. induction b as [|b IH]; intros l; [reflexivity|].
  destruct l as [|x l]; [rewrite !skipn_nil; reflexivity|]. cbn [Nat.add skipn]. apply IH.
Qed.

Lemma nthz_mid pre m post : nthz (pre ++ m :: post) (length pre) = m.
Proof. unfold nthz. apply nth_middle. Qed.

Lemma firstn_exact {A} (pre post : list A) : firstn (length pre) (pre ++ post) = pre.
Proof. rewrite firstn_app, Nat.sub_diag, firstn_all. cbn [firstn]. apply app_nil_r. Qed.

Lemma skipn_exact {A} (pre post : list A) : skipn (length pre) (pre ++ post) = post.
Proof. rewrite skipn_app, Nat.sub_diag, skipn_all. reflexivity. Qed.

Lemma firstn_exact' {A} n (pre post : list A) : n = length pre -> firstn n (pre ++ post) = pre.
Proof. intros ->. apply firstn_exact. Qed.
Lemma skipn_exact' {A} n (pre post : list A) : n = length pre -> skipn n (pre ++ post) = post.
Proof. intros ->. apply skipn_exact. Qed.

Lemma upd_mid (pre : list Z) m post v :
  firstn (length pre) (pre ++ m :: post) ++ v :: skipn (S (length pre)) (pre ++ m :: post) = pre ++ v :: post.
Proof.
  rewrite firstn_exact. f_equal. f_equal.
  replace (S (length pre)) with (length pre + 1)%nat by lia. rewrite <- skipn_skipn', skipn_exact. reflexivity.
Qed.

Lemma upd_mid' k (pre : list Z) m post v : k = length pre ->
  firstn k (pre ++ m :: post) ++ v :: skipn (S k) (pre ++ m :: post) = pre ++ v :: post.
Proof. intros ->. apply upd_mid. Qed.

Lemma nthz_mid' k pre m post : k = length pre -> nthz (pre ++ m :: post) k = m.
Proof. intros ->. apply nthz_mid. Qed.

Lemma split3 (l : list Z) off len : (off + len <= length l)%nat ->
  l = firstn off l ++ slice l off len ++ skipn (off + len) l /\
  length (firstn off l) = off /\ length (slice l off len) = len.
Proof.
  intros H. unfold slice. split; [|split].
  - rewrite <- skipn_skipn'. rewrite firstn_skipn, firstn_skipn. reflexivity.
  - apply firstn_length_le. lia.
  - rewrite firstn_length_le; [reflexivity|]. rewrite skipn_length. lia.
Qed.

Lemma length_splice out off seg : (off + length seg <= length out)%nat ->
  length (splice out off seg) = length out.
Proof.
  intros H. unfold splice. rewrite !app_length, firstn_length_le, skipn_length by lia. lia.
Qed.

Lemma splice_struct pre mid post seg : length seg = length mid ->
  splice (pre ++ mid ++ post) (length pre) seg = pre ++ seg ++ post.
Proof.
  intros H. unfold splice. rewrite firstn_exact. f_equal. f_equal.
  rewrite <- skipn_skipn', skipn_exact, H, skipn_exact. reflexivity.
Qed.

Lemma slice_struct pre mid post : slice (pre ++ mid ++ post) (length pre) (length mid) = mid.
Proof. unfold slice. rewrite skipn_exact, firstn_exact. reflexivity. Qed.

Lemma eval3 pre mid post :
  eval (pre ++ mid ++ post) = eval pre + Bn (length pre) * (eval mid + Bn (length mid) * eval post).
Proof. rewrite !eval_app. reflexivity. Qed.

Lemma wf_app3 a b c : wf (a ++ b ++ c) <-> wf a /\ wf b /\ wf c.
Proof. rewrite !wf_app. tauto. Qed.

Lemma snoc_app {A} (a : list A) c z : a ++ c :: z = (a ++ [c]) ++ z.
Proof. exact (app_assoc a [c] z). Qed.

Lemma wf_snoc l c : wf l -> is_word c -> wf (l ++ [c]).
Proof. intros Hl Hc. apply wf_app. split; [assumption | apply wf_one; assumption]. Qed.

Lemma is_word_01 c : 0 <= c <= 1 -> is_word c.
Proof. unfold is_word. pose proof B_gt1. lia. Qed.

Lemma divmod_uniq b q1 r1 q2 r2 :
  0 <= r1 < b -> 0 <= r2 < b -> q1 * b + r1 = q2 * b + r2 -> q1 = q2 /\ r1 = r2.
Proof.
  intros H1 H2 E.
  destruct (div_mod_unique_pos b q1 r1 (q1 * b + r1) H1 eq_refl) as [A1 A2].
  destruct (div_mod_unique_pos b q2 r2 (q1 * b + r1) H2 E) as [C1 C2].
  split; congruence.
Qed.

(** [mac_row] on the window alone *)
Fixpoint mac_seg (mid : list Z) (xi : Z) (ys : list Z) (carry : Z) : list Z * Z :=
  match mid, ys with
  | m :: mid', y :: ys' =>
      let '(v, c) := mac m xi y carry in
      let '(r, c') := mac_seg mid' xi ys' c in (v :: r, c')
  | _, _ => ([], carry)
  end.

Lemma mac_row_seg ys : forall pre mid post xi carry, length mid = length ys ->
  mac_row (pre ++ mid ++ post) (length pre) xi ys carry =
  (pre ++ fst (mac_seg mid xi ys carry) ++ post, snd (mac_seg mid xi ys carry)).
Proof.
  induction ys as [|y ys IH]; intros pre mid post xi carry Hl; destruct mid as [|m mid]; try discriminate.
  - reflexivity.
  - cbn [mac_row mac_seg]. cbn [app]. rewrite nthz_mid.
    destruct (mac m xi y carry) as [v c]. rewrite upd_mid.
    rewrite snoc_app.
    replace (S (length pre)) with (length (pre ++ [v])) by (rewrite app_length; simpl; lia).
    rewrite IH by (simpl in Hl; lia).
    destruct (mac_seg mid xi ys c) as [r c']. cbn [fst snd]. rewrite <- app_assoc. reflexivity.
Qed.

Lemma mac_seg_correct mid : forall ys xi carry r c,
  wf mid -> wf ys -> length mid = length ys -> is_word xi -> is_word carry ->
  mac_seg mid xi ys carry = (r, c) ->
  eval r + Bn (length ys) * c = eval mid + xi * eval ys + carry /\ wf r /\ length r = length mid /\ is_word c.
Proof.
  induction mid as [|m mid IH]; intros ys xi carry r c Hm Hy Hl Hxi Hc E.
  - destruct ys; [|discriminate]. simpl in E. inv_pair E. simpl. rewrite Bn_0.
    split; [lia|]. split; [apply wf_nil|]. split; [reflexivity|assumption].
  - destruct ys as [|y ys]; [discriminate|].
    apply wf_cons in Hm. destruct Hm as [Hm0 Hm]. apply wf_cons in Hy. destruct Hy as [Hy0 Hy].
    cbn [mac_seg] in E. destruct (mac m xi y carry) as [v c1] eqn:E1.
    destruct (mac_seg mid xi ys c1) as [r' c'] eqn:E2. inv_pair E.
    pose proof (mac_exact _ _ _ _ _ _ Hm0 Hxi Hy0 Hc E1) as (H1 & Hv & Hc1).
    simpl in Hl.
    specialize (IH ys xi c1 r' c' Hm Hy ltac:(lia) Hxi Hc1 E2). destruct IH as (H2 & Hw & Hlr & Hc').
    cbn [eval length]. rewrite Bn_S.
    split; [|split; [|split]]; auto.
    + assert (eval r' = eval mid + xi * eval ys + c1 - Bn (length ys) * c') as -> by lia.
      assert (v = m + xi * y + carry - B * c1) as -> by lia. ring.
    + apply wf_cons. split; assumption.
Qed.

Lemma mac_row_struct pre mid post xi ys carry :
  wf mid -> wf ys -> length mid = length ys -> is_word xi -> is_word carry ->
  exists r c, mac_row (pre ++ mid ++ post) (length pre) xi ys carry = (pre ++ r ++ post, c) /\
    eval r + Bn (length ys) * c = eval mid + xi * eval ys + carry /\ wf r /\ length r = length mid /\ is_word c.
Proof.
  intros Hm Hy Hl Hxi Hc. rewrite mac_row_seg by assumption.
  destruct (mac_seg mid xi ys carry) as [r c] eqn:E. exists r, c. cbn [fst snd]. split; [reflexivity|].
  eapply mac_seg_correct; eauto.
Qed.

Theorem mac_row_correct out off xi ys carry out' c :
  wf out -> wf ys -> is_word xi -> is_word carry -> (off + length ys <= length out)%nat ->
  mac_row out off xi ys carry = (out', c) ->
  eval out' + Bn (off + length ys) * c = eval out + Bn off * (xi * eval ys + carry) /\
  wf out' /\ length out' = length out /\ is_word c /\
  firstn off out' = firstn off out /\ skipn (off + length ys) out' = skipn (off + length ys) out.
Proof.
  intros Ho Hy Hxi Hc Hlen E.
  destruct (split3 out off (length ys) Hlen) as (Hsp & Hl1 & Hl2).
  set (pre := firstn off out) in *. set (mid := slice out off (length ys)) in *.
  set (post := skipn (off + length ys) out) in *.
  clearbody pre mid post. subst out.
  apply wf_app3 in Ho. destruct Ho as (Hwp & Hwm & Hwq).
  destruct (mac_row_struct pre mid post xi ys carry Hwm Hy Hl2 Hxi Hc) as (r & c0 & Er & Hev & Hwr & Hlr & Hc0).
  rewrite Hl1 in Er. rewrite Er in E. inv_pair E.
  rewrite !eval3, Hl1, Hlr, Hl2, Bn_add.
  split; [|split; [|split; [|split; [|split]]]].
  - assert (eval r = eval mid + xi * eval ys + carry - Bn (length ys) * c0) as -> by lia. ring.
  - apply wf_app3. auto.
  - rewrite !app_length. lia.
  - assumption.
  - rewrite !firstn_exact' by (symmetry; exact Hl1). reflexivity.
  - rewrite !app_assoc. rewrite !skipn_exact' by (rewrite app_length; lia). reflexivity.
Qed.

(** a row whose window is the top of the accumulator [acc]: the rest of the buffer is untouched *)
Lemma mac_row_top acc tail i xi ys : wf acc -> wf ys -> is_word xi -> length acc = (i + length ys)%nat ->
  exists acc' c, mac_row (acc ++ tail) i xi ys 0 = (acc' ++ tail, c) /\ wf acc' /\ length acc' = length acc /\
    is_word c /\ eval acc' + Bn (length acc) * c = eval acc + Bn i * (xi * eval ys).
Proof.
  intros Ha Hy Hxi Hl.
  destruct (split3 acc i (length ys) ltac:(lia)) as (Hsp & Hl1 & Hl2).
  rewrite skipn_all2, app_nil_r in Hsp by lia.
  set (pre := firstn i acc) in *. set (mid := slice acc i (length ys)) in *. clearbody pre mid. subst acc.
  apply wf_app in Ha. destruct Ha as [Hwp Hwm].
  destruct (mac_row_struct pre mid tail xi ys 0 Hwm Hy Hl2 Hxi is_word_0) as (r & c & Er & Hev & Hwr & Hlr & Hc).
  exists (pre ++ r), c. rewrite <- !app_assoc, <- Hl1 at 1. rewrite Er.
  split; [reflexivity|]. split; [apply wf_app; auto|]. split; [rewrite !app_length; lia|]. split; [assumption|].
  rewrite !eval_app, app_length, Bn_add, Hl1, Hl2. apply Z.add_move_r in Hev. rewrite Hev. ring.
Qed.

Lemma schoolbook_rows_correct xs : forall acc i ys,
  wf acc -> wf xs -> wf ys -> length acc = (i + length ys)%nat ->
  let r := schoolbook_rows (acc ++ zeros (length xs)) i xs ys in
  eval r = eval acc + Bn i * (eval xs * eval ys) /\ wf r /\ length r = (length acc + length xs)%nat.
Proof.
  induction xs as [|xi xs IH]; intros acc i ys Ha Hx Hy Hl r.
  - subst r. cbn [schoolbook_rows length zeros repeat eval]. rewrite app_nil_r.
    repeat split; auto; lia.
  - apply wf_cons in Hx. destruct Hx as [Hxi Hx]. subst r.
    cbn [schoolbook_rows length zeros repeat]. fold (zeros (length xs)).
    destruct (mac_row_top acc (0 :: zeros (length xs)) i xi ys Ha Hy Hxi Hl) as (acc' & c & -> & Hwa & Hla & Hc & Hev).
    rewrite <- Hl, <- Hla, upd_mid, snoc_app.
    destruct (IH (acc' ++ [c]) (S i) ys (wf_snoc _ _ Hwa Hc) Hx Hy ltac:(rewrite app_length; cbn [length]; lia))
      as (IH1 & IH2 & IH3).
    split; [|split; [assumption|]].
    + rewrite IH1, eval_app, Hla. cbn [eval]. rewrite Bn_S. apply Z.add_move_r in Hev. rewrite Hev. ring.
    + rewrite IH3, app_length. cbn [length]. lia.
Qed.

Theorem schoolbook_mul_correct xs ys : wf xs -> wf ys ->
  eval (schoolbook_mul xs ys) = eval xs * eval ys /\ wf (schoolbook_mul xs ys) /\
  length (schoolbook_mul xs ys) = (length xs + length ys)%nat.
Proof.
  intros Hx Hy. unfold schoolbook_mul.
  replace (zeros (length xs + length ys)) with (zeros (length ys) ++ zeros (length xs)).
  2:{ unfold zeros. rewrite <- repeat_app. f_equal. lia. }
  pose proof (schoolbook_rows_correct xs (zeros (length ys)) 0 ys (wf_zeros _) Hx Hy
                ltac:(rewrite length_zeros; reflexivity)) as H.
  cbv zeta in H. destruct H as (H1 & H2 & H3).
  rewrite H1, H3, eval_zeros, Bn_0, length_zeros. repeat split; auto; lia.
Qed.

Lemma split_at_eval n l lo hi : wf l -> (n <= length l)%nat -> split_at n l = (lo, hi) ->
  eval lo + Bn n * eval hi = eval l /\ wf lo /\ wf hi /\ length lo = n /\ length hi = (length l - n)%nat.
Proof.
  intros Hw Hn E. unfold split_at in E. inv_pair E.
  pose proof (eval_firstn_skipn n l) as Hev. rewrite firstn_length_le in Hev by assumption.
  repeat split; auto using wf_firstn, wf_skipn.
  - apply firstn_length_le. assumption.
  - apply skipn_length.
Qed.

Theorem schoolbook_split_correct xs ys lo hi : wf xs -> wf ys ->
  split_at (length xs) (schoolbook_mul xs ys) = (lo, hi) ->
  eval lo + Bn (length xs) * eval hi = eval xs * eval ys /\ wf lo /\ wf hi /\
  length lo = length xs /\ length hi = length ys.
Proof.
  intros Hx Hy E. destruct (schoolbook_mul_correct xs ys Hx Hy) as (H1 & H2 & H3).
  assert (Hn : (length xs <= length (schoolbook_mul xs ys))%nat) by lia.
  destruct (split_at_eval _ _ _ _ H2 Hn E) as (A & C & D & F & G).
  repeat split; auto; lia.
Qed.

Lemma adc_mul_rows_correct xs : forall lo hi i ys carry out' c,
  wf lo -> wf hi -> wf xs -> wf ys -> length lo = (i + length ys)%nat -> length hi = length xs ->
  0 <= carry <= 1 ->
  adc_mul_rows (lo ++ hi) i xs ys carry = (out', c) ->
  eval out' + Bn (length lo + length hi) * c =
    eval lo + Bn (length lo) * eval hi + Bn i * (eval xs * eval ys) + Bn (length lo) * carry /\
  wf out' /\ length out' = (length lo + length hi)%nat /\ 0 <= c <= 1.
Proof.
  induction xs as [|xi xs IH]; intros lo hi i ys carry out' c Hlo Hhi Hx Hy Hl Hlh Hc E.
  - destruct hi; [|discriminate]. cbn [adc_mul_rows] in E. inv_pair E.
    rewrite app_nil_r. cbn [eval length]. rewrite Nat.add_0_r.
    repeat split; auto; lia.
  - destruct hi as [|h0 hi]; [discriminate|].
    apply wf_cons in Hx. destruct Hx as [Hxi Hx]. apply wf_cons in Hhi. destruct Hhi as [Hh0 Hhi].
    cbn [adc_mul_rows] in E.
    destruct (mac_row_top lo (h0 :: hi) i xi ys Hlo Hy Hxi Hl) as (lo' & c2 & Er & Hwl & Hll & Hc2 & Hev).
    rewrite Er, <- Hl, <- Hll, nthz_mid in E.
    destruct (adc h0 c2 carry) as [v c1] eqn:Ea.
    rewrite upd_mid, snoc_app in E.
    pose proof (adc_exact _ _ _ _ _ Hh0 Hc2 (is_word_01 _ Hc) Ea) as (Hv1 & Hvw & _).
    pose proof (adc_carry_small _ _ _ _ _ Hh0 Hc2 Hc Ea) as Hc1.
    cbn [length] in Hlh.
    destruct (IH (lo' ++ [v]) hi (S i) ys c1 out' c (wf_snoc _ _ Hwl Hvw) Hhi Hx Hy
                ltac:(rewrite app_length; cbn [length]; lia) ltac:(lia) Hc1 E) as (IH1 & IH2 & IH3 & IH4).
    rewrite app_length in IH1, IH3. cbn [length] in *.
    replace (length lo + S (length hi))%nat with (length lo' + 1 + length hi)%nat by lia.
    split; [|auto].
    rewrite IH1, eval_app, !Bn_add, Bn_1, Hll. cbn [eval]. rewrite Bn_S.
    apply Z.add_move_r in Hev. rewrite Hev.
    assert (v = h0 + c2 + carry - B * c1) as -> by lia. ring.
Qed.

Theorem adc_mul_limbs_correct xs ys out out' c :
  wf xs -> wf ys -> wf out -> length out = (length xs + length ys)%nat ->
  adc_mul_limbs xs ys out = (out', c) ->
  eval out' + Bn (length out) * c = eval out + eval xs * eval ys /\
  wf out' /\ length out' = length out /\ 0 <= c <= 1.
Proof.
  intros Hx Hy Ho Hl E. unfold adc_mul_limbs in E.
  pose proof (firstn_skipn (length ys) out) as Hsp.
  set (lo := firstn (length ys) out) in *. set (hi := skipn (length ys) out) in *.
  assert (Hw2 : wf lo /\ wf hi) by (apply wf_app; rewrite Hsp; exact Ho). destruct Hw2 as [Hwl Hwh].
  assert (Hll : length lo = (0 + length ys)%nat) by (unfold lo; rewrite firstn_length_le; lia).
  assert (Hlh : length hi = length xs) by (unfold hi; rewrite skipn_length; lia).
  rewrite <- Hsp in E.
  destruct (adc_mul_rows_correct xs lo hi 0 ys 0 out' c Hwl Hwh Hx Hy Hll Hlh ltac:(lia) E) as (H1 & H2 & H3 & H4).
  rewrite <- Hsp. rewrite app_length, eval_app.
  repeat split; auto; try lia. rewrite H1, Bn_0. ring.
Qed.
