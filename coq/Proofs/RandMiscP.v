(** C19, part 4: Random for Limb / Uint, Limb::random_mod, NonZero and Odd samplers. *)
From CB Require Import Model.Limbs Model.AddSub Model.Rand Proofs.BitsP Proofs.WordP Proofs.WordPredP Proofs.LimbsP Proofs.AddSubP
  Proofs.RandBaseP Proofs.RandModP Proofs.RandBitsP.
From Coq Require Import ZArith Lia List Bool.
Open Scope Z_scope. Open Scope list_scope.
(** Uint::random / Int::random / Wrapping::random: the next n words are the limbs, low limb first *)
Theorem uint_random_spec n ws nw nb : wf ws ->
  uint_random n (Rng ws nw nb) =
    if (length ws <? n)%nat then None
    else Some (firstn n ws, Rng (skipn n ws) (nw + Z.of_nat n) (nb + 8 * Z.of_nat n)).
Proof. intros _. apply rnd_words_spec. Qed.

Theorem uint_random_agrees n ws nw nb : wf ws -> (0 < n)%nat ->
  rnd_agrees n ws 0 nw nb (uint_random n (Rng ws nw nb)) (sp_random n ws).
Proof.
  intros Hws Hn. rewrite uint_random_spec by assumption. unfold sp_random.
  destruct (Nat.ltb_spec (length ws) n) as [|Hlen]; [exact I|].
  destruct (rnd_firstn_block n ws Hws Hlen) as (_ & _ & Ht & Hb).
  unfold rnd_agrees. rewrite Z.sub_0_r, Nat2Z.id. repeat split; auto; lia.
Qed.
Definition rnd_agrees1 (ws0 : list Z) (base nw0 nb0 : Z) (o : option (Z * rnd_rng)) (s : rnd_sp) : Prop :=
  match o, s with
  | Some (v, Rng rest nw nb), SpOk x k b =>
      v = x /\ nw = nw0 + k /\ nb = nb0 + b /\ base < k /\ rest = skipn (Z.to_nat (k - base)) ws0
  | None, SpExhausted => True
  | _, _ => False
  end.

(** bytes of one attempt: ceil(bits/8) bytes, the top one masked to the modulus' bit length *)
Lemma rnd_limb_attempt m w : 0 < m < B -> is_word w ->
  let nbits := 64 - rnd_lz m in
  let nbytes := (nbits + 7) / 8 in
  let mask := 255 / 2 ^ (8 * nbytes - nbits) in
  let sh := 2 ^ (8 * (nbytes - 1)) in
  let v := (if 4 <? nbytes then w else w mod 2 ^ 32) mod 2 ^ (8 * nbytes) in
  nbits = rnd_bitlen m /\ 1 <= nbits <= 64 /\ 1 <= nbytes <= 8 /\ nbytes = rnd_ceil (rnd_bitlen m) 8 /\
  v mod sh + wand (v / sh) mask * sh = w mod 2 ^ rnd_bitlen m.
Proof.
  intros Hm Hw nbits nbytes mask sh v.
  assert (Hmw : is_word m) by (unfold is_word; lia).
  destruct (rnd_lz_word m Hmw) as [Hlz Hsb]. specialize (Hsb ltac:(lia)).
  assert (Hnb : nbits = rnd_bitlen m) by (unfold nbits; lia).
  assert (Hk : 1 <= nbits <= 64).
  { pose proof (rnd_bitlen_spec m ltac:(lia)) as [? _]. unfold nbits in *. lia. }
  pose proof (Z.div_mod (nbits + 7) 8 ltac:(lia)) as Hdm. pose proof (Z.mod_pos_bound (nbits + 7) 8 ltac:(lia)).
  fold nbytes in Hdm.
  assert (Hby : 1 <= nbytes <= 8) by lia.
  split; [assumption|]. split; [assumption|]. split; [assumption|]. split.
  { unfold nbytes, rnd_ceil. rewrite Hnb. f_equal. lia. }
  set (t := nbits - 8 * (nbytes - 1)). assert (Ht : 1 <= t <= 8) by (unfold t; lia).
  assert (Hv : v = w mod 2 ^ (8 * nbytes)).
  { unfold v. destruct (Z.ltb_spec 4 nbytes); [reflexivity|]. apply rnd_mod_mod_pow. lia. }
  assert (Hmask : mask = 2 ^ t - 1).
  { unfold mask. change 255 with (2 ^ 8 - 1). rewrite rnd_ones_div by lia. do 2 f_equal. unfold t. lia. }
  rewrite Hmask, rnd_land_ones by lia.
  assert (Hsplit : 2 ^ nbits = sh * 2 ^ t).
  { unfold sh. rewrite <- pow2_split by lia. f_equal. unfold t. lia. }
  pose proof (pow2_pos (8 * (nbytes - 1)) ltac:(lia)) as Hshp. fold sh in Hshp.
  pose proof (pow2_pos t ltac:(lia)).
  rewrite <- Hnb, Hsplit.
  replace (w mod (sh * 2 ^ t)) with (v mod (sh * 2 ^ t)).
  - rewrite Z.rem_mul_r by lia. ring.
  - rewrite Hv, <- Hsplit. apply rnd_mod_mod_pow. lia.
Qed.

Lemma limb_mod_loop_agrees m nw0 nb0 : 0 < m < B ->
  let nbits := 64 - rnd_lz m in
  let nbytes := (nbits + 7) / 8 in
  let mask := 255 / 2 ^ (8 * nbytes - nbits) in
  forall ws f cnt, wf ws -> (length ws <= f)%nat ->
  rnd_agrees1 ws cnt nw0 nb0
    (limb_mod_loop f m nbytes mask (Rng ws (nw0 + cnt) (nb0 + nbytes * cnt)))
    (sp_limb_mod_loop m (rnd_bitlen m) ws cnt).
Proof.
  intros Hm nbits nbytes mask. induction ws as [|w ws IH]; intros f cnt Hws Hf.
  - destruct f; exact I.
  - destruct f as [|f]; [cbn in Hf; lia|]. apply wf_cons in Hws. destruct Hws as [Hw Hws].
    cbn [limb_mod_loop sp_limb_mod_loop rnd_fill].
    destruct (rnd_limb_attempt m w Hm Hw) as (Hnb & Hkr & Hby & Hceil & Hval).
    fold nbits nbytes mask in Hnb, Hkr, Hby, Hceil, Hval. rewrite Hval.
    assert (Hvw : is_word (w mod 2 ^ rnd_bitlen m)) by (apply rnd_mod_pow_word; lia).
    rewrite from_word_lt_spec, choice_to_bool_choice by (try assumption; unfold is_word; lia).
    destruct (Z.ltb_spec (w mod 2 ^ rnd_bitlen m) m).
    + unfold rnd_agrees1. repeat split; try lia; try (rewrite <- Hceil; ring).
      replace (Z.to_nat (cnt + 1 - cnt)) with 1%nat by lia. reflexivity.
    + specialize (IH f (cnt + 1) Hws ltac:(cbn in Hf; lia)).
      replace (nw0 + cnt + 1) with (nw0 + (cnt + 1)) by lia.
      replace (nb0 + nbytes * cnt + nbytes) with (nb0 + nbytes * (cnt + 1)) by ring.
      destruct (limb_mod_loop f m nbytes mask _) as [[v [rest nw nb]]|];
        destruct (sp_limb_mod_loop m (rnd_bitlen m) ws (cnt + 1)) as [x k b|]; cbn in IH |- *; auto.
      destruct IH as (Hv & Hnw & Hnb' & Hk & Hr). repeat split; try assumption; try lia.
      rewrite Hr. replace (Z.to_nat (k - cnt)) with (S (Z.to_nat (k - (cnt + 1)))) by lia. reflexivity.
Qed.

(** Limb::random_mod is the specified byte-wise rejection sampler *)
Theorem limb_random_mod_spec m ws nw0 nb0 : 0 < m < B -> wf ws ->
  rnd_agrees1 ws 0 nw0 nb0 (limb_random_mod m (Rng ws nw0 nb0)) (sp_limb_random_mod m ws).
Proof.
  intros Hm Hws. unfold limb_random_mod, sp_limb_random_mod. cbn [rnd_left].
  pose proof (limb_mod_loop_agrees m nw0 nb0 Hm ws (length ws) 0 Hws ltac:(lia)) as H.
  cbn zeta in H. rewrite !Z.mul_0_r, !Z.add_0_r in H. exact H.
Qed.

Lemma sp_limb_mod_loop_range m k : 0 <= k -> forall ws cnt x c b,
  sp_limb_mod_loop m k ws cnt = SpOk x c b -> 0 <= x < m /\ cnt < c /\ b = rnd_ceil k 8 * c.
Proof.
  intros Hk. induction ws as [|w ws IH]; intros cnt x c b E; [discriminate|].
  cbn [sp_limb_mod_loop] in E. destruct (Z.ltb_spec (w mod 2 ^ k) m) as [Hlt|].
  - injection E as E1 E2 E3. subst x c b. split; [|lia].
    split; [|assumption]. apply Z.mod_pos_bound. apply pow2_pos. assumption.
  - apply IH in E. lia.
Qed.
Lemma nonzero_uint_loop_agrees n nw0 nb0 : (0 < n)%nat -> forall f1 f2 ws cnt nw nb,
  wf ws -> (length ws < f1)%nat -> (length ws < f2)%nat -> nw = nw0 + cnt -> nb = nb0 + 8 * cnt ->
  rnd_agrees n ws cnt nw0 nb0 (nonzero_uint_loop f1 n (Rng ws nw nb)) (sp_nonzero_loop f2 n ws cnt).
Proof.
  intros Hn. induction f1 as [|f1 IH]; intros f2 ws cnt nw nb Hws Hf1 Hf2 -> ->; [lia|].
  destruct f2 as [|f2]; [lia|].
  cbn [nonzero_uint_loop sp_nonzero_loop]. rewrite uint_random_spec by assumption.
  destruct (Nat.ltb_spec (length ws) n) as [|Hlen]; [exact I|].
  destruct (rnd_firstn_block n ws Hws Hlen) as (Hwf & Hl & Ht & Hb).
  rewrite rnd_all_zero_spec by assumption.
  destruct (Z.eqb_spec (eval (firstn n ws)) 0) as [Hz|Hnz].
  - apply (rnd_agrees_skip n ws n); [assumption|].
    apply IH; [apply wf_skipn; assumption | rewrite skipn_length; lia | rewrite skipn_length; lia | lia | lia].
  - unfold rnd_agrees. replace (Z.to_nat (cnt + Z.of_nat n - cnt)) with n by lia. repeat split; auto; lia.
Qed.

Theorem nonzero_uint_random_spec n ws nw0 nb0 : (0 < n)%nat -> wf ws ->
  rnd_agrees n ws 0 nw0 nb0 (nonzero_uint_random n (Rng ws nw0 nb0)) (sp_nonzero_random n ws).
Proof.
  intros Hn Hws. unfold nonzero_uint_random, sp_nonzero_random. cbn [rnd_left].
  apply nonzero_uint_loop_agrees; try assumption; lia.
Qed.

Lemma sp_nonzero_loop_nz f : forall n ws cnt x k b, sp_nonzero_loop f n ws cnt = SpOk x k b -> x <> 0.
Proof.
  induction f as [|f IH]; intros n ws cnt x k b E; [discriminate|].
  cbn [sp_nonzero_loop] in E. destruct (length ws <? n)%nat; [discriminate|].
  destruct (Z.eqb_spec (eval (firstn n ws)) 0).
  - eapply IH; eassumption.
  - injection E as E1 _ _. lia.
Qed.

(** VALIDITY of NonZero::random for every stream: a returned value is never zero *)
Theorem nonzero_uint_random_valid n ws nw0 nb0 v r' : (0 < n)%nat -> wf ws ->
  nonzero_uint_random n (Rng ws nw0 nb0) = Some (v, r') -> wf v /\ length v = n /\ 0 < eval v.
Proof.
  intros Hn Hws E. pose proof (nonzero_uint_random_spec n ws nw0 nb0 Hn Hws) as H. rewrite E in H.
  apply rnd_agrees_some in H. destruct H as (x & k & b & Es & Hw & Hl & He & Hx & _).
  apply sp_nonzero_loop_nz in Es. repeat split; try assumption; lia.
Qed.
Lemma rnd_lor_1 x : 0 <= x -> Z.lor x 1 = if Z.odd x then x else x + 1.
Proof.
  intros Hx. pose proof (Z.div2_odd x) as Hd. set (q := Z.div2 x) in *.
  assert (Hdis : Z.lor (2 * q) 1 = 2 * q + 1).
  { assert (Hl : Z.land (2 * q) 1 = 0).
    { apply Z.bits_inj'. intros i Hi. rewrite Z.land_spec, Z.bits_0.
      destruct (Z.eq_dec i 0) as [->|Hn].
      - rewrite Z.testbit_even_0. reflexivity.
      - replace (Z.testbit 1 i) with false; [apply andb_false_r|].
        symmetry. apply Z.bits_above_log2; cbn; lia. }
    rewrite <- Z.lxor_lor by assumption. symmetry. apply Z.add_nocarry_lxor. assumption. }
  destruct (Z.odd x); cbn [Z.b2z] in Hd.
  - rewrite Hd at 1. rewrite <- Hdis, <- Z.lor_assoc. cbn [Z.lor Pos.lor]. rewrite Hdis. lia.
  - rewrite Z.add_0_r in Hd. rewrite Hd at 1. rewrite Hdis. lia.
Qed.

Lemma rnd_odd_B_mul x e : Z.odd (x + B * e) = Z.odd x.
Proof. rewrite B_half. replace (x + 2 * 2 ^ 63 * e) with (x + 2 * (2 ^ 63 * e)) by ring. apply Z.odd_add_mul_2. Qed.

Lemma rnd_set_lsb_spec ls : wf ls -> ls <> [] ->
  exists ls', rnd_set_lsb ls = Some ls' /\ wf ls' /\ length ls' = length ls /\ eval ls' = sp_force_odd (eval ls) /\
              Z.odd (eval ls') = true.
Proof.
  intros Hw Hn. destruct ls as [|x t]; [contradiction|]. apply wf_cons in Hw. destruct Hw as [Hx Ht].
  eexists. split; [reflexivity|]. unfold wor. unfold is_word in Hx. rewrite rnd_lor_1 by lia.
  cbn [eval length]. unfold sp_force_odd. rewrite !rnd_odd_B_mul.
  destruct (Z.odd x) eqn:Eo.
  - repeat split; try assumption; try lia. apply wf_cons. split; [unfold is_word; lia | assumption].
  - repeat split; try lia.
    + apply wf_cons. split; [|assumption]. unfold is_word. split; [lia|].
      (* x is even and below the even number B, so x + 1 < B *)
      assert (Z.odd (B - 1) = true) by (rewrite <- MAXW_val; apply rnd_odd_MAXW).
      destruct (Z.eq_dec x (B - 1)) as [->|]; [congruence | lia].
    + rewrite Z.odd_add. rewrite Eo. reflexivity.
Qed.

(** Odd::random: the uniform sample with its lowest bit forced to one; VALIDITY: the result is odd *)
Theorem odd_uint_random_spec n ws nw nb : wf ws -> (0 < n)%nat ->
  rnd_agrees n ws 0 nw nb (odd_uint_random n (Rng ws nw nb)) (sp_odd_sample (sp_random n ws)).
Proof.
  intros Hws Hn. unfold odd_uint_random. rewrite uint_random_spec by assumption. unfold sp_random.
  destruct (Nat.ltb_spec (length ws) n) as [|Hlen]; [exact I|].
  destruct (rnd_firstn_block n ws Hws Hlen) as (Hwf & Hl & _).
  assert (Hne : firstn n ws <> []) by (intros E; rewrite E in Hl; cbn in Hl; lia).
  destruct (rnd_set_lsb_spec _ Hwf Hne) as (ls' & E & Hw' & Hl' & He & Hodd). rewrite E.
  pose proof (eval_bounds _ Hw') as Hb. rewrite Hl', Hl in Hb.
  cbn [sp_odd_sample]. unfold rnd_agrees. rewrite <- He. repeat split; try lia.
  - apply to_limbs_unique; try assumption; [lia|]. symmetry. apply Z.mod_small. assumption.
  - rewrite Z.sub_0_r, Nat2Z.id. reflexivity.
Qed.

Theorem odd_uint_random_valid n ws nw nb v r' : wf ws -> (0 < n)%nat ->
  odd_uint_random n (Rng ws nw nb) = Some (v, r') -> wf v /\ length v = n /\ Z.odd (eval v) = true.
Proof.
  intros Hws Hn E. unfold odd_uint_random in E. rewrite uint_random_spec in E by assumption.
  destruct (Nat.ltb_spec (length ws) n) as [|Hlen]; [discriminate|].
  destruct (rnd_firstn_block n ws Hws Hlen) as (Hwf & Hl & _).
  assert (Hne : firstn n ws <> []) by (intros E'; rewrite E' in Hl; cbn in Hl; lia).
  destruct (rnd_set_lsb_spec _ Hwf Hne) as (ls' & E' & Hw' & Hl' & He & Hodd). rewrite E' in E.
  injection E as <- _. repeat split; try assumption; lia.
Qed.
Lemma nonzero_mod_loop_agrees m nw0 nb0 : wf m -> 0 < eval m -> forall f1 f2 ws cnt nw nb,
  wf ws -> (length ws < f1)%nat -> (length ws < f2)%nat -> nw = nw0 + cnt -> nb = nb0 + 8 * cnt ->
  rnd_agrees (length m) ws cnt nw0 nb0 (nonzero_mod_loop f1 m (Rng ws nw nb)) (sp_nonzero_mod_loop f2 (eval m) ws cnt).
Proof.
  intros Hwm Hpos. induction f1 as [|f1 IH]; intros f2 ws cnt nw nb Hws Hf1 Hf2 -> ->; [lia|].
  destruct f2 as [|f2]; [lia|].
  cbn [nonzero_mod_loop sp_nonzero_mod_loop].
  pose proof (uint_random_mod_spec m ws (nw0 + cnt) (nb0 + 8 * cnt) Hwm Hws Hpos) as H.
  destruct (uint_random_mod m _) as [[v r']|]; [|destruct (sp_random_mod (eval m) ws); [contradiction | exact I]].
  apply rnd_agrees_some in H. destruct H as (x & k & b & Es & Hwv & Hlv & Hev & Hx & Hk & ->). rewrite Es, Z.sub_0_r.
  unfold sp_random_mod in Es. apply sp_mod_loop_range in Es; [|apply rnd_nl_pos; assumption]. destruct Es as (Hlt & -> & Hkr).
  rewrite rnd_all_zero_spec, Hev by assumption.
  destruct (Z.eqb_spec x 0) as [Hz|Hnz].
  - apply (rnd_agrees_skip _ ws (Z.to_nat k)); [lia|]. rewrite Z2Nat.id by lia.
    apply IH; [apply wf_skipn; assumption | rewrite skipn_length; lia | rewrite skipn_length; lia | lia | lia].
  - unfold rnd_agrees. replace (cnt + k - cnt) with k by lia.
    repeat split; try lia. symmetry. rewrite <- Hev, <- Hlv. apply to_limbs_eval. assumption.
Qed.

Theorem nonzero_mod_random_spec m ws nw0 nb0 : wf m -> 0 < eval m -> wf ws ->
  rnd_agrees (length m) ws 0 nw0 nb0 (nonzero_mod_random m (Rng ws nw0 nb0)) (sp_nonzero_mod_random (eval m) ws).
Proof.
  intros Hwm Hpos Hws. unfold nonzero_mod_random, sp_nonzero_mod_random. cbn [rnd_left].
  apply nonzero_mod_loop_agrees; try assumption; lia.
Qed.

Lemma sp_nonzero_mod_loop_range f : forall M ws cnt x k b,
  0 < M -> sp_nonzero_mod_loop f M ws cnt = SpOk x k b -> x <> 0 /\ x < M.
Proof.
  induction f as [|f IH]; intros M ws cnt x k b HM E; [discriminate|].
  cbn [sp_nonzero_mod_loop] in E. destruct (sp_random_mod M ws) as [y j c|] eqn:Es; [|discriminate].
  destruct (Z.eqb_spec y 0).
  - eapply IH; eassumption.
  - injection E as E1 _ _. subst y. split; [assumption|].
    unfold sp_random_mod in Es. apply sp_mod_loop_range in Es; [lia | apply rnd_nl_pos; assumption].
Qed.
(** for bit_length >= 1 the result is odd, below 2^bit_length, and is the RandomBits sample with its lowest
    bit forced to one (same consumption) *)
Theorem odd_boxed_random_valid ws nw nb bl v r' : wf ws -> 1 <= bl ->
  odd_boxed_random (Rng ws nw nb) bl = Some (v, r') ->
  wf v /\ length v = rnd_boxed_limbs bl /\ Z.odd (eval v) = true /\ 0 <= eval v < 2 ^ bl /\
  eval v = sp_force_odd (eval (firstn (Z.to_nat (rnd_ceil bl 64)) ws) mod 2 ^ bl) /\
  r' = Rng (skipn (Z.to_nat (rnd_ceil bl 64)) ws) (nw + rnd_ceil bl 64) (nb + (8 * (rnd_ceil bl 64 - 1) + rnd_tail_bytes bl)).
Proof.
  intros Hws Hbl E. unfold odd_boxed_random, boxed_random_bits in E.
  destruct (boxed_random_bits_prec (Rng ws nw nb) bl bl) as [v0 r0|] eqn:Eb; [|discriminate].
  destruct (boxed_random_bits_range ws nw nb bl bl v0 r0 Hws ltac:(lia) Eb) as (Hw0 & Hl0 & Hr0 & He0 & Hrng).
  assert (Hne : v0 <> []).
  { intros ->. cbn in Hl0. unfold rnd_boxed_limbs in Hl0. lia. }
  destruct (rnd_set_lsb_spec v0 Hw0 Hne) as (v' & Es & Hw' & Hl' & He' & Hodd). rewrite Es in E.
  injection E as <- <-. destruct (Z.eqb_spec bl 0); [lia|].
  repeat split; try assumption; try lia.
  - rewrite He'. unfold sp_force_odd. destruct (Z.odd (eval v0)); lia.
  - rewrite He'. unfold sp_force_odd. destruct (Z.odd (eval v0)) eqn:Eo; [lia|].
    (* eval v0 is even and below the even number 2^bl *)
    assert (Hev : Z.odd (2 ^ bl) = false).
    { replace bl with (1 + (bl - 1)) by lia. rewrite pow2_split by lia. change (2 ^ 1) with 2. apply Z.odd_mul. }
    destruct (Z.eq_dec (eval v0 + 1) (2 ^ bl)) as [Heq|]; [|lia].
    rewrite <- Heq, Z.odd_add, Eo in Hev. discriminate.
  - rewrite He', He0. reflexivity.
Qed.
