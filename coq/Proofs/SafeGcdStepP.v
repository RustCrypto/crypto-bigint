(** C10 proofs: one jump on the full integers ([divstep_gcd_inv]). *)
From CB Require Import Model.Limbs Model.AddSub Model.SafeGcd Proofs.WordP Proofs.LimbsP Proofs.BitsP
  Proofs.SafeGcdArithP Proofs.SafeGcdJumpP Proofs.SafeGcdUnsatP.
From Coq Require Import ZArith Lia List Bool Znumtheory Zdiv Setoid Morphisms.
Open Scope Z_scope.

Lemma odd_add_even x y : Z.even y = true -> Z.odd (x + y) = Z.odd x.
Proof. intros H. rewrite Z.odd_add, <- (Z.negb_even y), H. cbn. apply xorb_false_r. Qed.
Lemma even_mul_l x y : Z.even x = true -> Z.even (x * y) = true.
Proof. intros H. rewrite Z.even_mul, H. reflexivity. Qed.
Lemma odd_mod_P62 x : Z.odd (x mod P62) = Z.odd x.
Proof. rewrite <- !Z.bit0_odd. rewrite P62_pow. apply Z.mod_pow2_bits_low. lia. Qed.

Lemma odd_not_div2 x : Z.odd x = true -> ~ (2 | x).
Proof. intros H [c Hc]. rewrite Hc, Z.odd_mul in H. cbn in H. rewrite andb_false_r in H. discriminate. Qed.
Lemma odd_gcd F G : Z.odd F = true \/ Z.odd G = true -> Z.odd (Z.gcd F G) = true.
Proof.
  intros H. destruct (Z.odd (Z.gcd F G)) eqn:OO; [reflexivity|]. exfalso.
  assert (D2 : (2 | Z.gcd F G)) by (exists (Z.gcd F G / 2); rewrite Z.mul_comm; apply even_div2; assumption).
  destruct H as [H|H]; apply (odd_not_div2 _ H); (eapply Z.divide_trans; [exact D2|]); [apply Z.gcd_divide_l | apply Z.gcd_divide_r].
Qed.

(** a jump may start: F odd, or G odd with delta > 0 (the first divstep then swaps), or G = 0 *)
Definition PRE (F G delta : Z) : Prop := Z.odd F = true \/ (0 < delta /\ Z.odd G = true) \/ G = 0.

(** one row, lifted from the low limbs to the full integers: the quotient is exact and within the bound *)
Lemma lift_row ta tb F G Bd f' : Z.abs ta + Z.abs tb <= P62 -> Z.abs F <= Bd -> Z.abs G <= Bd ->
  ta * (F mod P62) + tb * (G mod P62) = P62 * f' ->
  let F' := f' + ta * (F / P62) + tb * (G / P62) in ta * F + tb * G = P62 * F' /\ Z.abs F' <= Bd.
Proof.
  intros R HF HG E F'. pfacts.
  assert (X : ta * F + tb * G = P62 * F').
  { unfold F'. replace (P62 * (f' + ta * (F / P62) + tb * (G / P62))) with (P62 * f' + ta * (P62 * (F / P62)) + tb * (P62 * (G / P62))) by ring.
    rewrite <- E. rewrite (Z.div_mod F P62) at 1 by lia. rewrite (Z.div_mod G P62) at 1 by lia. ring. }
  split; [exact X|].
  pose proof (abs_lin ta tb F G Bd HF HG) as A. rewrite X, Z.abs_mul, (Z.abs_eq P62) in A by lia.
  assert (A2 : (Z.abs ta + Z.abs tb) * Bd <= P62 * Bd) by (apply Z.mul_le_mono_nonneg_r; lia).
  assert (A3 : P62 * Z.abs F' <= P62 * Bd) by lia. apply Z.mul_le_mono_pos_l in A3; lia.
Qed.

Lemma lift_step F G Bd t00 t01 t10 t11 f' g' :
  Z.odd F = true \/ Z.odd G = true ->
  Z.abs F <= Bd -> Z.abs G <= Bd ->
  t00 * (F mod P62) + t01 * (G mod P62) = P62 * f' -> t10 * (F mod P62) + t11 * (G mod P62) = P62 * g' ->
  Z.abs t00 + Z.abs t01 <= P62 -> Z.abs t10 + Z.abs t11 <= P62 ->
  t00 * t11 - t01 * t10 = P62 -> Z.even t00 = true -> Z.even t01 = true -> Z.odd f' = true ->
  exists F' G',
    t00 * F + t01 * G = P62 * F' /\ t10 * F + t11 * G = P62 * G' /\
    Z.odd F' = true /\ Z.abs F' <= Bd /\ Z.abs G' <= Bd /\ Z.gcd F' G' = Z.gcd F G.
Proof.
  intros Ho HF HG E0 E1 R0 R1 Det Ev0 Ev1 Of'. pfacts.
  assert (OG : Z.odd (Z.gcd F G) = true) by (apply odd_gcd; assumption).
  destruct (lift_row t00 t01 F G Bd f' R0 HF HG E0) as (X0 & BF').
  destruct (lift_row t10 t11 F G Bd g' R1 HF HG E1) as (X1 & BG').
  set (F' := f' + t00 * (F / P62) + t01 * (G / P62)) in *. set (G' := g' + t10 * (F / P62) + t11 * (G / P62)) in *.
  exists F', G'.
  assert (OF' : Z.odd F' = true).
  { unfold F'. rewrite <- Z.add_assoc, odd_add_even; [exact Of'|]. rewrite Z.even_add, !even_mul_l by assumption. reflexivity. }
  clearbody F' G'.
  assert (IF : F = t11 * F' - t01 * G').
  { apply (Z.mul_reg_l _ _ P62); [lia|].
    replace (P62 * (t11 * F' - t01 * G')) with (t11 * (P62 * F') - t01 * (P62 * G')) by ring. rewrite <- X0, <- X1, <- Det. ring. }
  assert (IG : G = t00 * G' - t10 * F').
  { apply (Z.mul_reg_l _ _ P62); [lia|].
    replace (P62 * (t00 * G' - t10 * F')) with (t00 * (P62 * G') - t10 * (P62 * F')) by ring. rewrite <- X0, <- X1, <- Det. ring. }
  assert (GC : Z.gcd F' G' = Z.gcd F G).
  { apply Z.divide_antisym_nonneg; try apply Z.gcd_nonneg.
    - apply Z.gcd_greatest.
      + assert (D1 : (Z.gcd F' G' | t11 * F' - t01 * G')) by (apply Z.divide_sub_r; apply Z.divide_mul_r; [apply Z.gcd_divide_l | apply Z.gcd_divide_r]).
        rewrite <- IF in D1. exact D1.
      + assert (D1 : (Z.gcd F' G' | t00 * G' - t10 * F')) by (apply Z.divide_sub_r; apply Z.divide_mul_r; [apply Z.gcd_divide_r | apply Z.gcd_divide_l]).
        rewrite <- IG in D1. exact D1.
    - apply Z.gcd_greatest; apply (gauss_pow2 _ 62); try assumption; try lia; rewrite <- P62_pow.
      + rewrite <- X0. apply Z.divide_add_r; apply Z.divide_mul_r; [apply Z.gcd_divide_l | apply Z.gcd_divide_r].
      + rewrite <- X1. apply Z.divide_add_r; apply Z.divide_mul_r; [apply Z.gcd_divide_l | apply Z.gcd_divide_r]. }
  repeat split; assumption.
Qed.

(** [divstep_gcd_inv]: one jump maps (F, G) to (F', G') with t (F, G) = 2^62 (F', G') exactly; the gcd and the
    bound are preserved and F' is odd (or G' = 0 in the degenerate start G = 0) *)
Theorem divstep_gcd_inv F G delta Bd : PRE F G delta -> Z.abs delta + 62 <= P62 ->
  Z.abs F <= Bd -> Z.abs G <= Bd ->
  let '(delta', (t00, t01, t10, t11)) := jump (F mod P62) (G mod P62) delta in
  exists F' G',
    t00 * F + t01 * G = P62 * F' /\ t10 * F + t11 * G = P62 * G' /\
    Z.abs t00 + Z.abs t01 <= P62 /\ Z.abs t10 + Z.abs t11 <= P62 /\
    (Z.odd F' = true \/ G' = 0) /\ Z.abs F' <= Bd /\ Z.abs G' <= Bd /\
    Z.gcd F' G' = Z.gcd F G /\ Z.abs delta' <= Z.abs delta + 62.
Proof.
  intros Hpre Hd HF HG. pfacts.
  pose proof (Z.mod_pos_bound F P62 ltac:(lia)) as Hf0. pose proof (Z.mod_pos_bound G P62 ltac:(lia)) as Hg0.
  assert (C : G = 0 \/ (Z.odd F = true \/ (0 < delta /\ Z.odd G = true))) by (unfold PRE in Hpre; tauto).
  destruct C as [HG0|Ho].
  { subst G. rewrite (Z.mod_0_l P62) by lia. rewrite jump_g0 by lia.
    exists F, 0. rewrite Z.gcd_0_r. repeat split; lia. }
  assert (Hpre' : Z.odd (F mod P62) = true \/ (0 < delta /\ Z.odd (G mod P62) = true)) by (rewrite !odd_mod_P62; exact Ho).
  destruct (jump (F mod P62) (G mod P62) delta) as [delta' [[[t00 t01] t10] t11]] eqn:EJ.
  destruct (jump_matrix_eq _ _ delta _ _ _ _ _ Hf0 Hg0 Hpre' Hd EJ) as (f' & g' & E0 & E1 & R0 & R1 & Det & Ev0 & Ev1 & Of' & Hd').
  destruct (lift_step F G Bd t00 t01 t10 t11 f' g' ltac:(tauto) HF HG E0 E1 R0 R1 Det Ev0 Ev1 Of') as (F' & G' & X0 & X1 & OF' & BF' & BG' & GC).
  exists F', G'. repeat split; try assumption. left. assumption.
Qed.
