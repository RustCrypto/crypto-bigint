(** C19, part 3: RandomBits (random_bits_core and its Uint / BoxedUint front ends), Random. *)
From CB Require Import Model.Limbs Model.AddSub Model.Rand Proofs.BitsP Proofs.WordP Proofs.LimbsP Proofs.AddSubP Proofs.RandBaseP.
From Coq Require Import ZArith Lia List Bool.
Open Scope Z_scope. Open Scope list_scope.
Lemma rnd_mod_mod_pow w a b : 0 <= a <= b -> (w mod 2 ^ b) mod 2 ^ a = w mod 2 ^ a.
Proof.
  intros H. symmetry. apply Znumtheory.Zmod_div_mod; try (apply pow2_pos; lia).
  exists (2 ^ (b - a)). rewrite <- pow2_split by lia. f_equal. lia.
Qed.

Lemma rnd_add_mul_mod x y a b : 0 <= a <= b -> (x * 2 ^ b + y) mod 2 ^ a = y mod 2 ^ a.
Proof.
  intros H. assert (Hp : 2 ^ b = 2 ^ (b - a) * 2 ^ a) by (rewrite <- pow2_split by lia; f_equal; lia).
  pose proof (pow2_pos a ltac:(lia)).
  rewrite Hp. replace (x * (2 ^ (b - a) * 2 ^ a) + y) with (y + (x * 2 ^ (b - a)) * 2 ^ a) by ring.
  apply Z.mod_add. lia.
Qed.

(** the partial-limb mask:  Word::MAX >> ((64 - partial) % 64)  has [pl] ones, pl = 64 for a full limb *)
Lemma rnd_partial_mask partial : 0 <= partial < 64 ->
  wshr MAXW ((64 - partial) mod 64) = 2 ^ (if partial =? 0 then 64 else partial) - 1.
Proof.
  intros H. destruct (Z.eqb_spec partial 0) as [->|Hn].
  - change ((64 - 0) mod 64) with 0. rewrite rnd_shr_ones by lia. reflexivity.
  - rewrite Z.mod_small by lia. rewrite rnd_shr_ones by lia. f_equal. f_equal. lia.
Qed.
Lemma rnd_split_at (ws : list Z) k w rest : skipn k ws = w :: rest ->
  ws = firstn k ws ++ w :: rest /\ length (firstn k ws) = k /\ nthz ws k = w /\ skipn (S k) ws = rest /\
  firstn (S k) ws = firstn k ws ++ [w].
Proof.
  intros E. pose proof (firstn_skipn k ws) as H. rewrite E in H.
  assert (Hl : length (firstn k ws) = k).
  { rewrite firstn_length. assert (length (skipn k ws) <> 0)%nat by (rewrite E; discriminate).
    rewrite skipn_length in *. lia. }
  repeat split; auto.
  - unfold nthz. rewrite <- H at 1. rewrite app_nth2 by lia. rewrite Hl, Nat.sub_diag. reflexivity.
  - rewrite <- H at 1. replace (S k) with (length (firstn k ws) + 1)%nat by lia. rewrite rnd_skipn_app_plus. reflexivity.
  - rewrite <- H at 1. replace (S k) with (length (firstn k ws) + 1)%nat by lia.
    rewrite firstn_app_2. reflexivity.
Qed.
Definition rnd_tail_bytes (bl : Z) : Z := if (0 <? bl mod 64) && (bl mod 64 <=? 32) then 4 else 8.

Lemma rnd_partial_len bl : 0 < bl -> let nz := (bl + 63) / 64 in
  (if bl mod 64 =? 0 then 64 else bl mod 64) = bl - 64 * (nz - 1) /\ 1 <= bl - 64 * (nz - 1) <= 64 /\ 0 <= bl mod 64 < 64.
Proof.
  intros Hbl nz. destruct (rnd_ceil64 bl Hbl) as [Hq1 Hq2]. fold nz in Hq1, Hq2.
  pose proof (Z.div_mod bl 64 ltac:(lia)) as Hdm. pose proof (Z.mod_pos_bound bl 64 ltac:(lia)) as Hm.
  destruct (Z.eqb_spec (bl mod 64) 0); lia.
Qed.

Lemma rnd_bits_core_spec ws nw nb bl : wf ws -> 0 < bl ->
  let nz := (bl + 63) / 64 in
  rnd_bits_core (Rng ws nw nb) bl =
    if Z.of_nat (length ws) <? nz then None
    else Some (firstn (Z.to_nat (nz - 1)) ws ++ [nthz ws (Z.to_nat (nz - 1)) mod 2 ^ (bl - 64 * (nz - 1))],
               Rng (skipn (Z.to_nat nz) ws) (nw + nz) (nb + (8 * (nz - 1) + rnd_tail_bytes bl))).
Proof.
  intros Hws Hbl nz. unfold rnd_bits_core, rnd_tail_bytes. destruct (Z.eqb_spec bl 0); [lia|]. fold nz.
  destruct (rnd_ceil64 bl Hbl) as [Hq1 Hq2]. fold nz in Hq1, Hq2.
  destruct (rnd_partial_len bl Hbl) as (Hpl & Hplr & Hpr). fold nz in Hpl, Hplr.
  set (pl := bl - 64 * (nz - 1)) in *. set (partial := bl mod 64) in *.
  set (k := Z.to_nat (nz - 1)).
  rewrite rnd_fill_full_spec. rewrite rnd_partial_mask by assumption. rewrite Hpl.
  destruct (Nat.ltb_spec (length ws) k) as [Hshort|Hlong].
  - destruct (Z.ltb_spec (Z.of_nat (length ws)) nz); [reflexivity | lia].
  - destruct (skipn k ws) as [|w rest] eqn:Esk.
    + assert (length ws = k).
      { assert (Hl : length (skipn k ws) = 0%nat) by (rewrite Esk; reflexivity). rewrite skipn_length in Hl. lia. }
      destruct (Z.ltb_spec (Z.of_nat (length ws)) nz); [|lia].
      destruct ((0 <? partial) && (partial <=? 32)); reflexivity.
    + destruct (rnd_split_at ws k w rest Esk) as (Hsplit & Hlk & Hnth & Hsk & _).
      assert (Hlen : (S k <= length ws)%nat).
      { rewrite Hsplit, app_length. cbn [length]. lia. }
      destruct (Z.ltb_spec (Z.of_nat (length ws)) nz); [lia|].
      rewrite rnd_map_mod_wf by (apply wf_firstn; assumption).
      replace (Z.to_nat nz) with (S k) by lia. rewrite Hsk, Hnth.
      assert (Hw : is_word w) by (rewrite <- Hnth; apply rnd_nthz_word; assumption).
      destruct ((0 <? partial) && (partial <=? 32)) eqn:Et.
      * apply andb_prop in Et. destruct Et as [Et1 Et2]. apply Z.ltb_lt in Et1. apply Z.leb_le in Et2.
        assert (Hpl32 : pl <= 32).
        { destruct (Z.eqb_spec partial 0); lia. }
        cbn [rnd_fill]. change (4 <? 4) with false. cbn iota. change (8 * 4) with 32.
        rewrite rnd_land_ones by lia. rewrite rnd_add_mul_mod by lia. rewrite !rnd_mod_mod_pow by lia.
        do 3 f_equal; lia.
      * cbn [rnd_fill]. change (4 <? 8) with true. cbn iota. change (8 * 8) with 64.
        rewrite rnd_land_ones by lia. rewrite rnd_mod_mod_pow by lia.
        do 3 f_equal; lia.
Qed.

(** value of the limbs written by random_bits_core: the next ceil(bl/64) words reduced modulo 2^bl *)
Lemma rnd_bits_core_value ws bl : wf ws -> 0 < bl ->
  let nz := (bl + 63) / 64 in (Z.to_nat nz <= length ws)%nat ->
  let ls := firstn (Z.to_nat (nz - 1)) ws ++ [nthz ws (Z.to_nat (nz - 1)) mod 2 ^ (bl - 64 * (nz - 1))] in
  wf ls /\ length ls = Z.to_nat nz /\ eval ls = eval (firstn (Z.to_nat nz) ws) mod 2 ^ bl.
Proof.
  intros Hws Hbl nz Hlen ls.
  destruct (rnd_ceil64 bl Hbl) as [Hq1 Hq2]. fold nz in Hq1, Hq2.
  set (k := Z.to_nat (nz - 1)) in *. set (pl := bl - 64 * (nz - 1)) in *.
  assert (Hnz : Z.to_nat nz = S k) by lia.
  destruct (skipn k ws) as [|w rest] eqn:Esk.
  { assert (Hl : length (skipn k ws) = 0%nat) by (rewrite Esk; reflexivity). rewrite skipn_length in Hl. lia. }
  destruct (rnd_split_at ws k w rest Esk) as (Hsplit & Hlk & Hnth & Hsk & Hfs).
  assert (Hwf : wf (firstn k ws)) by (apply wf_firstn; assumption).
  assert (Hw : is_word w) by (rewrite <- Hnth; apply rnd_nthz_word; assumption).
  subst ls. rewrite Hnth. split; [|split].
  - apply wf_app. split; [assumption|]. apply wf_cons. split; [apply rnd_mod_pow_word; lia | apply wf_nil].
  - rewrite app_length, Hlk. cbn [length]. lia.
  - rewrite Hnz, Hfs, !eval_app, Hlk. cbn [eval]. rewrite !Z.mul_0_r, !Z.add_0_r.
    pose proof (eval_bounds _ Hwf) as Hb. rewrite Hlk in Hb.
    rewrite Bn_pow2 in *. set (s := 64 * Z.of_nat k) in *.
    assert (Hs : s = 64 * (nz - 1)) by lia.
    assert (Hp : 2 ^ bl = 2 ^ s * 2 ^ pl) by (rewrite <- pow2_split by lia; f_equal; lia).
    pose proof (pow2_pos s ltac:(lia)). pose proof (pow2_pos pl ltac:(lia)).
    (* reducing lo + 2^s w modulo 2^s 2^pl keeps lo and reduces w *)
    rewrite Hp, Z.rem_mul_r, (Z.mul_comm (2 ^ s) w), Z_mod_plus_full, Z_div_plus_full by lia.
    rewrite (Z.mod_small (eval (firstn k ws))), (Z.div_small (eval (firstn k ws))) by lia. reflexivity.
Qed.
(** what the documentation promises once the length / precision checks have passed *)
Definition rnd_bits_expected (n : nat) (ws : list Z) (nw nb bl : Z) : rnd_res :=
  match sp_random_bits ws bl with
  | SpExhausted => RErr 9 0 0
  | SpOk v k b => ROk (to_limbs n v) (Rng (skipn (Z.to_nat k) ws) (nw + k) (nb + b))
  end.

Lemma rnd_sp_ceil64 bl : rnd_ceil bl 64 = (bl + 63) / 64.
Proof. unfold rnd_ceil. f_equal. lia. Qed.

Lemma rnd_bits_front n ws nw nb bl : wf ws -> 0 <= bl -> bl <= 64 * Z.of_nat n ->
  match rnd_bits_core (Rng ws nw nb) bl with
  | None => RErr 9 0 0
  | Some (ls, r') => ROk (rnd_pad n ls) r'
  end = rnd_bits_expected n ws nw nb bl.
Proof.
  intros Hws Hbl Hfit. unfold rnd_bits_expected, sp_random_bits. rewrite rnd_sp_ceil64.
  destruct (Z.eq_dec bl 0) as [->|Hn].
  - cbn [rnd_bits_core Z.eqb]. change ((0 + 63) / 64) with 0.
    destruct (Z.ltb_spec (Z.of_nat (length ws)) 0); [lia|].
    cbn [Z.to_nat firstn eval skipn Z.eqb]. change (0 mod 2 ^ 0) with 0.
    rewrite to_limbs_0_zeros, !Z.add_0_r. unfold rnd_pad. cbn [app length]. rewrite Nat.sub_0_r. reflexivity.
  - rewrite rnd_bits_core_spec by (try assumption; lia).
    destruct (rnd_ceil64 bl ltac:(lia)) as [Hq1 Hq2]. set (nz := (bl + 63) / 64) in *.
    destruct (Z.ltb_spec (Z.of_nat (length ws)) nz) as [|Hlen]; [reflexivity|].
    destruct (rnd_bits_core_value ws bl Hws ltac:(lia) ltac:(fold nz; lia)) as (Hwl & Hll & Hev). fold nz in Hwl, Hll, Hev.
    set (ls := firstn (Z.to_nat (nz - 1)) ws ++ [nthz ws (Z.to_nat (nz - 1)) mod 2 ^ (bl - 64 * (nz - 1))]) in *.
    destruct (Z.eqb_spec bl 0); [lia|]. unfold rnd_tail_bytes. f_equal.
    apply to_limbs_unique.
    + unfold rnd_pad. apply wf_app. split; [assumption | apply wf_zeros].
    + unfold rnd_pad. rewrite app_length, length_zeros. lia.
    + unfold rnd_pad. rewrite eval_app, eval_zeros, Z.mul_0_r, Z.add_0_r, Hev.
      symmetry. apply Z.mod_small.
      pose proof (pow2_pos bl ltac:(lia)). pose proof (Z.mod_pos_bound (eval (firstn (Z.to_nat nz) ws)) (2 ^ bl) ltac:(lia)).
      rewrite Bn_pow2. pose proof (pow2_le bl (64 * Z.of_nat n) ltac:(lia)). lia.
Qed.

(** Uint<N> / Int<N>: the complete behaviour of try_random_bits_with_precision *)
Theorem uint_random_bits_spec n ws nw nb bl prec : wf ws -> 0 <= bl ->
  uint_random_bits_prec n (Rng ws nw nb) bl prec =
    if negb (prec =? 64 * Z.of_nat n) then RErr 1 prec (64 * Z.of_nat n)
    else if 64 * Z.of_nat n <? bl then RErr 2 bl prec
    else rnd_bits_expected n ws nw nb bl.
Proof.
  intros Hws Hbl. unfold uint_random_bits_prec.
  destruct (negb (prec =? 64 * Z.of_nat n)); [reflexivity|].
  destruct (Z.ltb_spec (64 * Z.of_nat n) bl); [reflexivity|].
  apply rnd_bits_front; assumption.
Qed.

Lemma rnd_boxed_limbs_ge prec : 0 <= prec -> prec <= 64 * Z.of_nat (rnd_boxed_limbs prec).
Proof.
  intros H. unfold rnd_boxed_limbs. pose proof (Z.div_mod (prec + 63) 64 ltac:(lia)).
  pose proof (Z.mod_pos_bound (prec + 63) 64 ltac:(lia)). lia.
Qed.

(** BoxedUint: the complete behaviour of try_random_bits_with_precision *)
Theorem boxed_random_bits_spec ws nw nb bl prec : wf ws -> 0 <= bl ->
  boxed_random_bits_prec (Rng ws nw nb) bl prec =
    if prec <? bl then RErr 2 bl prec
    else rnd_bits_expected (rnd_boxed_limbs prec) ws nw nb bl.
Proof.
  intros Hws Hbl. unfold boxed_random_bits_prec.
  destruct (Z.ltb_spec prec bl); [reflexivity|].
  apply rnd_bits_front; try assumption. pose proof (rnd_boxed_limbs_ge prec ltac:(lia)). lia.
Qed.

(** the two outcomes of the documented behaviour: the RNG error exactly when the stream is shorter than
    ceil(bl/64) words, otherwise a value below 2^bl made of the next words, with the exact consumption *)
Lemma rnd_bits_expected_cases n ws nw nb bl : wf ws -> 0 <= bl -> bl <= 64 * Z.of_nat n ->
  let k := rnd_ceil bl 64 in
  (Z.of_nat (length ws) < k /\ rnd_bits_expected n ws nw nb bl = RErr 9 0 0) \/
  (k <= Z.of_nat (length ws) /\ exists v,
     rnd_bits_expected n ws nw nb bl =
       ROk v (Rng (skipn (Z.to_nat k) ws) (nw + k) (nb + (if bl =? 0 then 0 else 8 * (k - 1) + rnd_tail_bytes bl))) /\
     wf v /\ length v = n /\ eval v = eval (firstn (Z.to_nat k) ws) mod 2 ^ bl /\ 0 <= eval v < 2 ^ bl).
Proof.
  intros Hws Hbl Hfit k. unfold rnd_bits_expected, sp_random_bits. fold k.
  destruct (Z.ltb_spec (Z.of_nat (length ws)) k); [left; split; [assumption | reflexivity]|].
  right. split; [assumption|]. eexists. split; [reflexivity|].
  pose proof (pow2_pos bl Hbl). set (x := eval (firstn (Z.to_nat k) ws)).
  pose proof (Z.mod_pos_bound x (2 ^ bl) ltac:(lia)) as Hm.
  split; [apply wf_to_limbs|]. split; [apply length_to_limbs|].
  assert (Hs : eval (to_limbs n (x mod 2 ^ bl)) = x mod 2 ^ bl).
  { apply to_limbs_small. rewrite Bn_pow2. pose proof (pow2_le bl (64 * Z.of_nat n) ltac:(lia)). lia. }
  rewrite Hs. split; [reflexivity | assumption].
Qed.

(** ERROR CONDITIONS, exactly as documented (Uint / Int). The four cases are mutually exclusive and
    exhaustive, so each outcome occurs exactly when its condition holds: precision mismatch first, then
    the length check, then the RNG; otherwise a value below 2^bit_length with the exact consumption. *)
Theorem uint_random_bits_outcome n ws nw nb bl prec : wf ws -> 0 <= bl ->
  let r := uint_random_bits_prec n (Rng ws nw nb) bl prec in
  let bits := 64 * Z.of_nat n in
  let k := rnd_ceil bl 64 in
  (prec <> bits /\ r = RErr 1 prec bits) \/
  (prec = bits /\ bits < bl /\ r = RErr 2 bl prec) \/
  (prec = bits /\ bl <= bits /\ Z.of_nat (length ws) < k /\ r = RErr 9 0 0) \/
  (prec = bits /\ bl <= bits /\ k <= Z.of_nat (length ws) /\ exists v,
     r = ROk v (Rng (skipn (Z.to_nat k) ws) (nw + k) (nb + (if bl =? 0 then 0 else 8 * (k - 1) + rnd_tail_bytes bl))) /\
     wf v /\ length v = n /\ eval v = eval (firstn (Z.to_nat k) ws) mod 2 ^ bl /\ 0 <= eval v < 2 ^ bl).
Proof.
  intros Hws Hbl r bits k. subst r. rewrite uint_random_bits_spec by assumption. fold bits.
  destruct (Z.eqb_spec prec bits) as [Hp|Hp]; cbn [negb]; [|left; split; [assumption | reflexivity]].
  right. destruct (Z.ltb_spec bits bl) as [Hl|Hl]; [left; repeat split; assumption|].
  right. destruct (rnd_bits_expected_cases n ws nw nb bl Hws Hbl Hl) as [(Hs & E)|(Hs & v & E & Hv)].
  - left. repeat split; assumption.
  - right. repeat split; try assumption. exists v. split; assumption.
Qed.

(** ERROR CONDITIONS (BoxedUint): only the length check and the RNG can fail *)
Theorem boxed_random_bits_outcome ws nw nb bl prec : wf ws -> 0 <= bl ->
  let r := boxed_random_bits_prec (Rng ws nw nb) bl prec in
  let k := rnd_ceil bl 64 in
  (prec < bl /\ r = RErr 2 bl prec) \/
  (bl <= prec /\ Z.of_nat (length ws) < k /\ r = RErr 9 0 0) \/
  (bl <= prec /\ k <= Z.of_nat (length ws) /\ exists v,
     r = ROk v (Rng (skipn (Z.to_nat k) ws) (nw + k) (nb + (if bl =? 0 then 0 else 8 * (k - 1) + rnd_tail_bytes bl))) /\
     wf v /\ length v = rnd_boxed_limbs prec /\ eval v = eval (firstn (Z.to_nat k) ws) mod 2 ^ bl /\ 0 <= eval v < 2 ^ bl).
Proof.
  intros Hws Hbl r k. subst r. rewrite boxed_random_bits_spec by assumption.
  destruct (Z.ltb_spec prec bl) as [Hl|Hl]; [left; split; [assumption | reflexivity]|].
  right. pose proof (rnd_boxed_limbs_ge prec ltac:(lia)) as Hge.
  destruct (rnd_bits_expected_cases (rnd_boxed_limbs prec) ws nw nb bl Hws Hbl ltac:(lia)) as [(Hs & E)|(Hs & v & E & Hv)].
  - left. repeat split; assumption.
  - right. repeat split; try assumption. exists v. split; assumption.
Qed.

(** RANGE of RandomBits for every stream: a returned value is below 2^bit_length *)
Lemma rnd_bits_expected_ok n ws nw nb bl v r' : wf ws -> 0 <= bl -> bl <= 64 * Z.of_nat n ->
  rnd_bits_expected n ws nw nb bl = ROk v r' ->
  wf v /\ length v = n /\ 0 <= eval v < 2 ^ bl /\ eval v = eval (firstn (Z.to_nat (rnd_ceil bl 64)) ws) mod 2 ^ bl /\
  r' = Rng (skipn (Z.to_nat (rnd_ceil bl 64)) ws) (nw + rnd_ceil bl 64)
           (nb + (if bl =? 0 then 0 else 8 * (rnd_ceil bl 64 - 1) + rnd_tail_bytes bl)).
Proof.
  intros Hws Hbl Hfit E.
  destruct (rnd_bits_expected_cases n ws nw nb bl Hws Hbl Hfit) as [(_ & E')|(_ & v' & E' & Hw & Hl & He & Hr)];
    rewrite E' in E; [discriminate|]. injection E as <- <-. auto.
Qed.

Theorem boxed_random_bits_range ws nw nb bl prec v r' : wf ws -> 0 <= bl ->
  boxed_random_bits_prec (Rng ws nw nb) bl prec = ROk v r' ->
  wf v /\ length v = rnd_boxed_limbs prec /\ 0 <= eval v < 2 ^ bl /\
  eval v = eval (firstn (Z.to_nat (rnd_ceil bl 64)) ws) mod 2 ^ bl /\
  r' = Rng (skipn (Z.to_nat (rnd_ceil bl 64)) ws) (nw + rnd_ceil bl 64)
           (nb + (if bl =? 0 then 0 else 8 * (rnd_ceil bl 64 - 1) + rnd_tail_bytes bl)).
Proof.
  intros Hws Hbl E. rewrite boxed_random_bits_spec in E by assumption.
  destruct (Z.ltb_spec prec bl); [discriminate|]. pose proof (rnd_boxed_limbs_ge prec ltac:(lia)).
  apply (rnd_bits_expected_ok _ ws nw nb); (assumption || lia).
Qed.
