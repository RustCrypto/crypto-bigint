(** C20, part 1: Newton's iteration newton n x = floor((x + floor(n / x)) / 2) for the integer square root, on plain Z:
    a step never goes below the root and decreases above it, the error roughly squares each round ([close]), so
    floor(log2 BITS) + 2 rounds from the estimate 2^ceil(bits/2) followed by min(x_n, x_{n+1}) give the root; the
    until-non-decreasing loop [vtz] gives it too. *)
From Coq Require Import ZArith Lia List.
Open Scope Z_scope.

Definition newton (n x : Z) : Z := (x + n / x) / 2.

Lemma sqrt_bounds n : 0 <= n -> Z.sqrt n * Z.sqrt n <= n < (Z.sqrt n + 1) * (Z.sqrt n + 1).
Proof. intros H. pose proof (Z.sqrt_spec n H). unfold Z.succ in *. lia. Qed.

Lemma sqrt_unique_le n s : 0 <= s -> s * s <= n < (s + 1) * (s + 1) -> Z.sqrt n = s.
Proof. intros Hs H. apply Z.sqrt_unique. unfold Z.succ. lia. Qed.

Lemma sqrt_pos_iff n : 0 <= n -> (0 < Z.sqrt n <-> 0 < n).
Proof. intros H. apply Z.sqrt_pos. Qed.

(* 2 x y <= x^2 + n  for y = newton n x *)
Lemma newton_2xy n x : 0 <= n -> 0 < x -> 2 * x * newton n x <= x * x + n.
Proof.
  intros Hn Hx. unfold newton.
  pose proof (Z.mul_div_le (x + n / x) 2 ltac:(lia)) as H1.
  pose proof (Z.mul_div_le n x Hx) as H2.
  assert (0 <= n / x) by (apply Z.div_pos; lia).
  assert (0 <= (x + n / x) / 2) by (apply Z.div_pos; lia).
  assert (x * (2 * ((x + n / x) / 2)) <= x * (x + n / x)) by (apply Z.mul_le_mono_nonneg_l; lia).
  lia.
Qed.

Lemma newton_ge n x : 0 <= n -> 0 < x -> Z.sqrt n <= newton n x.
Proof.
  intros Hn Hx. pose proof (sqrt_bounds n Hn) as [Hs _].
  pose proof (Z.sqrt_nonneg n) as Hs0. set (s := Z.sqrt n) in *.
  unfold newton. apply Z.div_le_lower_bound; [lia|].
  assert (2 * s - x <= n / x); [|lia].
  apply Z.div_le_lower_bound; [lia|].
  assert (0 <= (s - x) * (s - x)) by apply Z.square_nonneg. lia.
Qed.

Lemma newton_lt n x : 0 <= n -> Z.sqrt n < x -> newton n x < x.
Proof.
  intros Hn Hx. pose proof (sqrt_bounds n Hn) as [_ Hs].
  pose proof (Z.sqrt_nonneg n) as Hs0. set (s := Z.sqrt n) in *.
  assert (n / x < x).
  { apply Z.div_lt_upper_bound; [lia|].
    assert ((s + 1) * (s + 1) <= x * x) by (apply Z.mul_le_mono_nonneg; lia). lia. }
  unfold newton. apply Z.div_lt_upper_bound; lia.
Qed.

Lemma newton_root n : 0 < n -> Z.sqrt n <= newton n (Z.sqrt n) <= Z.sqrt n + 1.
Proof.
  intros Hn. pose proof (sqrt_bounds n ltac:(lia)) as [Hl Hs].
  assert (0 < Z.sqrt n) by (apply Z.sqrt_pos; lia). set (s := Z.sqrt n) in *.
  split; [apply newton_ge; lia|].
  assert (n / s < s + 3).
  { apply Z.div_lt_upper_bound; lia. }
  unfold newton. assert ((s + n / s) / 2 < s + 2); [|lia].
  apply Z.div_lt_upper_bound; lia.
Qed.

(* above the root the distance at least halves *)
Lemma newton_half n x : 0 <= n -> Z.sqrt n < x -> 2 * (newton n x - Z.sqrt n) <= x - Z.sqrt n.
Proof.
  intros Hn Hx. pose proof (sqrt_bounds n Hn) as [_ Hs].
  pose proof (Z.sqrt_nonneg n) as Hs0.
  pose proof (newton_2xy n x Hn ltac:(lia)) as H2.
  set (s := Z.sqrt n) in *. set (y := newton n x) in *.
  (* 2xy <= x^2 + s^2 + 2s < x (s + x + 1) *)
  assert ((s + 1) * (s + 1) <= x * (s + 1)) by (apply Z.mul_le_mono_nonneg_r; lia).
  assert (x * (2 * y) < x * (s + x + 1)) by lia.
  assert (2 * y < s + x + 1) by (apply Z.mul_lt_mono_pos_l with x; lia).
  lia.
Qed.

(* quadratic convergence with the rounding absorbed into the offset 2 *)
Lemma newton_quad n x : 0 <= n -> Z.sqrt n <= x -> 0 < x ->
  2 * x * (newton n x - Z.sqrt n - 2) <= (x - Z.sqrt n - 2) * (x - Z.sqrt n - 2).
Proof.
  intros Hn Hx Hx0. pose proof (sqrt_bounds n Hn) as [_ Hs].
  pose proof (Z.sqrt_nonneg n) as Hs0.
  pose proof (newton_2xy n x Hn Hx0) as H2.
  set (s := Z.sqrt n) in *. set (y := newton n x) in *. lia.
Qed.

(* the invariant  2^(b-1) (x - s - 2) <= s  doubles its exponent b with every round *)
Definition close (n b x : Z) : Prop := 2 ^ (b - 1) * (x - Z.sqrt n - 2) <= Z.sqrt n.

Lemma close_step n b x : 0 < n -> 1 <= b -> Z.sqrt n <= x -> close n b x -> close n (2 * b) (newton n x).
Proof.
  unfold close. intros Hn Hb Hx Hc.
  assert (Hs0 : 0 < Z.sqrt n) by (apply Z.sqrt_pos; lia).
  pose proof (newton_quad n x ltac:(lia) Hx ltac:(lia)) as Hq.
  pose proof (newton_root n Hn) as Hr.
  pose proof (newton_lt n x ltac:(lia)) as Hlt.
  set (s := Z.sqrt n) in *. set (y := newton n x) in *.
  set (e := x - s - 2) in *. set (e' := y - s - 2) in *.
  replace (2 * b - 1) with (1 + (b - 1) + (b - 1)) by lia.
  rewrite !Z.pow_add_r by lia. change (2 ^ 1) with 2.
  set (A := 2 ^ (b - 1)) in *.
  assert (HA : 0 < A) by (apply Z.pow_pos_nonneg; lia).
  destruct (Z_le_gt_dec e' 0) as [He'|He'].
  { assert (0 <= 2 * A * A) by (apply Z.mul_nonneg_nonneg; lia).
    assert (2 * A * A * e' <= 0) by (apply Z.mul_nonneg_nonpos; lia). lia. }
  (* e' >= 1, hence e >= 1 *)
  assert (He : 1 <= e).
  { destruct (Z_le_gt_dec 1 e); [assumption|exfalso].
    assert (Hcase : x = s \/ x = s + 1 \/ x = s + 2) by lia.
    destruct Hcase as [Hc1 | [Hc1 | Hc1]].
    - subst e' y. rewrite Hc1 in He'. lia.
    - assert (y < x) by (apply Hlt; lia). subst e'. lia.
    - assert (y < x) by (apply Hlt; lia). subst e'. lia. }
  (* (2 A A e') s <= A A (2 x e') <= (A e)(A e) <= s s *)
  apply Z.mul_le_mono_pos_r with s; [lia|].
  assert (H1 : 2 * A * A * e' * s <= A * A * (2 * x * e')).
  { replace (2 * A * A * e' * s) with (A * A * (2 * e') * s) by ring.
    replace (A * A * (2 * x * e')) with (A * A * (2 * e') * x) by ring.
    apply Z.mul_le_mono_nonneg_l; [|lia].
    apply Z.mul_nonneg_nonneg; [apply Z.mul_nonneg_nonneg; lia|lia]. }
  assert (H2 : A * A * (2 * x * e') <= A * A * (e * e)).
  { apply Z.mul_le_mono_nonneg_l; [apply Z.mul_nonneg_nonneg; lia|exact Hq]. }
  assert (H3 : (A * e) * (A * e) <= s * s).
  { apply Z.mul_le_mono_nonneg; try lia; apply Z.mul_nonneg_nonneg; lia. }
  replace (A * A * (e * e)) with ((A * e) * (A * e)) in H2 by ring. lia.
Qed.

Fixpoint iter (k : nat) (n x : Z) : Z :=
  match k with O => x | S k' => iter k' n (newton n x) end.

Lemma iter_S k n x : iter (S k) n x = newton n (iter k n x).
Proof. revert x. induction k; intros x; [reflexivity|]. change (iter (S (S k)) n x) with (iter (S k) n (newton n x)). rewrite IHk. reflexivity. Qed.

Lemma iter_ge k n x : 0 < n -> Z.sqrt n <= x -> Z.sqrt n <= iter k n x.
Proof.
  intros Hn. assert (0 < Z.sqrt n) by (apply Z.sqrt_pos; lia).
  revert x. induction k; intros x Hx; [assumption|]. simpl. apply IHk. apply newton_ge; lia.
Qed.

Lemma iter_close k : forall n b x, 0 < n -> 1 <= b -> Z.sqrt n <= x -> close n b x ->
  close n (2 ^ Z.of_nat k * b) (iter k n x).
Proof.
  induction k; intros n b x Hn Hb Hx Hc.
  - cbn [iter]. change (2 ^ Z.of_nat 0) with 1. rewrite Z.mul_1_l. assumption.
  - assert (0 < Z.sqrt n) by (apply Z.sqrt_pos; lia).
    cbn [iter]. rewrite Nat2Z.inj_succ, Z.pow_succ_r by lia.
    replace (2 * 2 ^ Z.of_nat k * b) with (2 ^ Z.of_nat k * (2 * b)) by ring.
    apply IHk; try lia.
    + apply newton_ge; lia.
    + apply close_step; assumption.
Qed.

(* once the exponent exceeds log2 of the root, the estimate is within 2 of the root *)
Lemma close_small n b x : 1 <= b -> Z.sqrt n < 2 ^ (b - 1) -> close n b x -> x <= Z.sqrt n + 2.
Proof.
  unfold close. intros Hb Hs Hc.
  destruct (Z_le_gt_dec (x - Z.sqrt n - 2) 0); [lia|].
  assert (2 ^ (b - 1) * 1 <= 2 ^ (b - 1) * (x - Z.sqrt n - 2)) by (apply Z.mul_le_mono_nonneg_l; lia).
  lia.
Qed.

(* the constant-time algorithm on Z: from any start in [s, 2 s + 2], k + 1 rounds end within 1 of the root *)
Lemma ct_rounds_enough n x0 h k :
  0 < n -> 0 <= h -> Z.sqrt n < 2 ^ h -> h <= 2 ^ Z.of_nat k - 1 ->
  Z.sqrt n <= x0 <= 2 * Z.sqrt n + 2 ->
  Z.sqrt n <= iter (S k) n x0 <= Z.sqrt n + 1.
Proof.
  intros Hn Hh Hs Hk Hx0.
  assert (Hs0 : 0 < Z.sqrt n) by (apply Z.sqrt_pos; lia).
  assert (Hc0 : close n 1 x0) by (unfold close; change (2 ^ (1 - 1)) with 1; lia).
  pose proof (iter_close k n 1 x0 Hn ltac:(lia) ltac:(lia) Hc0) as Hc.
  pose proof (iter_ge k n x0 Hn ltac:(lia)) as Hge.
  assert (Hpk : 1 <= 2 ^ Z.of_nat k * 1) by (pose proof (Z.pow_pos_nonneg 2 (Z.of_nat k)); lia).
  assert (Hle : iter k n x0 <= Z.sqrt n + 2).
  { apply close_small with (b := 2 ^ Z.of_nat k * 1); try assumption.
    eapply Z.lt_le_trans; [exact Hs|]. apply Z.pow_le_mono_r; lia. }
  rewrite iter_S. set (x := iter k n x0) in *.
  split; [apply newton_ge; lia|].
  destruct (Z.eq_dec x (Z.sqrt n)) as [->|Hne]; [apply newton_root; assumption|].
  assert (newton n x < x) by (apply newton_lt; lia). lia.
Qed.

Lemma ct_result n xp : 0 < n -> Z.sqrt n <= xp <= Z.sqrt n + 1 ->
  Z.min xp (newton n xp) = Z.sqrt n.
Proof.
  intros Hn Hxp. assert (Hs0 : 0 < Z.sqrt n) by (apply Z.sqrt_pos; lia).
  destruct (Z.eq_dec xp (Z.sqrt n)) as [->|Hne].
  - pose proof (newton_root n Hn). lia.
  - pose proof (newton_lt n xp ltac:(lia) ltac:(lia)).
    pose proof (newton_ge n xp ltac:(lia) ltac:(lia)). lia.
Qed.

Fixpoint vtz (fuel : nat) (n x : Z) : option Z :=
  match fuel with
  | O => None
  | S f =>
      if x =? 0 then Some x else
      let nx := newton n x in
      if nx <? x then vtz f n nx else Some x
  end.

Lemma vtz_correct fuel : forall n x, 0 < n -> Z.sqrt n <= x ->
  x - Z.sqrt n < 2 ^ (Z.of_nat fuel - 1) -> (1 <= fuel)%nat ->
  vtz fuel n x = Some (Z.sqrt n).
Proof.
  induction fuel as [|f IH]; intros n x Hn Hx Hd Hf; [lia|].
  assert (Hs0 : 0 < Z.sqrt n) by (apply Z.sqrt_pos; lia).
  cbn [vtz]. destruct (Z.eqb_spec x 0); [lia|].
  destruct (Z.eq_dec x (Z.sqrt n)) as [->|Hne].
  - pose proof (newton_root n Hn). destruct (Z.ltb_spec (newton n (Z.sqrt n)) (Z.sqrt n)); [lia|reflexivity].
  - pose proof (newton_lt n x ltac:(lia) ltac:(lia)) as Hlt.
    pose proof (newton_ge n x ltac:(lia) ltac:(lia)) as Hge.
    pose proof (newton_half n x ltac:(lia) ltac:(lia)) as Hh.
    destruct (Z.ltb_spec (newton n x) x); [|lia].
    rewrite Nat2Z.inj_succ in Hd. replace (Z.succ (Z.of_nat f) - 1) with (Z.of_nat f) in Hd by lia.
    destruct f as [|f'].
    { simpl in Hd. lia. }
    apply IH; try lia.
    rewrite Nat2Z.inj_succ in *. replace (Z.succ (Z.of_nat f') - 1) with (Z.of_nat f') by lia.
    rewrite Z.pow_succ_r in Hd by lia. lia.
Qed.

Definition bitlen (x : Z) : Z := if x =? 0 then 0 else Z.log2 x + 1.

Lemma bitlen_spec x : 0 < x -> 2 ^ (bitlen x - 1) <= x < 2 ^ bitlen x.
Proof.
  intros H. unfold bitlen. destruct (Z.eqb_spec x 0); [lia|].
  pose proof (Z.log2_spec x H). replace (Z.log2 x + 1 - 1) with (Z.log2 x) by lia.
  unfold Z.succ in *. lia.
Qed.
Lemma bitlen_nonneg x : 0 <= bitlen x.
Proof. unfold bitlen. destruct (x =? 0); [lia|]. pose proof (Z.log2_nonneg x). lia. Qed.
Lemma bitlen_le x m : 0 <= m -> 0 <= x < 2 ^ m -> bitlen x <= m.
Proof.
  intros Hm Hx. unfold bitlen. destruct (Z.eqb_spec x 0); [lia|].
  assert (Z.log2 x < m) by (apply Z.log2_lt_pow2; lia). lia.
Qed.

(* the estimate 2^ceil(b/2), b the bit length of n, lies in (s, 2 s] *)
Definition est (n : Z) : Z := 2 ^ ((bitlen n + 1) / 2).

Lemma init_bounds n : 0 < n -> Z.sqrt n < est n <= 2 * Z.sqrt n.
Proof.
  intros Hn. unfold est. set (x0 := 2 ^ ((bitlen n + 1) / 2)). pose proof (bitlen_spec n Hn) as [Hlo Hhi].
  pose proof (bitlen_nonneg n) as Hb0.
  assert (Hb1 : 1 <= bitlen n).
  { unfold bitlen. destruct (Z.eqb_spec n 0); [lia|]. pose proof (Z.log2_nonneg n). lia. }
  set (b := bitlen n) in *. set (c := (b + 1) / 2) in *.
  assert (Hc : 2 * c = b + 1 \/ 2 * c = b).
  { subst c. pose proof (Z.div_mod (b + 1) 2 ltac:(lia)). pose proof (Z.mod_pos_bound (b + 1) 2 ltac:(lia)). lia. }
  assert (Hc0 : 1 <= c) by lia.
  assert (Hx0 : x0 * x0 = 2 ^ (2 * c)).
  { subst x0. rewrite <- Z.pow_add_r by lia. f_equal. lia. }
  assert (Hx0pos : 0 < x0) by (apply Z.pow_pos_nonneg; lia).
  pose proof (sqrt_bounds n ltac:(lia)) as [Hsl Hsu]. pose proof (Z.sqrt_nonneg n).
  split.
  - (* n < 2^b <= x0^2 *)
    assert (2 ^ b <= 2 ^ (2 * c)) by (apply Z.pow_le_mono_r; lia).
    destruct (Z_lt_le_dec (Z.sqrt n) x0); [assumption|exfalso].
    assert (x0 * x0 <= Z.sqrt n * Z.sqrt n) by (apply Z.mul_le_mono_nonneg; lia). lia.
  - (* (x0/2)^2 = 2^(2c-2) <= 2^(b-1) <= n, so x0/2 <= s *)
    assert (Hh : x0 = 2 * 2 ^ (c - 1)).
    { subst x0. replace c with (Z.succ (c - 1)) at 1 by lia. rewrite Z.pow_succ_r by lia. reflexivity. }
    set (y := 2 ^ (c - 1)) in *.
    assert (0 < y) by (apply Z.pow_pos_nonneg; lia).
    assert (Hy : y * y = 2 ^ (2 * c - 2)).
    { subst y. rewrite <- Z.pow_add_r by lia. f_equal. lia. }
    assert (2 ^ (2 * c - 2) <= 2 ^ (b - 1)) by (apply Z.pow_le_mono_r; lia).
    destruct (Z_le_gt_dec y (Z.sqrt n)); [lia|exfalso].
    assert ((Z.sqrt n + 1) * (Z.sqrt n + 1) <= y * y) by (apply Z.mul_le_mono_nonneg; lia). lia.
Qed.

(* floor(log2 BITS) rounds double the exponent past BITS/2 *)
Lemma log2_rounds bits : 0 < bits -> Z.even bits = true ->
  bits / 2 <= 2 ^ Z.log2 bits - 1.
Proof.
  intros Hb He. pose proof (Z.log2_spec bits Hb) as [Hl Hu].
  apply Zeven_bool_iff in He. destruct (Zeven_ex _ He) as [m Hm]. subst bits.
  replace (2 * m / 2) with m by (rewrite Z.mul_comm, Z.div_mul; lia).
  assert (1 <= Z.log2 (2 * m)).
  { change 1 with (Z.log2 2). apply Z.log2_le_mono. lia. }
  unfold Z.succ in Hu.
  replace (Z.log2 (2 * m) + 1) with (Z.succ (Z.log2 (2 * m))) in Hu by lia.
  rewrite Z.pow_succ_r in Hu by lia. lia.
Qed.
