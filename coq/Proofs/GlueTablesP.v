(** C15 (glue tables): the model table and the spec table of Model/Glue.v agree on EVERY key, for all well-formed
    argument lists that satisfy the typing side condition of the key, in both profiles, wherever the spec entry is
    defined.  [run_tab t k dbg a] is the table lookup of Model/Api.v (Proofs/TotalityP.v).
    Side conditions ([glue_tbl_ty]): the two halves of a wide value have one limb count (Rust's types);
    "glue.zero_like_wrapping_boxed" agrees at every precision since the repair of finding F32 (/repo 526c7f5). *)
From CB Require Import Model.Limbs Model.AddSub Model.Cmp Model.Conv Model.Bits Model.Div Model.Glue
  Proofs.WordP Proofs.WordPredP Proofs.LimbsP Proofs.CmpWordP Proofs.ConvDigitsP Proofs.ConvBytesP Proofs.TotalityP.
From CB Require Proofs.AddSubP Proofs.ConvTablesP Proofs.BitsTablesP Proofs.WrappersP.
From Coq Require Import ZArith Lia List String Bool.
Import ListNotations.
Open Scope Z_scope.
Notation length := List.length.

(* ------------------------------------------------------------------ typing side conditions (boolean) *)
Definition gtyping := list (string * (list (list Z) -> bool)).
Definition gtypedb (t : gtyping) (k : string) (a : list (list Z)) : bool :=
  match lookup k t with Some P => P a | None => true end.
Definition ty_one_limb (a : list (list Z)) : bool := (length (arg 0 a) =? 1)%nat.
(* (lo, hi) of a wide value: two Uint<N> *)
Definition ty_halves (a : list (list Z)) : bool := (length (arg 1 a) =? length (arg 0 a))%nat.

Open Scope string_scope.
Definition glue_tbl_ty : gtyping :=
  [("glue.shl_wide_expect", ty_halves); ("glue.shr_wide_expect", ty_halves)].
Close Scope string_scope.

Definition tbl_ok (k : string) : Prop :=
  forall dbg a, wf_args a -> gtypedb glue_tbl_ty k a = true ->
    run_tab ops_glue_spec k dbg a <> Unsupported ->
    run_tab ops_glue_model k dbg a = run_tab ops_glue_spec k dbg a.

Ltac open_ty H :=
  unfold gtypedb in H;
  lazy beta iota delta [lookup glue_tbl_ty String.eqb Ascii.eqb Bool.eqb] in H.
Ltac start :=
  let dbg := fresh "dbg" in let a := fresh "a" in
  let Hwf := fresh "Hwf" in let Hty := fresh "Hty" in let Hdom := fresh "Hdom" in
  intros dbg a Hwf Hty Hdom; open_ty Hty; revert Hdom; open_tabs ops_glue_model ops_glue_spec; intros Hdom.

(* ------------------------------------------------------------------ small facts *)
Lemma to_limbs_S_word k x : is_word x -> to_limbs (S k) x = x :: zeros k.
Proof.
  intros [H0 H1]. cbn [to_limbs]. rewrite Z.mod_small, Z.div_small by lia.
  rewrite BitsTablesP.zeros_to_limbs. reflexivity.
Qed.
Lemma vec_into_boxed_nonempty ls : ls <> [] -> vec_into_boxed ls = ls.
Proof. destruct ls; [congruence | reflexivity]. Qed.
Lemma limbs_for_precision_ceil p : 0 < p -> limbs_for_precision p = Z.to_nat ((p + 63) / 64).
Proof.
  intros Hp. unfold limbs_for_precision. f_equal. cbv zeta.
  destruct (Z.ltb_spec 0 (p mod 64)); Z.div_mod_to_equations; lia.
Qed.
Lemma wfd256_wf bs : wfd 256 bs -> wf bs.
Proof.
  unfold wfd, wf, is_word. intros H. eapply Forall_impl; [|exact H]. cbv beta. intros x Hx.
  pose proof B_val as E. assert (256 < B) by (rewrite E; reflexivity). lia.
Qed.

(* the fields of a Reciprocal are words *)
Lemma reciprocal_word d : is_word (reciprocal d).
Proof.
  unfold reciprocal. cbv zeta. repeat (destruct (mulhilo _ _)). unfold wsub, wrap.
  apply Z.mod_pos_bound. apply B_pos.
Qed.
Lemma leading_zeros_word_word d : is_word d -> is_word (leading_zeros_word d).
Proof.
  intros [H0 H1]. unfold leading_zeros_word, bits_of, is_word. pose proof B_val as E.
  assert (64 < B) by (rewrite E; reflexivity).
  destruct (Z.leb_spec d 0); [lia|].
  pose proof (Z.log2_nonneg d). assert (Z.log2 d < 64) by (apply Z.log2_lt_pow2; lia). lia.
Qed.
Lemma g_recip_words d : is_word d ->
  is_word (r_d (g_recip d)) /\ is_word (r_shift (g_recip d)) /\ is_word (r_v (g_recip d)).
Proof.
  intros Hd. unfold g_recip. destruct (d =? 0); cbn [r_d r_shift r_v].
  - split; [apply is_word_MAXW | split; [apply is_word_0' | apply is_word_1]].
  - unfold recip_new. cbn [r_d r_shift r_v]. split; [|split].
    + unfold wshl, wrap. apply Z.mod_pos_bound. apply B_pos.
    + apply leading_zeros_word_word. exact Hd.
    + apply reciprocal_word.
Qed.

(* serde of a Uint (copies of the two Conv facts, at the argument instead of the table entry) *)
Lemma ser_eq x : wf x ->
  uint_serde_ser x = sp_le_digits 256 8 (8 * Z.of_nat (length x)) ++ sp_le_digits 256 (8 * length x) (eval x).
Proof.
  intros Hw. unfold uint_serde_ser. cbv zeta. rewrite length_uint_to_le_bytes by exact Hw.
  rewrite uint_to_le_bytes_digits by exact Hw. rewrite !ConvTablesP.digits_le by reflexivity.
  rewrite Nat2Z.inj_mul. reflexivity.
Qed.
Lemma sp_bytes_arg_wfd bs o : wfd 256 bs -> sp_bytes_arg bs o = o.
Proof. intros H. unfold sp_bytes_arg. apply ConvTablesP.bytes_ok_wfd in H. rewrite H. reflexivity. Qed.
Lemma de_eq a rest : wf_args a -> wfd 256 rest -> gsp_uint_de (g_n 1 a) rest <> Unsupported ->
  uint_serde_de (g_n 1 a) rest = gsp_uint_de (g_n 1 a) rest.
Proof.
  intros Hwf Hb Hd.
  pose proof (ConvTablesP.tbl_uint_serde_de false [rest; arg 1 a]) as H.
  assert (Hwf' : wf_args [rest; arg 1 a]).
  { constructor; [apply wfd256_wf; exact Hb | constructor; [apply wf_arg; exact Hwf | constructor]]. }
  specialize (H Hwf' eq_refl). revert H. unfold run_tab.
  lazy beta iota delta [lookup ops_conv_model ops_conv_spec String.eqb Ascii.eqb Bool.eqb].
  change (cv_nat 1 [rest; arg 1 a]) with (g_n 1 a). change (arg 0 [rest; arg 1 a]) with rest. cbv zeta.
  change (sp_bytes_arg rest _) with (sp_bytes_arg rest (gsp_uint_de (g_n 1 a) rest)).
  rewrite sp_bytes_arg_wfd by exact Hb. intros H. apply H. exact Hd.
Qed.
Lemma limb_de_eq bs : wfd 256 bs -> gsp_limb_de bs <> Unsupported -> g_limb_de bs = gsp_limb_de bs.
Proof.
  intros Hb Hd. unfold g_limb_de, gsp_limb_de in *. destruct (Nat.ltb (length bs) 8) eqn:E1; [reflexivity|].
  destruct (Nat.eqb_spec (length bs) 8) as [Hl|]; [|contradiction Hd; reflexivity].
  rewrite firstn_all2 by lia. unfold word_from_le_bytes. rewrite ConvTablesP.horner_rev.
  rewrite WrappersP.to_limbs_1_word by (apply WrappersP.evalb8_word; assumption). reflexivity.
Qed.

(* ------------------------------------------------------------------ one lemma per key *)
Open Scope string_scope. Open Scope Z_scope.

Lemma tbl_zero : tbl_ok "glue.zero".
Proof. start. rewrite BitsTablesP.zeros_to_limbs. reflexivity. Qed.

Lemma tbl_one : tbl_ok "glue.one".
Proof.
  start. set (n := g_n 0 a) in *. destruct n as [|k]; [contradiction Hdom; reflexivity|].
  cbn [gsp_nonempty one_limbs]. rewrite to_limbs_S_word by apply is_word_1. reflexivity.
Qed.

Lemma tbl_max_boxed : tbl_ok "glue.max_boxed".
Proof.
  start. cbv zeta in *. destruct (Z.ltb_spec (sarg 0 a) 0) as [|Hp]; [contradiction Hdom; reflexivity|].
  unfold g_max_boxed.
  assert (E : Nat.max (limbs_for_precision (sarg 0 a)) 1 = Nat.max 1 (Z.to_nat ((sarg 0 a + 63) / 64))).
  { destruct (Z.eq_dec (sarg 0 a) 0) as [E0|Hn].
    - rewrite E0. vm_compute. reflexivity.
    - rewrite limbs_for_precision_ceil by lia. apply Nat.max_comm. }
  rewrite E. set (m := Nat.max 1 (Z.to_nat ((sarg 0 a + 63) / 64))).
  assert (Hm : m <> 0%nat) by (unfold m; lia).
  rewrite vec_into_boxed_nonempty.
  - rewrite AddSubP.maxs_to_limbs. reflexivity.
  - destruct m; [congruence | discriminate].
Qed.

Lemma tbl_nlimbs : tbl_ok "glue.nlimbs".
Proof. start. reflexivity. Qed.

Lemma tbl_bytes_precision : tbl_ok "glue.bytes_precision".
Proof.
  start. unfold lenZ, g_len. set (L := Z.of_nat (length (arg 0 a))).
  replace ((64 * L) / 8) with (L * 8) by (Z.div_mod_to_equations; lia). reflexivity.
Qed.

Lemma tbl_from_limb_like : tbl_ok "glue.from_limb_like".
Proof.
  start. set (n := g_len 1 a) in *. destruct n as [|k]; [contradiction Hdom; reflexivity|].
  cbn [gsp_nonempty g_from_limb]. rewrite to_limbs_S_word by (exact (sarg_word 0 a Hwf)). reflexivity.
Qed.

Lemma tbl_one_like : tbl_ok "glue.one_like".
Proof.
  start. set (n := g_len 0 a) in *. destruct n as [|k]; [contradiction Hdom; reflexivity|].
  cbn [gsp_nonempty g_from_limb]. rewrite to_limbs_S_word by apply is_word_1. reflexivity.
Qed.

Lemma tbl_zero_like : tbl_ok "glue.zero_like".
Proof. start. rewrite BitsTablesP.zeros_to_limbs. reflexivity. Qed.

Lemma tbl_zero_like_wrapping_boxed : tbl_ok "glue.zero_like_wrapping_boxed".
Proof. start. rewrite BitsTablesP.zeros_to_limbs. reflexivity. Qed.

Lemma tbl_recip_default : tbl_ok "glue.recip_default".
Proof. start. vm_compute. reflexivity. Qed.

Lemma tbl_recip_select : tbl_ok "glue.recip_select".
Proof.
  start. unfold carg, gsp_bool. set (c := negb (sarg 2 a =? 0)).
  destruct (g_recip_words (sarg 0 a) (sarg_word 0 a Hwf)) as (A1 & A2 & A3).
  destruct (g_recip_words (sarg 1 a) (sarg_word 1 a Hwf)) as (B1 & B2 & B3).
  unfold g_recip_select, g_recip_fields. cbn [r_d r_shift r_v].
  rewrite !st_select_spec by assumption. destruct c; reflexivity.
Qed.

Lemma tbl_cc_eq : tbl_ok "glue.cc_eq".
Proof.
  start. unfold ccarg, gsp_bool.
  destruct (negb (sarg 0 a =? 0)), (negb (sarg 1 a =? 0)); vm_compute; reflexivity.
Qed.

Lemma tbl_decode_error_text : tbl_ok "glue.decode_error_text".
Proof. start. reflexivity. Qed.
Lemma tbl_random_bits_error_text : tbl_ok "glue.random_bits_error_text".
Proof. start. reflexivity. Qed.
Lemma tbl_fmt_octal : tbl_ok "glue.fmt_octal".
Proof. start. reflexivity. Qed.

Lemma tbl_checked_ser : tbl_ok "glue.checked_ser".
Proof.
  start. unfold g_checked_ser, g_len. destruct (sarg 1 a =? 0); [reflexivity|].
  rewrite (ser_eq (arg 0 a)) by (apply wf_arg; exact Hwf). reflexivity.
Qed.

Lemma tbl_checked_ser_limb : tbl_ok "glue.checked_ser_limb".
Proof.
  start. unfold g_checked_ser, word_to_le_bytes. destruct (sarg 1 a =? 0); [reflexivity|].
  rewrite ConvTablesP.digits_le by reflexivity. reflexivity.
Qed.

Lemma checked_de_gen (inner sp : list Z -> outcome) bs :
  (forall rest, wfd 256 rest -> sp rest <> Unsupported -> inner rest = sp rest) ->
  gsp_checked_de sp bs <> Unsupported -> g_checked_de inner bs = gsp_checked_de sp bs.
Proof.
  intros Hin Hdom. unfold gsp_checked_de in *.
  destruct (ConvTablesP.bytes_dom' _ _ Hdom) as (Hb & E & Hd). rewrite E. clear E Hdom.
  unfold g_checked_de. destruct bs as [|t rest]; [reflexivity|].
  apply wfd_cons in Hb. destruct Hb as [_ Hb].
  destruct (t =? 0). { destruct rest; [reflexivity | contradiction Hd; reflexivity]. }
  destruct (t =? 1); [|reflexivity]. apply Hin; assumption.
Qed.

Lemma tbl_checked_de : tbl_ok "glue.checked_de".
Proof.
  start. apply checked_de_gen; [|exact Hdom]. intros rest Hb Hd. apply de_eq; assumption.
Qed.

Lemma tbl_checked_de_limb : tbl_ok "glue.checked_de_limb".
Proof. start. apply checked_de_gen; [|exact Hdom]. exact limb_de_eq. Qed.

Lemma tbl_pow_front : tbl_ok "glue.pow_front".
Proof. start. reflexivity. Qed.
Lemma tbl_multi_exp_front : tbl_ok "glue.multi_exp_front".
Proof. start. reflexivity. Qed.

Lemma g_expect_dom o : g_expect o <> Unsupported -> o <> Unsupported.
Proof. intros H E. apply H. rewrite E. reflexivity. Qed.

Lemma tbl_shl_wide_expect : tbl_ok "glue.shl_wide_expect".
Proof.
  start. apply g_expect_dom in Hdom.
  pose proof (BitsTablesP.tbl_uint_shl_vartime_wide dbg a Hwf Hty) as H. revert H. unfold run_tab.
  lazy beta iota delta [lookup Bits.ops_bits_model Bits.ops_bits_spec String.eqb Ascii.eqb Bool.eqb].
  intros H. rewrite (H Hdom). reflexivity.
Qed.

Lemma tbl_shr_wide_expect : tbl_ok "glue.shr_wide_expect".
Proof.
  start. apply g_expect_dom in Hdom.
  pose proof (BitsTablesP.tbl_uint_shr_vartime_wide dbg a Hwf Hty) as H. revert H. unfold run_tab.
  lazy beta iota delta [lookup Bits.ops_bits_model Bits.ops_bits_spec String.eqb Ascii.eqb Bool.eqb].
  intros H. rewrite (H Hdom). reflexivity.
Qed.
Close Scope string_scope.

(* ------------------------------------------------------------------ the area theorem *)
Create HintDb c15glue.
#[export] Hint Resolve tbl_zero tbl_one tbl_max_boxed tbl_nlimbs tbl_bytes_precision tbl_from_limb_like tbl_one_like
  tbl_zero_like tbl_zero_like_wrapping_boxed tbl_recip_default tbl_recip_select tbl_cc_eq tbl_decode_error_text
  tbl_random_bits_error_text tbl_fmt_octal tbl_checked_ser tbl_checked_ser_limb tbl_checked_de tbl_checked_de_limb
  tbl_pow_front tbl_multi_exp_front tbl_shl_wide_expect tbl_shr_wide_expect : c15glue.

Lemma glue_all_keys_ok : forall k, In k (map fst ops_glue_model) -> tbl_ok k.
Proof.
  apply Forall_forall. cbn [map fst ops_glue_model].
  repeat (apply Forall_cons; [solve [eauto with nocore c15glue] |]). apply Forall_nil.
Qed.

