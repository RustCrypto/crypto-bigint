(** C09 proofs, part 4: BoxedMontyForm::pow_bounded_exp.  Almost-Montgomery multiplication (value level: the exact
    quotient (x*y + q*m)/R with the overflow subtraction) keeps the accumulator below min(R, 3m) after every
    multiplication by a table entry, so the two final conditional subtractions return the canonical representative. *)
From CB Require Import Model.Limbs Model.AddSub Model.ModArith Model.Cmp Model.Pow
  Proofs.WordP Proofs.LimbsP Proofs.AddSubP Proofs.WordPredP Proofs.CmpWordP Proofs.CmpP Proofs.CmpBoxedP
  Proofs.ModArithP Proofs.PowMathP Proofs.PowLadderP Proofs.PowFixedP.
From Coq Require Import ZArith Lia List Bool.
Open Scope Z_scope.
Notation length := List.length.

(* q = t * m' mod R makes t + q * m a multiple of R; the quotient r is below R + m, so subtracting m when r >= R
   keeps the residue and the bound r * R < t + m * R *)
Lemma amm_z_spec n m x y : 0 < m <= Bn n -> Z.odd m = true -> 0 <= x < Bn n -> 0 <= y < Bn n ->
  let a := amm_z n m (mg_neg_inv_full n m) x y in
  0 <= a < Bn n /\ (a * Bn n) mod m = (x * y) mod m /\ a * Bn n < x * y + m * Bn n.
Proof.
  intros Hm Hodd Hx Hy. cbv zeta. unfold amm_z.
  destruct (mg_neg_inv_full_spec n m ltac:(lia) Hodd) as [Hm' Hinv].
  set (R := Bn n) in *. set (m' := mg_neg_inv_full n m) in *. set (t := x * y).
  assert (HR : 0 < R) by (unfold R; apply Bn_pos).
  assert (Ht : 0 <= t < R * R).
  { unfold t. split; [apply Z.mul_nonneg_nonneg; lia|].
    apply Z.le_lt_trans with (x * R); [apply Z.mul_le_mono_nonneg_l; lia | apply Z.mul_lt_mono_pos_r; lia]. }
  set (q := (t * m') mod R).
  pose proof (Z.mod_pos_bound (t * m') R HR) as Hq. fold q in Hq.
  assert (Hdiv : (t + q * m) mod R = 0).
  { unfold q. rewrite Zplus_mod, mulmod_l, <- Zplus_mod.
    replace (t + t * m' * m) with (t * (m * m' + 1)) by ring.
    rewrite <- mulmod_r, Hinv, Z.mul_0_r. apply Zmod_0_l. }
  pose proof (Z.div_mod (t + q * m) R ltac:(lia)) as Hdm. rewrite Hdiv, Z.add_0_r in Hdm.
  set (r := (t + q * m) / R) in *.
  assert (Hqm : 0 <= q * m <= (R - 1) * m).
  { split; [apply Z.mul_nonneg_nonneg; lia | apply Z.mul_le_mono_nonneg_r; lia]. }
  assert (Hr0 : 0 <= r) by (unfold r; apply Z.div_pos; lia).
  assert (HrR : R * r < t + R * m) by lia.
  destruct (Z.ltb_spec r R) as [Hlt|Hge].
  - split; [lia|]. split; [|lia].
    replace (r * R) with (t + q * m) by lia. apply Z.mod_add. lia.
  - assert (Hub : r < R + m).
    { apply Z.mul_lt_mono_pos_l with R; [assumption|].
      replace (R * (R + m)) with (R * R + R * m) by ring. lia. }
    split; [lia|]. split.
    + replace ((r - m) * R) with (t + (q - R) * m) by lia. apply Z.mod_add. lia.
    + replace ((r - m) * R) with (R * r - m * R) by ring.
      assert (0 < m * R) by (apply Z.mul_pos_pos; lia). lia.
Qed.

(** an n-limb value, not necessarily below the modulus *)
Definition Bf (n : nat) (x : list Z) : Prop := wf x /\ length x = n.

Lemma Bf_range n x : Bf n x -> 0 <= eval x < Bn n.
Proof. intros [Hw Hl]. rewrite <- Hl. apply eval_bounds. assumption. Qed.

Lemma amm_v_ok n m x y : 0 < m <= Bn n -> Z.odd m = true -> Bf n x -> Bf n y ->
  let a := amm_v n m (mg_neg_inv_full n m) x y in
  Bf n a /\ V m (mg_rinv n m) a = (V m (mg_rinv n m) x * V m (mg_rinv n m) y) mod m
  /\ eval a * Bn n < eval x * eval y + m * Bn n.
Proof.
  intros Hm Hodd Hx Hy. cbv zeta. unfold amm_v.
  destruct (amm_z_spec n m (eval x) (eval y) Hm Hodd (Bf_range n x Hx) (Bf_range n y Hy)) as (Ha & Hc & Hb).
  set (a := amm_z n m (mg_neg_inv_full n m) (eval x) (eval y)) in *.
  assert (E : eval (to_limbs n a) = a) by (apply to_limbs_small; assumption).
  split; [split; [apply wf_to_limbs | apply length_to_limbs]|]. rewrite E. split; [|assumption].
  destruct (mg_rinv_spec n m ltac:(lia) Hodd) as [_ Hr]. set (rinv := mg_rinv n m) in *.
  unfold V. rewrite mulmod_both.
  (* a = a * (R * rinv) = (x*y) * rinv  (mod m) *)
  rewrite E. transitivity ((a * Bn n * (rinv * rinv)) mod m).
  - replace (a * Bn n * (rinv * rinv)) with (a * rinv * (Bn n * rinv)) by ring.
    rewrite <- (mulmod_r (a * rinv) (Bn n * rinv)), Hr, mulmod_r, Z.mul_1_r. reflexivity.
  - rewrite <- (mulmod_l (a * Bn n)), Hc, mulmod_l. f_equal. ring.
Qed.

Lemma reduce_once_spec n z m : Bf n z -> Bf n m -> n <> 0%nat ->
  Bf n (reduce_once z m) /\ eval (reduce_once z m) = if eval z <? eval m then eval z else eval z - eval m.
Proof.
  intros [Hz Hlz] [Hmw Hlm] Hn. unfold reduce_once, cond_sbb.
  rewrite boxed_ct_lt_spec by assumption. rewrite ch_not_b2z.
  rewrite st_select_spec by (apply is_word_0 || apply is_word_MAXW).
  set (ge := negb (eval z <? eval m)).
  assert (Hb : is_borrow (if ge then MAXW else 0)) by (destruct ge; [right | left]; reflexivity).
  destruct (bitand_limb_borrow m _ Hmw Hb) as (Hpe & Hpw & Hpl).
  destruct (sbb_limbs z (bitand_limb m (if ge then MAXW else 0)) 0) as [r bo] eqn:E. cbn [fst].
  pose proof (sbb_limbs_correct z _ 0 r bo Hz Hpw ltac:(lia) is_word_0 E) as (Hw & Hl & [(Hz0 & _)|(_ & Hib & He)]); [lia|].
  rewrite bin_0, Hpe, Hlz in He.
  pose proof (eval_bounds z Hz) as Bz. pose proof (eval_bounds m Hmw) as Bm. pose proof (eval_bounds r Hw) as Br.
  rewrite Hlz in Bz. rewrite Hlm in Bm. rewrite Hl, Hlz in Br.
  split; [split; [assumption | lia]|].
  (* the mask is all ones exactly when z >= m; the borrow out is 0 in both cases *)
  unfold ge in He. destruct (Z.ltb_spec (eval z) (eval m)); cbn [negb] in He; rewrite ?bout_0, ?bout_MAXW in He;
    destruct Hib as [-> | ->]; rewrite ?bout_0, ?bout_MAXW in He; lia.
Qed.

(** the boxed loops are the shared ladder run with AMM *)

Lemma sq4_unfold amm z : sq4 amm z = (fun v => amm v v) ((fun v => amm v v) ((fun v => amm v v) ((fun v => amm v v) z))).
Proof. reflexivity. Qed.

Lemma window_idx_range w wn : is_word w -> (wn < 16)%nat -> 0 <= window_idx w wn < 16.
Proof. intros Hw Hn. rewrite window_idx_val by assumption. apply Z.mod_pos_bound. lia. Qed.

Definition mask_ok (smask : Z) : Prop := forall i, 0 <= i < 16 -> 0 <= wand i smask < 16.

Lemma start_mask_ok k : 1 <= k -> mask_ok (start_mask k).
Proof.
  intros Hk i Hi. rewrite (start_mask_val k Hk). destruct (start_decomp k Hk) as (_ & Hs & _).
  set (s := start_bit k mod 4) in *. unfold wand. rewrite land_mask by lia.
  assert (0 < 2 ^ (s + 1)) by (apply Z.pow_pos_nonneg; lia).
  pose proof (Z.mod_pos_bound i (2 ^ (s + 1)) ltac:(lia)).
  assert (2 ^ (s + 1) <= 2 ^ 4) by (apply Z.pow_le_mono_r; lia). change (2 ^ 4) with 16 in *. lia.
Qed.

Section LoopEq.
Variable amm : list Z -> list Z -> list Z.
Variables (n : nat) (powers : list (list Z)) (e : list Z) (sl sw : nat) (smask : Z).
Hypothesis Htab : table_wf n powers.
Hypothesis Hlen : length powers = 16%nat.
Hypothesis He : wf e.
Hypothesis Hmask : mask_ok smask.
Hypothesis Hsw : (sw < 16)%nat.
Notation sq := (fun z => amm z z).

Lemma bwin_loop_eq ln : forall wn z, (wn <= 16)%nat ->
  bwin_loop amm powers (nthz e ln) ln sl sw smask wn z = window_loop amm sq [(powers, e)] ln sl sw smask wn z.
Proof.
  induction wn as [|w IH]; intros z Hw; [reflexivity|].
  cbn [bwin_loop window_loop bases_loop]. cbv zeta.
  assert (Hword : is_word (nthz e ln)) by (rewrite nthz_eval by assumption; apply is_word_mod).
  pose proof (window_idx_range (nthz e ln) w Hword ltac:(lia)) as Hi.
  set (idx := if ((ln =? sl)%nat && (w =? sw)%nat)%bool then wand (window_idx (nthz e ln) w) smask else window_idx (nthz e ln) w).
  assert (Hidx : 0 <= idx < 16) by (unfold idx; destruct ((ln =? sl)%nat && (w =? sw)%nat)%bool; [apply Hmask|]; assumption).
  rewrite (boxed_lookup_spec n) by (try assumption; rewrite Hlen; try rewrite B_val; simpl; lia).
  rewrite (ct_lookup_spec n) by (try assumption; rewrite Hlen; try rewrite B_val; simpl; lia).
  rewrite IH by lia. reflexivity.
Qed.

Lemma blimb_loop_eq : forall ln z,
  blimb_loop amm powers e sl sw smask ln z = limb_loop amm sq [(powers, e)] sl sw smask ln z.
Proof.
  induction ln as [|l IH]; intros z; [reflexivity|].
  cbn [blimb_loop limb_loop]. cbv zeta. rewrite bwin_loop_eq by (destruct (l =? sl)%nat; lia).
  apply IH.
Qed.
End LoopEq.

Lemma bpowers_loop_eq amm x : forall c p, bpowers_loop amm x p c = powers_loop amm x p c.
Proof. induction c as [|c IH]; intros p; [reflexivity|]. cbn [bpowers_loop powers_loop]. cbv zeta. rewrite IH. reflexivity. Qed.
Lemma boxed_powers_eq amm one x : boxed_powers amm one x = compute_powers amm one x.
Proof. unfold boxed_powers, compute_powers. rewrite bpowers_loop_eq. reflexivity. Qed.

Section Boxed.
Variables (n : nat) (m rinv : Z).
Hypothesis Hm : 0 < m.
Hypothesis Hn : n <> 0%nat.
Variable amm : list Z -> list Z -> list Z.
Notation V := (V m rinv).
Notation Bf := (Bf n).
Notation Mf := (Mf n m).

(** what is needed of almost_montgomery_mul (derived for the value-level definition in amm_v_ok; limb level: C08) *)
Hypothesis Hamm : forall x y, Bf x -> Bf y ->
  Bf (amm x y) /\ V (amm x y) = (V x * V y) mod m /\ eval (amm x y) * Bn n < eval x * eval y + m * Bn n.

Variable mL : list Z.
Hypothesis HmL : Bf mL.
Hypothesis HmV : eval mL = m.
Variable one : list Z.
Hypothesis Hone : Mf one.
Hypothesis Vone : V one = 1 mod m.

Definition G0 (z : list Z) : Prop := Bf z.
Definition G3 (z : list Z) : Prop := Bf z /\ eval z < 3 * m.
Definition T2 (p : list Z) : Prop := Bf p /\ eval p < 2 * m.

Lemma Mf_T2 x : Mf x -> T2 x.
Proof. intros (H1 & H2 & H3). split; [split; assumption | lia]. Qed.

Lemma amm_bound x y c : Bf x -> Bf y -> eval y < c * m -> 0 <= c -> eval (amm x y) < (c + 1) * m.
Proof.
  intros Hx Hy Hc Hc0. destruct (Hamm x y Hx Hy) as (_ & _ & Hb).
  pose proof (Bf_range n x Hx) as Rx. pose proof (Bf_range n y Hy) as Ry.
  pose proof (Bn_pos n) as HR. set (R := Bn n) in *.
  assert (H1 : eval x * eval y <= R * eval y) by (apply Z.mul_le_mono_nonneg_r; lia).
  assert (H2 : R * eval y < R * (c * m)) by (apply Z.mul_lt_mono_pos_l; lia).
  apply Z.mul_lt_mono_pos_r with R; [assumption|].
  replace ((c + 1) * m * R) with (R * (c * m) + m * R) by ring. lia.
Qed.

Lemma G3_mul z p : G0 z -> T2 p -> G3 (amm z p) /\ V (amm z p) = (V z * V p) mod m.
Proof.
  intros Hz [Hp Hlt]. destruct (Hamm z p Hz Hp) as (H1 & H2 & _).
  split; [|assumption]. split; [assumption|]. apply (amm_bound z p 2); try assumption; lia.
Qed.
Lemma G0_sq z : G0 z -> G0 (amm z z) /\ V (amm z z) = (V z * V z) mod m.
Proof. intros Hz. destruct (Hamm z z Hz Hz) as (H1 & H2 & _). split; assumption. Qed.

(** one conditional subtraction of the modulus: the bound drops by m, the represented value stays *)
Lemma reduce_once_V z c : Bf z -> 1 <= c -> eval z < (c + 1) * m ->
  Bf (reduce_once z mL) /\ eval (reduce_once z mL) < c * m /\ V (reduce_once z mL) = V z.
Proof.
  intros Hz Hc Hlt. destruct (reduce_once_spec n z mL Hz HmL Hn) as [Hz1 E1]. rewrite HmV in E1.
  split; [exact Hz1|]. unfold PowLadderP.V. rewrite E1. destruct (Z.ltb_spec (eval z) m).
  { split; [assert (1 * m <= c * m) by (apply Z.mul_le_mono_nonneg_r; lia); lia | reflexivity]. }
  split; [lia|]. replace ((eval z - m) * rinv) with (eval z * rinv + (- rinv) * m) by ring. apply Z.mod_add. lia.
Qed.

Theorem boxed_pow_reduced x e k : 0 <= k -> Mf x -> wf e ->
  let r := boxed_pow_montgomery_form amm mL one x e k in
  Mf r /\ V r = (V x ^ (eval e mod 2 ^ k)) mod m.
Proof.
  intros Hk Hx He. cbv zeta. unfold boxed_pow_montgomery_form.
  destruct (Z.eqb_spec k 0) as [->|Hk0].
  - split; [assumption|]. change (2 ^ 0) with 1. rewrite Z.mod_1_r. exact Vone.
  - assert (Hk1 : 1 <= k) by lia.
    rewrite boxed_powers_eq.
    (* the table: one < m, x < m, every later entry < 2m *)
    destruct (compute_powers_spec m rinv Hm amm T2 x
               (fun p Hp => let '(conj Hb _) := Hp in
                            conj (conj (proj1 (Hamm p x Hb (proj1 (Mf_T2 x Hx))))
                                       (amm_bound p x 1 Hb (proj1 (Mf_T2 x Hx)) ltac:(destruct Hx as (_ & _ & ?); lia) ltac:(lia)))
                                 (proj1 (proj2 (Hamm p x Hb (proj1 (Mf_T2 x Hx))))))
               one (Mf_T2 one Hone) (Mf_T2 x Hx) Vone) as (Hl & H1 & Hi).
    set (powers := compute_powers amm one x) in *.
    assert (Htab : table_ok m rinv T2 powers) by (split; [assumption | intros i Hlt; rewrite H1; apply Hi; assumption]).
    assert (Htw : table_wf n powers).
    { apply (table_ok_wf n m rinv T2); [|assumption]. intros p [Hp _]. exact Hp. }
    destruct (start_decomp k Hk1) as (_ & _ & Hsw).
    rewrite (blimb_loop_eq amm n powers e (start_limb k) (start_window k) (start_mask k) Htw Hl He (start_mask_ok k Hk1) Hsw).
    assert (Hpes : Forall (pe_ok m rinv T2) [(powers, e)]).
    { constructor; [split; [exact Htab | exact He] | constructor]. }
    assert (Hne1 : [(powers, e)] <> [] \/ forall z, G0 z -> G3 z) by (left; discriminate).
    assert (HG1 : G3 one).
    { destruct Hone as (Ho1 & Ho2 & Ho3). split; [split; assumption | lia]. }
    assert (HGG : forall z, G3 z -> G0 z) by (intros z H; exact (proj1 H)).
    assert (HTT : forall p, T2 p -> wf p /\ length p = n) by (intros p H; exact (proj1 H)).
    pose proof (multi_exp_internal_spec n m rinv Hm amm (fun z => amm z z) G0 G3 T2
                  HGG HTT G3_mul G0_sq k Hk1 [(powers, e)] Hpes Hne1 one HG1 Vone) as [[Hz Hz3] Vz].
    unfold multi_exp_internal in *.
    set (z := limb_loop amm (fun z => amm z z) [(powers, e)] (start_limb k) (start_window k) (start_mask k) (S (start_limb k)) one) in *.
    cbn [Pw] in Vz. unfold vbase, ebits in Vz. cbn [fst snd] in Vz. rewrite H1, Z.div_1_r, Z.mul_1_r in Vz.
    destruct (reduce_once_V z 2 Hz ltac:(lia) Hz3) as (Hz1 & R1 & V1).
    destruct (reduce_once_V _ 1 Hz1 ltac:(lia) R1) as (Hz2 & R2 & V2).
    split; [destruct Hz2; split; [assumption | split; [assumption | lia]]|].
    rewrite V2, V1. exact Vz.
Qed.
End Boxed.
