(** C10: the named convergence hypotheses [converged] and [gcd_converged], and the entry-point results without section
    context that Props/C10.v cites. *)
From CB Require Import Model.Limbs Model.AddSub Model.SafeGcd Proofs.WordP Proofs.LimbsP Proofs.BitsP
  Proofs.SafeGcdArithP Proofs.SafeGcdUnsatP Proofs.SafeGcdCoreP Proofs.InvMod2kP Proofs.LimbConvertP Proofs.SafeGcdInvP
  Proofs.SafeGcdConvP Proofs.SafeGcdUintP Proofs.SafeGcdWrapP.
From Coq Require Import ZArith Lia List Bool.
Open Scope Z_scope.

(** [converged] = the divsteps driver of this very call ended with g = 0 within iterations(f_bits, g_bits) jumps
    (for the vartime driver: it stopped within that many jumps) *)
Definition converged (vartime boxed : bool) (adj m a : list Z) : Prop :=
  let L := unsat_nlimbs (length m) in
  sg_conv vartime boxed (from_uint L adj) (from_uint L m) (from_uint L a) (inv_mod2_62 (hd 0 m)).

Theorem safegcd_inv_partial dbg vartime boxed adj m a n :
  wf m -> wf a -> wf adj -> length m = n -> length a = n -> length adj = n -> (0 < n)%nat -> Z.of_nat n <= 2 ^ 32 ->
  Z.odd (eval m) = true -> eval adj < eval m ->
  converged vartime boxed adj m a ->
  exists x is_some, sg_inv dbg vartime boxed adj m a = SgOk x is_some /\ wf x /\ length x = n /\
    (is_some = true <-> Z.gcd (eval a) (eval m) = 1) /\
    (is_some = true -> (eval a * eval x) mod eval m = eval adj mod eval m /\ 0 <= eval x < eval m).
Proof.
  intros Wm Wa Wadj Lm La Ladj Hn Hn32 Om HA Hc. unfold converged in Hc. rewrite Lm in Hc.
  pose proof (eval_bounds adj Wadj).
  destruct (sg_inv_partial m a adj n (eval m - 1) Wm Wa Wadj Lm La Ladj Hn Hn32 Om ltac:(lia) ltac:(lia) dbg vartime boxed Hc)
    as (x & some & E & Wx & Lx & Rx & Hs & Hv).
  exists x, some. repeat split; try assumption; try apply Hs; try lia. apply Hv. assumption.
Qed.

Definition gcd_converged (vartime boxed : bool) (f g : list Z) : Prop :=
  let L := unsat_nlimbs (length f) in
  sg_conv vartime boxed (u_one L) (from_uint L f) (from_uint L g) (inv_mod2_62 (hd 0 f)).

(** Uint::gcd / BoxedUint::gcd for ALL pairs (zeros, even/even, equal, powers of two) *)
Theorem gcd_partial dbg boxed a b n :
  wf a -> wf b -> length a = n -> length b = n -> (0 < n)%nat -> Z.of_nat n <= 2 ^ 32 ->
  uint_gcd_converged boxed a b = true ->
  uint_gcd dbg boxed a b = SgOk (to_limbs n (Z.gcd (eval a) (eval b))) true.
Proof. intros. apply uint_gcd_partial; assumption. Qed.

(** the reported flag is the hypothesis, for both drivers and any adjuster *)
Theorem converged_of_flag vartime boxed adj m a :
  sg_converged boxed m a (unsat_nlimbs (length m)) = true -> converged vartime boxed adj m a.
Proof. intros H. unfold converged. apply sg_converged_conv. assumption. Qed.
(** limb conversion round trip (safegcd/macros.rs) *)
Theorem unsat_roundtrip x n : wf x -> length x = n -> to_uint n (from_uint (unsat_nlimbs n) x) = x.
Proof.
  intros W L. pose proof (unsat_nlimbs_ge n) as HL.
  destruct (from_uint_spec (unsat_nlimbs n) x W ltac:(unfold lenZ; rewrite L; lia)) as (W1 & L1 & E1).
  destruct (to_uint_spec n _ W1 ltac:(unfold lenZ; rewrite L1; lia)) as (W2 & L2 & E2).
  apply eval_inj; try assumption; [congruence|]. rewrite E2, E1. apply Z.mod_small. rewrite <- L. apply eval_bounds. assumption.
Qed.

