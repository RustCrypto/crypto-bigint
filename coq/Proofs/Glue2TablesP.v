(** C15 (glue tables, 2): the model table and the spec table of Model/Glue2.v agree on EVERY key, for all well-formed
    argument lists that satisfy the typing side condition of the key, in both profiles, wherever the spec entry is
    defined.  [run_tab t k dbg a] is the table lookup of Model/Api.v (Proofs/TotalityP.v).
    Side conditions ([glue2_tbl_ty]):
      "glue2.cmf_serde_de"    the MODULUS argument has LIMBS limbs (Rust's types);
      "glue2.params_ct_eq_lz" the two mod_leading_zeros arguments are u32 values (before the repair of finding F34 the
                              key needed "same mod_leading_zeros": ConstantTimeEq for MontyParams did not compare
                              that field, the derived `PartialEq` ("glue2.params_eq_lz") did). *)
From CB Require Import Model.Limbs Model.AddSub Model.Cmp Model.Conv Model.Monty Model.Glue Model.Glue2
  Proofs.WordP Proofs.LimbsP Proofs.CmpP Proofs.ConvDigitsP Proofs.TotalityP Proofs.MontyFormP.
From CB Require Proofs.ConvTablesP Proofs.BitsTablesP Proofs.CmpTablesP Proofs.MontyTablesP Proofs.GlueTablesP Proofs.BitsWordP.
From Coq Require Import ZArith Lia List String Bool.
Import ListNotations.
Open Scope Z_scope.
Notation length := List.length.

(* ------------------------------------------------------------------ typing side conditions (boolean) *)
Definition ty_modulus_limbs (a : list (list Z)) : bool := (length (arg 2 a) =? g_n 1 a)%nat.
Definition ty_u32_lz (a : list (list Z)) : bool := (sarg 1 a <? 2 ^ 32) && (sarg 2 a <? 2 ^ 32).   (* mod_leading_zeros : u32 *)

Open Scope string_scope.
Definition glue2_tbl_ty : GlueTablesP.gtyping :=
  [("glue2.cmf_serde_de", ty_modulus_limbs); ("glue2.params_ct_eq_lz", ty_u32_lz)].
Close Scope string_scope.

Definition tbl_ok (k : string) : Prop :=
  forall dbg a, wf_args a -> GlueTablesP.gtypedb glue2_tbl_ty k a = true ->
    run_tab ops_glue2_spec k dbg a <> Unsupported ->
    run_tab ops_glue2_model k dbg a = run_tab ops_glue2_spec k dbg a.

Ltac open_ty H :=
  unfold GlueTablesP.gtypedb in H;
  lazy beta iota delta [lookup glue2_tbl_ty String.eqb Ascii.eqb Bool.eqb] in H.
Ltac start :=
  let dbg := fresh "dbg" in let a := fresh "a" in
  let Hwf := fresh "Hwf" in let Hty := fresh "Hty" in let Hdom := fresh "Hdom" in
  intros dbg a Hwf Hty Hdom; open_ty Hty; revert Hdom; open_tabs ops_glue2_model ops_glue2_spec; intros Hdom.

(* ------------------------------------------------------------------ small facts *)
Lemma ch_and_b2z x y : ch_and (b2z x) (b2z y) = b2z (x && y).
Proof. destruct x, y; reflexivity. Qed.
Lemma ch_and_0_l x : ch_and 0 x = 0.
Proof. unfold ch_and, wand. apply Z.land_0_l. Qed.
Lemma spec_neg_inv_word x : is_word (spec_neg_inv x).
Proof. unfold spec_neg_inv, is_word. apply Z.mod_pos_bound. apply B_pos. Qed.
Lemma uint_ct_eq_refl x : wf x -> uint_ct_eq x x = 1.
Proof. intros H. rewrite uint_ct_eq_spec by (assumption || reflexivity). rewrite Z.eqb_refl. reflexivity. Qed.
Lemma limb_ct_eq_refl x : is_word x -> limb_ct_eq x x = 1.
Proof. intros H. rewrite limb_ct_eq_spec by assumption. rewrite Z.eqb_refl. reflexivity. Qed.

Lemma two_moduli_facts m1 m2 : g2sp_two_moduli m1 m2 = true ->
  (Z.odd (eval m1) = true /\ length m1 <> 0%nat) /\ (Z.odd (eval m2) = true /\ length m2 <> 0%nat) /\
  length m1 = length m2.
Proof.
  unfold g2sp_two_moduli. intros H. apply andb_prop in H. destruct H as [H H3]. apply andb_prop in H.
  destruct H as [H1 H2]. apply MontyTablesP.odd_modulus_facts in H1, H2. apply Nat.eqb_eq in H3. tauto.
Qed.

(** subtle's u32::ct_eq on u32 values *)
Lemma u32_ct_eq_spec a b : 0 <= a < 2 ^ 32 -> 0 <= b < 2 ^ 32 -> u32_ct_eq a b = b2z (a =? b).
Proof.
  intros Ha Hb. unfold u32_ct_eq. cbv zeta. change 31 with (32 - 1).
  rewrite BitsWordP.nonzero_top by (try apply BitsWordP.lxor_bound; lia).
  destruct (Z.eqb_spec a b) as [->|Hne]; [rewrite Z.lxor_nilpotent; reflexivity|].
  destruct (Z.eqb_spec (Z.lxor a b) 0) as [E|_]; [apply Z.lxor_eq in E; contradiction | reflexivity].
Qed.
Lemma u32_ct_eq_refl a : u32_ct_eq a a = 1.
Proof. unfold u32_ct_eq. cbv zeta. rewrite Z.lxor_nilpotent. reflexivity. Qed.

(** ConstantTimeEq for MontyParams on the parameter sets the constructors build: truthy exactly when the documented
    parameters of the two moduli are all equal *)
Lemma params_ct_eq_honest m1 m2 : wf m1 -> wf m2 -> g2sp_two_moduli m1 m2 = true ->
  g2_params_ct_eq (params_fixed m1) (params_fixed m2) = b2z (list_eqb (g2sp_fields m1) (g2sp_fields m2)).
Proof.
  intros W1 W2 H. destruct (two_moduli_facts m1 m2 H) as ((O1 & N1) & (O2 & N2) & L).
  destruct (params_fixed_correct m1 W1 N1 O1) as (E1 & _). destruct (params_fixed_correct m2 W2 N2 O2) as (E2 & _).
  cbv zeta in E1, E2. rewrite E1, E2. clear E1 E2. unfold g2_params_ct_eq. cbn [mp_m mp_one mp_r2 mp_r3 mp_k mp_lz].
  destruct (Z.eq_dec (eval m1) (eval m2)) as [E|NE].
  - assert (m1 = m2) by (apply eval_eq_iff; assumption). subst m2.
    rewrite !uint_ct_eq_refl by (assumption || apply wf_to_limbs).
    rewrite limb_ct_eq_refl by apply spec_neg_inv_word. rewrite u32_ct_eq_refl. rewrite list_eqb_refl. reflexivity.
  - rewrite (uint_ct_eq_spec m1 m2) by assumption.
    apply Z.eqb_neq in NE. rewrite NE. cbn [b2z]. rewrite !ch_and_0_l.
    unfold g2sp_fields. cbv zeta. cbn [list_eqb]. rewrite NE. reflexivity.
Qed.

(* ------------------------------------------------------------------ one lemma per key *)
Open Scope string_scope. Open Scope Z_scope.

Lemma tbl_params_ct_eq : tbl_ok "glue2.params_ct_eq".
Proof.
  start. destruct (g2sp_two_moduli (arg 0 a) (arg 1 a)) eqn:D; cbn [negb] in *; [|contradiction Hdom; reflexivity].
  unfold vb, sp_bool, vbool. rewrite params_ct_eq_honest by (try apply wf_arg; assumption). reflexivity.
Qed.

Lemma tbl_monty_ct_eq : tbl_ok "glue2.monty_ct_eq".
Proof.
  start.
  destruct (g2sp_two_moduli (arg 0 a) (arg 2 a) && (ln 1 a =? ln 0 a)%nat && (ln 3 a =? ln 0 a)%nat) eqn:D;
    cbn [negb] in *; [|contradiction Hdom; reflexivity].
  apply andb_prop in D. destruct D as [D L3]. apply andb_prop in D. destruct D as [D L1].
  apply Nat.eqb_eq in L1, L3. unfold ln in L1, L3.
  unfold vb, sp_bool, vbool, g2_form_ct_eq, ev.
  rewrite params_ct_eq_honest by (try apply wf_arg; assumption).
  rewrite uint_ct_eq_spec by (try apply wf_arg; try assumption; congruence).
  rewrite ch_and_b2z. reflexivity.
Qed.

Lemma tbl_params_ct_eq_lz : tbl_ok "glue2.params_ct_eq_lz".
Proof.
  start. cbv zeta. destruct (odd_modulus (arg 0 a)) eqn:D; cbn [negb] in *; [|contradiction Hdom; reflexivity].
  unfold ty_u32_lz in Hty. apply andb_prop in Hty. destruct Hty as [H1 H2]. apply Z.ltb_lt in H1, H2.
  apply MontyTablesP.odd_modulus_facts in D. destruct D as [O N]. pose proof (wf_arg 0 a Hwf) as W.
  destruct (params_fixed_correct (arg 0 a) W N O) as (E & _). cbv zeta in E. rewrite E. clear E.
  unfold g2_params_ct_eq, g2_with_lz. cbn [mp_m mp_one mp_r2 mp_r3 mp_k mp_lz].
  rewrite !uint_ct_eq_refl by (assumption || apply wf_to_limbs).
  rewrite limb_ct_eq_refl by apply spec_neg_inv_word.
  pose proof (sarg_word 1 a Hwf) as S1. pose proof (sarg_word 2 a Hwf) as S2. unfold is_word in S1, S2.
  rewrite u32_ct_eq_spec by lia. unfold vb, sp_bool, vbool. destruct (sarg 1 a =? sarg 2 a); reflexivity.
Qed.

Lemma tbl_params_eq_lz : tbl_ok "glue2.params_eq_lz".
Proof.
  start. cbv zeta. destruct (odd_modulus (arg 0 a)) eqn:D; cbn [negb] in *; [|contradiction Hdom; reflexivity].
  unfold g2_params_eq, g2_with_lz, sp_bool. cbn [mp_m mp_one mp_r2 mp_r3 mp_k mp_lz].
  rewrite !list_eqb_refl, Z.eqb_refl. reflexivity.
Qed.

Lemma tbl_cmf_serde_de : tbl_ok "glue2.cmf_serde_de".
Proof.
  start. unfold g2_cmf_serde_de, g2sp_cmf_serde_de in *.
  destruct (ConvTablesP.bytes_dom' _ _ Hdom) as (Hb & E & Hd). rewrite E. clear E Hdom.
  assert (Hs : gsp_uint_de (g_n 1 a) (arg 0 a) <> Unsupported) by (intros E0; apply Hd; rewrite E0; reflexivity).
  rewrite (GlueTablesP.de_eq a (arg 0 a) Hwf Hb Hs).
  unfold ty_modulus_limbs in Hty. apply Nat.eqb_eq in Hty.
  unfold gsp_uint_de in *.
  destruct (Nat.ltb (length (arg 0 a)) (8 + 8 * g_n 1 a)); [reflexivity|].
  destruct (negb (horner 256 (rev (firstn 8 (arg 0 a))) =? 8 * Z.of_nat (g_n 1 a))); [reflexivity|].
  destruct (Nat.eqb (length (arg 0 a)) (8 + 8 * g_n 1 a)); [|reflexivity].
  rewrite uint_cmp_spec by (try apply wf_to_limbs; try apply wf_arg; try assumption; rewrite length_to_limbs; congruence).
  rewrite CmpTablesP.is_lt_ordz. reflexivity.
Qed.

Lemma tbl_zeroize_monty_form : tbl_ok "glue2.zeroize_monty_form".
Proof. start. cbv zeta. unfold g2_zero_params. rewrite !BitsTablesP.zeros_to_limbs. reflexivity. Qed.

Lemma tbl_zeroize_monty_params : tbl_ok "glue2.zeroize_monty_params".
Proof. start. cbv zeta. unfold g2_zero_params. rewrite !BitsTablesP.zeros_to_limbs. reflexivity. Qed.

Lemma tbl_zeroize_boxed_form : tbl_ok "glue2.zeroize_boxed_form".
Proof.
  start. destruct (odd_modulus (arg 0 a)) eqn:D; cbn [negb] in *; [|contradiction Hdom; reflexivity].
  apply MontyTablesP.odd_modulus_facts in D. destruct D as [O N]. pose proof (wf_arg 0 a Hwf) as W.
  destruct (params_boxed_correct (arg 0 a) W N O) as (E & _). cbv zeta in E. rewrite E. clear E.
  unfold g2_params_all, g2sp_params_limbs. cbv zeta. cbn [mp_m mp_one mp_r2 mp_r3 mp_k mp_lz].
  rewrite BitsTablesP.zeros_to_limbs. reflexivity.
Qed.

Lemma tbl_form_bits_precision : tbl_ok "glue2.form_bits_precision".
Proof. start. unfold bitsZ. rewrite Z.mul_comm. reflexivity. Qed.

Lemma tbl_debug_nonempty : tbl_ok "glue2.debug_nonempty".
Proof. start. reflexivity. Qed.
Close Scope string_scope.

(* ------------------------------------------------------------------ the area theorem *)
Create HintDb c15glue2.
#[export] Hint Resolve tbl_params_ct_eq tbl_monty_ct_eq tbl_params_ct_eq_lz tbl_params_eq_lz tbl_cmf_serde_de
  tbl_zeroize_monty_form tbl_zeroize_monty_params tbl_zeroize_boxed_form tbl_form_bits_precision
  tbl_debug_nonempty : c15glue2.

Lemma glue2_all_keys_ok : forall k, In k (map fst ops_glue2_model) -> tbl_ok k.
Proof.
  apply Forall_forall. cbn [map fst ops_glue2_model].
  repeat (apply Forall_cons; [solve [eauto with nocore c15glue2] |]). apply Forall_nil.
Qed.

