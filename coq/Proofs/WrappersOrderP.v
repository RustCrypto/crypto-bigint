(** C12 proofs, part 4: the decoders return the positional value of the STATED byte order (and fail otherwise). *)
From CB Require Import Model.Limbs Model.AddSub Model.Cmp Model.Conv Model.Rand Model.Wrappers
  Proofs.WordP Proofs.LimbsP Proofs.ConvDigitsP Proofs.ConvBytesP Proofs.ConvHexP Proofs.ConvP
  Proofs.WrappersP Proofs.WrappersValidP.
From Coq Require Import ZArith Lia List Bool String.
Import ListNotations.
Open Scope Z_scope. Open Scope list_scope.
Notation length := List.length.

(* little-endian / big-endian positional value of a byte string *)
Definition le_value (bs : list Z) : Z := evalb 256 bs.
Definition be_value (bs : list Z) : Z := evalb 256 (rev bs).

Lemma to_limbs_eval_small n x : 0 <= x < Bn n -> eval (to_limbs n x) = x.
Proof. apply to_limbs_small. Qed.

(* what a NonZero byte decoder returns, by its closed form: a value only for the right length, and then the non-zero [x] *)
Lemma nz_gate_order n (l m : nat) x r : (l = m -> 0 <= x < Bn n) ->
  let o := if Nat.eqb l m then (if x =? 0 then NoneV else Val [to_limbs n x]) else PanicV in
  (o = Val [r] -> l = m /\ length r = n /\ eval r = x /\ eval r <> 0) /\ (o = NoneV -> l = m /\ x = 0).
Proof.
  intros Hb. cbv zeta. destruct (Nat.eqb_spec l m) as [Hl|]; [|split; discriminate]. specialize (Hb Hl).
  destruct (Z.eqb_spec x 0); split; try discriminate; auto.
  intros E. injection E as <-. rewrite length_to_limbs, to_limbs_small by assumption. auto.
Qed.

(** hex: [ds] are the digit values of the characters in string order; big-endian reads them as one base-16 numeral,
    little-endian reads the byte pairs (high nibble first within a byte) least significant byte first *)
Lemma odd_hex_order (le : bool) n cs r : wfd 256 cs ->
  (if le then odd_of_le_hex n cs else odd_of_be_hex n cs) = Val [r] ->
  length cs = (16 * n)%nat /\ exists ds, hexvals cs = Some ds /\ length r = n /\
  eval r = hex_value le ds /\ Z.odd (eval r) = true.
Proof.
  intros Hw E. rewrite odd_of_hex_eq in E by assumption.
  destruct (Nat.eqb_spec (length cs) (16 * n)) as [Hl|]; [|discriminate]. split; [assumption|].
  destruct (hexvals cs) as [ds|] eqn:Hh; [|discriminate]. exists ds. split; [reflexivity|].
  destruct (Z.odd (hex_value le ds)) eqn:Ho; [|discriminate]. injection E as <-.
  rewrite length_to_limbs, to_limbs_small by (eapply hex_value_bound; eassumption). auto.
Qed.

