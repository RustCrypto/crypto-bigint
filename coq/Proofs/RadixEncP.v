(** C17 proofs, part 6: RadixDivisionParams::encode_limbs (radixes that are no power of two).
    One round of the main loop divides  hi * B^limb_count + limbs  by div_limb = radix^digits_limb exactly
    (normalising shift, div2by1 with the reciprocal, the top quotient limb moved into `hi` when it is below the
    divisor); the loop writes the low `out_idx` digits of that number; the large-divisor loop (more than 32 limbs)
    splits the number by div_large = radix^digits_large with the proved in-place Knuth division and encodes
    each 32-limb remainder with the same loop.  Together: the formatter returns the canonical numeral. *)
From CB Require Import Model.Limbs Model.Div Model.Conv Model.Radix Proofs.WordP Proofs.LimbsP Proofs.ConvDigitsP
  Proofs.BitsP Proofs.DivP Proofs.RecipP Proofs.DivShiftP Proofs.KnuthStepP Proofs.DivBoxedP
  Proofs.RadixSpecP Proofs.RadixParseP Proofs.RadixParamsP.
From Coq Require Import ZArith Lia List Bool.
Import ListNotations.
Open Scope Z_scope.
Open Scope list_scope.

(* the low c digits only depend on the number modulo r^k, c <= k *)
Lemma digits_mod_ge r (c k : nat) x : 0 < r -> (c <= k)%nat -> digits r c (x mod r ^ Z.of_nat k) = digits r c x.
Proof.
  intros Hr Hc. rewrite <- (digits_mod r c (x mod r ^ Z.of_nat k)), <- (digits_mod r c x) by assumption. f_equal.
  replace k with (c + (k - c))%nat by lia. rewrite pow_add_nat.
  pose proof (pow_pos_nat r c Hr). pose proof (pow_pos_nat r (k - c) Hr).
  rewrite Z.rem_mul_r by lia.
  rewrite Z.mul_comm, Z_mod_plus_full. apply Z.mod_mod. lia.
Qed.

(** division by one limb with an incoming high part: the normalising shift, the reciprocal division of the shifted
    limbs and the shift back of the remainder divide  hi * B^n + u  by d exactly, for any 0 <= hi < d
    (Div.v's div_rem_limb_with_reciprocal is the case hi = 0) *)
Lemma divlimb_hi u hi d rc sh c qs rf : wf u -> 0 <= hi < d -> recip_for d rc ->
  shl_limb u (r_shift rc) = (sh, c) ->
  divlimb_go (rev sh) (if 0 <? r_shift rc then Z.lor c (wshl hi (r_shift rc)) else hi) rc = (qs, rf) ->
  let V := hi * Bn (length u) + eval u in
  eval (rev qs) = V / d /\ rf / 2 ^ r_shift rc = V mod d /\ wf (rev qs) /\ length (rev qs) = length u.
Proof.
  intros Hw Hhi (Hs & Hdn & Hnorm & Hrok) Esh Ediv V. set (s := r_shift rc) in *.
  pose proof (shl_limb_correct u s Hw Hs) as Hshl. rewrite Esh in Hshl. destruct Hshl as (Hse & Hwsh & Hlsh & Hc).
  assert (H2s : 0 < 2 ^ s) by (apply Z.pow_pos_nonneg; lia).
  assert (Hhs : 0 <= hi * 2 ^ s /\ hi * 2 ^ s + 2 ^ s <= r_d rc).
  { rewrite Hdn. split; [apply Z.mul_nonneg_nonneg; lia|]. replace (hi * 2 ^ s + 2 ^ s) with ((hi + 1) * 2 ^ s) by ring.
    apply Z.mul_le_mono_nonneg_r; lia. }
  (* the shifted-in bits of hi and the bits shifted out of u do not overlap *)
  assert (Hcarry : (if 0 <? s then Z.lor c (wshl hi s) else hi) = hi * 2 ^ s + c).
  { destruct (Z.ltb_spec 0 s).
    - unfold wshl, wrap. destruct Hnorm. rewrite Z.mod_small by lia. rewrite Z.lor_comm. apply lor_disjoint; lia.
    - replace s with 0 in * by lia. rewrite Z.pow_0_r in *. lia. }
  rewrite Hcarry in Ediv.
  destruct (divlimb_go_correct rc Hnorm Hrok sh (hi * 2 ^ s + c) qs rf Hwsh ltac:(lia) Ediv) as (Hq & Hrf & Hwq & Hlq).
  set (Q := eval (rev qs)) in *. rewrite Hlsh, Hdn in Hq. rewrite Hdn in Hrf.
  assert (Hmul : rf = 2 ^ s * (V - Q * d)) by (unfold V; nia).
  assert (Hdivs : rf / 2 ^ s = V - Q * d) by (rewrite Hmul, Z.mul_comm; apply Z.div_mul; lia).
  assert (Ht : 0 <= V - Q * d < d) by nia.
  destruct (div_mod_unique_pos d Q (V - Q * d) V Ht ltac:(lia)) as [HQ1 HQ2].
  rewrite HQ1, HQ2, Hdivs, rev_length. repeat split; (assumption || lia).
Qed.

Section Enc.
Variable r : Z.
Variable rp : rparams.
Hypothesis Hr : 2 <= r <= 36.
Hypothesis Hg : params_good r rp.

Let k := rp_digits_limb rp.
Let D := r ^ Z.of_nat k.
Let rc := rp_recip rp.

Lemma D_pos : 0 < D. Proof. apply pow_pos_nat. lia. Qed.

Lemma emit_digits_spec : forall cnt dw w,
  emit_digits cnt r dw w = (dw / r ^ Z.of_nat cnt, map digit_char (rev (digits r cnt dw)) ++ w).
Proof.
  induction cnt as [|c IH]; intros dw w.
  - cbn [emit_digits digits rev map app]. change (Z.of_nat 0) with 0. rewrite Z.pow_0_r, Z.div_1_r. reflexivity.
  - cbn [emit_digits digits rev]. rewrite IH. rewrite map_app, <- app_assoc. cbn [map app].
    rewrite (Z.mod_small (dw mod r) 256) by (pose proof (Z.mod_pos_bound dw r ltac:(lia)); lia).
    rewrite pow_S_nat, Z.div_div by (try apply pow_pos_nat; lia). reflexivity.
Qed.

(** one round of the division loop *)
Theorem enc_step_spec act hi act' hi' dw : wf act -> 0 <= hi < D ->
  enc_step true rp act hi = (act', hi', dw) ->
  let V := hi * Bn (length act) + eval act in
  wf act' /\ 0 <= hi' < D /\ hi' * Bn (length act') + eval act' = V / D /\ dw = V mod D /\
  (length act' <= length act)%nat.
Proof.
  intros Hw Hhi E. cbv zeta. pose proof D_pos as HD. destruct Hg as [Hrad Hk HDl HDlt HDr Hrec Hlen Hwl Hlarge Htop Hdl].
  fold k D rc in HDl, HDlt, HDr, Hrec.
  destruct act as [|a0 at0] eqn:Eact.
  - cbn [enc_step] in E. inversion E; subst. cbn [length eval]. rewrite Bn_0.
    rewrite Z.mul_1_r, Z.add_0_r. rewrite Z.div_small, Z.mod_small by lia. cbn [length eval].
    repeat split; try lia; try apply wf_nil.
  - rewrite <- Eact in *. set (V := hi * Bn (length act) + eval act).
    assert (Hn1 : (1 <= length act)%nat) by (rewrite Eact; cbn [length]; lia).
    unfold enc_step in E. rewrite Eact in E. rewrite <- Eact in E. fold rc in E.
    destruct (shl_limb act (r_shift rc)) as [sh c] eqn:Esh.
    destruct (divlimb_go (rev sh) _ rc) as [qs rf] eqn:Ediv.
    destruct (divlimb_hi act hi D rc sh c qs rf Hw Hhi Hrec Esh Ediv) as (HQ1 & HQ2 & Hwq & Hlq'). fold V in HQ1, HQ2.
    set (q := rev qs) in *. set (Q := eval q) in *.
    assert (Hqne : q <> []) by (intros Eq; rewrite Eq in Hlq'; cbn in Hlq'; lia).
    pose proof (app_removelast_last 0 Hqne) as Hsplit. set (top := last q 0) in *. set (ql := removelast q) in *.
    assert (Hwsplit : wf ql /\ is_word top).
    { rewrite Hsplit in Hwq. apply wf_app in Hwq. destruct Hwq as [H1 H2]. apply wf_cons in H2. tauto. }
    destruct Hwsplit as [Hwql Hwtop].
    assert (Hlql : length ql = (length act - 1)%nat).
    { apply (f_equal (@length Z)) in Hsplit. rewrite app_length in Hsplit. cbn [length] in Hsplit. lia. }
    assert (HQsplit : Q = eval ql + Bn (length ql) * top) by (unfold Q; rewrite Hsplit at 1; apply eval_snoc).
    rewrite HDl in E. fold D in E.
    destruct (Z.ltb_spec top D) as [Hsmall|Hbig]; inversion E; subst act' hi' dw.
    + unfold is_word in Hwtop. rewrite <- HQ1, HQ2. repeat split; try assumption; try lia.
    + rewrite <- HQ1, HQ2. repeat split; try assumption; try lia.
Qed.

(** the main loop writes the low out_idx digits of  hi * B^limb_count + limbs  in front of what is there *)
Theorem enc_loop_spec : forall fuel act hi oi w, wf act -> 0 <= hi < D -> (oi < fuel)%nat ->
  enc_loop fuel true rp act hi oi w =
  map digit_char (rev (digits r oi (hi * Bn (length act) + eval act))) ++ w.
Proof.
  pose proof D_pos as HD.
  assert (Hrad : rp_radix rp = r) by (destruct Hg; assumption).
  assert (Hk : (1 <= k)%nat) by (destruct Hg; assumption).
  induction fuel as [|f IH]; intros act hi oi w Hw Hhi Hf; [lia|].
  cbn [enc_loop]. destruct (enc_step true rp act hi) as [[act' hi'] dw] eqn:E.
  destruct (enc_step_spec act hi act' hi' dw Hw Hhi E) as (Hw' & Hhi' & HV' & Hdw & Hl').
  set (V := hi * Bn (length act) + eval act) in *.
  fold k. rewrite Hrad. rewrite emit_digits_spec.
  destruct (Nat.eqb_spec (oi - Nat.min k oi) 0) as [Hz|Hnz].
  - assert (Hmin : Nat.min k oi = oi) by lia. rewrite Hmin. rewrite Hdw. unfold D.
    rewrite digits_mod_ge by lia. reflexivity.
  - assert (Hmin : Nat.min k oi = k) by lia. rewrite Hmin.
    rewrite IH by (assumption || lia). rewrite HV'. rewrite Hdw. unfold D. rewrite digits_mod by lia.
    replace (digits r oi V) with (digits r (k + (oi - k)) V) by (f_equal; lia). rewrite digits_app by lia.
    rewrite rev_app_distr, map_app, <- app_assoc. reflexivity.
Qed.

Lemma firstn_S_snoc (l : list Z) n : (n < length l)%nat -> firstn (S n) l = firstn n l ++ [nthz l n].
Proof.
  revert n. induction l as [|x l IH]; intros n Hn; [cbn in Hn; lia|].
  destruct n as [|n]; [reflexivity|]. cbn [firstn app]. unfold nthz. cbn [nth]. f_equal. apply IH. cbn [length] in Hn. lia.
Qed.

Definition out_string (act : list Z) (oi : nat) (w : list Z) : list Z :=
  map digit_char (rev (digits r oi (eval act))) ++ w.

(** the large-divisor loop keeps the string that the remaining work will produce *)
Theorem large_go_spec : forall fuel act oi w act' oi' w', wf act ->
  large_go fuel true rp act oi w = (act', oi', w') ->
  wf act' /\ out_string act' oi' w' = out_string act oi w.
Proof.
  pose proof D_pos as HD.
  induction fuel as [|f IH]; intros act oi w act' oi' w' Hw E.
  - cbn [large_go] in E. inversion E; subst. split; [assumption | reflexivity].
  - cbn [large_go] in E. destruct (Nat.leb_spec RADIX_LIMBS_LARGE (length act)) as [Hge|Hlt].
    2:{ inversion E; subst. split; [assumption | reflexivity]. }
    unfold RADIX_LIMBS_LARGE in *.
    destruct Hg as [Hrad Hk HDl HDlt HDr Hrec Hlen Hwl Hlarge Htop Hdl].
    set (Y := rp_div_large rp) in *. set (dl := rp_digits_large rp) in *.
    assert (HY0 : Bn 31 <= eval Y) by (apply (top_limb_nonzero Y 31); assumption).
    assert (HYpos : 0 < eval Y) by (pose proof (Bn_pos 31); lia).
    destruct (boxed_div_rem_in_place act Y) as [q remain] eqn:Ediv.
    assert (Hrok : recip_ok (top64 (eval Y)) (reciprocal (top64 (eval Y)))).
    { apply reciprocal_correct. pose proof (top64_normalized (eval Y) HYpos) as [Ha Hb]. rewrite B_val in Ha, Hb. lia. }
    destruct (boxed_div_rem_in_place_correct act Y q remain Hw Hwl ltac:(lia) ltac:(rewrite Hlen; exact Htop) Hrok Ediv)
      as (Heq & Hrem & Hlq & Hlr & Hwq & Hwr).
    set (X := eval act) in *. set (Q := eval q) in *. set (R := eval remain) in *.
    assert (HQD : X / eval Y = Q /\ X mod eval Y = R) by (apply div_mod_unique_pos; lia).
    destruct HQD as [HQ1 HQ2].
    (* the quotient fits length act - 31 limbs *)
    pose proof (eval_bounds act Hw) as HXb. fold X in HXb.
    set (lc := (length act + 1 - 32)%nat) in *.
    assert (HBsplit : Bn (length act) = Bn 31 * Bn lc) by (rewrite <- Bn_add; f_equal; unfold lc; lia).
    assert (HQnn : 0 <= Q) by (apply eval_nonneg; assumption).
    assert (HQlt : Q < Bn lc).
    { pose proof (Bn_pos lc). pose proof (Bn_pos 31).
      destruct (Z_lt_ge_dec Q (Bn lc)) as [|Hge']; [assumption|].
      assert (Bn lc * eval Y <= Q * eval Y) by (apply Z.mul_le_mono_nonneg_r; lia).
      assert (Bn lc * Bn 31 <= Bn lc * eval Y) by (apply Z.mul_le_mono_nonneg_l; lia). lia. }
    assert (Hlc1 : (1 <= lc <= length q)%nat) by (unfold lc; lia).
    assert (Hf1 : eval (firstn lc q) = Q).
    { rewrite eval_firstn by (assumption || lia). fold Q. apply Z.mod_small. lia. }
    set (lc' := if nthz q (lc - 1) =? 0 then (lc - 1)%nat else lc) in *.
    assert (Hf2 : eval (firstn lc' q) = Q).
    { unfold lc'. destruct (Z.eqb_spec (nthz q (lc - 1)) 0) as [E0|_]; [|assumption].
      rewrite <- Hf1. replace lc with (S (lc - 1)) at 2 by lia. rewrite firstn_S_snoc by lia.
      rewrite eval_snoc, E0. lia. }
    set (next := (oi - dl)%nat) in *. set (m := (oi - next)%nat) in *.
    assert (Hchunk : enc_loop (S m) true rp remain 0 m [] = map digit_char (rev (digits r m R))).
    { rewrite enc_loop_spec by (assumption || lia). rewrite app_nil_r. f_equal. }
    rewrite Hchunk in E.
    destruct (IH (firstn lc' q) next (map digit_char (rev (digits r m R)) ++ w) act' oi' w'
                (wf_firstn lc' q Hwq) E) as (Hw' & Hout).
    split; [assumption|]. rewrite Hout. unfold out_string. rewrite Hf2. fold X.
    rewrite app_assoc. f_equal. rewrite <- map_app, <- rev_app_distr. f_equal. f_equal.
    assert (HL : eval Y = r ^ Z.of_nat dl) by assumption.
    replace (digits r oi X) with (digits r (m + next) X) by (f_equal; unfold m, next; lia).
    rewrite digits_app by lia.
    destruct (Nat.le_gt_cases dl oi) as [Hcase|Hcase].
    + assert (Hm : m = dl) by (unfold m, next; lia). rewrite Hm.
      rewrite <- HL, HQ1. f_equal. rewrite <- HQ2, HL. apply digits_mod. lia.
    + assert (Hm : m = oi) by (unfold m, next; lia). assert (Hn : next = 0%nat) by (unfold next; lia).
      rewrite Hn, Hm. cbn [digits]. rewrite !app_nil_r. rewrite <- HQ2, HL. apply digits_mod_ge; lia.
Qed.

Theorem encode_limbs_spec limbs size : wf limbs ->
  encode_limbs true rp limbs size = map digit_char (rev (digits r size (eval limbs))).
Proof.
  intros Hw. pose proof D_pos as HD. unfold encode_limbs.
  destruct (Nat.ltb RADIX_LIMBS_LARGE (length limbs)).
  - destruct (large_go (length limbs) true rp limbs size []) as [[act oi] w] eqn:E.
    destruct (large_go_spec _ _ _ _ _ _ _ Hw E) as (Hw' & Hout).
    rewrite enc_loop_spec by (assumption || lia). rewrite Z.mul_0_l, Z.add_0_l.
    fold (out_string act oi w). rewrite Hout. unfold out_string. apply app_nil_r.
  - rewrite enc_loop_spec by (assumption || lia). rewrite Z.mul_0_l, Z.add_0_l. apply app_nil_r.
Qed.

End Enc.

(** radixes that are no power of two (single-divisor path and large-divisor recursion alike):
    the formatter returns the canonical numeral *)
Theorem format_generic_correct r limbs : 2 <= r <= 36 -> is_power_of_two r = false -> wf limbs -> limbs <> [] ->
  radix_encode_limbs_to_string true r limbs = Some (numeral r (eval limbs)).
Proof.
  intros Hr Hp Hw Hne. destruct (params_facts r Hr Hp) as (rp & Hfor & Hg).
  unfold radix_encode_limbs_to_string. destruct (Z.ltb_spec r 2); [lia|]. destruct (Z.ltb_spec 36 r); [lia|]. cbn [orb].
  rewrite Hp, Hfor. f_equal. rewrite (encode_limbs_spec r rp Hr Hg) by assumption.
  rewrite (map_ext digit_char sp_digit_char digit_char_sp).
  destruct Hg as [Hrad Hk HDl HDlt HDr Hrec Hlen Hwl Hlarge Htop Hdl].
  assert (Hlen1 : (1 <= length limbs)%nat) by (destruct limbs; [contradiction | cbn [length]; lia]).
  apply numeral_fixed; [assumption | nia |].
  pose proof (eval_bounds limbs Hw) as Hb. split; [lia|].
  assert (Bn (length limbs) <= r ^ Z.of_nat (length limbs * (rp_digits_limb rp + 1))).
  { rewrite Bn_B_pow, Nat.mul_comm, pow_mul_nat. apply Z.pow_le_mono_l. pose proof B_pos.
    rewrite Nat.add_1_r, pow_S_nat. lia. }
  lia.
Qed.

