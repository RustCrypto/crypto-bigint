(** Modular halving (Model/Halve.v): for an odd modulus m and a < m the result h satisfies h < m and 2 h = a (mod m),
    for every limb count; the boxed in-place variant returns the same limbs as the fixed one. *)
From CB Require Import Model.Limbs Model.AddSub Model.Bits Model.Sqrt Model.Cmp Model.Halve
  Proofs.WordP Proofs.BitsP Proofs.LimbsP Proofs.AddSubP Proofs.BitsWordP Proofs.BitQueryP Proofs.BitsAllP Proofs.SqrtLimbsP Proofs.CmpP.
From CB Require Proofs.TotalityP.
From Coq Require Import ZArith List Lia Bool.
Open Scope Z_scope.
Notation length := List.length.

Lemma spec_set_bit_top v i b : 0 <= v < 2 ^ i -> 0 <= i -> spec_set_bit v i b = v + 2 ^ i * b2z b.
Proof. intros Hv Hi. unfold spec_set_bit. rewrite (testbit_small v i i Hv (Z.le_refl i)). cbn [b2z]. lia. Qed.

Lemma Bn_top n : n <> 0%nat -> Bn n = 2 * 2 ^ (64 * Z.of_nat n - 1) /\ 0 <= 64 * Z.of_nat n - 1.
Proof.
  intros Hn. rewrite Bn_pow2. split; [|lia].
  replace (64 * Z.of_nat n) with (1 + (64 * Z.of_nat n - 1)) at 1 by lia.
  rewrite Z.pow_add_r by lia. reflexivity.
Qed.

(** the arithmetic core: shifting the (BITS+1)-bit sum s + Bn*c right by one *)
Lemma half_with_carry n s c : n <> 0%nat -> 0 <= s < Bn n -> 0 <= c <= 1 ->
  s / 2 + 2 ^ (64 * Z.of_nat n - 1) * c = (s + Bn n * c) / 2.
Proof.
  intros Hn Hs Hc. destruct (Bn_top n Hn) as [E _]. rewrite E.
  replace (s + 2 * 2 ^ (64 * Z.of_nat n - 1) * c) with (s + (2 ^ (64 * Z.of_nat n - 1) * c) * 2) by lia.
  rewrite Z.div_add by lia. reflexivity.
Qed.

Lemma spec_half_props a m : 0 <= a < m -> Z.odd m = true ->
  0 <= spec_half a m < m /\ 2 * spec_half a m = (if Z.odd a then a + m else a).
Proof.
  intros Ha Hm. unfold spec_half.
  destruct (Z.odd a) eqn:Eo.
  - assert (Ev : Z.even (a + m) = true).
    { rewrite Z.even_add, <- !Z.negb_odd, Eo, Hm. reflexivity. }
    apply Z.even_spec in Ev. destruct Ev as [k Hk]. rewrite Hk.
    rewrite Z.mul_comm, Z.div_mul by lia. lia.
  - assert (Ev : Z.even a = true) by (rewrite <- Z.negb_odd, Eo; reflexivity).
    apply Z.even_spec in Ev. destruct Ev as [k Hk]. rewrite Hk.
    rewrite Z.mul_comm, Z.div_mul by lia. lia.
Qed.

Lemma div_by_2_correct a m :
  wf a -> wf m -> length m = length a -> a <> [] -> Z.of_nat (length a) < U32 ->
  let r := div_by_2 a m in
  wf r /\ length r = length a /\
  (eval a + eval m < 2 * Bn (length a) -> eval r = spec_half (eval a) (eval m)).
Proof.
  intros Ha Hm Hl Hne Hu. unfold div_by_2.
  assert (Hn : length a <> 0%nat) by (destruct a; [congruence | discriminate]).
  rewrite (uint_is_odd_spec a Ha).
  unfold uint_adc. destruct (adc_limbs a m 0) as [s c] eqn:E.
  destruct (adc_limbs_correct a m 0 s c Ha Hm (eq_sym Hl) ltac:(unfold is_word; pose proof B_gt1; lia) E)
    as (Ev & Ws & Ls & Wc & Hc1).
  specialize (Hc1 ltac:(lia)).
  assert (Hcw : is_word (select_word (choice_of_bool (Z.odd (eval a))) 0 c)).
  { rewrite select_word_choice by (auto; unfold is_word; pose proof B_gt1; lia).
    destruct (Z.odd (eval a)); [assumption | unfold is_word; pose proof B_gt1; lia]. }
  rewrite (from_word_nonzero_spec _ Hcw).
  rewrite select_limbs_choice by auto.
  set (sel := if Z.odd (eval a) then s else a).
  assert (Wsel : wf sel) by (unfold sel; destruct (Z.odd (eval a)); assumption).
  assert (Lsel : length sel = length a) by (unfold sel; destruct (Z.odd (eval a)); congruence).
  destruct (shr1_limbs_spec sel Wsel) as (Esh & Wsh & Lsh).
  destruct (Bn_top (length a) Hn) as [Etop Hi].
  destruct set_bit_all as (SB & _).
  unfold lenZ.
  destruct (SB (shr1_limbs sel) (64 * Z.of_nat (length a) - 1)
              (negb (select_word (choice_of_bool (Z.odd (eval a))) 0 c =? 0)) Wsh
              ltac:(rewrite Lsh, Lsel; exact Hu) ltac:(rewrite Lsh, Lsel; lia)) as (Wr & Lr & Er).
  split; [exact Wr|]. split; [congruence|].
  intros Hsum. rewrite Er, Esh.
  pose proof (eval_bounds sel Wsel) as Bsel. rewrite Lsel in Bsel.
  rewrite spec_set_bit_top; [|rewrite Etop in Bsel; split; [apply Z.div_pos; lia | apply Z.div_lt_upper_bound; lia] | lia].
  pose proof (eval_bounds a Ha) as Ba. pose proof (eval_bounds m Hm) as Bm.
  pose proof (eval_bounds s Ws) as Bs. rewrite Ls in Bs. rewrite Hl in Bm.
  unfold spec_half, sel. rewrite select_word_choice by (auto; unfold is_word; pose proof B_gt1; lia).
  destruct (Z.odd (eval a)) eqn:Eo.
  - assert (Hb : b2z (negb (c =? 0)) = c).
    { destruct (Z.eqb_spec c 0); cbn [negb b2z]; unfold is_word in Wc; lia. }
    rewrite Hb, half_with_carry by (auto; unfold is_word in Wc; lia).
    f_equal. lia.
  - cbn [Z.eqb negb b2z]. lia.
Qed.

Lemma adc_zeros a : wf a -> adc_limbs a (zeros (length a)) 0 = (a, 0).
Proof.
  intros Ha. destruct (adc_limbs a (zeros (length a)) 0) as [s c] eqn:E.
  destruct (adc_limbs_correct a (zeros (length a)) 0 s c Ha (wf_zeros _) (eq_sym (length_zeros _))
              ltac:(unfold is_word; pose proof B_gt1; lia) E) as (Ev & Ws & Ls & Wc & Hc1).
  rewrite eval_zeros in Ev. pose proof (eval_bounds a Ha). pose proof (eval_bounds s Ws) as Bs. rewrite Ls in Bs.
  pose proof (Bn_pos (length a)). unfold is_word in Wc.
  assert (c = 0) by nia. subst c. f_equal. apply eval_inj; auto. lia.
Qed.

Lemma div_by_2_boxed_eq a m :
  wf a -> wf m -> length m = length a -> a <> [] -> Z.of_nat (length a) < U32 ->
  div_by_2_boxed a m = div_by_2 a m.
Proof.
  intros Ha Hm Hl Hne Hu. unfold div_by_2_boxed, div_by_2.
  rewrite (integer_is_odd_spec a Ha), (uint_is_odd_spec a Ha).
  replace (resize (length a) m) with m by (rewrite <- Hl; symmetry; apply resize_same).
  unfold uint_adc.
  destruct (adc_limbs a m 0) as [s c] eqn:E.
  destruct (adc_limbs_correct a m 0 s c Ha Hm (eq_sym Hl) ltac:(unfold is_word; pose proof B_gt1; lia) E)
    as (Ev & Ws & Ls & Wc & Hc1).
  specialize (Hc1 ltac:(lia)).
  assert (W0 : is_word 0) by (unfold is_word; pose proof B_gt1; lia).
  assert (WM : is_word MAXW) by (unfold is_word; pose proof B_gt1; rewrite MAXW_val; lia).
  destruct (Z.odd (eval a)) eqn:Eo; cbn [b2z].
  - rewrite wneg_1, select_word_MAXW by assumption.
    rewrite map_wand_MAXW by assumption. rewrite E.
    rewrite (select_word_choice true 0 c W0 Wc).
    rewrite (select_limbs_choice true a s Ha Ws (eq_sym Ls)).
    f_equal. rewrite (from_word_nonzero_spec c Wc).
    unfold is_word in Wc. assert (Hc : c = 0 \/ c = 1) by lia. destruct Hc as [-> | ->]; reflexivity.
  - rewrite wneg_0, select_word_0. rewrite map_wand_0, Hl, adc_zeros by assumption.
    rewrite (select_word_choice false 0 c W0 Wc).
    rewrite (select_limbs_choice false a s Ha Ws (eq_sym Ls)).
    reflexivity.
Qed.

(** statement in the property's words: canonical and congruent *)
Lemma div_by_2_halves a m :
  wf a -> wf m -> length m = length a -> a <> [] -> Z.of_nat (length a) < U32 ->
  Z.odd (eval m) = true -> eval a < eval m ->
  let r := div_by_2 a m in
  wf r /\ length r = length a /\ 0 <= eval r < eval m /\ (2 * eval r) mod eval m = eval a.
Proof.
  intros Ha Hm Hl Hne Hu Ho Hlt.
  destruct (div_by_2_correct a m Ha Hm Hl Hne Hu) as (Wr & Lr & Er).
  pose proof (eval_bounds a Ha) as Ba. pose proof (eval_bounds m Hm) as Bm. rewrite Hl in Bm.
  specialize (Er ltac:(lia)).
  destruct (spec_half_props (eval a) (eval m) ltac:(lia) Ho) as (Hr & H2).
  cbv zeta. rewrite Er. repeat split; auto; try lia.
  rewrite H2. destruct (Z.odd (eval a)).
  - replace (eval a + eval m) with (eval a + 1 * eval m) by lia. rewrite Z.mod_add by lia. apply Z.mod_small. lia.
  - apply Z.mod_small. lia.
Qed.

Lemma halve_tables_agree dbg k a : Forall wf a -> In k ["uint.div_by_2"; "boxed.div_by_2"]%string ->
  Z.of_nat (ln 0 a) < U32 ->
  match lookup k ops_halve_spec with Some f => f dbg a | None => Unsupported end <> Unsupported ->
  match lookup k ops_halve_model with Some f => f dbg a | None => Unsupported end =
  match lookup k ops_halve_spec with Some f => f dbg a | None => Unsupported end.
Proof.
  intros Hwf Hk Hu.
  pose proof (TotalityP.wf_arg 0 a Hwf) as W0. pose proof (TotalityP.wf_arg 1 a Hwf) as W1.
  cbn in Hk.
  assert (Core : halve_dom a = true ->
    div_by_2 (arg 0 a) (arg 1 a) = to_limbs (ln 0 a) (spec_half (ev 0 a) (ev 1 a)) /\
    div_by_2_boxed (arg 0 a) (arg 1 a) = to_limbs (ln 0 a) (spec_half (ev 0 a) (ev 1 a)) /\
    ln 0 a = ln 1 a).
  { unfold halve_dom. intros D.
    apply andb_prop in D. destruct D as [D D4]. apply andb_prop in D. destruct D as [D D3].
    apply andb_prop in D. destruct D as [D1 D2].
    apply Nat.eqb_eq in D1. apply negb_true_iff in D2. apply Nat.eqb_neq in D2. apply Z.ltb_lt in D4.
    unfold ln, ev in *.
    assert (Hne : arg 0 a <> []) by (intros E; rewrite E in D2; apply D2; reflexivity).
    destruct (div_by_2_halves (arg 0 a) (arg 1 a) W0 W1 (eq_sym D1) Hne Hu D3 D4) as (Wr & Lr & Rr & _).
    destruct (div_by_2_correct (arg 0 a) (arg 1 a) W0 W1 (eq_sym D1) Hne Hu) as (_ & _ & Er).
    pose proof (eval_bounds (arg 0 a) W0) as Ba. pose proof (eval_bounds (arg 1 a) W1) as Bm. rewrite <- D1 in Bm.
    specialize (Er ltac:(lia)).
    assert (E1 : div_by_2 (arg 0 a) (arg 1 a) = to_limbs (length (arg 0 a)) (spec_half (eval (arg 0 a)) (eval (arg 1 a)))).
    { apply to_limbs_unique; auto. rewrite Er. symmetry. apply Z.mod_small. rewrite <- Er. lia. }
    split; [exact E1|]. split; [|exact D1].
    rewrite div_by_2_boxed_eq; auto. }
  destruct Hk as [<- | [<- | []]]; cbn [lookup String.eqb Ascii.eqb Bool.eqb ops_halve_model ops_halve_spec];
    destruct (halve_dom a) eqn:D; try congruence; intros _;
    destruct (Core eq_refl) as (E1 & E2 & E3); unfold sp_val.
  - rewrite E1. reflexivity.
  - unfold div_by_2_boxed_op. unfold ln in E3. rewrite E3, Nat.eqb_refl, andb_false_r, E2. reflexivity.
Qed.
