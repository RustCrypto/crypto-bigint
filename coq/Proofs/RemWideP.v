(** C02: Uint::rem_wide_vartime (remainder of a double-width dividend). *)
From CB Require Import Model.Limbs Model.Div Proofs.WordP Proofs.LimbsP Proofs.BitsP Proofs.DivP Proofs.Rem2kP
  Proofs.Div3by2P Proofs.KnuthStepP Proofs.DivShiftP Proofs.DivVtP.
From Coq Require Import ZArith Lia List.
Open Scope Z_scope.

Definition wide_body (n yc : nat) (xlo y : list Z) (rc : recip) (st : wst) : wst :=
  let x := w_x st in let xi := w_xi st in
  let quo := div3by2 (w_xhi st) (nthz x xi) (nthz x (xi - 1)) rc (nthz y (yc - 2)) in
  let '(x2, _) := knuth_step x y (w_xhi st) (xi + 1 - yc) 0 yc quo in
  let xhi' := nthz x2 xi in
  if (0 <? w_extra st)%nat then
    let e := (w_extra st - 1)%nat in
    {| w_x := nthz xlo e :: firstn (n - 1) x2; w_xhi := xhi'; w_xi := xi; w_extra := e; w_done := false |}
  else if (xi =? yc - 1)%nat then
    {| w_x := x2; w_xhi := xhi'; w_xi := xi; w_extra := 0; w_done := true |}
  else
    {| w_x := upd x2 xi 0; w_xhi := xhi'; w_xi := (xi - 1)%nat; w_extra := 0; w_done := false |}.

Lemma rem_wide_loop_S f n yc xlo y rc st : w_done st = false ->
  rem_wide_loop (S f) n yc xlo y rc st = rem_wide_loop f n yc xlo y rc (wide_body n yc xlo y rc st).
Proof.
  intros Hd. cbn [rem_wide_loop]. rewrite Hd. unfold wide_body.
  destruct (knuth_step (w_x st) y (w_xhi st) (w_xi st + 1 - yc) 0 yc
    (div3by2 (w_xhi st) (nthz (w_x st) (w_xi st)) (nthz (w_x st) (w_xi st - 1)) rc (nthz y (yc - 2)))) as [x2 mask].
  reflexivity.
Qed.

Lemma rem_wide_loop_done f n yc xlo y rc st : w_done st = true -> rem_wide_loop f n yc xlo y rc st = st.
Proof. intros Hd. destruct f; cbn [rem_wide_loop]; [reflexivity | rewrite Hd; reflexivity]. Qed.

(** bringing one more dividend limb l under a window W = q Y + R does not change the value modulo Y *)
Lemma wide_step_mod P a l W q Y R : W = q * Y + R ->
  (P + a * (l + B * R)) mod Y = (P + a * l + B * a * W) mod Y.
Proof.
  intros ->. replace (P + a * l + B * a * (q * Y + R)) with (P + a * (l + B * R) + B * a * q * Y) by ring.
  symmetry. apply Z_mod_plus_full.
Qed.

Section Wide.
Variables (k n : nat) (xlo y yl : list Z) (v0 d : Z) (yb : list Z) (rc : recip).
Hypothesis Hy : y = (yl ++ [v0; d]) ++ yb.
Hypothesis Hly : length yl = k.
Hypothesis Hwy : wf yl.
Hypothesis Hv0 : is_word v0.
Hypothesis Hrd : r_d rc = d.
Hypothesis Hn : normalized d.
Hypothesis Hrec : recip_ok d (r_v rc).
Let Y := eval (yl ++ [v0; d]).
Let yc := S (S k).

Lemma wide_iter lo xw qs x_hi e :
  length xw = yc -> wf xw -> is_word x_hi -> eval xw + Bn yc * x_hi < Y * B ->
  exists rl rh q,
    length rl = S k /\ wf rl /\ is_word rh /\ 0 <= q /\
    eval xw + Bn yc * x_hi = q * Y + eval (rl ++ [rh]) /\ 0 <= eval (rl ++ [rh]) < Y /\
    wide_body n yc xlo y rc {| w_x := lo ++ xw ++ qs; w_xhi := x_hi; w_xi := length lo + S k; w_extra := e; w_done := false |} =
      if (0 <? e)%nat then
        {| w_x := nthz xlo (e - 1) :: firstn (n - 1) (lo ++ rl ++ rh :: qs); w_xhi := rh;
           w_xi := length lo + S k; w_extra := e - 1; w_done := false |}
      else if (length lo + S k =? yc - 1)%nat then
        {| w_x := lo ++ rl ++ rh :: qs; w_xhi := rh; w_xi := length lo + S k; w_extra := 0; w_done := true |}
      else
        {| w_x := lo ++ rl ++ 0 :: qs; w_xhi := rh; w_xi := length lo + S k - 1; w_extra := 0; w_done := false |}.
Proof.
  intros Hlx Hwx Hxhi HWY.
  destruct (knuth_iter k y yl v0 d yb rc lo xw qs x_hi Hy Hly Hwy Hv0 Hrd Hn Hrec Hlx Hwx Hxhi HWY)
    as (rl & rh & q & mask & Hk & Hsel & Hlrl & Hwrl & Hrh & Hq & HWq & Hrem).
  exists rl, rh, q. split; [assumption|]. split; [assumption|]. split; [assumption|].
  split; [unfold is_word in Hq; lia|]. split; [exact HWq|]. split; [exact Hrem|].
  unfold wide_body. cbn [w_x w_xhi w_xi w_extra]. cbv zeta in Hk. unfold yc. rewrite Hk.
  replace (lo ++ rl ++ rh :: qs) with ((lo ++ rl) ++ rh :: qs) by (rewrite <- app_assoc; reflexivity).
  rewrite (nthz_app_mid (lo ++ rl) rh qs) by (rewrite app_length; lia).
  rewrite (upd_app_mid (lo ++ rl) rh qs _ 0) by (rewrite app_length; lia).
  rewrite <- !app_assoc. reflexivity.
Qed.

(** phase 2: no limbs of the low half remain outside the buffer *)
Lemma wide_phase2 : forall P xw x_hi z fuel,
  wf P -> length xw = yc -> wf xw -> is_word x_hi -> eval xw + Bn yc * x_hi < Y * B ->
  (length P + 1 <= fuel)%nat ->
  exists R, length R = yc /\ wf R /\
    eval R = (eval P + Bn (length P) * (eval xw + Bn yc * x_hi)) mod Y /\
    w_x (rem_wide_loop fuel n yc xlo y rc
          {| w_x := P ++ xw ++ zeros z; w_xhi := x_hi; w_xi := length P + S k; w_extra := 0; w_done := false |})
      = R ++ zeros (length P + z).
Proof.
  induction P as [|l P' IH] using rev_ind; intros xw x_hi z fuel HwP Hlx Hwx Hxhi HWY Hfuel.
  - destruct fuel as [|f]; [simpl in Hfuel; lia|].
    destruct (wide_iter [] xw (zeros z) x_hi 0%nat Hlx Hwx Hxhi HWY)
      as (rl & rh & q & Hlrl & Hwrl & Hrh & Hq & HWq & Hrem & Hb).
    rewrite rem_wide_loop_S by reflexivity. cbn [length Nat.add app] in *. rewrite Hb.
    change (0 <? 0)%nat with false. cbv iota.
    assert ((S k =? yc - 1)%nat = true) as -> by (apply Nat.eqb_eq; unfold yc; lia).
    rewrite rem_wide_loop_done by reflexivity. cbn [w_x].
    exists (rl ++ [rh]). split; [rewrite app_length; simpl; unfold yc; lia|].
    split; [apply wf_app_word; split; assumption|].
    split; [|rewrite <- app_assoc; reflexivity].
    cbn [eval]. rewrite Bn_0. apply (Z.mod_unique_pos _ _ q); lia.
  - apply wf_app in HwP. destruct HwP as [HwP' Hl]. apply wf_cons in Hl. destruct Hl as [Hl _].
    destruct fuel as [|f]; [lia|].
    destruct (wide_iter (P' ++ [l]) xw (zeros z) x_hi 0%nat Hlx Hwx Hxhi HWY)
      as (rl & rh & q & Hlrl & Hwrl & Hrh & Hq & HWq & Hrem & Hb).
    rewrite rem_wide_loop_S by reflexivity. rewrite Hb.
    change (0 <? 0)%nat with false. cbv iota.
    assert (Hlen : length (P' ++ [l]) = S (length P')) by (rewrite app_length; simpl; lia).
    rewrite Hlen in *.
    assert ((S (length P') + S k =? yc - 1)%nat = false) as -> by (apply Nat.eqb_neq; unfold yc; lia).
    replace (S (length P') + S k - 1)%nat with (length P' + S k)%nat by lia.
    replace ((P' ++ [l]) ++ rl ++ 0 :: zeros z) with (P' ++ (l :: rl) ++ zeros (S z)) by (rewrite <- !app_assoc; reflexivity).
    assert (Hrle : eval (rl ++ [rh]) = eval rl + Bn (S k) * rh) by (rewrite eval_snoc, Hlrl; reflexivity).
    pose proof (window_next k l rl rh Y Hl Hlrl Hrem) as HW'.
    destruct (IH (l :: rl) rh (S z) f HwP' ltac:(simpl; unfold yc; lia) ltac:(apply wf_cons; split; assumption) Hrh HW' ltac:(lia))
      as (R & HlR & HwR & HeR & Hres).
    exists R. split; [assumption|]. split; [assumption|].
    split; [|rewrite Hres; f_equal; f_equal; lia].
    set (W := eval xw + Bn yc * x_hi) in *.
    rewrite HeR. rewrite eval_snoc. rewrite (Bn_S (length P')).
    cbn [eval]. unfold yc. rewrite (Bn_S (S k)).
    rewrite Hrle in HWq. rewrite <- (wide_step_mod _ _ _ _ _ _ _ HWq). f_equal. ring.
Qed.

(** phase 1: e limbs of the low half are still outside the buffer; P = all pending limbs below the window *)
Lemma wide_phase1 : forall e P xw x_hi fuel,
  wf P -> length P = (e + (n - yc))%nat -> (yc <= n)%nat -> firstn e P = firstn e xlo -> (e <= length xlo)%nat ->
  length xw = yc -> wf xw -> is_word x_hi -> eval xw + Bn yc * x_hi < Y * B ->
  (length P + 1 <= fuel)%nat ->
  exists R, length R = yc /\ wf R /\
    eval R = (eval P + Bn (length P) * (eval xw + Bn yc * x_hi)) mod Y /\
    w_x (rem_wide_loop fuel n yc xlo y rc
          {| w_x := skipn e P ++ xw; w_xhi := x_hi; w_xi := (n - 1)%nat; w_extra := e; w_done := false |})
      = R ++ zeros (n - yc).
Proof.
  induction e as [|e IH]; intros P xw x_hi fuel HwP HlP Hycn Hfst Hexlo Hlx Hwx Hxhi HWY Hfuel.
  - cbn [skipn]. destruct (wide_phase2 P xw x_hi 0%nat fuel HwP Hlx Hwx Hxhi HWY Hfuel) as (R & HlR & HwR & HeR & Hres).
    exists R. split; [assumption|]. split; [assumption|]. split; [assumption|].
    cbn [zeros repeat] in Hres. rewrite app_nil_r in Hres.
    replace (n - 1)%nat with (length P + S k)%nat by (unfold yc in *; lia).
    rewrite Hres. f_equal. f_equal. lia.
  - destruct fuel as [|f]; [lia|].
    destruct (list_snoc P (e + (n - yc))%nat ltac:(lia)) as (P' & l & EP & HlP').
    assert (HwP' : wf P' /\ is_word l).
    { rewrite EP in HwP. apply wf_app in HwP. destruct HwP as [H1 H2]. apply wf_cons in H2. tauto. }
    destruct HwP' as [HwP' Hl].
    set (lo := skipn (S e) P).
    assert (Hllo : length lo = (n - yc)%nat) by (unfold lo; rewrite skipn_length; lia).
    destruct (wide_iter lo xw [] x_hi (S e) Hlx Hwx Hxhi HWY)
      as (rl & rh & q & Hlrl & Hwrl & Hrh & Hq & HWq & Hrem & Hb).
    rewrite rem_wide_loop_S by reflexivity.
    replace (n - 1)%nat with (length lo + S k)%nat by (unfold yc in *; lia).
    replace (lo ++ xw) with (lo ++ xw ++ []) by (rewrite app_nil_r; reflexivity).
    rewrite Hb. change (0 <? S e)%nat with true. cbv iota.
    replace (S e - 1)%nat with e by lia.
    (* the shifted buffer *)
    assert (Hshift : nthz xlo e :: firstn (n - 1) (lo ++ rl ++ [rh]) = skipn e P' ++ (l :: rl)).
    { replace (lo ++ rl ++ [rh]) with ((lo ++ rl) ++ [rh]) by (rewrite <- app_assoc; reflexivity).
      rewrite firstn_app. rewrite firstn_all2 by (rewrite app_length; unfold yc in *; lia).
      replace (n - 1 - length (lo ++ rl))%nat with 0%nat by (rewrite app_length; unfold yc in *; lia).
      cbn [firstn]. rewrite app_nil_r.
      assert (Hnx : nthz xlo e = nthz P e).
      { unfold nthz. rewrite <- (firstn_skipn (S e) xlo), <- (firstn_skipn (S e) P), <- Hfst.
        rewrite !app_nth1; [reflexivity | |]; rewrite firstn_length_le; lia. }
      rewrite Hnx.
      assert (Hsk : skipn e P = nthz P e :: skipn (S e) P).
      { unfold nthz. rewrite (Rem2kP.split_nth P e) at 1 by lia.
        rewrite skipn_app, skipn_all2 by (rewrite firstn_length_le; lia).
        rewrite firstn_length_le by lia. rewrite Nat.sub_diag. reflexivity. }
      change (nthz P e :: lo ++ rl) with ((nthz P e :: lo) ++ rl). unfold lo. rewrite <- Hsk.
      rewrite EP. rewrite skipn_app. replace (e - length P')%nat with 0%nat by lia. cbn [skipn].
      rewrite <- app_assoc. reflexivity. }
    rewrite Hshift.
    assert (Hrle : eval (rl ++ [rh]) = eval rl + Bn (S k) * rh) by (rewrite eval_snoc, Hlrl; reflexivity).
    pose proof (window_next k l rl rh Y Hl Hlrl Hrem) as HW'.
    assert (Hfst' : firstn e P' = firstn e xlo).
    { assert (H1 : firstn e (firstn (S e) P) = firstn e (firstn (S e) xlo)) by (rewrite Hfst; reflexivity).
      rewrite !firstn_firstn in H1. replace (Nat.min e (S e)) with e in H1 by lia.
      rewrite EP in H1. rewrite firstn_app in H1. replace (e - length P')%nat with 0%nat in H1 by lia.
      cbn [firstn] in H1. rewrite app_nil_r in H1. exact H1. }
    replace (length lo + S k)%nat with (n - 1)%nat by (unfold yc in *; lia).
    destruct (IH P' (l :: rl) rh f HwP' HlP' Hycn Hfst' ltac:(lia) ltac:(simpl; unfold yc; lia)
                ltac:(apply wf_cons; split; assumption) Hrh HW' ltac:(lia))
      as (R & HlR & HwR & HeR & Hres).
    exists R. split; [assumption|]. split; [assumption|]. split; [|exact Hres].
    set (W := eval xw + Bn yc * x_hi) in *.
    rewrite HeR. rewrite EP, eval_snoc, app_length. cbn [length]. rewrite Nat.add_1_r, (Bn_S (length P')).
    cbn [eval]. unfold yc. rewrite (Bn_S (S k)).
    rewrite Hrle in HWq. rewrite <- (wide_step_mod _ _ _ _ _ _ _ HWq). f_equal. ring.
Qed.
End Wide.

(** OR-ing the carry of the low half into the lowest limb of the shifted high half adds it *)
Lemma shl_or_carry x s c : wf x -> x <> [] -> 0 <= s < 64 -> 0 <= c < 2 ^ s ->
  let r := fst (shl_limb x s) in
  let r' := upd r 0 (Z.lor (nthz r 0) c) in
  wf r' /\ eval r' = eval r + c /\ length r' = length x.
Proof.
  intros Hw Hne Hs Hc. destruct x as [|wd t]; [congruence|].
  pose proof (shl_limb_correct (wd :: t) s Hw Hs) as H.
  unfold shl_limb in *. cbn [fst]. destruct H as (_ & Hwr & Hlr & _). cbn [shl_limb_go] in *.
  unfold upd, nthz. cbn [firstn skipn nth app].
  set (h := Z.lor (wshl wd s) (if s =? 0 then 0 else 0 / 2 ^ (64 - s))) in *.
  apply wf_cons in Hwr. destruct Hwr as [Hh Htl].
  assert (Hlor : Z.lor h c = h + c /\ is_word (h + c)).
  { destruct (Z.eq_dec s 0) as [Es|Es].
    - (* no shift: the carry is 0 *)
      assert (c = 0) by (rewrite Es in Hc; change (2 ^ 0) with 1 in Hc; lia). subst c.
      rewrite Z.lor_0_r, Z.add_0_r. auto.
    - assert (Eh : h = wshl wd s).
      { unfold h. assert (s =? 0 = false) as -> by (apply Z.eqb_neq; assumption).
        rewrite Z.div_0_l by (apply Z.pow_nonzero; lia). apply Z.lor_0_r. }
      apply wf_cons in Hw. destruct Hw as [Hwd _].
      destruct (wshl_mult wd s Hwd ltac:(lia)) as (j & Hj & Hj0 & Hjb).
      rewrite Eh in *. split; [rewrite Hj; apply lor_disjoint; lia|]. unfold is_word in *. lia. }
  destruct Hlor as [-> Hword].
  split; [apply wf_cons; split; assumption|]. split; [cbn [eval]; lia | cbn [length] in *; lia].
Qed.

Lemma rem_limb_wide_correct lo hi d rc :
  wf lo -> wf hi -> length hi = length lo -> (1 <= length lo)%nat -> 0 < d -> recip_for d rc ->
  rem_limb_with_reciprocal_wide lo hi rc = (eval lo + Bn (length lo) * eval hi) mod d.
Proof.
  intros Hwlo Hwhi Hlen Hn1 Hd (Hs & Hdn & Hn & Hr). unfold rem_limb_with_reciprocal_wide.
  set (n := length lo) in *. set (s := r_shift rc) in *.
  pose proof (shl_limb_correct lo s Hwlo Hs) as Hl. destruct (shl_limb lo s) as [los carry] eqn:El. fold n in Hl.
  destruct Hl as (Hle & Hwlos & Hllos & Hcarry).
  pose proof (shl_limb_correct hi s Hwhi Hs) as Hh. rewrite Hlen in Hh. fold n in Hh.
  assert (H2s : 0 < 2 ^ s) by (apply Z.pow_pos_nonneg; lia).
  (* the high half with the carry of the low half *)
  assert (Hne : hi <> []) by (intros ->; simpl in Hlen; lia).
  pose proof (shl_or_carry hi s carry Hwhi Hne Hs Hcarry) as Ho. cbv zeta in Ho.
  destruct (shl_limb hi s) as [his xhi]. cbn [fst] in Ho. destruct Hh as (Hhe & Hwhis & Hlhis & Hxhi).
  destruct his as [|h0 t]; [simpl in Hlhis; lia|].
  unfold upd, nthz in Ho. cbn [firstn skipn nth app] in Ho. destruct Ho as (Hwhis' & Hehis' & Hlhis').
  set (his' := Z.lor h0 carry :: t) in *. rewrite Hlen in Hlhis'. fold n in Hlhis'.
  assert (Hxhi' : 0 <= xhi < r_d rc) by (rewrite Hdn; nia).
  destruct (divlimb_go (rev his') xhi rc) as [q1 r1] eqn:E1.
  pose proof (divlimb_go_correct rc Hn Hr his' xhi q1 r1 Hwhis' Hxhi' E1) as (He1 & Hr1 & _ & _).
  destruct (divlimb_go (rev los) r1 rc) as [q2 r2] eqn:E2.
  pose proof (divlimb_go_correct rc Hn Hr los r1 q2 r2 Hwlos Hr1 E2) as (He2 & Hr2 & _ & _).
  rewrite Hlhis' in He1. rewrite Hllos in He2. rewrite Hdn in *.
  set (T := eval lo + Bn n * eval hi).
  assert (HT : T * 2 ^ s = (Bn n * eval (rev q1) + eval (rev q2)) * (d * 2 ^ s) + r2).
  { unfold T.
    assert (Bn n * (xhi * Bn n + eval his') = Bn n * (eval (rev q1) * (d * 2 ^ s) + r1)) by (rewrite He1; reflexivity).
    lia. }
  assert (Hmod : (T * 2 ^ s) mod (d * 2 ^ s) = r2).
  { symmetry. apply (Z.mod_unique_pos _ _ (Bn n * eval (rev q1) + eval (rev q2))); lia. }
  rewrite Z.mul_mod_distr_r in Hmod by lia. rewrite <- Hmod. apply Z.div_mul. lia.
Qed.

(** Both halves are shifted by s with the carry of the low half OR-ed into the high half; the buffer starts as the
    high half, P = (shifted low half) ++ (high limbs below the window) are the limbs still to be brought down, and
    [wide_phase1] says the loop leaves (P + B^|P| * window) mod (y0 * 2^s) in the low yc limbs; shifting back divides
    by 2^s. *)
Theorem rem_wide_vartime_correct lo hi y0 :
  wf lo -> wf hi -> wf y0 -> length hi = length lo -> eval y0 <> 0 ->
  (nlimbs (eval y0) <= length lo)%nat ->
  recip_ok (top64 (eval y0)) (reciprocal (top64 (eval y0))) ->
  let r := rem_wide_vartime lo hi y0 in
  eval r = (eval lo + Bn (length lo) * eval hi) mod eval y0 /\ length r = length lo /\ wf r.
Proof.
  intros Hwlo Hwhi Hwy Hlen Hnz Hycn Hrec. cbv zeta.
  pose proof (eval_nonneg y0 Hwy) as Hy0. assert (Hyp : 0 < eval y0) by lia.
  destruct (nlimbs_spec _ Hyp) as (Hyc1 & Hsh & Hshe & [Hylo Hyhi] & Hnlo & Hnhi).
  pose proof (nlimbs_le_length y0 Hwy Hyp) as Hycm.
  unfold rem_wide_vartime. fold (nlimbs (eval y0)). fold (nshift (eval y0)).
  set (yc := nlimbs (eval y0)) in *. set (s := nshift (eval y0)) in *.
  set (n := length lo) in *. pose proof B_gt1 as HB.
  destruct (yc =? 1)%nat eqn:E1.
  - apply Nat.eqb_eq in E1. rewrite E1 in *. rewrite Bn_1 in Hyhi.
    destruct (single_limb_recip y0 Hwy ltac:(lia) Hrec) as [Hd Hfor]. set (d := nthz y0 0) in *.
    rewrite (rem_limb_wide_correct lo hi d (recip_new d) Hwlo Hwhi Hlen Hycn ltac:(lia) Hfor). fold n. rewrite <- Hd.
    pose proof (Z.mod_pos_bound (eval lo + Bn n * eval hi) (eval y0) Hyp) as Hmb.
    destruct (resize_limb n ((eval lo + Bn n * eval hi) mod eval y0) Hycn ltac:(lia)) as (Hev & Hwr & Hlr). auto.
  - apply Nat.eqb_neq in E1.
    destruct (shl_limb_vartime_low y0 s yc Hwy Hsh Hycm Hnhi) as (yw & yb & Hyw & Hlyw & Hwyw & Hwyb & Heyw & Heyb & Hlyy).
    destruct (shl_limb_vartime y0 s yc) as [y cy]. cbn [fst] in Hyw. subst y.
    pose proof (shl_limb_vartime_full lo s Hwlo Hsh) as Hxl. fold n in Hxl.
    destruct (shl_limb_vartime lo s n) as [xlo clo]. destruct Hxl as (Hxle & Hwxlo & Hlxlo & Hclo).
    (* the high half, with the carry of the low half in its lowest limb *)
    assert (Hx : exists x' x_hi,
      (let '(x, x_hi) := shl_limb_vartime hi s n in
       (if 0 <? s then upd x 0 (Z.lor (nthz x 0) clo) else x, x_hi)) = (x', x_hi) /\
      wf x' /\ length x' = n /\ 0 <= x_hi < 2 ^ s /\ eval x' + Bn n * x_hi = eval hi * 2 ^ s + clo).
    { pose proof (shl_limb_vartime_full hi s Hwhi Hsh) as Hxh. rewrite Hlen in Hxh. fold n in Hxh.
      destruct (0 <? s) eqn:Es.
      - apply Z.ltb_lt in Es. assert (Hne : hi <> []) by (intros ->; simpl in Hlen; lia).
        pose proof (shl_or_carry hi s clo Hwhi Hne Hsh Hclo) as Ho. cbv zeta in Ho.
        unfold shl_limb_vartime in *. assert (s =? 0 = false) as Es0 by (apply Z.eqb_neq; lia). rewrite Es0 in *.
        rewrite <- Hlen in *. rewrite firstn_all, Nat.sub_diag in *. cbn [zeros repeat] in *.
        destruct (shl_limb hi s) as [x x_hi]. cbn [fst] in Ho. rewrite app_nil_r in *.
        destruct Hxh as (He & Hw & Hl & Hc). destruct Ho as (Ho1 & Ho2 & Ho3).
        eexists _, _. split; [reflexivity|]. split; [assumption|]. split; [lia|]. split; [assumption | lia].
      - apply Z.ltb_ge in Es. assert (s = 0) by lia. assert (clo = 0) by (subst s; replace (nshift (eval y0)) with 0 in Hclo by lia; simpl in Hclo; lia).
        destruct (shl_limb_vartime hi s n) as [x x_hi]. destruct Hxh as (He & Hw & Hl & Hc).
        eexists _, _. split; [reflexivity|]. split; [assumption|]. split; [assumption|]. split; [assumption | lia]. }
    destruct Hx as (x' & x_hi & Ex & Hwx' & Hlx' & Hxhi & Hxe).
    destruct (shl_limb_vartime hi s n) as [x0 x_hi0]. apply pair_equal_spec in Ex. destruct Ex as [Ex1 Ex2].
    rewrite Ex1. subst x_hi0.
    destruct yc as [|[|k]] eqn:Eyc; [lia | lia |]. clear E1 Hyc1.
    assert (Hnlo' : Bn (S (S k)) <= 2 * eval yw) by (rewrite Heyw; assumption).
    destruct (divisor_decomp k yw yb Hwyw Hlyw Hnlo') as (yl & v0 & d & Eyw & Hlyl & Hwyl & Hv0 & Hnd & Htop & Htop' & Hrn).
    assert (Hdtop : d = top64 (eval y0)).
    { rewrite <- Htop'. apply top_limb_top64; auto. }
    rewrite Htop, Hrn.
    set (rc := {| r_d := d; r_shift := 0; r_v := reciprocal d |}).
    assert (Hrcd : recip_ok d (r_v rc)) by (cbn [r_v rc]; rewrite Hdtop; assumption).
    assert (Eyy : yw ++ yb = (yl ++ [v0; d]) ++ yb) by (rewrite Eyw; reflexivity).
    set (F := firstn (n - S (S k)) x'). set (xw := skipn (n - S (S k)) x').
    assert (HlF : length F = (n - S (S k))%nat) by (unfold F; rewrite firstn_length_le; lia).
    assert (Hlxw : length xw = S (S k)) by (unfold xw; rewrite skipn_length; lia).
    assert (HwF : wf F) by (apply wf_firstn; assumption).
    assert (Hwxw : wf xw) by (apply wf_skipn; assumption).
    pose proof (shift_carry_word x_hi s Hxhi Hsh) as Hxhiw.
    pose proof (eval_bounds xw Hwxw) as Hbxw. rewrite Hlxw in Hbxw.
    assert (HY : eval (yl ++ [v0; d]) = eval y0 * 2 ^ s) by (rewrite <- Eyw; assumption).
    assert (HWY : eval xw + Bn (S (S k)) * x_hi < eval (yl ++ [v0; d]) * B)
      by (apply (window_bound _ _ _ s); try assumption; rewrite HY; assumption).
    set (P := xlo ++ F).
    assert (HlP : length P = (n + (n - S (S k)))%nat) by (unfold P; rewrite app_length; lia).
    assert (HwP : wf P) by (apply wf_app; split; assumption).
    assert (Hfst : firstn n P = firstn n xlo).
    { unfold P. rewrite firstn_app, Hlxlo, Nat.sub_diag. cbn [firstn]. rewrite app_nil_r. reflexivity. }
    assert (Hskip : skipn n P ++ xw = x').
    { unfold P. rewrite skipn_app, Hlxlo, Nat.sub_diag, skipn_all2 by lia. cbn [skipn app]. apply firstn_skipn. }
    destruct (wide_phase1 k n xlo (yw ++ yb) yl v0 d yb rc Eyy Hlyl Hwyl Hv0 eq_refl Hnd Hrcd
                n P xw x_hi (2 * n + 2)%nat HwP HlP Hycn Hfst ltac:(lia) Hlxw Hwxw Hxhiw HWY ltac:(lia))
      as (R & HlR & HwR & HeR & Hres).
    rewrite Hskip in Hres. rewrite Hres.
    pose proof (shr_limb_vartime_correct R (zeros (n - S (S k))) s HwR (wf_zeros _) (eval_zeros _) Hsh) as Hshr.
    rewrite HlR in Hshr. cbv zeta in Hshr. destruct Hshr as (Hre & Hwr & Hlr).
    split; [|split; [rewrite Hlr, app_length, length_zeros; lia | assumption]].
    rewrite Hre, HeR, HY.
    assert (Htot : eval P + Bn (length P) * (eval xw + Bn (S (S k)) * x_hi) = (eval lo + Bn n * eval hi) * 2 ^ s).
    { unfold P. rewrite eval_app, Hlxlo, app_length, Hlxlo, HlF.
      assert (Hx'e : eval x' = eval F + Bn (n - S (S k)) * eval xw).
      { rewrite <- (firstn_skipn (n - S (S k)) x') at 1. rewrite eval_app. fold F xw. rewrite HlF. reflexivity. }
      rewrite Bn_add.
      assert (HBnn : Bn n = Bn (n - S (S k)) * Bn (S (S k))) by (rewrite <- Bn_add; f_equal; lia).
      set (a := Bn (n - S (S k))) in *. set (b := Bn (S (S k))) in *. set (c := Bn n) in *.
      assert (c * (eval x' + c * x_hi) = c * (eval hi * 2 ^ s + clo)) by (rewrite Hxe; reflexivity).
      assert (c * (a * b * x_hi) = c * (c * x_hi)) by (rewrite HBnn; ring).
      lia. }
    rewrite Htot.
    assert (H2s : 0 < 2 ^ s) by (apply Z.pow_pos_nonneg; lia).
    rewrite Z.mul_mod_distr_r by lia. apply Z.div_mul. lia.
Qed.
