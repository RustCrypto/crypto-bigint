(** C03 (tables): the model table and the spec table of Model/Mul.v agree on EVERY key (20 of 20), for all
    well-formed argument lists that satisfy the typing side condition of the key, in both profiles.
    [run_tab t k dbg a] is the table lookup of Model/Api.v (Proofs/TotalityP.v).
    The argument list is ARBITRARY (any number of arguments of any lengths: the entries decode it with
    [arg i] / [sarg i], a missing argument reads as the empty limb list, surplus arguments are ignored); the work is
    done by the theorems [limb_ops_args], [uint_mul_ops_args], [uint_square_ops_args], [boxed_ops_args],
    [boxed_square_op_args] of Proofs/MulApiP.v. *)
From CB Require Import Model.Limbs Model.AddSub Model.Mul Proofs.WordP Proofs.LimbsP Proofs.AddSubP
  Proofs.MulBaseP Proofs.MulSqP Proofs.MulKaraP Proofs.MulBoxedP Proofs.MulApiP Proofs.TotalityP.
From Coq Require Import ZArith Lia List String Bool.
Open Scope Z_scope.
Notation length := List.length.

(* ------------------------------------------------------------------ typing side conditions (boolean) *)
Definition btyping := list (string * (list (list Z) -> bool)).
Definition typedb (t : btyping) (k : string) (a : list (list Z)) : bool :=
  match lookup k t with Some P => P a | None => true end.

(* a Limb argument is one word; every other form of this area (Uint<N> * Uint<M>, squares, all boxed forms with any pair
   of precisions) has NO side condition *)
Definition ty_limb2 (a : list (list Z)) : bool := (ln 0 a =? 1)%nat && (ln 1 a =? 1)%nat.

Open Scope string_scope.
Definition mul_tbl_ty : btyping :=
  [("limb.wrapping_mul", ty_limb2); ("limb.saturating_mul", ty_limb2); ("limb.checked_mul", ty_limb2);
   ("limb.mul", ty_limb2)].
Open Scope Z_scope.

Definition tbl_ok (k : string) : Prop :=
  forall dbg a, wf_args a -> typedb mul_tbl_ty k a = true ->
    run_tab ops_mul_spec k dbg a <> Unsupported ->
    run_tab ops_mul_model k dbg a = run_tab ops_mul_spec k dbg a.

Ltac open_typedb H :=
  unfold typedb in H;
  lazy beta iota delta [lookup mul_tbl_ty String.eqb Ascii.eqb Bool.eqb] in H.

Lemma ty_limb2_inv a : ty_limb2 a = true -> arg 0 a = [sarg 0 a] /\ arg 1 a = [sarg 1 a].
Proof.
  unfold ty_limb2, ln. intros H. apply andb_prop in H. destruct H as [H0 H1].
  apply Nat.eqb_eq in H0, H1. split; apply arg_single; assumption.
Qed.

(** [run_tab] (Proofs/TotalityP.v) and [op_of] (Proofs/MulApiP.v) are the same lookup *)
Lemma run_is_op_of t k dbg a : run_tab t k dbg a = op_of t k dbg a.
Proof. unfold run_tab, op_of. destruct (lookup k t); reflexivity. Qed.

(* ------------------------------------------------------------------ the five groups of keys *)
Lemma tbl_limb k : In k limb_mul_keys -> tbl_ok k.
Proof.
  intros Hin dbg a Hwf Hty _.
  assert (Hty2 : ty_limb2 a = true).
  { cbn [In limb_mul_keys] in Hin. destruct Hin as [<-|[<-|[<-|[<-|[]]]]]; open_typedb Hty; exact Hty. }
  destruct (ty_limb2_inv a Hty2) as [E0 E1]. rewrite !run_is_op_of.
  exact (limb_ops_args k dbg a _ _ E0 E1 (sarg_word 0 a Hwf) (sarg_word 1 a Hwf) Hin).
Qed.

(** Uint<N> * Uint<M>: any pair of widths *)
Lemma tbl_uint_mul_forms k : In k uint_mul_keys -> tbl_ok k.
Proof.
  intros Hin dbg a Hwf _ _. rewrite !run_is_op_of.
  exact (uint_mul_ops_args k dbg a (wf_arg 0 a Hwf) (wf_arg 1 a Hwf) Hin).
Qed.

Lemma tbl_uint_square_forms k : In k uint_square_keys -> tbl_ok k.
Proof.
  intros Hin dbg a Hwf _ _. rewrite !run_is_op_of. exact (uint_square_ops_args k dbg a (wf_arg 0 a Hwf) Hin).
Qed.

(** BoxedUint: any pair of precisions *)
Lemma tbl_boxed_mul_forms k : In k boxed_mul_keys -> tbl_ok k.
Proof.
  intros Hin dbg a Hwf _ _. rewrite !run_is_op_of.
  exact (boxed_ops_args k dbg a (wf_arg 0 a Hwf) (wf_arg 1 a Hwf) Hin).
Qed.

Lemma tbl_boxed_square : tbl_ok "boxed.square".
Proof. intros dbg a Hwf _ _. rewrite !run_is_op_of. exact (boxed_square_op_args dbg a (wf_arg 0 a Hwf)). Qed.

(* ------------------------------------------------------------------ one lemma per key *)
Lemma tbl_limb_wrapping_mul : tbl_ok "limb.wrapping_mul". Proof. apply tbl_limb. cbn; tauto. Qed.
Lemma tbl_limb_saturating_mul : tbl_ok "limb.saturating_mul". Proof. apply tbl_limb. cbn; tauto. Qed.
Lemma tbl_limb_checked_mul : tbl_ok "limb.checked_mul". Proof. apply tbl_limb. cbn; tauto. Qed.
Lemma tbl_limb_mul : tbl_ok "limb.mul". Proof. apply tbl_limb. cbn; tauto. Qed.
Lemma tbl_uint_split_mul : tbl_ok "uint.split_mul". Proof. apply tbl_uint_mul_forms. cbn; tauto. Qed.
Lemma tbl_uint_widening_mul : tbl_ok "uint.widening_mul". Proof. apply tbl_uint_mul_forms. cbn; tauto. Qed.
Lemma tbl_uint_wrapping_mul : tbl_ok "uint.wrapping_mul". Proof. apply tbl_uint_mul_forms. cbn; tauto. Qed.
Lemma tbl_uint_checked_mul : tbl_ok "uint.checked_mul". Proof. apply tbl_uint_mul_forms. cbn; tauto. Qed.
Lemma tbl_uint_saturating_mul : tbl_ok "uint.saturating_mul". Proof. apply tbl_uint_mul_forms. cbn; tauto. Qed.
Lemma tbl_uint_mul : tbl_ok "uint.mul". Proof. apply tbl_uint_mul_forms. cbn; tauto. Qed.
Lemma tbl_uint_square_wide : tbl_ok "uint.square_wide". Proof. apply tbl_uint_square_forms. cbn; tauto. Qed.
Lemma tbl_uint_widening_square : tbl_ok "uint.widening_square". Proof. apply tbl_uint_square_forms. cbn; tauto. Qed.
Lemma tbl_uint_wrapping_square : tbl_ok "uint.wrapping_square". Proof. apply tbl_uint_square_forms. cbn; tauto. Qed.
Lemma tbl_uint_checked_square : tbl_ok "uint.checked_square". Proof. apply tbl_uint_square_forms. cbn; tauto. Qed.
Lemma tbl_uint_saturating_square : tbl_ok "uint.saturating_square". Proof. apply tbl_uint_square_forms. cbn; tauto. Qed.
Lemma tbl_boxed_mul : tbl_ok "boxed.mul". Proof. apply tbl_boxed_mul_forms. cbn; tauto. Qed.
Lemma tbl_boxed_wrapping_mul : tbl_ok "boxed.wrapping_mul". Proof. apply tbl_boxed_mul_forms. cbn; tauto. Qed.
Lemma tbl_boxed_checked_mul : tbl_ok "boxed.checked_mul". Proof. apply tbl_boxed_mul_forms. cbn; tauto. Qed.
Lemma tbl_boxed_mul_panicking : tbl_ok "boxed.mul_panicking". Proof. apply tbl_boxed_mul_forms. cbn; tauto. Qed.

(* ------------------------------------------------------------------ the area theorem *)
(** the list of keys IS the key set of the table (in table order) *)
Definition mul_table_keys : list string := map fst ops_mul_model.
Lemma mul_table_keys_spec : map fst ops_mul_spec = mul_table_keys.
Proof. reflexivity. Qed.
Lemma mul_table_keys_count : length mul_table_keys = 20%nat.
Proof. reflexivity. Qed.

Lemma mul_table_keys_groups :
  mul_table_keys = (limb_mul_keys ++ uint_mul_keys ++ uint_square_keys ++ boxed_mul_keys ++ ["boxed.square"%string])%list.
Proof. reflexivity. Qed.

Lemma mul_all_keys_ok : forall k, In k mul_table_keys -> tbl_ok k.
Proof.
  intros k Hin. rewrite mul_table_keys_groups, !in_app_iff in Hin.
  destruct Hin as [H|[H|[H|[H|[<-|[]]]]]];
    auto using tbl_limb, tbl_uint_mul_forms, tbl_uint_square_forms, tbl_boxed_mul_forms, tbl_boxed_square.
Qed.

Theorem mul_tables_agree : forall k dbg a,
  In k (map fst ops_mul_model) -> wf_args a -> typedb mul_tbl_ty k a = true ->
  run_tab ops_mul_spec k dbg a <> Unsupported ->
  run_tab ops_mul_model k dbg a = run_tab ops_mul_spec k dbg a.
Proof. intros k dbg a Hin. exact (mul_all_keys_ok k Hin dbg a). Qed.

(** the key list of C11 (Proofs/TotalityP.v) is the same set of 20 keys *)
Lemma mul_keys_in_table : forall k, In k mul_keys -> In k (map fst ops_mul_model).
Proof. apply sublist_In. vm_compute. reflexivity. Qed.
Lemma table_in_mul_keys : forall k, In k (map fst ops_mul_model) -> In k mul_keys.
Proof. apply sublist_In. vm_compute. reflexivity. Qed.

(** no spec entry of this area ever answers Unsupported: the agreement holds on ALL typed, well-formed arguments *)
Theorem mul_spec_always_defined : forall k dbg a,
  In k (map fst ops_mul_model) -> run_tab ops_mul_spec k dbg a <> Unsupported.
Proof.
  intros k dbg a Hin. cbn [map fst ops_mul_model In] in Hin.
  repeat (destruct Hin as [<- | Hin]; [open_tabs ops_mul_model ops_mul_spec; nu |]); contradiction.
Qed.
