(** C08 proofs, part 1: montgomery_reduction_inner (HAC 14.32 with the meta-carry), sub_mod_with_carry and
    montgomery_reduction, for every limb count.
      Bn n * (upper' + Bn n * meta) = T + U * m   with 0 <= U < Bn n        (mred_inner_correct)
      T < m * R  ->  result < m  /\  result * R = T  (mod m)                   (mont_red_correct) *)
From CB Require Import Model.Limbs Model.AddSub Model.Mul Model.Div Model.ModArith Model.Monty
  Proofs.WordP Proofs.LimbsP Proofs.AddSubP Proofs.ModArithP.
From Coq Require Import ZArith Lia List Bool.
Open Scope Z_scope.

Lemma eval_hd_tl l : eval l = hd 0 l + B * eval (tl l).
Proof. destruct l; cbn [eval hd tl]; lia. Qed.
Lemma wf_tl l : wf l -> wf (tl l).
Proof. destruct l; intros H; [exact H|]. apply wf_cons in H. apply H. Qed.
Lemma wf_hd l : wf l -> is_word (hd 0 l).
Proof. destruct l; intros H; [apply is_word_0|]. apply wf_cons in H. apply H. Qed.
Lemma length_tl (l : list Z) : length (tl l) = (length l - 1)%nat.
Proof. destruct l; simpl; lia. Qed.
Lemma is_word_wmul a b : is_word (wmul a b).
Proof. unfold wmul, wrap. apply is_word_mod. Qed.

Lemma mac_comm a b c k : mac a b c k = mac a c b k.
Proof. unfold mac. rewrite (Z.mul_comm b c). reflexivity. Qed.

(** k = -m0^-1 mod B makes the low word of t0 + m0 * (t0 * k mod B) vanish *)
Lemma neg_inv_kills_low m0 k t0 : (m0 * k + 1) mod B = 0 -> (t0 + m0 * wmul t0 k) mod B = 0.
Proof.
  intros Hk. unfold wmul, wrap. pose proof B_pos.
  rewrite Zplus_mod, Zmult_mod, Z.mod_mod, <- Zmult_mod, <- Zplus_mod by lia.
  replace (t0 + m0 * (t0 * k)) with (t0 * (m0 * k + 1)) by ring.
  rewrite Zmult_mod, Hk, Z.mul_0_r. apply Z.mod_0_l. lia.
Qed.

(** the low word of a carry chain result is the low word of the sum *)
Lemma low_word_of_sum row c N x : wf row -> row <> [] -> eval row + B * N * c = x -> hd 0 row = x mod B.
Proof.
  intros Hw Hne E. destruct row as [|r0 rt]; [contradiction|]. cbn [hd]. cbn [eval] in E.
  apply wf_cons in Hw. destruct Hw as [Hr _]. unfold is_word in Hr. pose proof B_pos.
  apply (Z.mod_unique_pos x B (eval rt + N * c) r0); lia.
Qed.

Lemma Bn_pred n : n <> 0%nat -> Bn n = B * Bn (n - 1).
Proof. intros Hn. destruct n as [|n']; [contradiction|]. rewrite Bn_S. do 2 f_equal. lia. Qed.

(** two exact divisions in a row: a * V1 = V0 + t M and b * V' = V1 + X + U M give (a b) * V' = V0 + a X + (t + a U) M,
    and the quotients t < a, U < b combine to t + a U < a b *)
Lemma quot_chain a b t U V0 V1 V' X M : 0 <= t < a -> 0 <= U < b ->
  a * V1 = V0 + t * M -> b * V' = V1 + X + U * M ->
  0 <= t + a * U < a * b /\ a * b * V' = V0 + a * X + (t + a * U) * M.
Proof.
  intros Ht HU E1 E2. split.
  - assert (a * U <= a * (b - 1)) by (apply Z.mul_le_mono_nonneg_l; lia).
    assert (0 <= a * U) by (apply Z.mul_nonneg_nonneg; lia). lia.
  - rewrite <- Z.mul_assoc, E2, !Z.mul_add_distr_l, E1. ring.
Qed.

Section Rows.
Variables (m : list Z) (k : Z).
Hypothesis Hm : wf m.
Hypothesis Hn : length m <> 0%nat.
Hypothesis Hk : (hd 0 m * k + 1) mod B = 0.

(** the reduction row z + u * m with u = z0 * k: its low word vanishes, the rest is the exact quotient by B *)
Lemma red_row_exact z row c : wf z -> length z = length m ->
  mac_by_limb z m (wmul (hd 0 z) k) 0 = (row, c) ->
  wf (tl row) /\ length (tl row) = (length m - 1)%nat /\ is_word c /\
  B * (eval (tl row) + Bn (length m - 1) * c) = eval z + wmul (hd 0 z) k * eval m.
Proof.
  intros Hz Hl E. set (u := wmul (hd 0 z) k) in *.
  destruct (mac_by_limb_correct z m u 0 row c Hz Hm Hl (is_word_wmul _ _) is_word_0 E) as (Hrow & Hw & Hlr & Hc).
  rewrite Hl, (Bn_pred _ Hn) in Hrow.
  assert (Hrow0 : hd 0 row = 0).
  { assert (Hne : row <> []) by (intros ->; cbn [length] in Hlr; lia).
    rewrite (low_word_of_sum row c _ _ Hw Hne Hrow), (eval_hd_tl z), (eval_hd_tl m). pose proof B_pos.
    replace (hd 0 z + B * eval (tl z) + (hd 0 m + B * eval (tl m)) * u + 0)
      with (hd 0 z + hd 0 m * u + (eval (tl z) + eval (tl m) * u) * B) by ring.
    rewrite Z.mod_add by lia. apply neg_inv_kills_low. assumption. }
  split; [apply wf_tl; assumption|]. split; [rewrite length_tl; lia|]. split; [assumption|].
  pose proof (eval_hd_tl row) as Er. rewrite Hrow0 in Er. lia.
Qed.

Lemma mred_rows_correct : forall cnt t meta t' meta',
  wf t -> length t = (length m + cnt)%nat -> 0 <= meta <= 1 ->
  mred_rows cnt t m k meta = (t', meta') ->
  wf t' /\ length t' = length m /\ 0 <= meta' <= 1 /\
  exists U, 0 <= U < Bn cnt /\
    Bn cnt * (eval t' + Bn (length m) * meta') = eval t + Bn (length m) * meta + U * eval m.
Proof.
  induction cnt as [|c IH]; intros t meta t' meta' Ht Hl Hmeta E.
  - cbn [mred_rows] in E. inv_pair E. repeat split; try lia; try assumption.
    exists 0. rewrite Bn_0. lia.
  - cbn [mred_rows] in E. set (n := length m) in *.
    assert (Hhd : hd 0 t = hd 0 (firstn n t)) by (destruct t, n; try reflexivity; contradiction).
    rewrite Hhd in E. set (u := wmul (hd 0 (firstn n t)) k) in *.
    destruct (mac_by_limb (firstn n t) m u 0) as [row carry] eqn:E1.
    destruct (adc (hd 0 (skipn n t)) carry meta) as [s meta1] eqn:E2.
    assert (HlF : length (firstn n t) = n) by (rewrite firstn_length; lia).
    destruct (red_row_exact _ row carry (wf_firstn n t Ht) HlF E1) as (Hwr & Hlr & Hcarry & Hrow). fold n u in Hlr, Hrow.
    assert (Hrest : wf (skipn n t)) by (apply wf_skipn; assumption).
    pose proof (adc_exact _ _ _ _ _ (wf_hd _ Hrest) Hcarry (is_word_01 _ Hmeta) E2) as (Hs & Hsw & _).
    pose proof (adc_carry_small _ _ _ _ _ (wf_hd _ Hrest) Hcarry Hmeta E2) as Hmeta1.
    assert (Hwt1 : wf (tl row ++ s :: tl (skipn n t))).
    { apply wf_app. split; [assumption|]. apply wf_cons. split; [assumption | apply wf_tl; assumption]. }
    assert (Hlt1 : length (tl row ++ s :: tl (skipn n t)) = (n + c)%nat).
    { rewrite app_length. cbn [length]. rewrite Hlr, length_tl, skipn_length. lia. }
    destruct (IH _ _ _ _ Hwt1 Hlt1 Hmeta1 E) as (Hwt' & Hlt' & Hmeta' & U' & HU' & HE'). fold n in HE'.
    split; [assumption|]. split; [assumption|]. split; [assumption|].
    (* one row divides t + N meta + u m by B exactly *)
    assert (Hstep : B * (eval (tl row ++ s :: tl (skipn n t)) + Bn n * meta1) = eval t + Bn n * meta + u * eval m).
    { rewrite eval_app. cbn [eval]. rewrite Hlr.
      pose proof (eval_firstn_skipn n t) as Et. rewrite HlF, (eval_hd_tl (skipn n t)) in Et.
      rewrite (Bn_pred n Hn) in *. lia. }
    pose proof (is_word_wmul (hd 0 (firstn n t)) k) as Hu. fold u in Hu.
    destruct (quot_chain B (Bn c) u U' _ _ _ 0 (eval m) Hu HU' Hstep ltac:(rewrite HE'; ring)) as [HU HE].
    exists (u + B * U'). rewrite Bn_S. split; [exact HU | lia].
Qed.
End Rows.

Theorem mred_inner_correct lower upper m k up meta :
  wf lower -> wf upper -> wf m -> length lower = length m -> length upper = length m -> length m <> 0%nat ->
  (hd 0 m * k + 1) mod B = 0 ->
  montgomery_reduction_inner lower upper m k = (up, meta) ->
  wf up /\ length up = length m /\ 0 <= meta <= 1 /\
  exists U, 0 <= U < Bn (length m) /\
    Bn (length m) * (eval up + Bn (length m) * meta) = eval lower + Bn (length m) * eval upper + U * eval m.
Proof.
  intros Hlo Hup Hm Hll Hlu Hn Hk E. unfold montgomery_reduction_inner in E.
  assert (Hw : wf (lower ++ upper)) by (apply wf_app; split; assumption).
  assert (Hl : length (lower ++ upper) = (length m + length m)%nat) by (rewrite app_length; lia).
  destruct (mred_rows_correct m k Hm Hn Hk _ _ 0 _ _ Hw Hl ltac:(lia) E) as (A & C & D & U & HU & HE).
  repeat split; try assumption; try lia. exists U. split; [assumption|].
  rewrite HE, eval_app, Hll. lia.
Qed.

Lemma carry_mask_0 borrow : is_word borrow -> wand (wnot (wneg 0)) borrow = borrow.
Proof. intros H. rewrite wneg_0. unfold wnot. rewrite Z.sub_0_r. apply wand_MAXW_l. assumption. Qed.
Lemma carry_mask_1 borrow : wand (wnot (wneg 1)) borrow = 0.
Proof. rewrite wneg_1. unfold wnot. rewrite Z.sub_diag. apply wand_0_l. Qed.

Theorem sub_mod_with_carry_correct a carry b p :
  wf a -> wf b -> wf p -> length a = length b -> length a = length p -> length a <> 0%nat -> 0 <= carry <= 1 ->
  - eval p <= eval a + Bn (length a) * carry - eval b < eval p ->
  eval (sub_mod_with_carry a carry b p) = (eval a + Bn (length a) * carry - eval b) mod eval p
  /\ wf (sub_mod_with_carry a carry b p) /\ length (sub_mod_with_carry a carry b p) = length a.
Proof.
  intros Ha Hb Hp Hlb Hlp Hn Hc HD. unfold sub_mod_with_carry.
  destruct (sbb_limbs a b 0) as [out borrow] eqn:E.
  pose proof (eval_bounds a Ha) as Ba. pose proof (eval_bounds b Hb) as Bb. pose proof (eval_bounds p Hp) as Bp.
  pose proof (sbb_limbs_correct a b 0 out borrow Ha Hb Hlb is_word_0 E) as (Hwo & Hlo & [(Hz & _)|(_ & Hib & He)]);
    [contradiction|].
  rewrite bin_0 in He. pose proof (eval_bounds out Hwo) as Bo. rewrite Hlo in Bo.
  rewrite <- Hlb in Bb. rewrite <- Hlp in Bp. set (N := Bn (length a)) in *.
  assert (carry = 0 \/ carry = 1) as [-> | ->] by lia.
  - rewrite carry_mask_0 by (apply is_borrow_word; assumption).
    pose proof (bitand_limb_borrow p borrow Hp Hib) as (Hpe & Hpw & Hpl).
    pose proof (wrapping_add_spec out (bitand_limb p borrow) Hwo Hpw ltac:(lia)) as (Hre & Hrw & Hrl).
    split; [|split; [assumption | lia]]. rewrite Hre, Hpe, Hlo. fold N.
    destruct Hib as [-> | ->]; rewrite ?bout_0, ?bout_MAXW in *.
    + replace (eval a + N * 0 - eval b) with (eval a - eval b) in * by lia.
      rewrite (Z.mod_small (eval a - eval b)) by lia. rewrite Z.mod_small by lia. lia.
    + replace (eval a + N * 0 - eval b) with (eval a - eval b) in * by lia.
      rewrite (mod_neg_once (eval a - eval b)) by lia. symmetry. apply (Z.mod_unique_pos _ N 1); lia.
  - rewrite carry_mask_1.
    pose proof (bitand_limb_borrow p 0 Hp (or_introl eq_refl)) as (Hpe & Hpw & Hpl).
    pose proof (wrapping_add_spec out (bitand_limb p 0) Hwo Hpw ltac:(lia)) as (Hre & Hrw & Hrl).
    split; [|split; [assumption | lia]]. rewrite Hre, Hpe, Hlo, bout_0. fold N.
    destruct Hib as [-> | ->]; rewrite ?bout_0, ?bout_MAXW in *.
    + lia.
    + rewrite (Z.mod_small (eval a + N * 1 - eval b)) by lia. rewrite Z.mod_small by lia. lia.
Qed.

(** for T < m * R the value before the final subtraction is below 2m, and the result is the canonical residue r with
    r * R = T (mod m) *)
Theorem mont_red_correct lower upper m k :
  wf lower -> wf upper -> wf m -> length lower = length m -> length upper = length m -> length m <> 0%nat ->
  (hd 0 m * k + 1) mod B = 0 ->
  eval lower + Bn (length m) * eval upper < eval m * Bn (length m) ->
  let r := montgomery_reduction lower upper m k in
  wf r /\ length r = length m /\ 0 <= eval r < eval m /\
  (eval r * Bn (length m)) mod eval m = (eval lower + Bn (length m) * eval upper) mod eval m.
Proof.
  intros Hlo Hup Hm Hll Hlu Hn Hk HT. cbv zeta. unfold montgomery_reduction.
  destruct (montgomery_reduction_inner lower upper m k) as [up meta] eqn:E.
  destruct (mred_inner_correct _ _ _ _ _ _ Hlo Hup Hm Hll Hlu Hn Hk E) as (Hwup & Hlup & Hmeta & U & HU & HE).
  set (N := Bn (length m)) in *. set (T := eval lower + N * eval upper) in *. set (M := eval m) in *.
  pose proof (Bn_pos (length m)) as HN. fold N in HN.
  pose proof (eval_nonneg lower Hlo). pose proof (eval_nonneg upper Hup). pose proof (eval_nonneg up Hwup).
  assert (HT0 : 0 <= T) by (unfold T; assert (0 <= N * eval upper) by (apply Z.mul_nonneg_nonneg; lia); lia).
  assert (HM : 0 < M).
  { destruct (Z_lt_ge_dec 0 M); [assumption|]. assert (M * N <= 0) by nia. lia. }
  set (W := eval up + N * meta) in *.
  assert (HW : 0 <= W < 2 * M).
  { split; [unfold W; assert (0 <= N * meta) by (apply Z.mul_nonneg_nonneg; lia); lia|].
    assert (U * M <= (N - 1) * M) by (apply Z.mul_le_mono_nonneg_r; lia).
    assert (N * W < N * (2 * M)) by lia.
    apply Z.mul_lt_mono_pos_l with (p := N); lia. }
  destruct (sub_mod_with_carry_correct up meta m m Hwup Hm Hm ltac:(lia) ltac:(lia) ltac:(lia) Hmeta) as (He & Hw & Hl).
  { rewrite Hlup. fold N M W. lia. }
  rewrite Hlup in He. fold N M W in He.
  split; [assumption|]. split; [lia|].
  pose proof (Z.mod_pos_bound (W - M) M HM). split; [lia|].
  rewrite He. rewrite Zmult_mod, Z.mod_mod, <- Zmult_mod by lia.
  replace ((W - M) * N) with (T + (U - N) * M) by lia.
  apply Z.mod_add. lia.
Qed.

