(** C02: bit-length bookkeeping of the divisor, and the vartime normalisation / denormalisation shifts. *)
From CB Require Import Model.Limbs Model.Div Proofs.WordP Proofs.LimbsP Proofs.BitsP Proofs.DivP Proofs.Rem2kP
  Proofs.KnuthStepP.
From Coq Require Import ZArith Lia List.
Open Scope Z_scope.

Lemma bits_of_spec v : 0 < v -> 1 <= bits_of v /\ 2 ^ (bits_of v - 1) <= v < 2 ^ bits_of v.
Proof.
  intros Hv. unfold bits_of. assert (v <=? 0 = false) as -> by (apply Z.leb_gt; lia).
  pose proof (Z.log2_nonneg v). pose proof (Z.log2_spec v Hv) as [H1 H2].
  replace (Z.log2 v + 1 - 1) with (Z.log2 v) by lia. replace (Z.log2 v + 1) with (Z.succ (Z.log2 v)) by lia.
  repeat split; lia.
Qed.

Lemma bits_of_0 v : v <= 0 -> bits_of v = 0.
Proof. intros. unfold bits_of. assert (v <=? 0 = true) as -> by (apply Z.leb_le; lia). reflexivity. Qed.

(** number of significant limbs and the normalising shift, as computed by the division routines *)
Definition nlimbs (v : Z) : nat := Z.to_nat ((bits_of v + 63) / 64).
Definition nshift (v : Z) : Z := (64 - bits_of v mod 64) mod 64.

Lemma nlimbs_spec v : 0 < v ->
  (1 <= nlimbs v)%nat /\ 0 <= nshift v < 64 /\ nshift v = 64 * Z.of_nat (nlimbs v) - bits_of v /\
  Bn (nlimbs v - 1) <= v < Bn (nlimbs v) /\ Bn (nlimbs v) <= 2 * (v * 2 ^ nshift v) /\ v * 2 ^ nshift v < Bn (nlimbs v).
Proof.
  intros Hv. destruct (bits_of_spec v Hv) as (Hb1 & Hlo & Hhi). unfold nlimbs, nshift.
  set (b := bits_of v) in *.
  pose proof (Z.div_mod (b + 63) 64 ltac:(lia)) as Hdm. pose proof (Z.mod_pos_bound (b + 63) 64 ltac:(lia)) as Hmb.
  set (k := (b + 63) / 64) in *. set (t := (b + 63) mod 64) in *.
  assert (Hk : 1 <= k) by lia.
  (* b = 64 (k - 1) + (t + 1), 1 <= t + 1 <= 64 *)
  assert (Hbm : b mod 64 = (t + 1) mod 64).
  { replace b with ((t + 1) + (k - 1) * 64) by lia. apply Z.mod_add. lia. }
  assert (Hsh : (64 - b mod 64) mod 64 = 63 - t).
  { rewrite Hbm. destruct (Z.eq_dec t 63) as [->|Hne].
    - reflexivity.
    - rewrite (Z.mod_small (t + 1) 64) by lia. rewrite Z.mod_small by lia. lia. }
  rewrite Hsh. rewrite Z2Nat.id by lia.
  assert (Hnat : Z.of_nat (Z.to_nat k - 1) = k - 1) by lia.
  rewrite !Bn_pow2. rewrite Hnat, Z2Nat.id by lia.
  assert (Hs : 63 - t = 64 * k - b) by lia.
  split; [lia|]. split; [lia|]. split; [lia|].
  assert (Hp1 : 2 ^ (64 * (k - 1)) <= 2 ^ (b - 1)) by (apply Z.pow_le_mono_r; lia).
  assert (Hp2 : 2 ^ b <= 2 ^ (64 * k)) by (apply Z.pow_le_mono_r; lia).
  assert (Hp3 : 2 ^ (64 * k) = 2 ^ b * 2 ^ (63 - t)) by (rewrite <- Z.pow_add_r by lia; f_equal; lia).
  assert (Hp4 : 2 ^ b = 2 * 2 ^ (b - 1)) by (rewrite <- Z.pow_succ_r by lia; f_equal; lia).
  assert (Hp5 : 0 < 2 ^ (63 - t)) by (apply Z.pow_pos_nonneg; lia).
  split; [lia|]. rewrite Hp3, Hp4. split.
  - assert (2 ^ (b - 1) * 2 ^ (63 - t) <= v * 2 ^ (63 - t)) by (apply Z.mul_le_mono_nonneg_r; lia). lia.
  - rewrite <- Hp4. apply Z.mul_lt_mono_pos_r; lia.
Qed.

Lemma nlimbs_le_length y : wf y -> 0 < eval y -> (nlimbs (eval y) <= length y)%nat.
Proof.
  intros Hw Hp. destruct (nlimbs_spec _ Hp) as (H1 & _ & _ & [Hlo _] & _).
  pose proof (eval_bounds y Hw) as Hb.
  destruct (le_lt_dec (nlimbs (eval y)) (length y)) as [|Hgt]; [assumption|].
  assert (Bn (length y) <= Bn (nlimbs (eval y) - 1)) by (apply Bn_le; lia). lia.
Qed.

(** the top 64 significant bits of a positive integer, left-aligned: the normalised leading divisor limb *)
Definition top64 (v : Z) : Z := (v * 2 ^ 64) / 2 ^ bits_of v.

Lemma top64_shifted v : 0 < v -> top64 v = (v * 2 ^ nshift v) / Bn (nlimbs v - 1).
Proof.
  intros Hv. destruct (nlimbs_spec v Hv) as (H1 & Hs & Hse & _). destruct (bits_of_spec v Hv) as (Hb1 & _).
  unfold top64. rewrite Bn_pow2.
  set (a := nshift v) in *. set (k := nlimbs v) in *.
  assert (Hb : bits_of v = 64 * Z.of_nat (k - 1) + (64 - a)) by lia.
  rewrite Hb. rewrite Z.pow_add_r by lia.
  replace (2 ^ 64) with (2 ^ a * 2 ^ (64 - a)) by (rewrite <- Z.pow_add_r by lia; f_equal; lia).
  rewrite Z.mul_assoc.
  assert (0 < 2 ^ (64 - a)) by (apply Z.pow_pos_nonneg; lia).
  assert (0 < 2 ^ (64 * Z.of_nat (k - 1))) by (apply Z.pow_pos_nonneg; lia).
  rewrite Z.div_mul_cancel_r by lia. reflexivity.
Qed.

Lemma top64_normalized v : 0 < v -> normalized (top64 v).
Proof.
  intros Hv. rewrite top64_shifted by assumption.
  destruct (nlimbs_spec v Hv) as (H1 & Hs & Hse & _ & Hlo & Hhi).
  set (V := v * 2 ^ nshift v) in *. set (k := nlimbs v) in *.
  assert (Hk : Bn k = B * Bn (k - 1)) by (rewrite <- Bn_S; f_equal; lia).
  pose proof (Bn_pos (k - 1)) as Hp. pose proof B_gt1. pose proof B_half.
  pose proof (Z.div_mod V (Bn (k - 1)) ltac:(lia)) as Hdm. pose proof (Z.mod_pos_bound V (Bn (k - 1)) Hp) as Hmb.
  set (q := V / Bn (k - 1)) in *. unfold normalized. split.
  - destruct (Z_lt_ge_dec (2 * q) B) as [Hlt|]; [|lia]. exfalso.
    assert (2 * q + 2 <= B) by lia.
    assert (Bn (k - 1) * (2 * q + 2) <= Bn (k - 1) * B) by (apply Z.mul_le_mono_nonneg_l; lia). lia.
  - apply Z.div_lt_upper_bound; lia.
Qed.

(** the top limb of a limb list *)
Lemma top_limb_div l a : wf l -> (eval (l ++ [a])) / Bn (length l) = a.
Proof.
  intros Hw. rewrite eval_snoc. pose proof (eval_bounds l Hw). pose proof (Bn_pos (length l)).
  apply (div_mod_unique_pos (Bn (length l)) a (eval l)); lia.
Qed.

(** a top limb carrying the top bit of the whole value is normalised *)
Lemma top_limb_normalized l d : wf l -> is_word d -> Bn (S (length l)) <= 2 * eval (l ++ [d]) -> normalized d.
Proof.
  intros Hw Hd Hlo. unfold normalized. unfold is_word in Hd. split; [|lia].
  pose proof (eval_bounds l Hw) as Hb. rewrite eval_snoc, Bn_S in Hlo.
  pose proof (Bn_pos (length l)) as Hp. pose proof B_half.
  destruct (Z_lt_ge_dec (2 * d) B) as [Hlt|]; [|lia]. exfalso.
  assert (2 * d + 2 <= B) by lia.
  assert (Bn (length l) * (2 * d + 2) <= Bn (length l) * B) by (apply Z.mul_le_mono_nonneg_l; lia). lia.
Qed.

(** the top limb of the normalised divisor is [top64] of the divisor *)
Lemma top_limb_top64 v yw k : 0 < v -> nlimbs v = S k -> wf yw -> length yw = S k -> eval yw = v * 2 ^ nshift v ->
  nthz yw k = top64 v.
Proof.
  intros Hv Hnl Hw Hl He. rewrite top64_shifted, Hnl, <- He by assumption.
  destruct (wf_snoc yw k Hl Hw) as (l & d & -> & Hll & Hwl & _).
  replace (S k - 1)%nat with (length l) by lia.
  rewrite top_limb_div by assumption. apply nthz_app_mid. assumption.
Qed.

(** what a shift by s < 64 pushes out of the top limb is a word *)
Lemma shift_carry_word c s : 0 <= c < 2 ^ s -> 0 <= s < 64 -> is_word c.
Proof.
  intros Hc Hs. unfold is_word. assert (2 ^ s <= 2 ^ 64) by (apply Z.pow_le_mono_r; lia). rewrite B_val. lia.
Qed.

(** a dividend window w < K with the carry x_hi of the normalising shift on top stays below Y * B when the
    normalised divisor Y has its top bit set (K <= 2 Y): the precondition of the first Knuth iteration *)
Lemma window_bound K w x_hi s Y : 0 <= w < K -> 0 <= x_hi < 2 ^ s -> 0 <= s < 64 -> K <= 2 * Y ->
  w + K * x_hi < Y * B.
Proof.
  intros Hw Hx Hs HK. pose proof B_half as Hh. pose proof p63_pos.
  assert (2 ^ s <= 2 ^ 63) by (apply Z.pow_le_mono_r; lia).
  assert (K * (x_hi + 1) <= K * 2 ^ 63) by (apply Z.mul_le_mono_nonneg_l; lia).
  assert (K * 2 ^ 63 <= 2 * Y * 2 ^ 63) by (apply Z.mul_le_mono_nonneg_r; lia).
  rewrite Hh. lia.
Qed.

Lemma recip_new_normalized d : normalized d -> recip_new d = {| r_d := d; r_shift := 0; r_v := reciprocal d |}.
Proof.
  intros [H1 H2]. pose proof B_half. pose proof B_val. pose proof p63_pos.
  assert (Hd : 0 < d) by lia.
  assert (Hl : Z.log2 d = 63).
  { apply Z.log2_unique; [lia|]. split; [lia|]. replace (63 + 1) with 64 by lia. lia. }
  unfold recip_new, leading_zeros_word, bits_of. assert (d <=? 0 = false) as -> by (apply Z.leb_gt; lia).
  rewrite Hl. replace (64 - (63 + 1)) with 0 by lia.
  assert (Hw : wshl d 0 = d) by (unfold wshl, wrap; rewrite Z.pow_0_r, Z.mul_1_r; apply Z.mod_small; lia).
  rewrite Hw. reflexivity.
Qed.

Lemma recip_new_top64 d : 0 < d < B -> r_d (recip_new d) = top64 d.
Proof.
  intros Hd. unfold recip_new, top64, leading_zeros_word. cbn [r_d].
  destruct (bits_of_spec d ltac:(lia)) as (Hb1 & Hlo & Hhi). set (b := bits_of d) in *.
  assert (Hb64 : b <= 64).
  { destruct (Z_lt_ge_dec 64 b); [|lia]. assert (2 ^ 64 <= 2 ^ (b - 1)) by (apply Z.pow_le_mono_r; lia).
    rewrite B_val in Hd. lia. }
  assert (Hp : 2 ^ 64 = 2 ^ (64 - b) * 2 ^ b) by (rewrite <- Z.pow_add_r by lia; f_equal; lia).
  assert (0 < 2 ^ b) by (apply pow2_pos; lia).
  assert (0 < 2 ^ (64 - b)) by (apply Z.pow_pos_nonneg; lia).
  unfold wshl, wrap. rewrite Z.mod_small.
  - rewrite Hp, Z.mul_assoc, Z.div_mul by lia. reflexivity.
  - rewrite B_val, Hp. split; [apply Z.mul_nonneg_nonneg; lia|]. rewrite (Z.mul_comm d). apply Z.mul_lt_mono_pos_l; lia.
Qed.

Lemma shl_limb_vartime_full x s : wf x -> 0 <= s < 64 ->
  let '(r, c) := shl_limb_vartime x s (length x) in
  eval r + Bn (length x) * c = eval x * 2 ^ s /\ wf r /\ length r = length x /\ 0 <= c < 2 ^ s.
Proof.
  intros Hw Hs. unfold shl_limb_vartime. destruct (s =? 0) eqn:Es.
  - apply Z.eqb_eq in Es. subst s. rewrite Z.pow_0_r. repeat split; auto; lia.
  - rewrite firstn_all, Nat.sub_diag.
    pose proof (shl_limb_correct x s Hw Hs) as H. destruct (shl_limb x s) as [r c].
    destruct H as (He & Hwr & Hl & Hc). cbn [zeros repeat]. rewrite app_nil_r. auto.
Qed.

(** a value below B^k sits in the low k limbs *)
Lemma low_limbs_hold y k : wf y -> (k <= length y)%nat -> eval y < Bn k ->
  eval (firstn k y) = eval y /\ eval (skipn k y) = 0.
Proof.
  intros Hw Hk Hlt. pose proof (Bn_pos k) as HBk.
  pose proof (eval_firstn_skipn k y) as Hsplit. rewrite firstn_length_le in Hsplit by assumption.
  pose proof (eval_nonneg _ (wf_firstn k y Hw)) as Hbf. pose proof (eval_nonneg _ (wf_skipn k y Hw)) as Hbs.
  assert (Hsk : eval (skipn k y) = 0).
  { destruct (Z.eq_dec (eval (skipn k y)) 0) as [|Hne]; [assumption|]. exfalso.
    assert (Bn k * 1 <= Bn k * eval (skipn k y)) by (apply Z.mul_le_mono_nonneg_l; lia). lia. }
  split; [lia | assumption].
Qed.

(** the low k limbs hold the whole value and the shifted value still fits k limbs *)
Lemma shl_limb_vartime_low y s k : wf y -> 0 <= s < 64 -> (k <= length y)%nat -> eval y * 2 ^ s < Bn k ->
  exists yw yb, fst (shl_limb_vartime y s k) = yw ++ yb /\ length yw = k /\ wf yw /\ wf yb /\
    eval yw = eval y * 2 ^ s /\ eval yb = 0 /\ length (yw ++ yb) = length y.
Proof.
  intros Hw Hs Hk Hfit. pose proof (Bn_pos k) as HBk.
  assert (H2s : 0 < 2 ^ s) by (apply Z.pow_pos_nonneg; lia).
  assert (Hy1 : eval y < Bn k).
  { assert (eval y * 1 <= eval y * 2 ^ s) by (apply Z.mul_le_mono_nonneg_l; [apply eval_nonneg; assumption | lia]). lia. }
  destruct (low_limbs_hold y k Hw Hk Hy1) as [Hfe Hsk].
  unfold shl_limb_vartime. destruct (s =? 0) eqn:Es.
  - apply Z.eqb_eq in Es. subst s. cbn [fst]. exists (firstn k y), (skipn k y).
    rewrite firstn_skipn, Z.pow_0_r, Z.mul_1_r.
    repeat split; auto using wf_firstn, wf_skipn. apply firstn_length_le. assumption.
  - pose proof (shl_limb_correct (firstn k y) s (wf_firstn k y Hw) Hs) as H.
    destruct (shl_limb (firstn k y) s) as [r c]. rewrite firstn_length_le in H by assumption.
    destruct H as (He & Hwr & Hl & Hc). cbn [fst].
    pose proof (eval_bounds r Hwr) as Hbr. rewrite Hl in Hbr.
    assert (Hc0 : c = 0).
    { destruct (Z.eq_dec c 0) as [|Hne]; [assumption|]. exfalso.
      assert (Bn k * 1 <= Bn k * c) by (apply Z.mul_le_mono_nonneg_l; lia). rewrite Hfe in He. lia. }
    exists r, (zeros (length y - k)). subst c.
    repeat split; auto using wf_zeros, eval_zeros.
    + rewrite Hfe in He. lia.
    + rewrite app_length, length_zeros. lia.
Qed.

Lemma shr_limb_go_correct s : 0 < s < 64 -> forall x, wf x ->
  eval (shr_limb_go x s) * 2 ^ s + (hd 0 x) mod 2 ^ s = eval x /\ wf (shr_limb_go x s) /\
  length (shr_limb_go x s) = length x.
Proof.
  intros Hs x. induction x as [|wd r IH]; intros Hw.
  - cbn [shr_limb_go eval hd length]. rewrite Z.mod_0_l by (apply Z.pow_nonzero; lia). split; [lia|]. split; [apply wf_nil|reflexivity].
  - apply wf_cons in Hw. destruct Hw as [Hwd Hr]. specialize (IH Hr). destruct IH as (IHe & IHw & IHl).
    assert (H2s : 0 < 2 ^ s) by (apply Z.pow_pos_nonneg; lia).
    assert (H2t : 0 < 2 ^ (64 - s)) by (apply Z.pow_pos_nonneg; lia).
    assert (Hp : B = 2 ^ (64 - s) * 2 ^ s) by (rewrite B_val, <- Z.pow_add_r by lia; f_equal; lia).
    pose proof (Z.div_mod wd (2 ^ s) ltac:(lia)) as Hdm. pose proof (Z.mod_pos_bound wd (2 ^ s) H2s) as Hmb.
    assert (Hq : 0 <= wd / 2 ^ s < 2 ^ (64 - s)).
    { unfold is_word in Hwd. split; [apply Z.div_pos; lia | apply Z.div_lt_upper_bound; lia]. }
    assert (Hle : 2 ^ (64 - s) <= B).
    { assert (2 ^ (64 - s) * 1 <= 2 ^ (64 - s) * 2 ^ s) by (apply Z.mul_le_mono_nonneg_l; lia). lia. }
    cbn [shr_limb_go hd eval length]. destruct r as [|nx r'].
    + cbn [shr_limb_go eval]. rewrite Z.lor_0_r. split; [lia|]. split; [|reflexivity].
      apply wf_one. unfold is_word in *. lia.
    + apply wf_cons in Hr. destruct Hr as [Hnx Hr'].
      destruct (wshl_split nx (64 - s) Hnx ltac:(lia)) as (Hsplit & Hhi & _).
      destruct (wshl_mult nx (64 - s) Hnx ltac:(lia)) as (k & Hk & Hk0 & Hkb).
      replace (64 - (64 - s)) with s in * by lia.
      assert (Hlor : Z.lor (wd / 2 ^ s) (wshl nx (64 - s)) = wshl nx (64 - s) + wd / 2 ^ s).
      { rewrite Z.lor_comm, Hk. apply lor_disjoint; lia. }
      rewrite Hlor. cbn [hd] in IHe.
      pose proof (Z.div_mod nx (2 ^ s) ltac:(lia)) as Hdn.
      assert (Hws : wshl nx (64 - s) * 2 ^ s = B * (nx mod 2 ^ s)).
      { assert (nx * 2 ^ (64 - s) * 2 ^ s = (nx / 2 ^ s * B + wshl nx (64 - s)) * 2 ^ s) by (rewrite Hsplit; reflexivity).
        replace (nx * 2 ^ (64 - s) * 2 ^ s) with (nx * B) in * by (rewrite Hp; ring). lia. }
      split; [|split].
      * set (E := eval (shr_limb_go (nx :: r') s)) in *. lia.
      * apply wf_cons. split; [|assumption]. unfold is_word.
        assert (0 <= wshl nx (64 - s)) by (rewrite Hk; apply Z.mul_nonneg_nonneg; lia). lia.
      * cbn [length] in *. lia.
Qed.

Lemma shr_limb_go_div s x : 0 < s < 64 -> wf x -> eval (shr_limb_go x s) = eval x / 2 ^ s.
Proof.
  intros Hs Hw. destruct (shr_limb_go_correct s Hs x Hw) as (He & _).
  assert (H2s : 0 < 2 ^ s) by (apply Z.pow_pos_nonneg; lia).
  pose proof (Z.mod_pos_bound (hd 0 x) (2 ^ s) H2s).
  symmetry. apply (div_mod_unique_pos (2 ^ s) _ (hd 0 x mod 2 ^ s)); lia.
Qed.

(** r = rl ++ tail, |rl| = k, the tail is worth 0: the shifted list is worth eval rl / 2^s and keeps length/wf *)
Lemma shr_limb_vartime_correct rl tl s : wf rl -> wf tl -> eval tl = 0 -> 0 <= s < 64 ->
  let r := shr_limb_vartime (rl ++ tl) s (length rl) in
  eval r = eval rl / 2 ^ s /\ wf r /\ length r = length (rl ++ tl).
Proof.
  intros Hrl Htl Het Hs. unfold shr_limb_vartime. destruct (s =? 0) eqn:Es.
  - apply Z.eqb_eq in Es. subst s. cbv zeta. rewrite eval_app, Het, Z.pow_0_r, Z.div_1_r.
    split; [lia|]. split; [apply wf_app; auto | reflexivity].
  - apply Z.eqb_neq in Es. assert (Hs' : 0 < s < 64) by lia. cbv zeta.
    rewrite firstn_app, Nat.sub_diag, firstn_all. cbn [firstn]. rewrite app_nil_r.
    destruct (shr_limb_go_correct s Hs' rl Hrl) as (_ & Hw & Hl).
    rewrite eval_app, eval_zeros, shr_limb_go_div by assumption.
    split; [lia|]. split; [apply wf_app; auto using wf_zeros|].
    rewrite !app_length, length_zeros, Hl. lia.
Qed.
