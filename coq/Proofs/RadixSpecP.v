(** C17 proofs, part 1: the specification level.  Canonical numerals and their values:
    [value r (numeral r x) = x], numerals are well formed, and the canonical numeral is the fixed-width
    big-endian digit string with its leading zeros stripped (the form both encoders produce). *)
From CB Require Import Model.Limbs Model.Conv Model.Radix Proofs.WordP Proofs.LimbsP Proofs.ConvDigitsP Proofs.ConvBytesP.
From Coq Require Import ZArith Lia List Bool.
Import ListNotations.
Open Scope Z_scope.
Open Scope list_scope.

Fixpoint dropz (ds : list Z) : list Z :=
  match ds with [] => [] | d :: t => if d =? 0 then dropz t else ds end.

Lemma dropz_zeros l m : Forall (fun d => d = 0) l -> dropz (l ++ m) = dropz m.
Proof. induction 1 as [|d l Hd _ IH]; [reflexivity|]. subst d. cbn [app dropz]. exact IH. Qed.
Lemma dropz_all_zeros l : Forall (fun d => d = 0) l -> dropz l = [].
Proof. intros H. rewrite <- (app_nil_r l). rewrite dropz_zeros by assumption. reflexivity. Qed.
Lemma dropz_nil_zeros l : dropz l = [] -> Forall (fun d => d = 0) l.
Proof.
  induction l as [|d l IH]; intros H; [constructor|]. cbn [dropz] in H.
  destruct (Z.eqb_spec d 0); [constructor; auto | discriminate].
Qed.
Lemma dropz_app_nz l m : dropz l <> [] -> dropz (l ++ m) = dropz l ++ m.
Proof.
  induction l as [|d l IH]; intros H; [contradiction|]. cbn [app dropz] in *.
  destruct (d =? 0); [apply IH; assumption | reflexivity].
Qed.
Lemma wfd_dropz b l : wfd b l -> wfd b (dropz l).
Proof.
  induction l as [|d l IH]; intros H; [assumption|]. cbn [dropz].
  destruct (d =? 0); [apply IH; apply wfd_cons in H; tauto | assumption].
Qed.
Lemma evalb_zeros b l : Forall (fun d => d = 0) l -> evalb b l = 0.
Proof. induction 1 as [|d l Hd _ IH]; [reflexivity|]. cbn [evalb]. rewrite IH, Hd. lia. Qed.
Lemma Forall_zero_rev l : Forall (fun d : Z => d = 0) l -> Forall (fun d => d = 0) (rev l).
Proof. apply Forall_rev. Qed.
Lemma digits_zero b k : digits b k 0 = repeat 0 k.
Proof. induction k; cbn [digits repeat]; [reflexivity|]. rewrite Zmod_0_l, Zdiv_0_l, IHk. reflexivity. Qed.
Lemma Forall_zero_repeat k : Forall (fun d : Z => d = 0) (repeat 0 k).
Proof. induction k; cbn [repeat]; constructor; auto. Qed.

Lemma horner_dropz b l : horner b (dropz l) = horner b l.
Proof.
  induction l as [|d l IH]; [reflexivity|]. cbn [dropz]. destruct (Z.eqb_spec d 0) as [->|]; [|reflexivity].
  rewrite IH. unfold horner. cbn [fold_left]. reflexivity.
Qed.

Lemma pow_le_mono_nat b (k m : nat) : 1 <= b -> (k <= m)%nat -> b ^ Z.of_nat k <= b ^ Z.of_nat m.
Proof. intros Hb Hkm. apply Z.pow_le_mono_r; lia. Qed.

Lemma dropz_digits_le r (m m' : nat) x : 2 <= r -> (m <= m')%nat -> 0 <= x < r ^ Z.of_nat m ->
  dropz (rev (digits r m' x)) = dropz (rev (digits r m x)).
Proof.
  intros Hr Hm Hx. replace m' with (m + (m' - m))%nat by lia.
  rewrite digits_app by lia. rewrite (Z.div_small x) by lia.
  rewrite digits_zero, rev_app_distr. apply dropz_zeros. apply Forall_zero_rev, Forall_zero_repeat.
Qed.
Lemma dropz_digits_indep r (m m' : nat) x : 2 <= r -> 0 <= x < r ^ Z.of_nat m -> 0 <= x < r ^ Z.of_nat m' ->
  dropz (rev (digits r m' x)) = dropz (rev (digits r m x)).
Proof.
  intros Hr H1 H2. destruct (Nat.le_ge_cases m m').
  - apply dropz_digits_le; assumption.
  - symmetry. apply dropz_digits_le; assumption.
Qed.

Lemma dropz_digits_pos r (F : nat) x : 2 <= r -> 0 < x < r ^ Z.of_nat F -> dropz (rev (digits r F x)) <> [].
Proof.
  intros Hr Hx E. apply dropz_nil_zeros in E. apply Forall_rev in E. rewrite rev_involutive in E.
  apply (evalb_zeros r) in E. rewrite evalb_digits in E by lia. rewrite Z.mod_small in E by lia. lia.
Qed.

Lemma be_digits_spec r : 2 <= r -> forall (F : nat) x acc, 0 <= x < r ^ Z.of_nat F ->
  be_digits F r x acc = dropz (rev (digits r F x)) ++ acc.
Proof.
  intros Hr. induction F as [|f IH]; intros x acc Hx.
  - reflexivity.
  - cbn [be_digits digits rev]. destruct (Z.eqb_spec x 0) as [->|Hnz].
    + rewrite Zmod_0_l, Zdiv_0_l, digits_zero.
      rewrite (dropz_zeros (rev (repeat 0 f)) [0]) by (apply Forall_zero_rev, Forall_zero_repeat). reflexivity.
    + rewrite pow_S_nat in Hx. pose proof (pow_pos_nat r f ltac:(lia)) as Hp.
      assert (Hq : 0 <= x / r < r ^ Z.of_nat f).
      { split; [apply Z.div_pos; lia | apply Z.div_lt_upper_bound; lia]. }
      rewrite IH by assumption.
      destruct (Z.eqb_spec (x / r) 0) as [E0|Hq0].
      * rewrite E0, digits_zero.
        rewrite (dropz_all_zeros (rev (repeat 0 f))) by (apply Forall_zero_rev, Forall_zero_repeat).
        rewrite (dropz_zeros (rev (repeat 0 f)) [x mod r]) by (apply Forall_zero_rev, Forall_zero_repeat).
        cbn [dropz app].
        assert (x mod r <> 0).
        { pose proof (Z.div_mod x r ltac:(lia)). lia. }
        destruct (Z.eqb_spec (x mod r) 0); [contradiction | reflexivity].
      * rewrite dropz_app_nz by (apply dropz_digits_pos; lia). rewrite <- app_assoc. reflexivity.
Qed.

Lemma digit_char_sp d : digit_char d = sp_digit_char d.
Proof. unfold digit_char, sp_digit_char. destruct (d <? 10); cbv iota; lia. Qed.
Lemma sp_char_val_digit d : 0 <= d < 36 -> sp_char_val (sp_digit_char d) = Some d.
Proof.
  intros Hd. unfold sp_char_val, sp_digit_char. destruct (Z.ltb_spec d 10);
  repeat match goal with |- context [?a <=? ?b] => destruct (Z.leb_spec a b) end; cbn [andb]; try lia; f_equal; lia.
Qed.
Lemma sp_digit_char_zero d : 0 <= d < 36 -> (sp_digit_char d =? 48) = (d =? 0).
Proof. intros Hd. unfold sp_digit_char. destruct (Z.ltb_spec d 10); destruct (Z.eqb_spec d 0); destruct (Z.eqb_spec (48 + d) 48); destruct (Z.eqb_spec (87 + d) 48); lia || reflexivity. Qed.
Lemma sp_digit_char_range d : 0 <= d < 36 -> 48 <= sp_digit_char d <= 122 /\ sp_digit_char d <> 95 /\ sp_digit_char d <> 43.
Proof. intros Hd. unfold sp_digit_char. destruct (Z.ltb_spec d 10); lia. Qed.
Lemma wfd_weaken b b' l : b <= b' -> wfd b l -> wfd b' l.
Proof. intros Hb H. unfold wfd in *. eapply Forall_impl; [|exact H]. cbn. intros; lia. Qed.

Lemma sp_digit_vals_chars ds : wfd 36 ds -> sp_digit_vals (map sp_digit_char ds) = ds.
Proof.
  induction ds as [|d ds IH]; intros H; [reflexivity|]. apply wfd_cons in H. destruct H as [Hd Hw].
  unfold sp_digit_vals in *. cbn [map flat_map]. rewrite sp_char_val_digit by assumption. rewrite IH by assumption. reflexivity.
Qed.

(* strip_zeros on characters = dropz on digits, but at least one character stays *)
Lemma strip_zeros_cons2 c c' t : strip_zeros (c :: c' :: t) = if c =? 48 then strip_zeros (c' :: t) else c :: c' :: t.
Proof. reflexivity. Qed.
Lemma dropz_cons d t : dropz (d :: t) = if d =? 0 then dropz t else d :: t.
Proof. reflexivity. Qed.
Lemma strip_zeros_map ds : ds <> [] -> wfd 36 ds ->
  strip_zeros (map sp_digit_char ds) = match dropz ds with [] => [48] | l => map sp_digit_char l end.
Proof.
  induction ds as [|d ds IH]; intros Hne Hw; [contradiction|].
  apply wfd_cons in Hw. destruct Hw as [Hd Hw].
  destruct ds as [|d' ds'].
  - cbn [map strip_zeros dropz]. destruct (Z.eqb_spec d 0) as [->|]; reflexivity.
  - change (map sp_digit_char (d :: d' :: ds')) with (sp_digit_char d :: sp_digit_char d' :: map sp_digit_char ds').
    rewrite strip_zeros_cons2, sp_digit_char_zero by assumption. rewrite (dropz_cons d).
    destruct (Z.eqb_spec d 0) as [->|Hnz].
    + change (sp_digit_char d' :: map sp_digit_char ds') with (map sp_digit_char (d' :: ds')).
      apply IH; [discriminate | assumption].
    + reflexivity.
Qed.

Lemma log2_fuel r x : 2 <= r -> 0 < x -> 0 <= x < r ^ Z.of_nat (Z.to_nat (Z.log2 x + 1)).
Proof.
  intros Hr Hx. pose proof (Z.log2_nonneg x). rewrite Z2Nat.id by lia.
  pose proof (Z.log2_spec x Hx) as [_ Hhi]. replace (Z.succ (Z.log2 x)) with (Z.log2 x + 1) in Hhi by lia.
  assert (2 ^ (Z.log2 x + 1) <= r ^ (Z.log2 x + 1)) by (apply Z.pow_le_mono_l; lia). lia.
Qed.

(** the canonical numeral is the fixed-width digit string with its leading zeros stripped *)
Theorem numeral_fixed r (m : nat) x : 2 <= r <= 36 -> (1 <= m)%nat -> 0 <= x < r ^ Z.of_nat m ->
  strip_zeros (map sp_digit_char (rev (digits r m x))) = numeral r x.
Proof.
  intros Hr Hm Hx.
  assert (Hw : wfd 36 (rev (digits r m x))) by (apply wfd_rev, (wfd_weaken r); [lia | apply wfd_digits; lia]).
  assert (Hne : rev (digits r m x) <> []).
  { intros E. apply (f_equal (@length Z)) in E. rewrite rev_length, length_digits in E. cbn in E. lia. }
  rewrite strip_zeros_map by assumption. unfold numeral.
  destruct (Z.leb_spec x 0) as [Hx0|Hx0].
  - assert (x = 0) by lia. subst x. rewrite digits_zero.
    rewrite dropz_all_zeros by (apply Forall_zero_rev, Forall_zero_repeat). reflexivity.
  - pose proof (log2_fuel r x ltac:(lia) Hx0) as Hf.
    rewrite be_digits_spec, app_nil_r by (lia || assumption).
    rewrite (dropz_digits_indep r m (Z.to_nat (Z.log2 x + 1)) x) by (lia || assumption).
    pose proof (dropz_digits_pos r m x ltac:(lia) ltac:(lia)). destruct (dropz (rev (digits r m x))); [contradiction | reflexivity].
Qed.

Lemma numeral_pos r x : 2 <= r -> 0 < x ->
  numeral r x = map sp_digit_char (dropz (rev (digits r (Z.to_nat (Z.log2 x + 1)) x))) /\
  dropz (rev (digits r (Z.to_nat (Z.log2 x + 1)) x)) <> [].
Proof.
  intros Hr Hx. unfold numeral. destruct (Z.leb_spec x 0); [lia|].
  pose proof (log2_fuel r x Hr Hx) as Hf.
  rewrite be_digits_spec, app_nil_r by assumption. split; [reflexivity | apply dropz_digits_pos; lia].
Qed.

Lemma sp_body_nosign c t : c <> 43 -> sp_body (c :: t) = c :: t.
Proof.
  intros H. unfold sp_body. destruct c as [|p|p]; try reflexivity.
  do 6 (destruct p as [p|p|]; try reflexivity). contradiction.
Qed.

(** parsing the canonical numeral gives the number back (specification level) *)
Theorem spec_roundtrip r x : 2 <= r <= 36 -> 0 <= x -> value r (numeral r x) = x.
Proof.
  intros Hr Hx. destruct (Z.eq_dec x 0) as [->|Hnz]; [reflexivity|].
  destruct (numeral_pos r x ltac:(lia) ltac:(lia)) as [E Hne]. set (F := Z.to_nat (Z.log2 x + 1)) in *.
  pose proof (log2_fuel r x ltac:(lia) ltac:(lia)) as Hf. fold F in Hf.
  assert (Hw : wfd 36 (dropz (rev (digits r F x)))).
  { apply wfd_dropz, wfd_rev, (wfd_weaken r); [lia | apply wfd_digits; lia]. }
  unfold value. rewrite E.
  destruct (dropz (rev (digits r F x))) as [|d l] eqn:Ed; [contradiction|].
  cbn [map]. rewrite sp_body_nosign.
  2:{ apply wfd_cons in Hw. destruct Hw as [Hd _]. pose proof (sp_digit_char_range d Hd). lia. }
  change (sp_digit_char d :: map sp_digit_char l) with (map sp_digit_char (d :: l)).
  rewrite sp_digit_vals_chars by assumption. rewrite <- Ed, horner_dropz, horner_evalb, rev_involutive.
  rewrite evalb_digits by lia. apply Z.mod_small. lia.
Qed.

Lemma is_digit_of_char r d : 0 <= d < r -> r <= 36 -> is_digit_of r (sp_digit_char d) = true.
Proof. intros Hd Hr. unfold is_digit_of. rewrite sp_char_val_digit by lia. apply Z.ltb_lt. lia. Qed.

(** the canonical numeral is a numeral *)
Lemma last_In_Z (c0 : Z) ct : In (last (c0 :: ct) 0) (c0 :: ct).
Proof.
  revert c0. induction ct as [|c ct IH]; intros c0; [left; reflexivity|].
  change (last (c0 :: c :: ct) 0) with (last (c :: ct) 0). right. apply IH.
Qed.
Lemma digit_string_well_formed r cs : cs <> [] ->
  (forall c, In c cs -> is_digit_of r c = true /\ c <> 95 /\ c <> 43) -> well_formedb r cs = true.
Proof.
  intros Hne Hall. destruct cs as [|c0 ct]; [contradiction|].
  unfold well_formedb. rewrite sp_body_nosign by (apply Hall; left; reflexivity).
  apply andb_true_iff; split; [apply andb_true_iff; split|].
  - destruct (Hall c0 ltac:(left; reflexivity)) as (_ & H95 & _). apply negb_true_iff, Z.eqb_neq. assumption.
  - destruct (Hall _ (last_In_Z c0 ct)) as (_ & H95 & _). apply negb_true_iff, Z.eqb_neq. assumption.
  - apply forallb_forall. intros c Hc. destruct (Hall c Hc) as (Hd & _). rewrite Hd. apply orb_true_r.
Qed.
Theorem numeral_well_formed r x : 2 <= r <= 36 -> 0 <= x -> well_formed r (numeral r x).
Proof.
  intros Hr Hx. unfold well_formed. destruct (Z.eq_dec x 0) as [->|Hnz].
  - unfold numeral, well_formedb. cbn. unfold is_digit_of. cbn. rewrite andb_true_r. apply Z.ltb_lt. lia.
  - destruct (numeral_pos r x ltac:(lia) ltac:(lia)) as [E Hne].
    remember (dropz (rev (digits r (Z.to_nat (Z.log2 x + 1)) x))) as ds eqn:Eds.
    assert (Hw : wfd r ds) by (subst ds; apply wfd_dropz, wfd_rev, wfd_digits; lia).
    rewrite E. apply digit_string_well_formed.
    + destruct ds; [contradiction | discriminate].
    + intros c Hc. apply in_map_iff in Hc. destruct Hc as (d & <- & Hin).
      unfold wfd in Hw. rewrite Forall_forall in Hw. specialize (Hw d Hin).
      split; [apply is_digit_of_char; lia|]. pose proof (sp_digit_char_range d ltac:(lia)). lia.
Qed.
