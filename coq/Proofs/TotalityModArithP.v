(** C11, area modarith (Model/ModArith.v, owner C07): four of the five keys follow from the table lemmas of
    Proofs/ModArithTablesP.v / ModArithTables2P.v; "uint.mul_mod_trait" is proved directly (its table lemma assumes three
    operands of one width, this statement does not). *)
From CB Require Import Model.Limbs Model.AddSub Model.Mul Model.Div Model.ModArith
  Proofs.WordP Proofs.WordPredP Proofs.LimbsP Proofs.TotalityP Proofs.TotalityDivP.
From CB Require Proofs.ModArithTablesP Proofs.ModArithTables2P.
From Coq Require Import ZArith Lia List String Bool.
Open Scope Z_scope.
Notation length := List.length.

Lemma modarith_cover : covers modarith_keys ops_modarith_model = true.
Proof. vm_compute. reflexivity. Qed.
Lemma modarith_quiet : quiet_keys_ok ops_modarith_model ops_modarith_spec modarith_quiet_keys.
Proof. unfold modarith_quiet_keys. quiet_tac ops_modarith_model ops_modarith_spec. Qed.

(** anchor src/uint/mul_mod.rs:62-65, src/uint/boxed/mul_mod.rs:59-62 (finding F2, fixed: `carry + 1` is computed in
    the wide word): the model of the repaired reduction has no trap in either profile; its only panic is the division by
    the zero modulus 2^64 - c at one limb, i.e. c = 0 *)
Theorem mul_mod_special_none_iff dbg mulf a b c :
  mul_mod_special dbg mulf a b c = None <-> length a = 1%nat /\ wsub 0 c = 0.
Proof.
  unfold mul_mod_special. destruct (Nat.eqb_spec (length a) 1) as [H1|H1].
  - destruct (Z.eqb_spec (wsub 0 c) 0) as [E|E].
    + tauto.
    + destruct (mulhilo (nthz a 0) (nthz b 0)). split; [discriminate | tauto].
  - destruct (mulf a b) as [lo hi]. destruct (mac_by_limb lo hi c 0) as [lo' carry].
    destruct (adc_limbs lo' _ 0) as [lo'' carry']. split; [discriminate | tauto].
Qed.
Theorem mul_mod_special_never_panics dbg mulf a b c : 1 <= c < B -> mul_mod_special dbg mulf a b c <> None.
Proof.
  intros Hc E. apply mul_mod_special_none_iff in E. destruct E as [_ E].
  rewrite wsub_val in E by (unfold is_word; pose proof B_pos; lia).
  destruct (c <=? 0) eqn:Ec; [apply Z.leb_le in Ec; lia | lia].
Qed.

Local Ltac start := start_key ops_modarith_model ops_modarith_spec modarith_ty.


Lemma key_uint_mul_mod_special : key_ok ops_modarith_model ops_modarith_spec modarith_ty "uint.mul_mod_special".
Proof. apply key_of_eq. intros dbg a Hwf _. exact (ModArithTables2P.tbl_uint_mul_mod_special_full dbg a Hwf). Qed.
Lemma key_boxed_mul_mod_special : key_ok ops_modarith_model ops_modarith_spec modarith_ty "boxed.mul_mod_special".
Proof. apply key_of_eq. intros dbg a Hwf _. exact (ModArithTables2P.tbl_boxed_mul_mod_special_full dbg a Hwf). Qed.
Lemma key_uint_mul_mod_trait : key_ok ops_modarith_model ops_modarith_spec modarith_ty "uint.mul_mod_trait".
Proof.
  start. change (forallb (fun x => x =? 0) (arg 2 a)) with (is_zero_l (arg 2 a)).
  rewrite is_zero_l_eqb by (apply wf_arg; assumption). unfold ev, rmod.
  destruct (eval (arg 2 a) =? 0); [tauto | split; discriminate].
Qed.
Lemma key_uint_mul_mod : key_ok ops_modarith_model ops_modarith_spec modarith_ty "uint.mul_mod".
Proof. apply key_of_eq. intros dbg a Hwf _. exact (ModArithTablesP.tbl_uint_mul_mod_value_level dbg a). Qed.
Lemma key_boxed_mul_mod : key_ok ops_modarith_model ops_modarith_spec modarith_ty "boxed.mul_mod".
Proof. apply key_of_eq. intros dbg a Hwf _. exact (ModArithTablesP.tbl_boxed_mul_mod_value_level dbg a). Qed.
#[export] Hint Resolve key_uint_mul_mod_special key_boxed_mul_mod_special key_uint_mul_mod_trait key_uint_mul_mod
  key_boxed_mul_mod : c11keys.

