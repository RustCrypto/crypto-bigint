(** Möller–Granlund 2-by-1 division exactly as coded in div2by1 (wrapping q1+1, both masked corrections),
    for a generic base B >= 2 with B <= 2d. *)
From Coq Require Import ZArith Lia.
Open Scope Z_scope.

Section D.
Variable B : Z.
Hypothesis HB : 2 <= B.

Definition div2by1_g (u1 u0 d v : Z) : Z * Z :=
  let q := v * u1 + (u1 * B + u0) in
  let q1 := (q / B) mod B in
  let q0 := q mod B in
  let q1 := (q1 + 1) mod B in
  let r := (u0 - q1 * d) mod B in
  let '(q1, r) := if q0 <? r then ((q1 - 1) mod B, (r + d) mod B) else (q1, r) in
  if d <=? r then ((q1 + 1) mod B, (r - d) mod B) else (q1, r).

Lemma mod_small' a : 0 <= a < B -> a mod B = a.
Proof. intros; apply Z.mod_small; lia. Qed.
Lemma mod_add_B a : -B <= a < 0 -> a mod B = a + B.
Proof. intros. symmetry. apply (Z.mod_unique a B (-1) (a+B)); lia. Qed.
Lemma mod_sub_B a : B <= a < 2*B -> a mod B = a - B.
Proof. intros. symmetry. apply (Z.mod_unique a B 1 (a-B)); lia. Qed.

(** The two masked corrections.  The candidate quotient q1 + 1 (stored modulo B) leaves rt = U - (q1 + 1) d, stored
    modulo B; when rt lies in [-d, B), is below B - d or below q0, and is at least q0 + 1 - B when negative, the test
    q0 < r detects a negative rt and the test d <= r a remainder that is still too large. *)
Lemma corrections d U q1 q0 :
  B <= 2 * d -> d < B -> 0 <= U < d * B -> 0 <= q1 < B -> 0 <= q0 < B ->
  let rt := U - (q1 + 1) * d in
  - d <= rt -> rt < B -> (rt < B - d \/ rt < q0) -> (rt < 0 -> q0 + 1 - B <= rt) ->
  let '(q, r) :=
    (let '(q, r) := if q0 <? rt mod B then (((q1 + 1) mod B - 1) mod B, (rt mod B + d) mod B)
                    else ((q1 + 1) mod B, rt mod B) in
     if d <=? r then ((q + 1) mod B, (r - d) mod B) else (q, r)) in
  U = q * d + r /\ 0 <= r < d /\ 0 <= q < B.
Proof.
  intros Hd1 Hd2 HU Hq1 Hqr rt Hlo Hhi Hhi1 Hlo2.
  destruct (Z_lt_ge_dec rt 0) as [Hneg|Hpos].
  - (* candidate too large by one *)
    rewrite (mod_add_B rt) by lia.
    assert (q0 <? rt + B = true) as -> by (apply Z.ltb_lt; specialize (Hlo2 Hneg); lia).
    assert (Hqm : ((q1 + 1) mod B - 1) mod B = q1).
    { destruct (Z_lt_ge_dec (q1 + 1) B).
      - rewrite (mod_small' (q1 + 1)) by lia. replace (q1 + 1 - 1) with q1 by ring. apply mod_small'; lia.
      - (* q1 + 1 = B wrapped to 0 *)
        replace (q1 + 1) with B by lia. rewrite Z.mod_same, mod_add_B by lia. lia. }
    rewrite Hqm.
    assert (Hrd : (rt + B + d) mod B = rt + d).
    { replace (rt + B + d) with ((rt + d) + 1 * B) by ring. rewrite Z.mod_add by lia. apply mod_small'; lia. }
    rewrite Hrd.
    assert (d <=? rt + d = false) as -> by (apply Z.leb_gt; lia).
    unfold rt. repeat split; try lia.
  - rewrite (mod_small' rt) by lia.
    assert (Hq1lt : q1 + 1 < B).
    { unfold rt in Hpos. destruct (Z_lt_ge_dec (q1+1) B); [lia|].
      assert (B*d <= (q1+1)*d) by (apply Z.mul_le_mono_nonneg_r; lia). lia. }
    rewrite (mod_small' (q1+1)) by lia.
    destruct (q0 <? rt) eqn:Hc.
    + apply Z.ltb_lt in Hc.
      replace (q1 + 1 - 1) with q1 by ring. rewrite (mod_small' q1) by lia.
      assert (rt < B - d) by (destruct Hhi1; lia).
      rewrite (mod_small' (rt + d)) by lia.
      assert (d <=? rt + d = true) as -> by (apply Z.leb_le; lia).
      rewrite (mod_small' (q1+1)) by lia.
      replace (rt + d - d) with rt by ring. rewrite (mod_small' rt) by lia.
      unfold rt in *. repeat split; try lia.
    + apply Z.ltb_ge in Hc.
      destruct (d <=? rt) eqn:Hc2.
      * apply Z.leb_le in Hc2.
        assert (q1 + 2 < B \/ q1 + 2 >= B) as [Hs|Hs] by lia.
        -- rewrite (mod_small' (q1+1+1)) by lia. rewrite (mod_small' (rt - d)) by lia.
           unfold rt in *. repeat split; try lia.
        -- exfalso. unfold rt in *.
           assert (B*d <= (q1+2)*d) by (apply Z.mul_le_mono_nonneg_r; lia). lia.
      * apply Z.leb_gt in Hc2. unfold rt in *. repeat split; lia.
Qed.

(** With k = B^2 - (v + B) d in [1, d] and q = v u1 + u1 B + u0 = q1 B + q0, the candidate remainder
    rt = u1 B + u0 - (q1 + 1) d satisfies  B rt = u0 (B - d) + k u1 + q0 d - B d  (Hkey), which places rt in [-d, B)
    and gives the two facts relating it to q0 that make the tests of [corrections] exact. *)
Lemma div2by1_correct u1 u0 d v :
  B <= 2 * d -> d < B -> 0 <= u1 < d -> 0 <= u0 < B ->
  v = (B * B - 1) / d - B ->
  let '(q, r) := div2by1_g u1 u0 d v in
  u1 * B + u0 = q * d + r /\ 0 <= r < d /\ 0 <= q < B.
Proof.
  intros Hd1 Hd2 Hu1 Hu0 Hv.
  unfold div2by1_g.
  assert (Hdm := Z.div_mod (B*B-1) d ltac:(lia)).
  assert (Hdr := Z.mod_pos_bound (B*B-1) d ltac:(lia)).
  set (k := B*B - (v+B)*d).
  assert (Hk : 1 <= k <= d) by (unfold k; subst v; nia).
  assert (Hvd : (v + B) * d = B*B - k) by (unfold k; lia).
  assert (Hv0 : 0 <= v) by (subst v; apply Zle_minus_le_0; apply Z.div_le_lower_bound; nia).
  set (q := v * u1 + (u1 * B + u0)).
  assert (Hq : 0 <= q < B*B) by (unfold q; nia).
  assert (Hqdm := Z.div_mod q B ltac:(lia)).
  assert (Hqr := Z.mod_pos_bound q B ltac:(lia)).
  set (q1 := q / B) in *. set (q0 := q mod B) in *.
  assert (Hq1 : 0 <= q1 < B) by (unfold q1; split; [apply Z.div_pos; lia | apply Z.div_lt_upper_bound; lia]).
  rewrite (mod_small' q1) by lia.
  (* true candidate remainder *)
  set (rt := u1*B + u0 - (q1+1)*d).
  assert (Hkey : B * rt = u0*(B-d) + k*u1 + q0*d - B*d).
  { unfold rt. assert (q * d = (B*B - k)*u1 + u0*d) by (unfold q; nia). nia. }
  assert (P1 : 0 <= u0*(B-d)) by (apply Z.mul_nonneg_nonneg; lia).
  assert (P2 : 0 <= k*u1) by (apply Z.mul_nonneg_nonneg; lia).
  assert (P3 : 0 <= q0*d) by (apply Z.mul_nonneg_nonneg; lia).
  assert (P4 : u0*(B-d) <= (B-1)*(B-d)) by (apply Z.mul_le_mono_nonneg_r; lia).
  assert (P5 : k*u1 <= d*(d-1)) by (apply Z.mul_le_mono_nonneg; lia).
  assert (P6 : q0*d <= (B-1)*d) by (apply Z.mul_le_mono_nonneg_r; lia).
  assert (Hlo : -d <= rt).
  { assert (0 <= B * (rt + d)) by lia. 
    destruct (Z_lt_ge_dec (rt + d) 0) as [Hn|]; [|lia].
    assert (B * (rt + d) <= B * (-1)) by (apply Z.mul_le_mono_nonneg_l; lia). lia. }
  assert (Hhi1 : rt < B - d \/ rt < q0).
  { destruct (Z_lt_ge_dec rt q0) as [|Hge]; [right; lia|left].
    assert (Q1 : q0 * d <= rt * d) by (apply Z.mul_le_mono_nonneg_r; lia).
    assert (Q2 : (B - d) * rt <= (B - d) * (B - d - 1) - d) by lia.
    destruct (Z_lt_ge_dec rt (B - d)) as [|Hge2]; [lia|].
    assert (Hbd : 0 <= B - d) by lia.
    assert (Q3 : (B - d) * (B - d) <= (B - d) * rt) by (apply Z.mul_le_mono_nonneg_l; lia).
    lia. }
  assert (Hlo2 : rt < 0 -> q0 + 1 - B <= rt).
  { intros Hneg.
    (* B*rt >= q0*d - B*d ; and rt<0 ; want rt >= q0+1-B *)
    destruct (Z_lt_ge_dec rt (q0 + 1 - B)) as [Hl|]; [|lia]. exfalso.
    assert (R1 : B * rt <= B * (q0 - B)) by (apply Z.mul_le_mono_nonneg_l; lia).
    assert (R2 : B * rt >= q0 * d - B * d) by lia.
    (* q0*d - B*d <= B*q0 - B*B  ->  (B - q0) * (B - d) <= 0 but both positive... *)
    assert (R3 : 0 < (B - q0) * (B - d)) by (apply Z.mul_pos_pos; lia).
    lia. }
  assert (Hhi : rt < B) by lia.
  (* r as computed equals rt mod B *)
  assert (Hr : (u0 - ((q1 + 1) mod B) * d) mod B = rt mod B).
  { unfold rt. rewrite Zminus_mod. rewrite Zmult_mod_idemp_l. rewrite <- Zminus_mod.
    replace (u1 * B + u0 - (q1 + 1) * d) with ((u0 - (q1+1)*d) + u1 * B) by ring.
    rewrite Z.mod_add by lia. reflexivity. }
  rewrite Hr.
  apply (corrections d (u1 * B + u0) q1 q0); try assumption; try lia.
  assert (u1 * B <= (d - 1) * B) by (apply Z.mul_le_mono_nonneg_r; lia). lia.
Qed.
End D.
