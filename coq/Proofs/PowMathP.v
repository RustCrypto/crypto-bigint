(** C09 proofs, part 1: the arithmetic behind the value-level Montgomery context of Model/Pow.v
    (R^-1 mod m by halving, -m^-1 mod 2^k, representatives), powmod = Z.pow mod m, window arithmetic on exponents. *)
From CB Require Import Model.Limbs Model.AddSub Model.ModArith Model.Pow Proofs.WordP Proofs.LimbsP Proofs.BitsP.
From CB Require Proofs.MontyNumP.
From Coq Require Import ZArith Lia List Bool Znumtheory.
Open Scope Z_scope.

Lemma pw_Bn_pow' n : Bn n = 2 ^ Z.of_nat (64 * n).
Proof. rewrite Bn_pow2. f_equal. lia. Qed.

Lemma mulmod_l a b m : (a mod m * b) mod m = (a * b) mod m.
Proof. apply Zmult_mod_idemp_l. Qed.
Lemma mulmod_r a b m : (a * (b mod m)) mod m = (a * b) mod m.
Proof. apply Zmult_mod_idemp_r. Qed.
Lemma mulmod_both a b m : ((a mod m) * (b mod m)) mod m = (a * b) mod m.
Proof. symmetry. apply Zmult_mod. Qed.
Lemma mul_cong a a' b b' m : a mod m = a' mod m -> b mod m = b' mod m -> (a * b) mod m = (a' * b') mod m.
Proof. intros Ha Hb. rewrite (Zmult_mod a b), (Zmult_mod a' b'), Ha, Hb. reflexivity. Qed.
Lemma add_cong a a' b b' m : a mod m = a' mod m -> b mod m = b' mod m -> (a + b) mod m = (a' + b') mod m.
Proof. intros Ha Hb. rewrite (Zplus_mod a b), (Zplus_mod a' b'), Ha, Hb. reflexivity. Qed.
Lemma pow_cong a a' e m : 0 <= e -> a mod m = a' mod m -> (a ^ e) mod m = (a' ^ e) mod m.
Proof.
  intros He Ha. revert e He. apply natlike_ind.
  - reflexivity.
  - intros e He IH. rewrite !Z.pow_succ_r by assumption. apply mul_cong; assumption.
Qed.
Lemma powmod_mod a e m : 0 <= e -> ((a mod m) ^ e) mod m = (a ^ e) mod m.
Proof.
  intros He. apply pow_cong; [assumption|]. destruct (Z.eq_dec m 0) as [->|Hm].
  - rewrite !Zmod_0_r. reflexivity.
  - apply Z.mod_mod. assumption.
Qed.

Lemma half_mod_spec m x : 0 < m -> Z.odd m = true -> 0 <= x < m ->
  0 <= half_mod m x < m /\ (2 * half_mod m x = x \/ 2 * half_mod m x = x + m).
Proof. intros Hm Hodd Hx. exact (MontyNumP.half_mod_correct m x Hodd Hm Hx). Qed.

Lemma pow2_inv_spec k m : 0 < m -> Z.odd m = true ->
  0 <= pow2_inv k m < m /\ (2 ^ Z.of_nat k * pow2_inv k m) mod m = 1 mod m.
Proof.
  intros Hm Hodd. unfold pow2_inv. induction k as [|k IH].
  - change (Nat.iter 0 (half_mod m) (1 mod m)) with (1 mod m). change (2 ^ Z.of_nat 0) with 1. rewrite Z.mul_1_l.
    split; [apply Z.mod_pos_bound; lia | apply Z.mod_mod; lia].
  - change (Nat.iter (S k) (half_mod m) (1 mod m)) with (half_mod m (Nat.iter k (half_mod m) (1 mod m))). destruct IH as [Hr He]. set (p := Nat.iter k (half_mod m) (1 mod m)) in *.
    destruct (half_mod_spec m p Hm Hodd Hr) as [Hh Hd]. split; [assumption|].
    rewrite Nat2Z.inj_succ, Z.pow_succ_r by lia.
    replace (2 * 2 ^ Z.of_nat k * half_mod m p) with (2 ^ Z.of_nat k * (2 * half_mod m p)) by ring.
    destruct Hd as [Hd | Hd]; rewrite Hd; [assumption|].
    rewrite Z.mul_add_distr_l, Z.mod_add by lia. assumption.
Qed.

Lemma mg_rinv_spec n m : 0 < m -> Z.odd m = true ->
  0 <= mg_rinv n m < m /\ (Bn n * mg_rinv n m) mod m = 1 mod m.
Proof.
  intros Hm Hodd. unfold mg_rinv. destruct (pow2_inv_spec (64 * n) m Hm Hodd) as [H1 H2]. split; [assumption|].
  rewrite pw_Bn_pow'. assumption.
Qed.

(** -m^-1 mod 2^k from the Bezout identity 2^k * 2^-k - m * m' = 1 *)
Lemma neg_inv_pow2_spec k m : 0 < m -> Z.odd m = true ->
  0 <= neg_inv_pow2 k m < 2 ^ Z.of_nat k /\ (m * neg_inv_pow2 k m + 1) mod 2 ^ Z.of_nat k = 0.
Proof.
  intros Hm Hodd. unfold neg_inv_pow2. destruct (pow2_inv_spec k m Hm Hodd) as [Hr He].
  set (P := 2 ^ Z.of_nat k) in *. set (p := pow2_inv k m) in *.
  assert (HP : 0 < P) by (apply Z.pow_pos_nonneg; lia).
  split; [apply Z.mod_pos_bound; assumption|].
  assert (Hdiv : (P * p - 1) mod m = 0).
  { rewrite Zminus_mod, He, <- Zminus_mod. replace (1 - 1) with 0 by lia. apply Zmod_0_l. }
  pose proof (Z.div_mod (P * p - 1) m ltac:(lia)) as Hdm. rewrite Hdiv in Hdm.
  set (t := (P * p - 1) / m) in *.
  rewrite Zplus_mod, mulmod_r, <- Zplus_mod.
  replace (m * t + 1) with (p * P) by lia. apply Z.mod_mul. lia.
Qed.

Lemma mg_neg_inv_spec m : 0 < m -> Z.odd m = true ->
  is_word (mg_neg_inv m) /\ (m * mg_neg_inv m + 1) mod B = 0.
Proof.
  intros Hm Hodd. unfold mg_neg_inv. pose proof (neg_inv_pow2_spec 64 m Hm Hodd) as H.
  change (2 ^ Z.of_nat 64) with B in H. exact H.
Qed.

Lemma mg_neg_inv_full_spec n m : 0 < m -> Z.odd m = true ->
  0 <= mg_neg_inv_full n m < Bn n /\ (m * mg_neg_inv_full n m + 1) mod Bn n = 0.
Proof.
  intros Hm Hodd. unfold mg_neg_inv_full. pose proof (neg_inv_pow2_spec (64 * n) m Hm Hodd) as H.
  rewrite <- pw_Bn_pow' in H. exact H.
Qed.

Lemma rep_unique R rinv m z v : 0 < m -> (R * rinv) mod m = 1 mod m ->
  0 <= z < m -> (z * rinv) mod m = v mod m -> z = (v * R) mod m.
Proof.
  intros Hm Hr Hz Hv.
  rewrite <- (Z.mod_small z m) at 1 by assumption.
  rewrite <- mulmod_l, <- Hv, mulmod_l.
  replace (z * rinv * R) with (z * (R * rinv)) by ring.
  rewrite <- mulmod_r, Hr, mulmod_r. f_equal. ring.
Qed.

Lemma powmod_pos_correct a p m : powmod_pos a p m = (a ^ Zpos p) mod m.
Proof.
  induction p as [p IH|p IH|].
  - cbn [powmod_pos]. rewrite IH, Pos2Z.inj_xI.
    replace (2 * Z.pos p + 1) with (Z.pos p + Z.pos p + 1) by lia.
    rewrite !Z.pow_add_r, Z.pow_1_r by lia.
    rewrite mulmod_l. apply mul_cong; [symmetry; apply Zmult_mod | reflexivity].
  - cbn [powmod_pos]. rewrite IH, Pos2Z.inj_xO.
    replace (2 * Z.pos p) with (Z.pos p + Z.pos p) by lia.
    rewrite Z.pow_add_r by lia. rewrite <- Zmult_mod. reflexivity.
  - cbn [powmod_pos]. rewrite Z.pow_1_r. reflexivity.
Qed.
Lemma powmod_correct a e m : 0 <= e -> powmod a e m = (a ^ e) mod m.
Proof.
  intros He. destruct e as [|p|p]; [reflexivity | apply powmod_pos_correct | lia].
Qed.

Lemma nthz_eval ls : forall i, wf ls -> nthz ls i = (eval ls / Bn i) mod B.
Proof.
  unfold nthz. induction ls as [|x ls IH]; intros i Hw.
  - destruct i; cbn [nth eval]; rewrite Zdiv_0_l, Zmod_0_l; reflexivity.
  - apply wf_cons in Hw. destruct Hw as [Hx Hl]. unfold is_word in Hx. pose proof B_gt1.
    destruct i as [|i]; cbn [nth eval].
    + rewrite Bn_0, Z.div_1_r. replace (x + B * eval ls) with (x + eval ls * B) by ring.
      rewrite Z.mod_add by lia. symmetry. apply Z.mod_small. lia.
    + rewrite IH by assumption. rewrite Bn_S. rewrite <- Z.div_div by (pose proof (Bn_pos i); lia).
      f_equal. f_equal. replace (x + B * eval ls) with (eval ls * B + x) by ring.
      rewrite Z.div_add_l by lia. rewrite (Z.div_small x B) by lia. lia.
Qed.

Lemma mod_div_pow2 x g k : 0 <= g <= k -> (x mod 2 ^ k) / 2 ^ g = (x / 2 ^ g) mod 2 ^ (k - g).
Proof.
  intros H. replace k with (g + (k - g)) at 1 by lia. rewrite pow2_split by lia.
  assert (0 < 2 ^ g) by (apply Z.pow_pos_nonneg; lia). assert (0 < 2 ^ (k - g)) by (apply Z.pow_pos_nonneg; lia).
  rewrite Z.rem_mul_r by lia.
  replace (x mod 2 ^ g + 2 ^ g * ((x / 2 ^ g) mod 2 ^ (k - g))) with ((x / 2 ^ g) mod 2 ^ (k - g) * 2 ^ g + x mod 2 ^ g) by ring.
  rewrite Z.div_add_l by lia.
  rewrite (Z.div_small (x mod 2 ^ g)) by (apply Z.mod_pos_bound; lia). lia.
Qed.

Lemma window_below x g k : 0 <= g -> g + 4 <= k -> (x / 2 ^ g) mod 16 = ((x mod 2 ^ k) / 2 ^ g) mod 16.
Proof.
  intros Hg Hk. rewrite mod_div_pow2 by lia.
  replace (k - g) with (4 + (k - g - 4)) by lia. rewrite (pow2_split 4 (k - g - 4)) by lia. change (2 ^ 4) with 16.
  assert (0 < 2 ^ (k - g - 4)) by (apply Z.pow_pos_nonneg; lia).
  rewrite Z.rem_mul_r by lia.
  set (y := x / 2 ^ g). replace (y mod 16 + 16 * ((y / 16) mod 2 ^ (k - g - 4))) with (y mod 16 + (y / 16) mod 2 ^ (k - g - 4) * 16) by ring.
  rewrite Z.mod_add by lia. rewrite Z.mod_mod by lia. reflexivity.
Qed.

Lemma word_window x i w : 0 <= x -> (w < 16)%nat ->
  (((x / Bn i) mod B) / 2 ^ (Z.of_nat w * 4)) mod 16 = (x / 2 ^ (64 * Z.of_nat i + 4 * Z.of_nat w)) mod 16.
Proof.
  intros Hx Hw.
  rewrite Bn_pow2. set (g := Z.of_nat w * 4).
  assert (Hg : 0 <= g /\ g + 4 <= 64) by (unfold g; lia).
  rewrite B_val. rewrite mod_div_pow2 by lia.
  rewrite Z.div_div by (try apply Z.pow_pos_nonneg; lia || (pose proof (Z.pow_pos_nonneg 2 (64 * Z.of_nat i)); lia)).
  rewrite <- pow2_split by lia.
  replace (64 * Z.of_nat i + 4 * Z.of_nat w) with (64 * Z.of_nat i + g) by (unfold g; lia).
  replace (64 - g) with (4 + (60 - g)) by lia. rewrite (pow2_split 4 (60 - g)) by lia. change (2 ^ 4) with 16.
  assert (0 < 2 ^ (60 - g)) by (apply Z.pow_pos_nonneg; lia).
  rewrite Z.rem_mul_r by lia.
  set (y := x / 2 ^ (64 * Z.of_nat i + g)). replace (y mod 16 + 16 * ((y / 16) mod 2 ^ (60 - g))) with (y mod 16 + (y / 16) mod 2 ^ (60 - g) * 16) by ring.
  rewrite Z.mod_add by lia. apply Z.mod_mod. lia.
Qed.

Lemma land_15 x : Z.land x 15 = x mod 16.
Proof. change 15 with (Z.ones 4). rewrite Z.land_ones by lia. reflexivity. Qed.
Lemma land_mask x s : 0 <= s -> Z.land x (2 ^ s - 1) = x mod 2 ^ s.
Proof. intros. replace (2 ^ s - 1) with (Z.ones s) by (rewrite Z.ones_equiv; lia). apply Z.land_ones. assumption. Qed.
