(** C11, area mul (Model/Mul.v, owner C03): on the spec's domain every entry of the model table returns what the spec
    entry returns (Proofs/MulTablesP.v), so the panicking `*` forms, which test the high half of the wide product, panic
    exactly on overflow. *)
From CB Require Import Model.Limbs Model.AddSub Model.Mul Proofs.LimbsP Proofs.TotalityP.
From CB Require Proofs.MulTablesP.
From Coq Require Import ZArith Lia List String Bool.
Open Scope Z_scope.
Notation length := List.length.

Lemma mul_cover : covers mul_keys ops_mul_model = true.
Proof. vm_compute. reflexivity. Qed.
Lemma mul_quiet : quiet_keys_ok ops_mul_model ops_mul_spec mul_quiet_keys.
Proof. unfold mul_quiet_keys. quiet_tac ops_mul_model ops_mul_spec. Qed.

(* the typing side condition of [mul_ty] gives the boolean one of [mul_tbl_ty] *)
Lemma limb2_b a : limb2 a -> MulTablesP.ty_limb2 a = true.
Proof. intros [H0 H1]. apply andb_true_intro. split; apply Nat.eqb_eq; assumption. Qed.

Lemma key_limb_mul : key_ok ops_mul_model ops_mul_spec mul_ty "limb.mul".
Proof. apply key_of_eq. intros dbg a Hwf Hty. exact (MulTablesP.tbl_limb_mul dbg a Hwf (limb2_b a Hty)). Qed.
Lemma key_uint_mul : key_ok ops_mul_model ops_mul_spec mul_ty "uint.mul".
Proof. apply key_of_eq. intros dbg a Hwf _. exact (MulTablesP.tbl_uint_mul dbg a Hwf eq_refl). Qed.
Lemma key_boxed_mul_panicking : key_ok ops_mul_model ops_mul_spec mul_ty "boxed.mul_panicking".
Proof. apply key_of_eq. intros dbg a Hwf _. exact (MulTablesP.tbl_boxed_mul_panicking dbg a Hwf eq_refl). Qed.
#[export] Hint Resolve key_limb_mul key_uint_mul key_boxed_mul_panicking : c11keys.

