(** Lemmas about limb lists: eval, to_limbs, resize. *)
From CB Require Import Model.Limbs Proofs.WordP.
From Coq Require Import ZArith Lia List.
Open Scope Z_scope.

Lemma Bn_0 : Bn 0 = 1. Proof. reflexivity. Qed.
Lemma Bn_S n : Bn (S n) = B * Bn n.
Proof. unfold Bn. rewrite Nat2Z.inj_succ, Z.pow_succ_r by lia. reflexivity. Qed.
Lemma Bn_pos n : 0 < Bn n.
Proof. unfold Bn. pose proof B_pos. apply Z.pow_pos_nonneg; lia. Qed.
Lemma Bn_add n m : Bn (n + m) = Bn n * Bn m.
Proof. unfold Bn. rewrite Nat2Z.inj_add, Z.pow_add_r by lia. reflexivity. Qed.
Lemma Bn_1 : Bn 1 = B. Proof. unfold Bn. simpl. apply Z.pow_1_r. Qed.
Lemma Bn_le n m : (n <= m)%nat -> Bn n <= Bn m.
Proof. intros. unfold Bn. pose proof B_gt1. apply Z.pow_le_mono_r; lia. Qed.
Lemma Bn_pow2 n : Bn n = 2 ^ (64 * Z.of_nat n).
Proof. unfold Bn. rewrite B_val, <- Z.pow_mul_r by lia. reflexivity. Qed.
Global Opaque Bn.

Lemma wf_cons x ls : wf (x :: ls) <-> is_word x /\ wf ls.
Proof. unfold wf. split; [intros H; inversion H; auto | intros [? ?]; constructor; auto]. Qed.
Lemma wf_nil : wf []. Proof. constructor. Qed.
Lemma wf_app a b : wf (a ++ b) <-> wf a /\ wf b.
Proof. unfold wf. apply Forall_app. Qed.
Lemma wf_one x : is_word x -> wf [x].
Proof. intros H. apply wf_cons. split; [exact H | apply wf_nil]. Qed.
Lemma wf_rev a : wf a -> wf (rev a).
Proof. unfold wf. apply Forall_rev. Qed.

Lemma eval_bounds ls : wf ls -> 0 <= eval ls < Bn (length ls).
Proof.
  induction ls as [|x ls IH]; intros H; simpl.
  - rewrite Bn_0. lia.
  - apply wf_cons in H. destruct H as [Hx Hl]. specialize (IH Hl). rewrite Bn_S.
    unfold is_word in Hx. pose proof B_pos. nia.
Qed.

Lemma eval_nonneg ls : wf ls -> 0 <= eval ls.
Proof. intros H. apply eval_bounds in H. lia. Qed.

Lemma eval_app a b : eval (a ++ b) = eval a + Bn (length a) * eval b.
Proof.
  induction a as [|x a IH]; simpl.
  - rewrite Bn_0. lia.
  - rewrite IH, Bn_S. ring.
Qed.

Lemma eval_snoc l x : eval (l ++ [x]) = eval l + Bn (length l) * x.
Proof. rewrite eval_app. cbn [eval]. lia. Qed.

Lemma eval_zeros n : eval (zeros n) = 0.
Proof. induction n; simpl; [reflexivity|]. unfold zeros in IHn. rewrite IHn. lia. Qed.
Lemma wf_zeros n : wf (zeros n).
Proof. unfold wf, zeros. apply Forall_forall. intros x Hx. apply repeat_spec in Hx. subst. unfold is_word. pose proof B_pos. lia. Qed.
Lemma length_zeros n : length (zeros n) = n. Proof. apply repeat_length. Qed.

Lemma length_to_limbs n x : length (to_limbs n x) = n.
Proof. revert x; induction n; intros; simpl; [reflexivity | rewrite IHn; reflexivity]. Qed.
Lemma wf_to_limbs n x : wf (to_limbs n x).
Proof. revert x; induction n; intros; simpl; [apply wf_nil | apply wf_cons; split; [apply is_word_mod | apply IHn]]. Qed.

Lemma eval_to_limbs n x : eval (to_limbs n x) = x mod Bn n.
Proof.
  revert x; induction n; intros x; simpl.
  - rewrite Bn_0, Z.mod_1_r. reflexivity.
  - rewrite IHn, Bn_S. pose proof B_pos. pose proof (Bn_pos n).
    rewrite Z.rem_mul_r by lia. reflexivity.
Qed.

Lemma to_limbs_eval ls : wf ls -> to_limbs (length ls) (eval ls) = ls.
Proof.
  induction ls as [|x ls IH]; intros H; simpl; [reflexivity|].
  apply wf_cons in H. destruct H as [Hx Hl]. unfold is_word in Hx. pose proof B_pos.
  assert (Hq : (x + B * eval ls) / B = eval ls /\ (x + B * eval ls) mod B = x).
  { apply div_mod_unique_pos; lia. }
  destruct Hq as [-> ->]. rewrite IH by assumption. reflexivity.
Qed.

Lemma to_limbs_0_zeros n : to_limbs n 0 = zeros n.
Proof.
  induction n as [|n IH]; [reflexivity|]. cbn [to_limbs]. pose proof B_pos.
  rewrite Z.mod_0_l, Z.div_0_l by lia. rewrite IH. reflexivity.
Qed.

Lemma to_limbs_small n x : 0 <= x < Bn n -> eval (to_limbs n x) = x.
Proof. intros. rewrite eval_to_limbs. apply Z.mod_small. assumption. Qed.

(** two well-formed lists of the same length with the same value are equal *)
Lemma eval_inj a b : wf a -> wf b -> length a = length b -> eval a = eval b -> a = b.
Proof.
  intros Ha Hb Hl He. rewrite <- (to_limbs_eval a Ha), <- (to_limbs_eval b Hb), Hl, He. reflexivity.
Qed.

Lemma to_limbs_unique n ls x : wf ls -> length ls = n -> eval ls = x mod Bn n -> ls = to_limbs n x.
Proof.
  intros Hw Hl He. apply eval_inj; auto using wf_to_limbs.
  - rewrite length_to_limbs. assumption.
  - rewrite eval_to_limbs. assumption.
Qed.

Lemma wfb_wf ls : wfb ls = true -> wf ls.
Proof.
  unfold wfb, wf. intros H. apply Forall_forall. intros x Hx.
  rewrite forallb_forall in H. specialize (H x Hx). unfold is_wordb in H.
  apply andb_prop in H. destruct H as [H1 H2]. apply Z.leb_le in H1. apply Z.ltb_lt in H2.
  unfold is_word. lia.
Qed.
Ltac wf_by_compute := apply wfb_wf; vm_compute; reflexivity.

Lemma length_resize n ls : length (resize n ls) = n.
Proof. unfold resize. rewrite firstn_length, app_length, length_zeros. lia. Qed.
Lemma wf_firstn n ls : wf ls -> wf (firstn n ls).
Proof. unfold wf. intros H. rewrite <- (firstn_skipn n ls) in H. apply Forall_app in H. tauto. Qed.
Lemma wf_skipn n ls : wf ls -> wf (skipn n ls).
Proof. unfold wf. intros H. rewrite <- (firstn_skipn n ls) in H. apply Forall_app in H. tauto. Qed.
Lemma wf_resize n ls : wf ls -> wf (resize n ls).
Proof. intros. unfold resize. apply wf_firstn. apply wf_app. split; [assumption | apply wf_zeros]. Qed.

Lemma eval_firstn_skipn n ls : eval ls = eval (firstn n ls) + Bn (length (firstn n ls)) * eval (skipn n ls).
Proof. rewrite <- eval_app, firstn_skipn. reflexivity. Qed.

Lemma eval_firstn n ls : wf ls -> (n <= length ls)%nat -> eval (firstn n ls) = eval ls mod Bn n.
Proof.
  intros Hw Hn. pose proof (eval_firstn_skipn n ls) as E. rewrite firstn_length_le in E by assumption.
  rewrite E. pose proof (Bn_pos n). rewrite (Z.mul_comm (Bn n)), Z.mod_add by lia.
  symmetry. apply Z.mod_small. pose proof (eval_bounds _ (wf_firstn n ls Hw)) as Hb.
  rewrite firstn_length_le in Hb by assumption. assumption.
Qed.

Lemma eval_resize n ls : wf ls -> eval (resize n ls) = eval ls mod Bn n.
Proof.
  intros Hw. unfold resize. rewrite eval_firstn.
  - rewrite eval_app, eval_zeros. f_equal. lia.
  - apply wf_app. split; [assumption | apply wf_zeros].
  - rewrite app_length, length_zeros. lia.
Qed.

Lemma eval_resize_ge n ls : wf ls -> (length ls <= n)%nat -> eval (resize n ls) = eval ls.
Proof.
  intros Hw Hn. rewrite eval_resize by assumption. apply Z.mod_small.
  pose proof (eval_bounds ls Hw). pose proof (Bn_le _ _ Hn). lia.
Qed.

(** two operands padded to the larger of their lengths *)
Lemma resize_max a b : wf a -> wf b -> let n := Nat.max (length a) (length b) in
  wf (resize n a) /\ wf (resize n b) /\ length (resize n a) = length (resize n b) /\
  eval (resize n a) = eval a /\ eval (resize n b) = eval b.
Proof.
  intros Ha Hb n. rewrite !length_resize, !eval_resize_ge by (auto; unfold n; lia). auto using wf_resize.
Qed.

Lemma resize_same ls : resize (length ls) ls = ls.
Proof. unfold resize. rewrite firstn_app, Nat.sub_diag, firstn_all. simpl. apply app_nil_r. Qed.

Lemma eval_one x : eval [x] = x.
Proof. cbn [eval]. lia. Qed.
Lemma to_limbs_1 x : to_limbs 1 x = [x mod B].
Proof. reflexivity. Qed.

(** a well-formed n-limb list whose value is x (reduced or not) is the n-limb encoding of x *)
Lemma limbs_of_mod r n x : wf r -> length r = n -> eval r = x mod Bn n -> r = to_limbs n (x mod Bn n).
Proof.
  intros Hw Hl He. apply to_limbs_unique; auto. pose proof (Bn_pos n). rewrite Z.mod_mod by lia. exact He.
Qed.
Lemma limbs_of_val r n x : wf r -> length r = n -> eval r = x -> r = to_limbs n x.
Proof.
  intros Hw Hl He. apply to_limbs_unique; auto. pose proof (eval_bounds r Hw) as Hb. rewrite Hl, He in Hb.
  rewrite Z.mod_small by lia. exact He.
Qed.

Lemma list_eqb_eq a b : list_eqb a b = true <-> a = b.
Proof.
  revert b. induction a as [|x a IH]; intros [|y b]; cbn [list_eqb]; try (split; [discriminate | congruence]); [tauto|].
  rewrite andb_true_iff, Z.eqb_eq, IH. split; [intros [-> ->]; reflexivity | intros [= -> ->]; auto].
Qed.
Lemma list_eqb_refl l : list_eqb l l = true.
Proof. apply list_eqb_eq. reflexivity. Qed.

(* op tables (Model/Limbs.v): argument access and [lookup] *)
Lemma ev_single i a : length (arg i a) = 1%nat -> ev i a = sarg i a.
Proof.
  unfold ev, sarg, arg. destruct (nth i a []) as [|x [|y l]]; try discriminate. intros _. apply eval_one.
Qed.

Lemma lookup_fst {A} k (t : list (string * A)) : In k (map fst t) -> exists v, lookup k t = Some v.
Proof.
  induction t as [|[k' v] t IH]; cbn [map fst In lookup]; [contradiction|]. intros Hin.
  destruct (String.eqb_spec k k') as [_|Hne]; [exists v; reflexivity|].
  apply IH. destruct Hin; [congruence | assumption].
Qed.
Lemma lookup_snd {A} k (t : list (string * A)) v : lookup k t = Some v -> In v (map snd t).
Proof.
  induction t as [|[k' w] t IH]; cbn [map snd In lookup]; [discriminate|].
  destruct (String.eqb k k'); [intros [= ->]; left; reflexivity | right; apply IH; assumption].
Qed.

Lemma lookup_keyed {A} (Q : string -> A -> Prop) (t : list (string * A)) k :
  Forall (fun kv => Q (fst kv) (snd kv)) t -> In k (map fst t) -> exists v, lookup k t = Some v /\ Q k v.
Proof.
  induction t as [|[k' v] t IH]; cbn [map fst In lookup]; [contradiction|]. intros F Hin.
  apply Forall_cons_iff in F. destruct F as [Hq F]. cbn [fst snd] in Hq.
  destruct (String.eqb_spec k k') as [->|Hne]; [exists v; auto|].
  apply IH; [assumption|]. destruct Hin; [congruence | assumption].
Qed.
Lemma lookup_all {A} (P : A -> Prop) (t : list (string * A)) k :
  Forall P (map snd t) -> In k (map fst t) -> exists v, lookup k t = Some v /\ P v.
Proof.
  intros F Hin. destruct (lookup_fst k t Hin) as (v & E). exists v. split; [exact E|].
  exact (proj1 (Forall_forall _ _) F v (lookup_snd k t v E)).
Qed.

Lemma all_of_sigs {A} (P : A -> Prop) (l : list (sig P)) : forall x, In x (map (@proj1_sig A P) l) -> P x.
Proof. intros x H. apply in_map_iff in H. destruct H as ([y Hy] & <- & _). exact Hy. Qed.
