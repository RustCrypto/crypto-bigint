(** C11, area bits (Model/Bits.v, owner C05): on the spec's domain every entry of the model table returns what the spec
    entry returns (Proofs/BitsTablesP.v), so it panics exactly where the spec says: the `expect` on the option of the shift
    (shift >= BITS), the u32 conversion of the operator forms, `limbs.len() - 1` of bits_vartime and the slice index of
    set_bit_vartime; the inner `expect`s of the constant-time ladder never fire. *)
From CB Require Import Model.Limbs Model.AddSub Model.Bits Proofs.LimbsP Proofs.TotalityP Proofs.BitsTablesP.
From Coq Require Import ZArith Lia List String Bool.
Open Scope Z_scope.
Notation length := List.length.

Lemma bits_quiet : quiet_keys_ok ops_bits_model ops_bits_spec bits_quiet_keys.
Proof. unfold bits_quiet_keys. quiet_tac ops_bits_model ops_bits_spec. Qed.

(* the typing side conditions of [bits_ty] give the boolean ones of [bits_tbl_ty] *)
Lemma bits_u32_b a : bits_u32 a -> u32_bits a = true.
Proof. intros H. apply Z.ltb_lt. exact H. Qed.
Lemma shift_u32_b a : shift_u32 a -> u32_bits_shift a = true.
Proof. intros [H1 H2]. apply andb_true_intro. split; apply Z.ltb_lt; assumption. Qed.
Lemma wide_halves_b a : wide_halves a -> halves_eq a = true.
Proof. intros H. apply Nat.eqb_eq. exact H. Qed.

Lemma key_limb_shl : key_ok ops_bits_model ops_bits_spec bits_ty "limb.shl".
Proof. apply key_of_eq. intros dbg a Hwf Hty. exact (tbl_limb_shl dbg a Hwf eq_refl). Qed.
Lemma key_limb_shr : key_ok ops_bits_model ops_bits_spec bits_ty "limb.shr".
Proof. apply key_of_eq. intros dbg a Hwf Hty. exact (tbl_limb_shr dbg a Hwf eq_refl). Qed.
Lemma key_uint_overflowing_shl : key_ok ops_bits_model ops_bits_spec bits_ty "uint.overflowing_shl".
Proof. apply key_of_eq. intros dbg a Hwf Hty. exact (tbl_uint_overflowing_shl dbg a Hwf (shift_u32_b a Hty)). Qed.
Lemma key_uint_wrapping_shl : key_ok ops_bits_model ops_bits_spec bits_ty "uint.wrapping_shl".
Proof. apply key_of_eq. intros dbg a Hwf Hty. exact (tbl_uint_wrapping_shl dbg a Hwf (shift_u32_b a Hty)). Qed.
Lemma key_uint_shl_vartime : key_ok ops_bits_model ops_bits_spec bits_ty "uint.shl_vartime".
Proof. apply key_of_eq. intros dbg a Hwf Hty. exact (tbl_uint_shl_vartime dbg a Hwf eq_refl). Qed.
Lemma key_uint_shl : key_ok ops_bits_model ops_bits_spec bits_ty "uint.shl".
Proof. apply key_of_eq. intros dbg a Hwf Hty. exact (tbl_uint_shl dbg a Hwf (bits_u32_b a Hty)). Qed.
Lemma key_uint_overflowing_shr : key_ok ops_bits_model ops_bits_spec bits_ty "uint.overflowing_shr".
Proof. apply key_of_eq. intros dbg a Hwf Hty. exact (tbl_uint_overflowing_shr dbg a Hwf (shift_u32_b a Hty)). Qed.
Lemma key_uint_wrapping_shr : key_ok ops_bits_model ops_bits_spec bits_ty "uint.wrapping_shr".
Proof. apply key_of_eq. intros dbg a Hwf Hty. exact (tbl_uint_wrapping_shr dbg a Hwf (shift_u32_b a Hty)). Qed.
Lemma key_uint_shr_vartime : key_ok ops_bits_model ops_bits_spec bits_ty "uint.shr_vartime".
Proof. apply key_of_eq. intros dbg a Hwf Hty. exact (tbl_uint_shr_vartime dbg a Hwf eq_refl). Qed.
Lemma key_uint_shr : key_ok ops_bits_model ops_bits_spec bits_ty "uint.shr".
Proof. apply key_of_eq. intros dbg a Hwf Hty. exact (tbl_uint_shr dbg a Hwf (bits_u32_b a Hty)). Qed.
Lemma key_uint_shl_vartime_wide : key_ok ops_bits_model ops_bits_spec bits_ty "uint.shl_vartime_wide".
Proof. apply key_of_eq. intros dbg a Hwf Hty. exact (tbl_uint_shl_vartime_wide dbg a Hwf (wide_halves_b a Hty)). Qed.
Lemma key_uint_shr_vartime_wide : key_ok ops_bits_model ops_bits_spec bits_ty "uint.shr_vartime_wide".
Proof. apply key_of_eq. intros dbg a Hwf Hty. exact (tbl_uint_shr_vartime_wide dbg a Hwf (wide_halves_b a Hty)). Qed.
Lemma key_int_overflowing_shr : key_ok ops_bits_model ops_bits_spec bits_ty "int.overflowing_shr".
Proof. apply key_of_eq. intros dbg a Hwf Hty. exact (tbl_int_overflowing_shr dbg a Hwf (shift_u32_b a Hty)). Qed.
Lemma key_int_wrapping_shr : key_ok ops_bits_model ops_bits_spec bits_ty "int.wrapping_shr".
Proof. apply key_of_eq. intros dbg a Hwf Hty. exact (tbl_int_wrapping_shr dbg a Hwf (shift_u32_b a Hty)). Qed.
Lemma key_int_shr : key_ok ops_bits_model ops_bits_spec bits_ty "int.shr".
Proof. apply key_of_eq. intros dbg a Hwf Hty. exact (tbl_int_shr dbg a Hwf (bits_u32_b a Hty)). Qed.
Lemma key_int_shr_vartime : key_ok ops_bits_model ops_bits_spec bits_ty "int.shr_vartime".
Proof. apply key_of_eq. intros dbg a Hwf Hty. exact (tbl_int_shr_vartime dbg a Hwf eq_refl). Qed.
Lemma key_boxed_overflowing_shl : key_ok ops_bits_model ops_bits_spec bits_ty "boxed.overflowing_shl".
Proof. apply key_of_eq. intros dbg a Hwf Hty. exact (tbl_boxed_overflowing_shl dbg a Hwf eq_refl). Qed.
Lemma key_boxed_overflowing_shr : key_ok ops_bits_model ops_bits_spec bits_ty "boxed.overflowing_shr".
Proof. apply key_of_eq. intros dbg a Hwf Hty. exact (tbl_boxed_overflowing_shr dbg a Hwf eq_refl). Qed.
Lemma key_boxed_wrapping_shl : key_ok ops_bits_model ops_bits_spec bits_ty "boxed.wrapping_shl".
Proof. apply key_of_eq. intros dbg a Hwf Hty. exact (tbl_boxed_wrapping_shl dbg a Hwf eq_refl). Qed.
Lemma key_boxed_wrapping_shr : key_ok ops_bits_model ops_bits_spec bits_ty "boxed.wrapping_shr".
Proof. apply key_of_eq. intros dbg a Hwf Hty. exact (tbl_boxed_wrapping_shr dbg a Hwf eq_refl). Qed.
Lemma key_boxed_overflowing_shl_opt : key_ok ops_bits_model ops_bits_spec bits_ty "boxed.overflowing_shl_opt".
Proof. apply key_of_eq. intros dbg a Hwf Hty. exact (tbl_boxed_overflowing_shl_opt dbg a Hwf eq_refl). Qed.
Lemma key_boxed_overflowing_shr_opt : key_ok ops_bits_model ops_bits_spec bits_ty "boxed.overflowing_shr_opt".
Proof. apply key_of_eq. intros dbg a Hwf Hty. exact (tbl_boxed_overflowing_shr_opt dbg a Hwf eq_refl). Qed.
Lemma key_boxed_shl : key_ok ops_bits_model ops_bits_spec bits_ty "boxed.shl".
Proof. apply key_of_eq. intros dbg a Hwf Hty. exact (tbl_boxed_shl dbg a Hwf (bits_u32_b a Hty)). Qed.
Lemma key_boxed_shr : key_ok ops_bits_model ops_bits_spec bits_ty "boxed.shr".
Proof. apply key_of_eq. intros dbg a Hwf Hty. exact (tbl_boxed_shr dbg a Hwf (bits_u32_b a Hty)). Qed.
Lemma key_bits_bits_vartime : key_ok ops_bits_model ops_bits_spec bits_ty "bits.bits_vartime".
Proof. apply key_of_eq. intros dbg a Hwf Hty. exact (tbl_bits_bits_vartime dbg a Hwf eq_refl). Qed.
Lemma key_bits_leading_zeros_vartime : key_ok ops_bits_model ops_bits_spec bits_ty "bits.leading_zeros_vartime".
Proof. apply key_of_eq. intros dbg a Hwf Hty. exact (tbl_bits_leading_zeros_vartime dbg a Hwf eq_refl). Qed.
Lemma key_bits_set_bit_vartime : key_ok ops_bits_model ops_bits_spec bits_ty "bits.set_bit_vartime".
Proof. apply key_of_eq. intros dbg a Hwf Hty. exact (tbl_bits_set_bit_vartime dbg a Hwf eq_refl). Qed.

#[export] Hint Resolve key_limb_shl key_limb_shr key_uint_overflowing_shl key_uint_wrapping_shl key_uint_shl_vartime
  key_uint_shl key_uint_overflowing_shr key_uint_wrapping_shr key_uint_shr_vartime key_uint_shr
  key_uint_shl_vartime_wide key_uint_shr_vartime_wide key_int_overflowing_shr key_int_wrapping_shr key_int_shr
  key_int_shr_vartime key_boxed_overflowing_shl key_boxed_overflowing_shr key_boxed_wrapping_shl
  key_boxed_wrapping_shr key_boxed_overflowing_shl_opt key_boxed_overflowing_shr_opt key_boxed_shl key_boxed_shr
  key_bits_bits_vartime key_bits_leading_zeros_vartime key_bits_set_bit_vartime : c11keys.

Theorem bits_panics_iff_documented : panics_iff_documented ops_bits_model ops_bits_spec bits_keys bits_ty.
Proof. apply panics_from_parts; [exact bits_quiet | unfold bits_panic_keys; by_keys]. Qed.

(** the option / flag returning shifts never panic: the variable-time forms and Limb::wrapping_* for ANY argument list;
    the constant-time ladder forms for word limbs, at least one limb, BITS and shift below 2^32 (what u32 enforces) *)
Theorem bits_total_forms_never_panic : total_forms_never_panic ops_bits_model bits_total_keys bits_total_ty.
Proof.
  apply total_forms_Forall. unfold bits_total_keys.
  (* the variable-time forms and Limb::wrapping_* are quiet keys *)
  do 12 (apply Forall_cons;
    [intros dbg a _; refine (proj1 (bits_quiet _ dbg a _)); apply mem_str_In; vm_compute; reflexivity |]).
  (* the constant-time forms: by the first statement, their spec entries being defined (at least one limb) and quiet *)
  repeat (apply Forall_cons;
    [ intros dbg a Hty; open_typed bits_total_ty Hty;
      first [ destruct Hty as (Hwf & Hne & Hty) | destruct Hty as (Hwf & Hne); pose proof I as Hty ];
      apply (total_via _ _ _ _ _ dbg a bits_panics_iff_documented);
      [ apply mem_str_In; vm_compute; reflexivity | exact Hwf | exact Hty
      | open_tabs ops_bits_model ops_bits_spec; unfold nonempty, Bits.ln;
        destruct (arg 0 a); [contradiction Hne; reflexivity|]; cbn [length Nat.eqb]; nu
      | open_tabs ops_bits_model ops_bits_spec; np ] |]).
  apply Forall_nil.
Qed.
