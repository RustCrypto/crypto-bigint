(** C07: the model table and the spec table of Model/ModArith.v agree, key by key, wherever the spec is defined
    (spec entry <> Unsupported), for all well-formed argument lists.  Keys that go through the wide
    multiplication, the Knuth remainder, the 64-bit reciprocal or Montgomery form take the corresponding fact as a
    hypothesis; this is visible in the lemma name (_given_mul, _given_recip, _given_rem). *)
From CB Require Import Model.Limbs Model.AddSub Model.Mul Model.Div Model.ModArith
  Proofs.WordP Proofs.LimbsP Proofs.AddSubP Proofs.DivP Proofs.ModArithP.
From CB Require Proofs.TotalityP.
From Coq Require Import ZArith Lia List Bool String.
Open Scope Z_scope.
Notation length := List.length.

Definition run_op7 (t : list (string * opfn)) (k : string) (dbg : bool) (args : list (list Z)) : outcome :=
  match lookup k t with Some f => f dbg args | None => Unsupported end.
Notation M7 := (run_op7 ops_modarith_model).
Notation S7 := (run_op7 ops_modarith_spec).

Ltac table_open :=
  unfold run_op7;
  lazy beta iota zeta delta [lookup ops_modarith_model ops_modarith_spec String.eqb Ascii.eqb Bool.eqb].

Definition wf_args (a : list (list Z)) : Prop := Forall wf a.

Lemma wf_args_b a : forallb wfb a = true -> wf_args a.
Proof. intros H. apply Forall_forall. intros l Hl. apply wfb_wf. exact (proj1 (forallb_forall wfb a) H l Hl). Qed.

Lemma wf_arg i a : wf_args a -> wf (arg i a).
Proof. exact (TotalityP.wf_arg i a). Qed.

Lemma sarg_range i a : wf_args a -> 0 <= sarg i a < B.
Proof. exact (TotalityP.sarg_word i a). Qed.

(** a well-formed n-limb result whose value is the canonical residue is THE limb list of the spec *)
Lemma canonical_limbs r n x p : wf r -> length r = n -> eval r = x mod p -> 0 < p <= Bn n ->
  r = to_limbs n (x mod p).
Proof.
  intros Hw Hl He Hp. apply to_limbs_unique; auto.
  pose proof (Z.mod_pos_bound x p ltac:(lia)). rewrite Z.mod_small by lia. assumption.
Qed.

(** a concrete run of a key in both tables, from the agreement of the two entries and the value of the spec entry *)
Lemma run_both k dbg a v : (S7 k dbg a <> Unsupported -> M7 k dbg a = S7 k dbg a) -> S7 k dbg a = Val v ->
  M7 k dbg a = Val v /\ S7 k dbg a = Val v.
Proof. intros H E. split; [|exact E]. rewrite H; rewrite E; [reflexivity | discriminate]. Qed.

Ltac dom_hyps H :=
  repeat match type of H with
  | (_ && _)%bool = true => let H1 := fresh H in apply andb_prop in H; destruct H as [H H1]; try dom_hyps H1
  end.
Ltac dom_conv :=
  repeat match goal with
  | H : (_ <? _) = true |- _ => apply Z.ltb_lt in H
  | H : (_ <=? _) = true |- _ => apply Z.leb_le in H
  | H : (_ =? _)%nat = true |- _ => apply Nat.eqb_eq in H
  end.

(** a model result with the exact residue is the spec's [rmod] *)
Lemma val_rmod r n x p : eval r = x mod p /\ wf r /\ length r = n -> 0 < p <= Bn n -> Val [r] = rmod n x p.
Proof. intros (E & W & L) Hp. unfold rmod. do 2 f_equal. apply canonical_limbs; assumption. Qed.

(** what a defined spec entry says of its arguments, for the three domains of Model/ModArith.v *)
Lemma dom2_inv a pi o : dom2 a pi o <> Unsupported ->
  dom2 a pi o = o /\ ev 0 a < ev pi a /\ ev 1 a < ev pi a /\ ln 0 a = ln pi a /\ ln 0 a = ln 1 a.
Proof.
  unfold dom2. destruct (_ && _)%bool eqn:D; [intros _ | intros H; contradiction H; reflexivity].
  dom_hyps D. dom_conv. auto.
Qed.
Lemma dom1_inv a o : dom1 a o <> Unsupported -> dom1 a o = o /\ ev 0 a < ev 1 a /\ ln 0 a = ln 1 a.
Proof.
  unfold dom1. destruct (_ && _)%bool eqn:D; [intros _ | intros H; contradiction H; reflexivity].
  dom_hyps D. dom_conv. auto.
Qed.
Lemma doms_inv a binary c o : doms a binary c o <> Unsupported ->
  doms a binary c o = o /\ 1 <= c < B /\ 0 < psp (ln 0 a) c /\ ev 0 a < psp (ln 0 a) c /\
  (binary = true -> ev 1 a < psp (ln 0 a) c /\ ln 0 a = ln 1 a).
Proof.
  unfold doms. destruct (_ && _)%bool eqn:D; [intros _ | intros H; contradiction H; reflexivity].
  dom_hyps D. dom_conv. do 4 (split; [auto|]). intros ->. dom_hyps D0. dom_conv. auto.
Qed.

Section Entries.
Variable a : list (list Z).
Hypothesis Hwf : wf_args a.

Lemma bound_by_len i : 0 <= eval (arg i a) < Bn (ln i a).
Proof. apply eval_bounds, wf_arg, Hwf. Qed.

Lemma entry_add_mod : let s := dom2 a 2 (rmod (ln 0 a) (ev 0 a + ev 1 a) (ev 2 a)) in
  s <> Unsupported -> Val [add_mod (arg 0 a) (arg 1 a) (arg 2 a)] = s.
Proof.
  cbv zeta. intros H. destruct (dom2_inv _ _ _ H) as (-> & H0 & H1 & L2 & L1).
  pose proof (bound_by_len 0). pose proof (bound_by_len 2). unfold ev, ln in *.
  apply val_rmod; [apply add_mod_correct; auto using wf_arg | rewrite L2; lia].
Qed.

Lemma entry_sub_mod : let s := dom2 a 2 (rmod (ln 0 a) (ev 0 a - ev 1 a) (ev 2 a)) in
  s <> Unsupported -> Val [sub_mod (arg 0 a) (arg 1 a) (arg 2 a)] = s.
Proof.
  cbv zeta. intros H. destruct (dom2_inv _ _ _ H) as (-> & H0 & H1 & L2 & L1).
  pose proof (bound_by_len 0). pose proof (bound_by_len 2). unfold ev, ln in *.
  apply val_rmod; [apply sub_mod_correct; auto using wf_arg | rewrite L2; lia].
Qed.

Lemma entry_double_mod : let s := dom1 a (rmod (ln 0 a) (2 * ev 0 a) (ev 1 a)) in
  s <> Unsupported -> Val [double_mod (arg 0 a) (arg 1 a)] = s.
Proof.
  cbv zeta. intros H. destruct (dom1_inv _ _ H) as (-> & H0 & L1).
  pose proof (bound_by_len 0). pose proof (bound_by_len 1). unfold ev, ln in *.
  apply val_rmod; [apply double_mod_correct; auto using wf_arg | rewrite L1; lia].
Qed.

Lemma entry_neg_mod : let s := dom1 a (rmod (ln 0 a) (- ev 0 a) (ev 1 a)) in
  s <> Unsupported -> Val [neg_mod (arg 0 a) (arg 1 a)] = s.
Proof.
  cbv zeta. intros H. destruct (dom1_inv _ _ H) as (-> & H0 & L1).
  pose proof (bound_by_len 0). pose proof (bound_by_len 1). unfold ev, ln in *.
  apply val_rmod; [apply neg_mod_correct; auto using wf_arg | rewrite L1; lia].
Qed.

Lemma entry_add_mod_special : let c := sarg 2 a in
  let s := doms a true c (rmod (ln 0 a) (ev 0 a + ev 1 a) (psp (ln 0 a) c)) in
  s <> Unsupported -> Val [add_mod_special (arg 0 a) (arg 1 a) c] = s.
Proof.
  cbv zeta. intros H. destruct (doms_inv _ _ _ _ H) as (-> & Hc & Hp & H0 & Hb). destruct (Hb eq_refl) as [H1 L1].
  unfold ev, ln in *. apply val_rmod; [apply add_mod_special_correct; auto using wf_arg | unfold psp in *; lia].
Qed.

Lemma entry_sub_mod_special : let c := sarg 2 a in
  let s := doms a true c (rmod (ln 0 a) (ev 0 a - ev 1 a) (psp (ln 0 a) c)) in
  s <> Unsupported -> Val [sub_mod_special (arg 0 a) (arg 1 a) c] = s.
Proof.
  cbv zeta. intros H. destruct (doms_inv _ _ _ _ H) as (-> & Hc & Hp & H0 & Hb). destruct (Hb eq_refl) as [H1 L1].
  unfold ev, ln in *. apply val_rmod; [apply sub_mod_special_correct; auto using wf_arg | unfold psp in *; lia].
Qed.

Lemma entry_neg_mod_special : let c := sarg 1 a in
  let s := doms a false c (rmod (ln 0 a) (- ev 0 a) (psp (ln 0 a) c)) in
  s <> Unsupported -> Val [neg_mod_special (arg 0 a) c] = s.
Proof.
  cbv zeta. intros H. destruct (doms_inv _ _ _ _ H) as (-> & Hc & Hp & H0 & _).
  unfold ev, ln in *. apply val_rmod; [apply neg_mod_special_correct; auto using wf_arg | unfold psp in *; lia].
Qed.

Lemma entry_mul_mod_special_given_mul_recip dbg mulf : let c := sarg 2 a in
  let s := doms a true c (rmod (ln 0 a) (ev 0 a * ev 1 a) (psp (ln 0 a) c)) in
  split_mul_ok mulf (arg 0 a) (arg 1 a) ->
  recip_ok (r_d (recip_new (B - c))) (reciprocal (r_d (recip_new (B - c)))) ->
  s <> Unsupported -> vpanic_none (mul_mod_special dbg mulf (arg 0 a) (arg 1 a) c) = s.
Proof.
  cbv zeta. intros Hmul Hrec H. destruct (doms_inv _ _ _ _ H) as (-> & Hc & Hp & H0 & Hb). destruct (Hb eq_refl) as [H1 L1].
  unfold ev, ln in *.
  destruct (mul_mod_special_all_widths_given_mul_recip dbg mulf (arg 0 a) (arg 1 a) (sarg 2 a))
    as (r & -> & Hr); auto using wf_arg.
  apply val_rmod; [exact Hr | unfold psp in *; lia].
Qed.
End Entries.

(** what is assumed of the wide remainder (Knuth loop of rem_wide_vartime, C02) for the modulus p *)
Definition rem_wide_ok (p : list Z) : Prop :=
  forall lo hi, wf lo -> wf hi -> length lo = length p -> length hi = length p ->
    let r := rem_wide_vartime lo hi p in
    wf r /\ length r = length p /\ eval r = (eval lo + Bn (length p) * eval hi) mod eval p.

Section MulEntries.
Variable a : list (list Z).
Hypothesis Hwf : wf_args a.

Lemma mul_mod_vartime_given_mul_rem :
  split_mul_ok uint_split_mul (arg 0 a) (arg 1 a) -> rem_wide_ok (arg 2 a) -> ln 0 a = ln 2 a -> ev 2 a <> 0 ->
  uint_mul_mod_vartime (arg 0 a) (arg 1 a) (arg 2 a) = to_limbs (ln 0 a) ((ev 0 a * ev 1 a) mod ev 2 a).
Proof.
  intros Hmul Hrem Hl Hnz. unfold uint_mul_mod_vartime, ev, ln in *.
  destruct (uint_split_mul (arg 0 a) (arg 1 a)) as [lo hi] eqn:Em.
  destruct (Hmul lo hi Em) as (Hwlo & Hwhi & Hllo & Hlhi & Hprod).
  destruct (Hrem lo hi Hwlo Hwhi ltac:(lia) ltac:(lia)) as (Hw & Hlr & He).
  pose proof (eval_bounds _ (wf_arg 2 a Hwf)) as Bp.
  pose proof (eval_nonneg _ (wf_arg 2 a Hwf)).
  apply canonical_limbs.
  - exact Hw.
  - lia.
  - rewrite He, <- Hl, Hprod. reflexivity.
  - rewrite Hl. lia.
Qed.

Lemma entry_mul_mod_vartime_given_mul_rem :
  let s := if ev 2 a =? 0 then Unsupported else rmod (ln 0 a) (ev 0 a * ev 1 a) (ev 2 a) in
  split_mul_ok uint_split_mul (arg 0 a) (arg 1 a) -> rem_wide_ok (arg 2 a) -> ln 0 a = ln 2 a ->
  s <> Unsupported -> Val [uint_mul_mod_vartime (arg 0 a) (arg 1 a) (arg 2 a)] = s.
Proof.
  cbv zeta. intros Hmul Hrem Hl. destruct (ev 2 a =? 0) eqn:Ez; [intros H; contradiction H; reflexivity | intros _].
  apply Z.eqb_neq in Ez. unfold rmod. rewrite mul_mod_vartime_given_mul_rem by assumption. reflexivity.
Qed.

Lemma entry_mul_mod_trait_given_mul_rem :
  let s := if ev 2 a =? 0 then PanicV else rmod (ln 0 a) (ev 0 a * ev 1 a) (ev 2 a) in
  split_mul_ok uint_split_mul (arg 0 a) (arg 1 a) -> rem_wide_ok (arg 2 a) -> ln 0 a = ln 2 a ->
  (if forallb (fun x => x =? 0) (arg 2 a) then PanicV else Val [uint_mul_mod_vartime (arg 0 a) (arg 1 a) (arg 2 a)]) = s.
Proof.
  cbv zeta. intros Hmul Hrem Hl. rewrite forallb_zero_eval by (apply wf_arg; assumption). fold (ev 2 a).
  destruct (ev 2 a =? 0) eqn:Ez; [reflexivity|].
  apply Z.eqb_neq in Ez. unfold rmod. rewrite mul_mod_vartime_given_mul_rem by assumption. reflexivity.
Qed.
End MulEntries.

(* ------------------------------------------------------------------ *)
(** * Per-key statements *)

Section Keys.
Variables (dbg : bool) (a : list (list Z)).
Hypothesis Hwf : wf_args a.


(** mul_mod_vartime / MulMod trait: given the wide product (C03) and the wide Knuth remainder (C02) *)
Lemma tbl_uint_mul_mod_vartime_given_mul_rem :
  split_mul_ok uint_split_mul (arg 0 a) (arg 1 a) -> rem_wide_ok (arg 2 a) -> ln 0 a = ln 2 a ->
  S7 "uint.mul_mod_vartime" dbg a <> Unsupported -> M7 "uint.mul_mod_vartime" dbg a = S7 "uint.mul_mod_vartime" dbg a.
Proof. intros Hm Hr Hl. table_open. apply (entry_mul_mod_vartime_given_mul_rem a Hwf Hm Hr Hl). Qed.
Lemma tbl_uint_mul_mod_trait_given_mul_rem :
  split_mul_ok uint_split_mul (arg 0 a) (arg 1 a) -> rem_wide_ok (arg 2 a) -> ln 0 a = ln 2 a ->
  M7 "uint.mul_mod_trait" dbg a = S7 "uint.mul_mod_trait" dbg a.
Proof. intros Hm Hr Hl. table_open. apply (entry_mul_mod_trait_given_mul_rem a Hwf Hm Hr Hl). Qed.

(** mul_mod (Montgomery route, C08): the model entry is value-level by design, so the table statement carries no
    algorithmic content; it only records that the panic/unsupported split of the two tables is consistent *)
Lemma tbl_uint_mul_mod_value_level :
  S7 "uint.mul_mod" dbg a <> Unsupported -> M7 "uint.mul_mod" dbg a = S7 "uint.mul_mod" dbg a.
Proof. table_open. unfold rmod. destruct (Z.even (ev 2 a)); [intros H; contradiction H|]; reflexivity. Qed.
Lemma tbl_boxed_mul_mod_value_level :
  S7 "boxed.mul_mod" dbg a <> Unsupported -> M7 "boxed.mul_mod" dbg a = S7 "boxed.mul_mod" dbg a.
Proof.
  table_open. unfold rmod. destruct (Z.even (ev 2 a)); [intros H; contradiction H; reflexivity|].
  destruct (_ && _)%bool; [reflexivity | intros H; contradiction H; reflexivity].
Qed.
End Keys.

(** all keys that do not depend on multiplication / division, in one statement *)
Definition addsubneg_keys : list string :=
  ["uint.add_mod"; "uint.double_mod"; "uint.add_mod_special"; "uint.sub_mod"; "uint.sub_mod_special";
   "uint.neg_mod"; "uint.neg_mod_special"; "boxed.add_mod"; "boxed.double_mod"; "boxed.sub_mod";
   "boxed.sub_mod_special"; "boxed.neg_mod"; "boxed.neg_mod_special"]%string.

(** membership of a literal key by evaluation of the string comparisons (an explicit [In] proof carries the whole list in
    the type of every [or_intror]) *)
Lemma In_keys k (l : list string) : existsb (String.eqb k) l = true -> In k l.
Proof. intros H. apply existsb_exists in H. destruct H as (x & Hx & E). apply String.eqb_eq in E. subst x. exact Hx. Qed.

Theorem tables_agree_addsubneg dbg a k : wf_args a -> In k addsubneg_keys ->
  S7 k dbg a <> Unsupported -> M7 k dbg a = S7 k dbg a.
Proof.
  intros Hwf Hin. unfold addsubneg_keys in Hin. cbn [In] in Hin.
  repeat (destruct Hin as [<- | Hin];
    [table_open;
     first [ apply (entry_add_mod a Hwf) | apply (entry_sub_mod a Hwf) | apply (entry_double_mod a Hwf)
           | apply (entry_neg_mod a Hwf) | apply (entry_add_mod_special a Hwf) | apply (entry_sub_mod_special a Hwf)
           | apply (entry_neg_mod_special a Hwf) ] |]).
  contradiction.
Qed.
