(** C18 proofs, part 1: big-endian octet strings, minimal representations, the canonical DER content
    and the specification-level decoders of Model/Der.v. *)
From CB Require Import Model.Limbs Model.Conv Model.Der Proofs.BitLenP Proofs.WordP Proofs.LimbsP Proofs.ConvDigitsP Proofs.ConvBytesP.
From Coq Require Import ZArith Lia List Bool.
Import ListNotations.
Open Scope Z_scope.
Open Scope list_scope.

Lemma ltb_false a b : b <= a -> (a <? b) = false. Proof. intros. apply Z.ltb_ge. assumption. Qed.
Lemma ltb_true a b : a < b -> (a <? b) = true. Proof. intros. apply Z.ltb_lt. assumption. Qed.
Lemma leb_true a b : a <= b -> (a <=? b) = true. Proof. intros. apply Z.leb_le. assumption. Qed.
Lemma leb_false a b : b < a -> (a <=? b) = false. Proof. intros. apply Z.leb_gt. assumption. Qed.
Lemma eqb_false a b : a <> b -> (a =? b) = false. Proof. intros. apply Z.eqb_neq. assumption. Qed.

(** value of a big-endian octet string *)
Definition bev (bs : list Z) : Z := evalb 256 (rev bs).

Lemma horner_bev bs : horner 256 bs = bev bs.
Proof. apply horner_evalb. Qed.
Lemma bev_nil : bev [] = 0. Proof. reflexivity. Qed.
Lemma bev_app x y : bev (x ++ y) = bev x * 256 ^ Z.of_nat (length y) + bev y.
Proof. unfold bev. rewrite rev_app_distr, evalb_app, rev_length. ring. Qed.
Lemma bev_cons b r : bev (b :: r) = b * 256 ^ Z.of_nat (length r) + bev r.
Proof. change (b :: r) with ([b] ++ r). rewrite bev_app. unfold bev at 1. cbn [rev app evalb]. ring. Qed.
Lemma bev_single b : bev [b] = b.
Proof. rewrite bev_cons. cbn [length]. change (Z.of_nat 0) with 0. rewrite Z.pow_0_r, bev_nil. ring. Qed.
Lemma bev_bounds bs : wfd 256 bs -> 0 <= bev bs < 256 ^ Z.of_nat (length bs).
Proof. intros H. unfold bev. rewrite <- (rev_length bs). apply evalb_bounds; [reflexivity | apply wfd_rev; assumption]. Qed.
Lemma bev_zeros k : bev (zeros k) = 0.
Proof.
  unfold bev, zeros. assert (E : rev (repeat 0 k) = repeat 0 k).
  { induction k; [reflexivity|]. cbn [repeat rev]. rewrite IHk. clear. induction k; [reflexivity|]. cbn [repeat app]. rewrite IHk. reflexivity. }
  rewrite E. apply evalb_repeat0.
Qed.
Lemma bev_zeros_app k u : bev (zeros k ++ u) = bev u.
Proof. rewrite bev_app, bev_zeros. ring. Qed.
Lemma wfd_zeros k : wfd 256 (zeros k).
Proof. unfold zeros. induction k; cbn [repeat]; [apply wfd_nil | apply wfd_cons; split; [lia | assumption]]. Qed.
Lemma lenZ_nonneg (bs : list Z) : 0 <= lenZ bs. Proof. unfold lenZ. lia. Qed.
Lemma lenZ_cons b (r : list Z) : lenZ (b :: r) = 1 + lenZ r. Proof. unfold lenZ. cbn [length]. lia. Qed.
Lemma lenZ_app (x y : list Z) : lenZ (x ++ y) = lenZ x + lenZ y. Proof. unfold lenZ. rewrite app_length. lia. Qed.

Lemma pow256_pos (k : nat) : 0 < 256 ^ Z.of_nat k. Proof. apply pow_pos_nat. reflexivity. Qed.
Lemma pow256_2 k : 0 <= k -> 256 ^ k = 2 ^ (8 * k).
Proof. intros. change 256 with (2 ^ 8). rewrite <- Z.pow_mul_r by lia. reflexivity. Qed.

Lemma bev_head_window b r lo hi : wfd 256 (b :: r) -> 0 <= lo <= hi -> 2 ^ lo <= b < 2 ^ hi ->
  0 < bev (b :: r) /\ 2 ^ (8 * lenZ r + lo) <= bev (b :: r) < 2 ^ (8 * lenZ r + hi).
Proof.
  intros H Hlo Hb. apply wfd_cons in H. destruct H as [_ Hr]. pose proof (bev_bounds r Hr).
  rewrite bev_cons. unfold lenZ. rewrite !Z.pow_add_r, <- pow256_2 by lia.
  pose proof (pow256_pos (length r)). pose proof (Z.pow_pos_nonneg 2 lo). set (P := 256 ^ Z.of_nat (length r)) in *.
  assert (P * 2 ^ lo <= b * P) by (rewrite Z.mul_comm; apply Z.mul_le_mono_nonneg_r; lia).
  assert ((b + 1) * P <= P * 2 ^ hi) by (rewrite (Z.mul_comm P); apply Z.mul_le_mono_nonneg_r; lia).
  lia.
Qed.
Lemma length_sp_be k x : length (sp_be k x) = Z.to_nat k.
Proof. unfold sp_be. rewrite rev_length. apply length_digits. Qed.
Lemma lenZ_sp_be k x : 0 <= k -> lenZ (sp_be k x) = k.
Proof. intros. unfold lenZ. rewrite length_sp_be. lia. Qed.
Lemma wfd_sp_be k x : wfd 256 (sp_be k x).
Proof. unfold sp_be. apply wfd_rev, wfd_digits. reflexivity. Qed.
Lemma bev_sp_be k x : 0 <= k -> bev (sp_be k x) = x mod 256 ^ k.
Proof. intros. unfold bev, sp_be. rewrite rev_involutive, evalb_digits by reflexivity. rewrite Z2Nat.id by assumption. reflexivity. Qed.
Lemma bev_sp_be_small k x : 0 <= k -> 0 <= x < 256 ^ k -> bev (sp_be k x) = x.
Proof. intros. rewrite bev_sp_be by assumption. apply Z.mod_small. assumption. Qed.
Lemma sp_be_bev bs : wfd 256 bs -> sp_be (lenZ bs) (bev bs) = bs.
Proof.
  intros H. unfold sp_be, bev, lenZ. rewrite Nat2Z.id, <- (rev_length bs).
  rewrite digits_evalb by (reflexivity || apply wfd_rev; assumption). apply rev_involutive.
Qed.
Lemma be_unique a b : wfd 256 a -> wfd 256 b -> length a = length b -> bev a = bev b -> a = b.
Proof. intros Ha Hb Hl He. rewrite <- (sp_be_bev a Ha), <- (sp_be_bev b Hb). unfold lenZ. rewrite Hl, He. reflexivity. Qed.
Lemma sp_be_positional k x i : (i < Z.to_nat k)%nat ->
  nth i (sp_be k x) 0 = (x / 256 ^ (k - 1 - Z.of_nat i)) mod 256.
Proof.
  intros Hi. unfold sp_be. rewrite nth_rev_lt by (rewrite length_digits; assumption).
  rewrite length_digits, nth_digits by (reflexivity || lia). do 3 f_equal. lia.
Qed.
Lemma sp_be_S k x : 0 <= k -> sp_be (k + 1) x = ((x / 256 ^ k) mod 256) :: sp_be k x.
Proof.
  intros Hk. unfold sp_be. replace (Z.to_nat (k + 1)) with (Z.to_nat k + 1)%nat by lia.
  rewrite digits_app by reflexivity. rewrite rev_app_distr. cbn [digits rev app].
  rewrite Z2Nat.id by assumption. reflexivity.
Qed.
Lemma sp_be_0 x : sp_be 0 x = []. Proof. reflexivity. Qed.
(** [sp_bits] is [bitlen] of Proofs/BitLenP.v *)
Lemma sp_bits_0 : sp_bits 0 = 0. Proof. reflexivity. Qed.
Lemma sp_bits_nonneg x : 0 <= sp_bits x.
Proof. exact (bitlen_nonneg x). Qed.
Lemma sp_bits_le_iff x k : 0 <= x -> sp_bits x <= k <-> x < 2 ^ k.
Proof. exact (bitlen_le_iff x k). Qed.
Lemma sp_bits_unique x k : 0 < x -> 2 ^ (k - 1) <= x < 2 ^ k -> sp_bits x = k.
Proof. intros Hx Hk. exact (bitlen_unique x k Hk Hx). Qed.
Lemma sp_octets_0 : sp_octets 0 = 0. Proof. reflexivity. Qed.
Lemma sp_octets_nonneg x : 0 <= sp_octets x.
Proof. unfold sp_octets. pose proof (sp_bits_nonneg x). apply Z.div_pos; lia. Qed.
Lemma sp_octets_le_iff x k : 0 <= x -> 0 <= k -> sp_octets x <= k <-> x < 256 ^ k.
Proof.
  intros Hx Hk. rewrite pow256_2, <- sp_bits_le_iff by assumption. unfold sp_octets.
  pose proof (Z.div_mod (sp_bits x + 7) 8 ltac:(lia)). pose proof (Z.mod_pos_bound (sp_bits x + 7) 8 ltac:(lia)). lia.
Qed.
Lemma sp_octets_le x k : 0 <= x -> 0 <= k -> x < 256 ^ k -> sp_octets x <= k.
Proof. intros. apply sp_octets_le_iff; assumption. Qed.
Lemma sp_octets_bound x : 0 <= x -> x < 256 ^ sp_octets x.
Proof. intros. apply sp_octets_le_iff; [assumption | apply sp_octets_nonneg | lia]. Qed.
Lemma sp_octets_unique x k : 0 < x -> 1 <= k -> 256 ^ (k - 1) <= x < 256 ^ k -> sp_octets x = k.
Proof.
  intros Hx Hk Hr. pose proof (sp_octets_le_iff x k). pose proof (sp_octets_le_iff x (k - 1)). lia.
Qed.
Lemma sp_octets_range x : 0 < x -> 1 <= sp_octets x /\ 256 ^ (sp_octets x - 1) <= x < 256 ^ sp_octets x.
Proof.
  intros Hx. pose proof (sp_octets_nonneg x). pose proof (sp_octets_bound x).
  assert (1 <= sp_octets x) by (pose proof (sp_octets_le_iff x 0); lia).
  pose proof (sp_octets_le_iff x (sp_octets x - 1)). lia.
Qed.
Lemma sp_octets_Bn n x : 0 <= x < Bn n -> 0 <= sp_octets x <= Z.of_nat (8 * n).
Proof. intros Hx. rewrite Bn_256 in Hx. split; [apply sp_octets_nonneg | apply sp_octets_le; lia]. Qed.

Lemma octets_of_string b r : wfd 256 (b :: r) -> b <> 0 -> sp_octets (bev (b :: r)) = lenZ (b :: r).
Proof.
  intros H Hb. pose proof H as H'. apply wfd_cons in H'. pose proof (lenZ_nonneg r).
  destruct (bev_head_window b r 0 8 H) as [Hpos Hv]; [lia | change (2 ^ 0) with 1; change (2 ^ 8) with 256; lia|].
  rewrite lenZ_cons. apply sp_octets_unique; [assumption | lia|]. rewrite !pow256_2 by lia.
  replace (8 * (1 + lenZ r - 1)) with (8 * lenZ r + 0) by lia. replace (8 * (1 + lenZ r)) with (8 * lenZ r + 8) by lia.
  assumption.
Qed.
Definition no_lead0 (s : list Z) : Prop := match s with [] => True | b :: _ => b <> 0 end.
Lemma minimal_unique s : wfd 256 s -> no_lead0 s -> s = sp_be (sp_octets (bev s)) (bev s).
Proof.
  intros Hw Hn. destruct s as [|b r]; [reflexivity|].
  rewrite octets_of_string by assumption. symmetry. apply sp_be_bev. assumption.
Qed.
Lemma minimal_no_lead0 x : 0 <= x -> no_lead0 (sp_be (sp_octets x) x).
Proof.
  intros Hx. destruct (Z.eq_dec x 0) as [->|]; [exact I|].
  destruct (sp_octets_range x ltac:(lia)) as (H1 & Hl & Hu).
  replace (sp_octets x) with ((sp_octets x - 1) + 1) by lia. rewrite sp_be_S by lia. cbn [no_lead0].
  replace (sp_octets x - 1 + 1) with (sp_octets x) in * by lia.
  assert (0 < 256 ^ (sp_octets x - 1)) by (apply Z.pow_pos_nonneg; lia).
  assert (1 <= x / 256 ^ (sp_octets x - 1)) by (apply Z.div_le_lower_bound; lia).
  assert (x / 256 ^ (sp_octets x - 1) < 256).
  { apply Z.div_lt_upper_bound; [lia|]. rewrite Z.mul_comm, <- Z.pow_succ_r by lia. replace (Z.succ (sp_octets x - 1)) with (sp_octets x) by lia. assumption. }
  rewrite Z.mod_small by lia. lia.
Qed.
Lemma bev_minimal x : 0 <= x -> bev (sp_be (sp_octets x) x) = x.
Proof. intros. apply bev_sp_be_small; [apply sp_octets_nonneg | split; [assumption | apply sp_octets_bound; assumption]]. Qed.
Lemma strip_all_spec bs : wfd 256 bs ->
  let s := strip_all_zeros bs in
  wfd 256 s /\ no_lead0 s /\ bev s = bev bs /\ (length s <= length bs)%nat /\ exists k, bs = zeros k ++ s.
Proof.
  intros H. induction bs as [|b r IH]; cbn [strip_all_zeros].
  - repeat split; try apply wfd_nil; try exact I; try lia. exists 0%nat. reflexivity.
  - pose proof H as H'. apply wfd_cons in H'. destruct H' as [Hb Hr].
    destruct (Z.eqb_spec b 0) as [->|Hne].
    + destruct (IH Hr) as (A & B' & C & D & k & E). repeat split; try assumption.
      * rewrite C, bev_cons. lia.
      * cbn [length]. lia.
      * exists (S k). cbn [zeros repeat app]. f_equal. exact E.
    + repeat split; try assumption; try lia. exists 0%nat. reflexivity.
Qed.
Lemma strip_all_minimal bs : wfd 256 bs -> strip_all_zeros bs = sp_be (sp_octets (bev bs)) (bev bs).
Proof. intros H. destruct (strip_all_spec bs H) as (A & B' & C & _). rewrite <- C. apply minimal_unique; assumption. Qed.
Lemma strip_all_sp_be k x : 0 <= k -> 0 <= x < 256 ^ k -> strip_all_zeros (sp_be k x) = sp_be (sp_octets x) x.
Proof. intros Hk Hx. rewrite strip_all_minimal by apply wfd_sp_be. rewrite bev_sp_be_small by assumption. reflexivity. Qed.
(** der's strip_leading_zeroes keeps the last octet *)
Lemma strip_leading_zeroes_spec bs :
  strip_leading_zeroes bs = match strip_all_zeros bs with [] => (match bs with [] => [] | _ => [0] end) | s => s end.
Proof.
  induction bs as [|b r IH]; [reflexivity|]. cbn [strip_leading_zeroes strip_all_zeros].
  destruct (Z.eqb_spec b 0) as [->|Hne]; cbn [andb].
  - destruct r as [|c r']; [reflexivity|]. cbn [is_nil negb]. rewrite IH.
    destruct (strip_all_zeros (c :: r')); reflexivity.
  - reflexivity.
Qed.
(** X.690 8.3.2 for a non-negative value: at least one octet, sign bit clear, and the first nine bits not all zero *)
Definition der_canonb (c : list Z) : bool :=
  match c with
  | [] => false
  | b :: rest => (b <? 128) && match rest with [] => true | d :: _ => negb (b =? 0) || (128 <=? d) end
  end.
(* the magnitude octets the encoder starts from, and the sign pad *)
Definition mag0 (x : Z) : list Z := if x =? 0 then [0] else sp_be (sp_octets x) x.
Definition der_pad (m : list Z) : list Z := if needs_leading_zero m then 0 :: m else m.

(** a value in [2^(8L-1), 2^(8L+7)) has L significant octets once the sign bit is counted: L + 1 content octets *)
Lemma content_len_window x L lo hi : 0 <= lo -> 8 * L - 1 <= lo -> hi <= 8 * L + 7 -> 2 ^ lo <= x < 2 ^ hi ->
  sp_der_content_len x = L + 1.
Proof.
  intros H0 Hlo Hhi [Hl Hu]. pose proof (Z.pow_pos_nonneg 2 lo).
  pose proof (sp_bits_le_iff x lo). pose proof (sp_bits_le_iff x hi).
  unfold sp_der_content_len. f_equal. symmetry. apply Z.div_unique with (r := sp_bits x - 8 * L); lia.
Qed.

Lemma content_len_canon c : wfd 256 c -> der_canonb c = true -> sp_der_content_len (bev c) = lenZ c.
Proof.
  intros Hw Hc. destruct c as [|b rest]; [discriminate|]. cbn [der_canonb] in Hc.
  apply andb_prop in Hc. destruct Hc as [Hb Hc]. apply Z.ltb_lt in Hb.
  pose proof Hw as Hw'. apply wfd_cons in Hw'. destruct Hw' as [Hb0 Hwr].
  rewrite lenZ_cons, Z.add_comm. destruct (Z.eq_dec b 0) as [->|Hnz].
  - (* leading 0x00: alone, or in front of an octet whose top bit is set *)
    destruct rest as [|d r']; [reflexivity|]. rewrite Z.eqb_refl in Hc. apply Z.leb_le in Hc.
    pose proof Hwr as Hd. apply wfd_cons in Hd.
    rewrite bev_cons, Z.mul_0_l, Z.add_0_l, lenZ_cons. pose proof (lenZ_nonneg r').
    destruct (bev_head_window d r' 7 8 Hwr) as [_ Hv]; [lia | change (2 ^ 7) with 128; change (2 ^ 8) with 256; lia|].
    eapply content_len_window; [| | | exact Hv]; lia.
  - (* first octet 1..127 *)
    pose proof (lenZ_nonneg rest).
    destruct (bev_head_window b rest 0 7 Hw) as [_ Hv]; [lia | change (2 ^ 0) with 1; change (2 ^ 7) with 128; lia|].
    eapply content_len_window; [| | | exact Hv]; lia.
Qed.

Lemma canon_unique c : wfd 256 c -> der_canonb c = true -> sp_der_content (bev c) = c.
Proof. intros Hw Hc. unfold sp_der_content. rewrite content_len_canon by assumption. apply sp_be_bev. assumption. Qed.

Lemma wfd_mag0 x : wfd 256 (mag0 x).
Proof. unfold mag0. destruct (x =? 0); [apply wfd_cons; split; [lia | apply wfd_nil] | apply wfd_sp_be]. Qed.
Lemma bev_mag0 x : 0 <= x -> bev (mag0 x) = x.
Proof. intros. unfold mag0. destruct (Z.eqb_spec x 0) as [->|]; [reflexivity | apply bev_minimal; assumption]. Qed.
Lemma mag0_head x : 0 <= x -> exists b r, mag0 x = b :: r /\ (b = 0 -> r = []).
Proof.
  intros Hx. unfold mag0. destruct (Z.eqb_spec x 0); [exists 0, []; auto|].
  pose proof (minimal_no_lead0 x Hx) as Hn. pose proof (bev_minimal x Hx) as Hb.
  destruct (sp_be (sp_octets x) x) as [|b r]; [rewrite bev_nil in Hb; lia|].
  exists b, r. split; [reflexivity | contradiction].
Qed.
Lemma lenZ_mag0 x : 0 <= x -> lenZ (mag0 x) = Z.max 1 (sp_octets x).
Proof.
  intros Hx. unfold mag0. destruct (Z.eqb_spec x 0) as [->|]; [reflexivity|].
  rewrite lenZ_sp_be by apply sp_octets_nonneg. pose proof (sp_octets_range x). lia.
Qed.
(** UintRef::new: stripping a non-empty string leaves the magnitude octets of its value *)
Lemma strip0_general bs : wfd 256 bs -> bs <> [] -> strip_leading_zeroes bs = mag0 (bev bs).
Proof.
  intros Hw Hn. rewrite strip_leading_zeroes_spec, strip_all_minimal by assumption.
  assert (Hx : 0 <= bev bs) by (apply bev_bounds; assumption). unfold mag0.
  destruct (Z.eqb_spec (bev bs) 0) as [E|N].
  - rewrite E, sp_octets_0, sp_be_0. destruct bs; [contradiction | reflexivity].
  - pose proof (bev_minimal (bev bs) Hx) as Hb. destruct (sp_be (sp_octets (bev bs)) (bev bs)); [rewrite bev_nil in Hb; lia | reflexivity].
Qed.
Lemma strip0_mag0 x : 0 <= x -> strip_leading_zeroes (mag0 x) = mag0 x.
Proof.
  intros Hx. destruct (mag0_head x Hx) as (b & r & E & _). pose proof (wfd_mag0 x) as Hw.
  rewrite <- (bev_mag0 x Hx) at 2. apply strip0_general; [assumption | rewrite E; discriminate].
Qed.
Lemma strip0_be K x : 1 <= K -> 0 <= x < 256 ^ K -> strip_leading_zeroes (sp_be K x) = mag0 x.
Proof.
  intros HK Hx. rewrite strip0_general; [rewrite bev_sp_be_small by lia; reflexivity | apply wfd_sp_be |].
  intros E. apply (f_equal (@length Z)) in E. rewrite length_sp_be in E. cbn [length] in E. lia.
Qed.

Lemma wfd_der_pad m : wfd 256 m -> wfd 256 (der_pad m).
Proof. intros. unfold der_pad. destruct (needs_leading_zero m); [apply wfd_cons; split; [lia | assumption] | assumption]. Qed.
Lemma bev_der_pad m : bev (der_pad m) = bev m.
Proof. unfold der_pad. destruct (needs_leading_zero m); [rewrite bev_cons; lia | reflexivity]. Qed.
Lemma lenZ_der_pad m : lenZ (der_pad m) = lenZ m + b2z (needs_leading_zero m).
Proof. unfold der_pad. destruct (needs_leading_zero m); cbn [b2z]; [rewrite lenZ_cons|]; lia. Qed.
Lemma canon_der_pad_mag0 x : 0 <= x -> der_canonb (der_pad (mag0 x)) = true.
Proof.
  intros Hx. destruct (mag0_head x Hx) as (b & r & E & H0). pose proof (wfd_mag0 x) as Hw. rewrite E in *.
  apply wfd_cons in Hw. unfold der_pad. cbn [needs_leading_zero]. destruct (Z.leb_spec 128 b) as [Hb|Hb].
  - cbn [der_canonb]. rewrite Z.eqb_refl. apply Z.leb_le. assumption.
  - cbn [der_canonb]. rewrite ltb_true by assumption. destruct r; [reflexivity|].
    rewrite eqb_false by (intros Hb0; discriminate (H0 Hb0)). reflexivity.
Qed.
(** the canonical content is the minimal magnitude with a 0x00 pad iff its top bit is set *)
Lemma content_struct x : 0 <= x -> sp_der_content x = der_pad (mag0 x).
Proof.
  intros Hx. rewrite <- (canon_unique (der_pad (mag0 x))).
  - rewrite bev_der_pad, bev_mag0 by assumption. reflexivity.
  - apply wfd_der_pad, wfd_mag0.
  - apply canon_der_pad_mag0. assumption.
Qed.
Lemma content_canon x : 0 <= x ->
  wfd 256 (sp_der_content x) /\ der_canonb (sp_der_content x) = true /\ bev (sp_der_content x) = x /\
  lenZ (sp_der_content x) = sp_der_content_len x.
Proof.
  intros Hx. repeat split.
  - apply wfd_sp_be.
  - rewrite content_struct by assumption. apply canon_der_pad_mag0. assumption.
  - rewrite content_struct by assumption. rewrite bev_der_pad, bev_mag0 by assumption. reflexivity.
  - unfold sp_der_content. apply lenZ_sp_be. unfold sp_der_content_len. pose proof (sp_bits_nonneg x).
    assert (0 <= sp_bits x / 8) by (apply Z.div_pos; lia). lia.
Qed.
Lemma content_len_pos x : 1 <= sp_der_content_len x.
Proof. unfold sp_der_content_len. pose proof (sp_bits_nonneg x). assert (0 <= sp_bits x / 8) by (apply Z.div_pos; lia). lia. Qed.
Lemma content_inj x y : 0 <= x -> 0 <= y -> sp_der_content x = sp_der_content y -> x = y.
Proof. intros Hx Hy E. destruct (content_canon x Hx) as (_ & _ & <- & _). destruct (content_canon y Hy) as (_ & _ & <- & _). rewrite E. reflexivity. Qed.
Lemma octets_ge128 k : 128 <= k -> 1 <= sp_octets k.
Proof. intros. apply sp_octets_range. lia. Qed.
Lemma octets_lenmax k : 0 <= k <= LEN_MAX -> sp_octets k <= 4.
Proof. intros. apply sp_octets_le; [lia | lia |]. unfold LEN_MAX in *. change (256 ^ 4) with 4294967296. lia. Qed.
Lemma lenZ_sp_der_length k : lenZ (sp_der_length k) = if k <? 128 then 1 else 1 + sp_octets k.
Proof.
  unfold sp_der_length. destruct (k <? 128); [reflexivity|]. rewrite lenZ_cons, lenZ_sp_be by apply sp_octets_nonneg. reflexivity.
Qed.
Lemma lenZ_sp_der_length_pos k : 1 <= lenZ (sp_der_length k).
Proof. rewrite lenZ_sp_der_length. pose proof (sp_octets_nonneg k). destruct (k <? 128); lia. Qed.
Lemma wfd_sp_der_length k : 0 <= k <= LEN_MAX -> wfd 256 (sp_der_length k).
Proof.
  intros H. unfold sp_der_length. destruct (Z.ltb_spec k 128).
  - apply wfd_cons. split; [lia | apply wfd_nil].
  - apply wfd_cons. split; [|apply wfd_sp_be]. pose proof (octets_ge128 k ltac:(lia)). pose proof (octets_lenmax k H). lia.
Qed.
Lemma header_size_ok k c : 0 <= k ->
  sp_der_header_size (sp_der_header k ++ c) = length (sp_der_header k).
Proof.
  intros Hk. unfold sp_der_header_size, sp_der_header, sp_der_length.
  destruct (Z.ltb_spec k 128) as [Hs|Hs].
  - cbn [app nthz nth]. rewrite ltb_true by assumption. reflexivity.
  - cbn [app nthz nth length]. pose proof (octets_ge128 k Hs).
    rewrite ltb_false by lia.
    rewrite length_sp_be. lia.
Qed.
Lemma lenZ_sp_der_encode x : 0 <= x ->
  lenZ (sp_der_encode x) = 1 + lenZ (sp_der_length (sp_der_content_len x)) + sp_der_content_len x.
Proof.
  intros Hx. unfold sp_der_encode, sp_der_header. rewrite lenZ_app, lenZ_cons.
  destruct (content_canon x Hx) as (_ & _ & _ & ->). reflexivity.
Qed.

(** * the executable decoding spec is "the value whose canonical encoding is the input" *)
Lemma sp_decode_at_some hdr body j n bs v : wfd 256 bs ->
  sp_decode_at hdr body j n bs = Some v -> 0 <= v < Bn n /\ bs = hdr v ++ body v.
Proof.
  intros Hw. unfold sp_decode_at. set (w := horner 256 (skipn j bs)).
  destruct (list_eqb (hdr w) (firstn j bs)) eqn:E1; [|discriminate].
  destruct (list_eqb (body w) (skipn j bs)) eqn:E2; [|discriminate].
  destruct (Z.ltb_spec w (Bn n)); [|discriminate]. cbn [andb]. intros E. injection E as <-.
  apply list_eqb_eq in E1, E2. split.
  - split; [|assumption]. unfold w. rewrite horner_bev. apply bev_bounds. apply wfd_skipn. assumption.
  - rewrite E1, E2. symmetry. apply firstn_skipn.
Qed.
Lemma sp_decode_at_complete hdr body n v :
  0 <= v < Bn n -> bev (body v) = v ->
  sp_decode_at hdr body (length (hdr v)) n (hdr v ++ body v) = Some v.
Proof.
  intros Hv Hb. unfold sp_decode_at.
  rewrite (skipn_app_len (hdr v) (body v)) by reflexivity. rewrite (firstn_app_len (hdr v) (body v)) by reflexivity.
  rewrite horner_bev, Hb, !list_eqb_refl. rewrite ltb_true by lia. reflexivity.
Qed.

Theorem sp_der_decode_iff n bs v : wfd 256 bs ->
  sp_der_decode n bs = Some v <-> (0 <= v < Bn n /\ bs = sp_der_encode v).
Proof.
  intros Hw. split.
  - intros H. apply (sp_decode_at_some _ _ _ _ _ _ Hw) in H. exact H.
  - intros [Hv ->]. unfold sp_der_decode, sp_der_encode.
    pose proof (content_len_pos v). rewrite header_size_ok by lia.
    apply (sp_decode_at_complete (fun w => sp_der_header (sp_der_content_len w)) sp_der_content n v Hv).
    apply content_canon. lia.
Qed.
Theorem sp_der_encode_inj x y : 0 <= x -> 0 <= y -> sp_der_encode x = sp_der_encode y -> x = y.
Proof.
  intros Hx Hy E. destruct (Z.eq_dec (sp_der_content_len x) (sp_der_content_len y)) as [El|Nl].
  - apply content_inj; try assumption. unfold sp_der_encode in E. rewrite El in E.
    apply app_inv_head in E. assumption.
  - exfalso. (* different content lengths: the encodings decode to both values *)
    pose proof (content_len_pos x). pose proof (content_len_pos y).
    pose proof (f_equal sp_der_header_size E) as Hs. unfold sp_der_encode in Hs. rewrite !header_size_ok in Hs by lia.
    unfold sp_der_encode in E.
    assert (Ec : skipn (length (sp_der_header (sp_der_content_len x))) (sp_der_header (sp_der_content_len x) ++ sp_der_content x)
               = skipn (length (sp_der_header (sp_der_content_len x))) (sp_der_header (sp_der_content_len y) ++ sp_der_content y)) by (rewrite E; reflexivity).
    rewrite skipn_app_len in Ec by reflexivity. rewrite Hs, skipn_app_len in Ec by reflexivity.
    apply Nl. destruct (content_canon x Hx) as (_ & _ & _ & <-). destruct (content_canon y Hy) as (_ & _ & _ & <-). rewrite Ec. reflexivity.
Qed.
