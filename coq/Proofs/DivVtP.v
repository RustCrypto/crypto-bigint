(** C02: the variable-time Knuth loop (div_vt_loop) and Uint::div_rem_vartime. *)
From CB Require Import Model.Limbs Model.Div Proofs.WordP Proofs.LimbsP Proofs.BitsP Proofs.DivP Proofs.Rem2kP
  Proofs.Div3by2P Proofs.KnuthStepP Proofs.DivShiftP.
From Coq Require Import ZArith Lia List.
Open Scope Z_scope.

Definition vt_body (xi yc : nat) (y : list Z) (rc : recip) (st : vtst) : vtst :=
  let x := v_x st in
  let quo := div3by2 (v_xhi st) (nthz x xi) (nthz x (xi - 1)) rc (nthz y (yc - 2)) in
  let '(x2, mask) := knuth_step x y (v_xhi st) (xi + 1 - yc) 0 yc quo in
  let quo := sel mask quo (wsub quo 1) in
  {| v_x := upd x2 xi quo; v_xhi := nthz x2 xi |}.

Lemma div_vt_loop_S c xi yc y rc st :
  div_vt_loop (S c) xi yc y rc st = div_vt_loop c (xi - 1) yc y rc (vt_body xi yc y rc st).
Proof.
  cbn [div_vt_loop]. unfold vt_body.
  destruct (knuth_step (v_x st) y (v_xhi st) (xi + 1 - yc) 0 yc
    (div3by2 (v_xhi st) (nthz (v_x st) xi) (nthz (v_x st) (xi - 1)) rc (nthz y (yc - 2)))) as [x2 mask].
  reflexivity.
Qed.

(** the digit selection of one Knuth iteration: the top three window limbs over the top two divisor limbs
    give the true digit or one more; used by every loop variant *)
Lemma knuth_digit k xl u0 u1 x_hi yl v0 d rc :
  length xl = k -> wf xl -> is_word u0 -> is_word u1 -> is_word x_hi ->
  length yl = k -> wf yl -> is_word v0 -> r_d rc = d -> normalized d -> recip_ok d (r_v rc) ->
  let Y := eval (yl ++ [v0; d]) in
  let W := eval (xl ++ [u0; u1]) + Bn (S (S k)) * x_hi in
  W < Y * B ->
  let quo := div3by2 x_hi u1 u0 rc v0 in
  (quo - 1) * Y <= W < (quo + 1) * Y /\ is_word quo.
Proof.
  intros Hlx Hwx Hu0 Hu1 Hxhi Hly Hwy Hv0 Hrd Hn Hrec Y W HWY quo.
  pose proof B_gt1 as HB. pose proof (Bn_pos k) as HK.
  pose proof (eval_bounds xl Hwx) as Hbx. rewrite Hlx in Hbx.
  pose proof (eval_bounds yl Hwy) as Hby. rewrite Hly in Hby.
  assert (Hd : 0 < d < B) by (destruct Hn; lia).
  set (U := U3 x_hi u1 u0). set (V := d * B + v0).
  assert (HW : W = eval xl + Bn k * U).
  { unfold W, U, U3. rewrite eval_app, Hlx. cbn [eval]. rewrite !Bn_S. ring. }
  assert (HY : Y = eval yl + Bn k * V).
  { unfold Y, V. rewrite eval_app, Hly. cbn [eval]. ring. }
  unfold is_word in Hu0, Hu1, Hxhi, Hv0.
  assert (HU0 : 0 <= U) by (unfold U, U3; assert (0 <= x_hi * B * B) by (apply Z.mul_nonneg_nonneg; nia); nia).
  assert (HVB : B <= V) by (unfold V; assert (1 * B <= d * B) by (apply Z.mul_le_mono_nonneg_r; lia); lia).
  assert (Hxd : x_hi <= d).
  { destruct (Z_le_gt_dec x_hi d) as [|Hgt]; [assumption|]. exfalso.
    assert (H1 : (d + 1) * (B * B) <= x_hi * (B * B)) by (apply Z.mul_le_mono_nonneg_r; nia).
    assert (H2 : (d + 1) * (B * B) <= U) by (unfold U, U3; nia).
    assert (H3 : Bn k * ((d + 1) * (B * B)) <= Bn k * U) by (apply Z.mul_le_mono_nonneg_l; lia).
    assert (H4 : V + 1 <= (d + 1) * B) by (unfold V; lia).
    assert (H5 : Bn k * (V + 1) <= Bn k * ((d + 1) * B)) by (apply Z.mul_le_mono_nonneg_l; lia).
    assert (H6 : Y * B <= (Bn k * (V + 1)) * B) by (apply Z.mul_le_mono_nonneg_r; lia).
    assert (H7 : Bn k * (V + 1) * B <= Bn k * ((d + 1) * B) * B) by (apply Z.mul_le_mono_nonneg_r; lia).
    replace (Bn k * ((d + 1) * B) * B) with (Bn k * ((d + 1) * (B * B))) in H7 by ring.
    lia. }
  assert (Hq : quo = Z.min (U / V) (B - 1)).
  { unfold quo, U, V. rewrite <- Hrd. apply div3by2_correct; unfold is_word; rewrite ?Hrd; auto; lia. }
  destruct (knuth_estimate (Bn k) (eval xl) (eval yl) U V W Y quo HK Hbx Hby HU0 HVB HW HY HWY Hq) as [H1 H2].
  split; [assumption | exact H2].
Qed.

(** digit selection + multiply-subtract + add-back of one iteration: the dividend window xl ++ [u0; u1] sits above
    lo in the buffer, the divisor window yl ++ [v0; d] above ya *)
Lemma knuth_iter_gen k ya yl v0 d yb rc lo xl u0 u1 qs x_hi :
  length yl = k -> wf yl -> is_word v0 -> r_d rc = d -> normalized d -> recip_ok d (r_v rc) ->
  length xl = k -> wf xl -> is_word u0 -> is_word u1 -> is_word x_hi ->
  let Y := eval (yl ++ [v0; d]) in
  let W := eval (xl ++ [u0; u1]) + Bn (S (S k)) * x_hi in
  W < Y * B ->
  let quo := div3by2 x_hi u1 u0 rc v0 in
  exists rl rh q mask,
    knuth_step (lo ++ (xl ++ [u0; u1]) ++ qs) (ya ++ (yl ++ [v0; d]) ++ yb) x_hi (length lo) (length ya) (S (S k)) quo
      = (lo ++ rl ++ rh :: qs, mask) /\
    sel mask quo (wsub quo 1) = q /\ sel mask quo (if quo =? 0 then 0 else quo - 1) = q /\
    length rl = S k /\ wf rl /\ is_word rh /\ is_word q /\
    W = q * Y + eval (rl ++ [rh]) /\ 0 <= eval (rl ++ [rh]) < Y.
Proof.
  intros Hly Hwy Hv0 Hrd Hn Hrec Hlx Hwx Hu0 Hu1 Hxhi Y W HWY quo.
  destruct (knuth_digit k xl u0 u1 x_hi yl v0 d rc Hlx Hwx Hu0 Hu1 Hxhi Hly Hwy Hv0 Hrd Hn Hrec HWY) as [Hest Hquo].
  fold quo Y W in Hest, Hquo.
  assert (Hd : is_word d) by (unfold is_word; destruct Hn; lia).
  assert (Hwxw : wf (xl ++ [u0; u1])) by (apply wf_app; split; [assumption|]; repeat (apply wf_cons; split; [assumption|]); apply wf_nil).
  assert (Hwyw : wf (yl ++ [v0; d])) by (apply wf_app; split; [assumption|]; repeat (apply wf_cons; split; [assumption|]); apply wf_nil).
  assert (Hlxw : length (xl ++ [u0; u1]) = S (S k)) by (rewrite app_length; simpl; lia).
  assert (Hlyw : length (yl ++ [v0; d]) = S (S k)) by (rewrite app_length; simpl; lia).
  destruct (knuth_step_exact _ _ x_hi _ _ (S (S k)) quo lo _ qs ya _ yb
              eq_refl eq_refl Hlxw eq_refl eq_refl Hlyw Hwxw Hwyw Hxhi Hquo Hest)
    as (xw2 & mask & Hk & Hw2 & Hl2 & Hres).
  cbv zeta in Hres. fold Y W in Hres. destruct Hres as (HWq & Hrem & _ & _ & Hq0 & Hsel1 & Hsel2).
  destruct (wf_snoc xw2 (S k) Hl2 Hw2) as (rl & rh & -> & Hlrl & Hwrl & Hrh).
  exists rl, rh, (if mask then quo - 1 else quo), mask. rewrite <- (app_assoc rl [rh] qs) in Hk.
  split; [exact Hk|]. split; [assumption|]. split; [assumption|]. split; [assumption|]. split; [assumption|].
  split; [assumption|]. split; [|split; assumption].
  unfold is_word in *. destruct mask; lia.
Qed.

(** the same with the three limbs that div3by2 reads located in the buffers: the window is the top of lo ++ xw and
    the divisor window starts the divisor *)
Lemma knuth_iter k y yl v0 d yb rc lo xw qs x_hi :
  y = (yl ++ [v0; d]) ++ yb -> length yl = k -> wf yl -> is_word v0 ->
  r_d rc = d -> normalized d -> recip_ok d (r_v rc) ->
  length xw = S (S k) -> wf xw -> is_word x_hi ->
  let Y := eval (yl ++ [v0; d]) in
  let W := eval xw + Bn (S (S k)) * x_hi in
  W < Y * B ->
  let x := lo ++ xw ++ qs in
  let xi := (length lo + S k)%nat in
  let quo := div3by2 x_hi (nthz x xi) (nthz x (xi - 1)) rc (nthz y (S (S k) - 2)) in
  exists rl rh q mask,
    knuth_step x y x_hi (xi + 1 - S (S k)) 0 (S (S k)) quo = (lo ++ rl ++ rh :: qs, mask) /\
    sel mask quo (wsub quo 1) = q /\
    length rl = S k /\ wf rl /\ is_word rh /\ is_word q /\
    W = q * Y + eval (rl ++ [rh]) /\ 0 <= eval (rl ++ [rh]) < Y.
Proof.
  intros Hy Hly Hwy Hv0 Hrd Hn Hrec Hlx Hwx Hxhi Y W HWY x xi quo0. subst x xi quo0 y.
  destruct (wf_snoc2 xw k Hlx Hwx) as (xl & u0 & u1 & -> & Hlxl & Hwxl & Hu0 & Hu1).
  assert (En1 : nthz (lo ++ (xl ++ [u0; u1]) ++ qs) (length lo + S k) = u1).
  { replace (lo ++ (xl ++ [u0; u1]) ++ qs) with ((lo ++ xl ++ [u0]) ++ u1 :: qs) by (rewrite <- !app_assoc; reflexivity).
    apply nthz_app_mid. rewrite !app_length. simpl. lia. }
  assert (En0 : nthz (lo ++ (xl ++ [u0; u1]) ++ qs) (length lo + S k - 1) = u0).
  { replace (lo ++ (xl ++ [u0; u1]) ++ qs) with ((lo ++ xl) ++ u0 :: u1 :: qs) by (rewrite <- !app_assoc; reflexivity).
    apply nthz_app_mid. rewrite !app_length. lia. }
  assert (Env : nthz ((yl ++ [v0; d]) ++ yb) (S (S k) - 2) = v0).
  { rewrite <- app_assoc. apply nthz_app_mid. lia. }
  rewrite En1, En0, Env. replace (length lo + S k + 1 - S (S k))%nat with (length lo) by lia.
  destruct (knuth_iter_gen k [] yl v0 d yb rc lo xl u0 u1 qs x_hi Hly Hwy Hv0 Hrd Hn Hrec Hlxl Hwxl Hu0 Hu1 Hxhi HWY)
    as (rl & rh & q & mask & Hk & Hsel & _ & Hrest).
  exists rl, rh, q, mask. exact (conj Hk (conj Hsel Hrest)).
Qed.

(** the remainder window of one iteration, with the next dividend limb l below it, is the next window *)
Lemma window_next k l rl rh Y : is_word l -> length rl = S k -> 0 <= eval (rl ++ [rh]) < Y ->
  eval (l :: rl) + Bn (S (S k)) * rh < Y * B.
Proof.
  intros Hl Hlrl Hrem. rewrite eval_snoc, Hlrl in Hrem. cbn [eval]. rewrite (Bn_S (S k)).
  unfold is_word in Hl. pose proof B_gt1.
  assert (B * (eval rl + Bn (S k) * rh) <= B * (Y - 1)) by (apply Z.mul_le_mono_nonneg_l; lia). lia.
Qed.

(** one iteration of the vartime loop *)
Lemma vt_iter k y yl v0 d yb rc lo xw qs x_hi :
  y = (yl ++ [v0; d]) ++ yb -> length yl = k -> wf yl -> is_word v0 ->
  r_d rc = d -> normalized d -> recip_ok d (r_v rc) ->
  length xw = S (S k) -> wf xw -> is_word x_hi ->
  let Y := eval (yl ++ [v0; d]) in
  let W := eval xw + Bn (S (S k)) * x_hi in
  W < Y * B ->
  exists rl rh q,
    vt_body (length lo + S k) (S (S k)) y rc {| v_x := lo ++ xw ++ qs; v_xhi := x_hi |}
      = {| v_x := lo ++ rl ++ q :: qs; v_xhi := rh |} /\
    length rl = S k /\ wf rl /\ is_word rh /\ is_word q /\
    W = q * Y + eval (rl ++ [rh]) /\ 0 <= eval (rl ++ [rh]) < Y.
Proof.
  intros Hy Hly Hwy Hv0 Hrd Hn Hrec Hlx Hwx Hxhi Y W HWY.
  destruct (knuth_iter k y yl v0 d yb rc lo xw qs x_hi Hy Hly Hwy Hv0 Hrd Hn Hrec Hlx Hwx Hxhi HWY)
    as (rl & rh & q & mask & Hk & Hsel & Hlrl & Hrest).
  exists rl, rh, q. split; [|exact (conj Hlrl Hrest)].
  unfold vt_body. cbn [v_x v_xhi]. cbv zeta in Hk, Hsel. rewrite Hk, Hsel.
  replace (lo ++ rl ++ rh :: qs) with ((lo ++ rl) ++ rh :: qs) by (rewrite <- app_assoc; reflexivity).
  rewrite (nthz_app_mid (lo ++ rl) rh qs) by (rewrite app_length; lia).
  rewrite (upd_app_mid (lo ++ rl) rh qs _ q) by (rewrite app_length; lia).
  rewrite <- app_assoc. reflexivity.
Qed.

(** the whole loop: [S (length lo)] iterations bring down the limbs of lo one by one *)
Lemma div_vt_loop_correct k y yl v0 d yb rc :
  y = (yl ++ [v0; d]) ++ yb -> length yl = k -> wf yl -> is_word v0 ->
  r_d rc = d -> normalized d -> recip_ok d (r_v rc) ->
  let Y := eval (yl ++ [v0; d]) in
  forall lo xw qs x_hi,
  wf lo -> length xw = S (S k) -> wf xw -> is_word x_hi ->
  eval xw + Bn (S (S k)) * x_hi < Y * B ->
  exists rl Qs rh,
    div_vt_loop (S (length lo)) (length lo + S k) (S (S k)) y rc {| v_x := lo ++ xw ++ qs; v_xhi := x_hi |}
      = {| v_x := rl ++ Qs ++ qs; v_xhi := rh |} /\
    length rl = S k /\ wf rl /\ is_word rh /\ wf Qs /\ length Qs = S (length lo) /\
    eval lo + Bn (length lo) * (eval xw + Bn (S (S k)) * x_hi) = eval (rl ++ [rh]) + Y * eval Qs /\
    0 <= eval (rl ++ [rh]) < Y.
Proof.
  intros Hy Hly Hwy Hv0 Hrd Hn Hrec Y lo.
  induction lo as [|l lo' IH] using rev_ind; intros xw qs x_hi Hwlo Hlx Hwx Hxhi HWY.
  - destruct (vt_iter k y yl v0 d yb rc [] xw qs x_hi Hy Hly Hwy Hv0 Hrd Hn Hrec Hlx Hwx Hxhi HWY)
      as (rl & rh & q & Hb & Hlrl & Hwrl & Hrh & Hq & HWq & Hrem).
    exists rl, [q], rh. rewrite div_vt_loop_S. cbn [length Nat.add app] in *. rewrite Hb.
    cbn [div_vt_loop app eval length]. rewrite Bn_0. fold Y in HWq, Hrem.
    split; [reflexivity|]. split; [assumption|]. split; [assumption|]. split; [assumption|].
    split; [apply wf_one; assumption|]. split; [reflexivity|].
    split; [lia | assumption].
  - apply wf_app in Hwlo. destruct Hwlo as [Hwlo' Hl]. apply wf_cons in Hl. destruct Hl as [Hl _].
    destruct (vt_iter k y yl v0 d yb rc (lo' ++ [l]) xw qs x_hi Hy Hly Hwy Hv0 Hrd Hn Hrec Hlx Hwx Hxhi HWY)
      as (rl & rh & q & Hb & Hlrl & Hwrl & Hrh & Hq & HWq & Hrem).
    fold Y in HWq, Hrem.
    rewrite div_vt_loop_S, Hb.
    assert (Hlen : length (lo' ++ [l]) = S (length lo')) by (rewrite app_length; simpl; lia).
    rewrite Hlen.
    replace (S (length lo') + S k - 1)%nat with (length lo' + S k)%nat by lia.
    replace ((lo' ++ [l]) ++ rl ++ q :: qs) with (lo' ++ (l :: rl) ++ (q :: qs)) by (rewrite <- !app_assoc; reflexivity).
    assert (Hrle : eval (rl ++ [rh]) = eval rl + Bn (S k) * rh) by (rewrite eval_snoc, Hlrl; reflexivity).
    pose proof (window_next k l rl rh Y Hl Hlrl Hrem) as HW'.
    destruct (IH (l :: rl) (q :: qs) rh Hwlo' ltac:(simpl; lia) ltac:(apply wf_cons; split; assumption) Hrh HW')
      as (rl' & Qs' & rh' & Hloop & Hlrl' & Hwrl' & Hrh' & HwQ & HlQ & Heq & Hrem').
    exists rl', (Qs' ++ [q]), rh'. rewrite Hloop.
    split; [rewrite <- !app_assoc; reflexivity|]. split; [assumption|]. split; [assumption|]. split; [assumption|].
    split; [apply wf_app_word; split; assumption|].
    split; [rewrite app_length; simpl; lia|]. split; [|assumption].
    set (E := eval (rl' ++ [rh'])) in *.
    rewrite (eval_snoc lo' l), (eval_snoc Qs' q), HlQ. rewrite (Bn_S (length lo')).
    cbn [eval] in Heq. rewrite (Bn_S (S k)) in Heq.
    set (a := Bn (length lo')) in *.
    set (W := eval xw + Bn (S (S k)) * x_hi) in *.
    rewrite Hrle in HWq.
    assert (Hmul : B * a * W = B * a * (q * Y + (eval rl + Bn (S k) * rh))) by (rewrite HWq; reflexivity).
    lia.
Qed.

Lemma nth_map_seq_gen (f : nat -> Z) a m i : (i < m)%nat -> nth i (map f (seq a m)) 0 = f (a + i)%nat.
Proof.
  intros Hi. rewrite (nth_indep _ 0 (f 0%nat)) by (rewrite map_length, seq_length; assumption).
  rewrite map_nth, seq_nth by assumption. reflexivity.
Qed.

Lemma nth_map_seq (f : nat -> Z) n i : (i < n)%nat -> nth i (map f (seq 0 n)) 0 = f i.
Proof. apply nth_map_seq_gen. Qed.

Lemma quotient_readout (rl Qs : list Z) n yc :
  length rl = (yc - 1)%nat -> length Qs = (n - yc + 1)%nat -> (1 <= yc <= n)%nat ->
  map (fun i => if (i <=? n - yc)%nat then nthz (rl ++ Qs) (i + yc - 1) else 0) (seq 0 n) = Qs ++ zeros (yc - 1).
Proof.
  intros Hrl HQ Hyc. apply (nth_ext _ _ 0 0).
  - rewrite map_length, seq_length, app_length, length_zeros. lia.
  - intros i Hi. rewrite map_length, seq_length in Hi. rewrite nth_map_seq by assumption.
    destruct (i <=? n - yc)%nat eqn:E.
    + apply Nat.leb_le in E. unfold nthz. rewrite app_nth2 by lia. rewrite app_nth1 by lia. f_equal. lia.
    + apply Nat.leb_gt in E. rewrite app_nth2 by lia. unfold zeros. rewrite nth_repeat. reflexivity.
Qed.

Lemma eval_single_limb y : wf y -> eval y < B -> eval y = nthz y 0.
Proof.
  intros Hw Hlt. destruct y as [|a r]; [reflexivity|]. apply wf_cons in Hw. destruct Hw as [Ha Hr].
  cbn [eval] in *. unfold nthz. cbn [nth]. pose proof (eval_nonneg r Hr). unfold is_word in Ha. pose proof B_gt1.
  destruct (Z.eq_dec (eval r) 0) as [->|]; [lia|]. assert (B * 1 <= B * eval r) by (apply Z.mul_le_mono_nonneg_l; lia). lia.
Qed.

(** a divisor that fits one limb: its value is its lowest limb, and Reciprocal::new of that limb is right *)
Lemma single_limb_recip y0 : wf y0 -> 0 < eval y0 < B ->
  recip_ok (top64 (eval y0)) (reciprocal (top64 (eval y0))) ->
  eval y0 = nthz y0 0 /\ recip_for (nthz y0 0) (recip_new (nthz y0 0)).
Proof.
  intros Hw Hy Hrec. pose proof (eval_single_limb y0 Hw ltac:(lia)) as Hd. split; [assumption|].
  rewrite <- Hd. apply recip_new_for; [assumption|]. rewrite recip_new_top64; assumption.
Qed.

(** a one-limb remainder widened to m limbs *)
Lemma resize_limb m r : (1 <= m)%nat -> 0 <= r < B ->
  eval (resize m [r]) = r /\ wf (resize m [r]) /\ length (resize m [r]) = m.
Proof.
  intros Hm Hr. pose proof (wf_one r Hr) as Hw.
  split; [|split; [apply wf_resize; assumption | apply length_resize]].
  rewrite eval_resize_ge by (auto; simpl; lia). cbn [eval]. lia.
Qed.

(** the normalised divisor window: its two top limbs; the top one is normalised, so Reciprocal::new leaves it *)
Lemma divisor_decomp k yw yb : wf yw -> length yw = S (S k) -> Bn (S (S k)) <= 2 * eval yw ->
  exists yl v0 d, yw = yl ++ [v0; d] /\ length yl = k /\ wf yl /\ is_word v0 /\ normalized d /\
    nthz (yw ++ yb) (S (S k) - 1) = d /\ nthz yw (S k) = d /\
    recip_new d = {| r_d := d; r_shift := 0; r_v := reciprocal d |}.
Proof.
  intros Hw Hl Hlo. destruct (wf_snoc2 yw k Hl Hw) as (yl & v0 & d & -> & Hlyl & Hwyl & Hv0 & Hd).
  assert (Ey : yl ++ [v0; d] = (yl ++ [v0]) ++ [d]) by (rewrite <- app_assoc; reflexivity).
  assert (Hll : length (yl ++ [v0]) = S k) by (rewrite app_length; simpl; lia).
  assert (Hnd : normalized d).
  { apply (top_limb_normalized (yl ++ [v0])); [|assumption | rewrite Hll, <- Ey; exact Hlo].
    apply wf_app_word. split; assumption. }
  exists yl, v0, d. split; [reflexivity|]. split; [assumption|]. split; [assumption|]. split; [assumption|].
  split; [assumption|]. split; [|split; [|apply recip_new_normalized; assumption]].
  - rewrite Ey, <- app_assoc. apply nthz_app_mid. lia.
  - rewrite Ey. apply nthz_app_mid. assumption.
Qed.

(** normalisation, Knuth loop, denormalisation: shared by Uint::div_rem_vartime and the boxed in-place division.
    Dividend and the yc significant divisor limbs are shifted by s = nshift; the loop leaves the quotient digits Qs
    above the low limbs rl of the shifted remainder, whose top limb is v_xhi; shifting back gives r. *)
Lemma vt_core k x0 y0 :
  wf x0 -> wf y0 -> 0 < eval y0 -> nlimbs (eval y0) = S (S k) -> (S (S k) <= length x0)%nat ->
  recip_ok (top64 (eval y0)) (reciprocal (top64 (eval y0))) ->
  let n := length x0 in let yc := S (S k) in let s := nshift (eval y0) in
  let '(x, x_hi) := shl_limb_vartime x0 s n in
  let '(y, _) := shl_limb_vartime y0 s yc in
  let st := div_vt_loop (n - yc + 1) (n - 1) yc y (recip_new (nthz y (yc - 1))) {| v_x := x; v_xhi := x_hi |} in
  exists rl Qs yb, v_x st = rl ++ Qs /\ skipn yc y = yb /\ length rl = S k /\ length Qs = (n - yc + 1)%nat /\
    wf Qs /\ length yb = (length y0 - yc)%nat /\
    let r := shr_limb_vartime ((rl ++ [v_xhi st]) ++ yb) s yc in
    eval x0 = eval Qs * eval y0 + eval r /\ 0 <= eval r < eval y0 /\ wf r /\ length r = length y0.
Proof.
  intros Hwx Hwy Hyp Hnl E2 Hrec n yc s. subst yc.
  destruct (nlimbs_spec _ Hyp) as (_ & Hsh & _ & _ & Hnlo & Hnhi). fold s in Hsh, Hnlo, Hnhi. rewrite Hnl in Hnlo, Hnhi.
  pose proof (nlimbs_le_length y0 Hwy Hyp) as Hycm. rewrite Hnl in Hycm.
  (* normalisation *)
  pose proof (shl_limb_vartime_full x0 s Hwx Hsh) as Hx. fold n in Hx.
  destruct (shl_limb_vartime x0 s n) as [xs x_hi]. destruct Hx as (Hxe & Hwxs & Hlxs & Hxhi).
  destruct (shl_limb_vartime_low y0 s (S (S k)) Hwy Hsh Hycm Hnhi) as (yw & yb & Hyw & Hlyw & Hwyw & Hwyb & Heyw & Heyb & Hlyy).
  destruct (shl_limb_vartime y0 s (S (S k))) as [y cy]. cbn [fst] in Hyw. subst y.
  destruct (divisor_decomp k yw yb Hwyw Hlyw ltac:(rewrite Heyw; assumption))
    as (yl & v0 & d & Eyw2 & Hlyl & Hwyl & Hv0 & Hnd & Htop & Htop' & Hrn).
  assert (Hrcd : recip_ok d (reciprocal d)) by (rewrite <- Htop', (top_limb_top64 (eval y0) yw (S k)); assumption).
  rewrite Htop, Hrn.
  set (rc := {| r_d := d; r_shift := 0; r_v := reciprocal d |}) in *.
  (* the loop on xs = lo ++ xw *)
  set (lo := firstn (n - S (S k)) xs). set (xw := skipn (n - S (S k)) xs).
  assert (Exs : xs = lo ++ xw ++ []) by (rewrite app_nil_r; unfold lo, xw; rewrite firstn_skipn; reflexivity).
  assert (Hllo : length lo = (n - S (S k))%nat) by (unfold lo; rewrite firstn_length_le; lia).
  assert (Hlxw : length xw = S (S k)) by (unfold xw; rewrite skipn_length; lia).
  assert (Hwlo : wf lo) by (apply wf_firstn; assumption).
  assert (Hwxw : wf xw) by (apply wf_skipn; assumption).
  pose proof (shift_carry_word x_hi s Hxhi Hsh) as Hxhiw.
  pose proof (eval_bounds xw Hwxw) as Hbxw. rewrite Hlxw in Hbxw.
  set (Y := eval (yl ++ [v0; d])) in *.
  assert (HY : Y = eval y0 * 2 ^ s) by (unfold Y; rewrite <- Eyw2; assumption).
  assert (HWY : eval xw + Bn (S (S k)) * x_hi < Y * B) by (apply (window_bound _ _ _ s); try assumption; rewrite HY; assumption).
  assert (Eyy : yw ++ yb = (yl ++ [v0; d]) ++ yb) by (rewrite Eyw2; reflexivity).
  destruct (div_vt_loop_correct k (yw ++ yb) yl v0 d yb rc Eyy Hlyl Hwyl Hv0 eq_refl Hnd Hrcd
              lo xw [] x_hi Hwlo Hlxw Hwxw Hxhiw HWY)
    as (rl & Qs & rh & Hloop & Hlrl & Hwrl & Hrh & HwQ & HlQ & Heq & Hrem).
  fold Y in Heq, Hrem.
  replace (n - S (S k) + 1)%nat with (S (length lo)) by lia.
  replace (n - 1)%nat with (length lo + S k)%nat by lia.
  rewrite Exs. rewrite Hloop. cbn [v_x v_xhi]. rewrite app_nil_r.
  exists rl, Qs, yb. split; [reflexivity|].
  split; [rewrite skipn_app, skipn_all2, Hlyw, Nat.sub_diag by lia; reflexivity|].
  split; [assumption|]. split; [assumption|]. split; [assumption|].
  split; [rewrite app_length in Hlyy; lia|].
  (* denormalisation *)
  assert (HX : eval x0 * 2 ^ s = eval (rl ++ [rh]) + (eval y0 * 2 ^ s) * eval Qs).
  { rewrite <- HY, <- Heq, <- Hxe. rewrite Exs, app_nil_r, eval_app, Hllo.
    replace n with ((n - S (S k)) + S (S k))%nat at 2 by lia. rewrite Bn_add. ring. }
  assert (H2s : 0 < 2 ^ s) by (apply Z.pow_pos_nonneg; lia).
  rewrite HY in Hrem.
  destruct (denormalise (eval x0) (2 ^ s) (eval (rl ++ [rh])) (eval y0) (eval Qs) H2s HX Hrem) as [Hfin Hfin2].
  assert (Hlr1 : length (rl ++ [rh]) = S (S k)) by (rewrite app_length; simpl; lia).
  assert (Hwr1 : wf (rl ++ [rh])) by (apply wf_app_word; split; assumption).
  pose proof (shr_limb_vartime_correct (rl ++ [rh]) yb s Hwr1 Hwyb Heyb Hsh) as Hshr.
  rewrite Hlr1 in Hshr. cbv zeta in Hshr |- *. destruct Hshr as (-> & Hwr & ->).
  split; [assumption|]. split; [assumption|]. split; [assumption|].
  rewrite <- Hlyy, !app_length. simpl. lia.
Qed.

Theorem div_rem_vartime_correct x0 y0 q r :
  wf x0 -> wf y0 -> eval y0 <> 0 ->
  recip_ok (top64 (eval y0)) (reciprocal (top64 (eval y0))) ->
  div_rem_vartime x0 y0 = (q, r) ->
  eval x0 = eval q * eval y0 + eval r /\ 0 <= eval r < eval y0 /\
  length q = length x0 /\ length r = length y0 /\ wf q /\ wf r.
Proof.
  intros Hwx Hwy Hnz Hrec E.
  pose proof (eval_nonneg y0 Hwy) as Hy0. assert (Hyp : 0 < eval y0) by lia.
  pose proof (eval_bounds x0 Hwx) as Hbx. pose proof (eval_bounds y0 Hwy) as Hby.
  destruct (nlimbs_spec _ Hyp) as (Hyc1 & Hsh & Hshe & [Hylo Hyhi] & Hnlo & Hnhi).
  pose proof (nlimbs_le_length y0 Hwy Hyp) as Hycm.
  pose proof (top64_normalized _ Hyp) as Hnorm.
  unfold div_rem_vartime in E. fold (nlimbs (eval y0)) in E. fold (nshift (eval y0)) in E.
  set (yc := nlimbs (eval y0)) in *. set (s := nshift (eval y0)) in *.
  set (n := length x0) in *. set (m := length y0) in *.
  pose proof B_gt1 as HB.
  destruct (yc =? 1)%nat eqn:E1.
  - (* one significant limb *)
    apply Nat.eqb_eq in E1. rewrite E1 in *. rewrite Bn_1 in Hyhi.
    destruct (single_limb_recip y0 Hwy ltac:(lia) Hrec) as [Hd Hfor]. set (d := nthz y0 0) in *.
    pose proof (div_rem_limb_correct x0 d (recip_new d) Hwx ltac:(lia) Hfor) as H.
    destruct (div_rem_limb_with_reciprocal x0 (recip_new d)) as [q1 r1]. inv_pair E.
    destruct H as (He & Hr & Hwq & Hlq).
    destruct (resize_limb m r1 ltac:(lia) ltac:(lia)) as (Hev & Hwr & Hlr).
    rewrite Hev, Hd. repeat split; auto; lia.
  - apply Nat.eqb_neq in E1. destruct (n <? yc)%nat eqn:E2.
    + (* divisor longer than dividend *)
      apply Nat.ltb_lt in E2. inv_pair E.
      assert (Bn n <= Bn (yc - 1)) by (apply Bn_le; lia).
      assert (Hev : eval (resize m x0) = eval x0).
      { rewrite eval_resize by assumption. apply Z.mod_small. lia. }
      rewrite Hev, eval_zeros. repeat split; auto using length_zeros, length_resize, wf_zeros, wf_resize; lia.
    + apply Nat.ltb_ge in E2.
      destruct yc as [|[|k]] eqn:Eyc; [lia | lia |]. clear E1 Hyc1.
      pose proof (vt_core k x0 y0 Hwx Hwy Hyp Eyc E2 Hrec) as H. cbv zeta in H. fold n s in H.
      destruct (shl_limb_vartime x0 s n) as [xs x_hi]. destruct (shl_limb_vartime y0 s (S (S k))) as [y cy].
      destruct H as (rl & Qs & yb & Hvx & Hyb & Hlrl & HlQ & HwQ & Hlyb & He & Hr & Hwr & Hlr).
      rewrite Hvx, Hyb in E. inv_pair E.
      rewrite (quotient_readout rl Qs n (S (S k))) by lia.
      replace (firstn (S (S k) - 1) (rl ++ Qs)) with rl
        by (cbn [Nat.sub]; rewrite <- Hlrl, firstn_app, Nat.sub_diag, firstn_all; cbn [firstn]; rewrite app_nil_r; reflexivity).
      rewrite (app_assoc rl), eval_app, eval_zeros.
      split; [lia|]. split; [assumption|]. split; [rewrite app_length, length_zeros; lia|].
      split; [assumption|]. split; [apply wf_app; split; [assumption | apply wf_zeros] | assumption].
Qed.
