(** C05, op tables of Model/Bits.v: for EVERY key of [ops_bits_model] the model entry (limb-level model of the Rust
    code plus the glue of the entry: option / flag plumbing, `expect`s, the u32 conversion of the operator forms,
    wrapping / panicking selection, argument decoding) returns the same outcome as the entry of [ops_bits_spec]
    (plain Z arithmetic on the represented integers) wherever the spec entry is defined.

    The only side conditions are the ones Rust's types enforce, stated once per key class as a boolean predicate
    ([bits_tbl_ty]): BITS = 64 * LIMBS and a shift amount / bit index passed as u32 are below 2^32, the two halves of a
    wide value and the two operands of a Uint<N> operator have one limb count.  Lookup is [run_tab] of
    Proofs/TotalityP.v (the lookup of Model/Api.v restricted to one table); the key list is [bits_keys] (C11). *)
From CB Require Import Model.Limbs Model.AddSub Model.Bits Proofs.WordP Proofs.WordPredP Proofs.LimbsP Proofs.AddSubP
  Proofs.BitsWordP Proofs.ShiftP Proofs.LadderP Proofs.BitQueryP Proofs.IntShiftP Proofs.WideP
  Proofs.TotalityP.
From Coq Require Import ZArith Lia List String Bool.
Open Scope Z_scope.
Notation length := List.length.

(* ------------------------------------------------------------------ typing side conditions (boolean, per key class) *)
Definition typingb := list (string * (list (list Z) -> bool)).
Definition typedb (t : typingb) (k : string) (a : list (list Z)) : bool :=
  match lookup k t with Some P => P a | None => true end.

(* BITS = 64 * LIMBS is a u32 *)
Definition u32_bits (a : list (list Z)) : bool := 64 * Z.of_nat (length (arg 0 a)) <? 2 ^ 32.
(* ... and the shift amount is passed as u32 *)
Definition u32_bits_shift (a : list (list Z)) : bool := u32_bits a && (sarg 1 a <? 2 ^ 32).
(* a bit index passed as u32 into a slice whose limb count is a u32 *)
Definition u32_index (a : list (list Z)) : bool := (Z.of_nat (length (arg 0 a)) <? 2 ^ 32) && (sarg 1 a <? 2 ^ 32).
(* (lo, hi) of a wide value: two Uint<N> *)
Definition halves_eq (a : list (list Z)) : bool := (length (arg 1 a) =? length (arg 0 a))%nat.
(* Uint<N> op Uint<N> *)
Definition same_lenb (a : list (list Z)) : bool := (length (arg 0 a) =? length (arg 1 a))%nat.

Open Scope string_scope.
Definition bits_tbl_ty : typingb :=
  [ (* constant-time ladder forms taking a u32 shift *)
    ("uint.overflowing_shl", u32_bits_shift); ("uint.wrapping_shl", u32_bits_shift);
    ("uint.overflowing_shr", u32_bits_shift); ("uint.wrapping_shr", u32_bits_shift);
    ("int.overflowing_shr", u32_bits_shift); ("int.wrapping_shr", u32_bits_shift);
    (* operator forms << >>: any integer shift (the conversion to u32 is in the table); BITS is a u32 *)
    ("uint.shl", u32_bits); ("uint.shr", u32_bits); ("int.shr", u32_bits); ("boxed.shl", u32_bits); ("boxed.shr", u32_bits);
    (* constant-time bit access with a u32 index *)
    ("bits.bit", u32_index); ("bits.set_bit", u32_index);
    ("uint.shl_vartime_wide", halves_eq); ("uint.shr_vartime_wide", halves_eq);
    ("uint.and", same_lenb); ("uint.or", same_lenb); ("uint.xor", same_lenb) ].
Close Scope string_scope.

Definition tbl_ok (k : string) : Prop :=
  forall dbg a, wf_args a -> typedb bits_tbl_ty k a = true -> run_tab ops_bits_spec k dbg a <> Unsupported ->
    run_tab ops_bits_model k dbg a = run_tab ops_bits_spec k dbg a.

Lemma bits_cover : covers bits_keys ops_bits_model = true.
Proof. vm_compute. reflexivity. Qed.

(* the documented domain of the spec: at least one limb *)
Lemma nonempty_dom a o : nonempty a o <> Unsupported -> arg 0 a <> [] /\ nonempty a o = o.
Proof.
  unfold nonempty, Bits.ln. destruct (arg 0 a) as [|x l]; cbn [length Nat.eqb].
  - intros H. contradiction H. reflexivity.
  - intros _. split; [discriminate | reflexivity].
Qed.
Lemma choice_is_some b v : ct_is_some (v, choice_of_bool b) = b.
Proof. unfold ct_is_some. cbn [snd]. apply choice_to_bool_choice. Qed.
Lemma choice_expect b v : ct_expect (v, choice_of_bool b) = if b then Some v else None.
Proof.
  unfold ct_expect. cbn [fst snd]. destruct b; cbn [choice_of_bool].
  - rewrite Z.eqb_refl. reflexivity.
  - replace (0 =? MAXW) with false; [reflexivity|]. symmetry. apply Z.eqb_neq. pose proof MAXW_val. pose proof B_gt1. lia.
Qed.

Ltac open_typedb H :=
  unfold typedb in H;
  lazy beta iota delta [lookup bits_tbl_ty String.eqb Ascii.eqb Bool.eqb] in H.
Ltac start :=
  let dbg := fresh "dbg" in let a := fresh "a" in
  let Hwf := fresh "Hwf" in let Hty := fresh "Hty" in let Hdom := fresh "Hdom" in
  intros dbg a Hwf Hty Hdom; open_typedb Hty; revert Hdom; open_tabs ops_bits_model ops_bits_spec; intros Hdom.
Ltac dom := match goal with Hdom : nonempty _ _ <> Unsupported |- _ =>
  let Hne := fresh "Hne" in let Hd := fresh "Hd" in
  apply nonempty_dom in Hdom; destruct Hdom as [Hne Hd]; rewrite Hd; clear Hd end.

Lemma u32_bits_true a : u32_bits a = true -> 64 * Z.of_nat (length (arg 0 a)) < U32.
Proof. unfold u32_bits, U32. intros H. apply Z.ltb_lt in H. exact H. Qed.
Lemma u32_bits_shift_true a : u32_bits_shift a = true -> 64 * Z.of_nat (length (arg 0 a)) < U32 /\ sarg 1 a < U32.
Proof.
  unfold u32_bits_shift. intros H. apply andb_prop in H. destruct H as [H1 H2].
  split; [apply u32_bits_true; exact H1 | apply Z.ltb_lt in H2; exact H2].
Qed.
Lemma u32_index_true a : u32_index a = true -> Z.of_nat (length (arg 0 a)) < U32 /\ sarg 1 a < U32.
Proof.
  unfold u32_index, U32. intros H. apply andb_prop in H. destruct H as [H1 H2].
  apply Z.ltb_lt in H1. apply Z.ltb_lt in H2. split; assumption.
Qed.

(* ------------------------------------------------------------------ canonical limbs *)
Lemma limbs_canon v n x : wf v -> length v = n -> eval v = x -> v = to_limbs n x.
Proof. apply limbs_of_val. Qed.
Lemma zeros_to_limbs n : zeros n = to_limbs n 0.
Proof. apply limbs_canon; auto using wf_zeros, length_zeros, eval_zeros. Qed.
Lemma maxs_to_limbs n : maxs n = to_limbs n (Bn n - 1).
Proof. exact (AddSubP.maxs_to_limbs n). Qed.
Lemma word_to_limbs x : is_word x -> [x] = to_limbs 1 x.
Proof.
  intros Hx. apply limbs_canon; [constructor; [exact Hx | constructor] | reflexivity |].
  cbn [eval]. lia.
Qed.

(* ------------------------------------------------------------------ the outcome glue of the shift entries *)
(* [v] is the value a shift by [s] of an n-limb number returns: R inside the width, (for [sh_out]) 0 beyond it *)
Definition sh_in (n : nat) (s R : Z) (v : list Z) : Prop :=
  wf v /\ length v = n /\ ((s <? bitsn n) = true -> v = to_limbs n R).
Definition sh_out (n : nat) (s : Z) (v : list Z) : Prop := (s <? bitsn n) = false -> v = to_limbs n 0.

Lemma f_ctopt n s R v : sh_in n s R v ->
  out_ctopt (Some (v, choice_of_bool (s <? bitsn n))) = sp_shift_opt n s (if s <? bitsn n then R else 0).
Proof.
  intros (Wv & Lv & Hv). unfold out_ctopt, sp_shift_opt, Bits.sp_val. rewrite choice_is_some. cbn [fst].
  destruct (s <? bitsn n); [rewrite Hv by reflexivity|]; reflexivity.
Qed.
Lemma f_expect n s R v : sh_in n s R v ->
  out_expect (Some (v, choice_of_bool (s <? bitsn n))) = sp_shift_panic n s (if s <? bitsn n then R else 0).
Proof.
  intros (Wv & Lv & Hv). unfold out_expect, sp_shift_panic, Bits.sp_val. rewrite choice_expect.
  destruct (s <? bitsn n); [rewrite Hv by reflexivity|]; reflexivity.
Qed.
Lemma f_unwrap n s R F v def : sh_in n s R v -> def = to_limbs n F ->
  out_unwrap_or (Some (v, choice_of_bool (s <? bitsn n))) def = sp_shift_wrap n s (if s <? bitsn n then R else 0) F.
Proof.
  intros (Wv & Lv & Hv) Hd. unfold out_unwrap_or, sp_shift_wrap, Bits.sp_val.
  rewrite ct_unwrap_or_choice; [| exact Wv | subst def; apply wf_to_limbs | subst def; rewrite length_to_limbs; lia].
  destruct (s <? bitsn n); [rewrite Hv by reflexivity | rewrite Hd]; reflexivity.
Qed.
Lemma f_optstd n s R v : sh_in n s R v ->
  out_opt_std (v, choice_of_bool (s <? bitsn n)) = sp_shift_opt n s (if s <? bitsn n then R else 0).
Proof.
  intros (Wv & Lv & Hv). unfold out_opt_std, sp_shift_opt, Bits.sp_val. rewrite choice_is_some. cbn [fst].
  destruct (s <? bitsn n); [rewrite Hv by reflexivity|]; reflexivity.
Qed.
Lemma f_fst n s R v : sh_in n s R v -> sh_out n s v ->
  Val [v] = sp_shift_wrap n s (if s <? bitsn n then R else 0) 0.
Proof.
  intros (Wv & Lv & Hv) Ho. unfold sp_shift_wrap, Bits.sp_val, sh_out in *.
  destruct (s <? bitsn n); [rewrite Hv by reflexivity | rewrite Ho by reflexivity]; reflexivity.
Qed.
Lemma f_bpair n s R v : sh_in n s R v -> sh_out n s v ->
  out_boxed_pair (Some (v, negb (s <? bitsn n))) = sp_shift_pair n s (if s <? bitsn n then R else 0).
Proof.
  intros (Wv & Lv & Hv) Ho. unfold out_boxed_pair, sp_shift_pair, sh_out in *.
  destruct (s <? bitsn n); cbn [negb]; [rewrite Hv by reflexivity | rewrite Ho by reflexivity]; reflexivity.
Qed.
Lemma f_bpanic n s R v : sh_in n s R v ->
  out_boxed_panic (Some (v, negb (s <? bitsn n))) = sp_shift_panic n s (if s <? bitsn n then R else 0).
Proof.
  intros (Wv & Lv & Hv). unfold out_boxed_panic, sp_shift_panic, Bits.sp_val.
  destruct (s <? bitsn n); cbn [negb]; [rewrite Hv by reflexivity|]; reflexivity.
Qed.
Lemma f_bwrap n s R v : sh_in n s R v -> sh_out n s v ->
  out_boxed_wrapping (Some (v, negb (s <? bitsn n))) = sp_shift_wrap n s (if s <? bitsn n then R else 0) 0.
Proof. intros Hi Ho. unfold out_boxed_wrapping. apply f_fst; assumption. Qed.
Lemma f_bopt n s R v : sh_in n s R v ->
  out_boxed_opt (Some (v, negb (s <? bitsn n))) = sp_shift_opt n s (if s <? bitsn n then R else 0).
Proof.
  intros (Wv & Lv & Hv). unfold out_boxed_opt, sp_shift_opt, Bits.sp_val.
  destruct (s <? bitsn n); cbn [negb]; [rewrite Hv by reflexivity|]; reflexivity.
Qed.

(* the operator forms: u32::try_from(shift).expect(..) first; a shift that is no u32 is >= BITS *)
Lemma f_guard n s o r : 0 <= s -> bitsn n < U32 -> (s < U32 -> o = sp_shift_panic n s r) ->
  guard_u32 s o = sp_shift_panic n s r.
Proof.
  intros Hs Hb H. unfold guard_u32, fits_u32.
  replace (0 <=? s) with true by (symmetry; apply Z.leb_le; assumption). cbn [andb].
  destruct (Z.ltb_spec s U32) as [Hlt|Hge]; [apply H; exact Hlt|].
  unfold sp_shift_panic. replace (s <? bitsn n) with false; [reflexivity|]. symmetry. apply Z.ltb_ge. lia.
Qed.

(* ------------------------------------------------------------------ the kernels in [sh_in] / [sh_out] form *)
Lemma pack_of_eval n s R (v : list Z) : wf v -> length v = n ->
  eval v = (if s <? bitsn n then R else 0) -> sh_in n s R v /\ sh_out n s v.
Proof.
  intros Wv Lv Ev. unfold sh_in, sh_out. repeat split; auto; intros E; rewrite E in Ev; apply limbs_canon; auto.
Qed.

Section Packs.
  Variable step : list Z -> Z -> ctopt.
  Variable val : nat -> Z -> Z -> Z.
  Hypothesis K : shift_kernel step val.

  Lemma vt_pack x s : wf x -> 0 <= s ->
    exists v, step x s = (v, choice_of_bool (s <? bitsn (length x))) /\
              sh_in (length x) s (val (length x) (eval x) s) v /\ sh_out (length x) s v.
  Proof.
    intros Hw Hs. destruct (step_res _ _ K x s Hw Hs) as (v & E & Wv & Lv & Ev).
    exists v. split; [exact E|]. apply pack_of_eval; assumption.
  Qed.

  Lemma boxed_pack x s : wf x -> x <> [] -> 0 <= s ->
    exists v, boxed_overflowing_shift step x s = Some (v, negb (s <? bitsn (length x))) /\
              sh_in (length x) s (val (length x) (eval x) s) v /\ sh_out (length x) s v.
  Proof.
    intros Hw Hne Hs. destruct (boxed_shift_correct _ _ K x s Hw Hne Hs) as (v & E & Wv & Lv & Ev).
    exists v. split; [exact E|]. apply pack_of_eval; assumption.
  Qed.
End Packs.

Lemma shl_pack x s : wf x -> 0 <= s ->
  exists v, uint_overflowing_shl_vartime x s = (v, choice_of_bool (s <? bitsn (length x))) /\
            sh_in (length x) s (spec_shl (length x) (eval x) s) v /\ sh_out (length x) s v.
Proof. exact (vt_pack _ _ shl_kernel x s). Qed.
Lemma shr_pack x s : wf x -> 0 <= s ->
  exists v, uint_overflowing_shr_vartime x s = (v, choice_of_bool (s <? bitsn (length x))) /\
            sh_in (length x) s (spec_shr (eval x) s) v /\ sh_out (length x) s v.
Proof. exact (vt_pack _ _ shr_kernel x s). Qed.

(* ================================================================== Limb *)
Lemma tbl_limb_shl : tbl_ok "limb.shl".
Proof.
  start. pose proof (sarg_word 0 a Hwf) as H0. pose proof (sarg_word 1 a Hwf) as [H1 _].
  rewrite (limb_shift_correct true dbg _ _ H0 H1). unfold Bits.sp_val, spec_shl. rewrite Bn_1.
  destruct (sarg 1 a <? 64); [|reflexivity]. rewrite <- word_to_limbs by apply is_word_mod. reflexivity.
Qed.
Lemma tbl_limb_shr : tbl_ok "limb.shr".
Proof.
  start. pose proof (sarg_word 0 a Hwf) as H0. pose proof (sarg_word 1 a Hwf) as [H1 _].
  rewrite (limb_shift_correct false dbg _ _ H0 H1). unfold Bits.sp_val, spec_shr.
  destruct (Z.ltb_spec (sarg 1 a) 64) as [Hlt|]; [|reflexivity].
  rewrite <- word_to_limbs by (apply (limb_shift_is_word false _ _ H0); lia). reflexivity.
Qed.
Lemma tbl_limb_wrapping_shl : tbl_ok "limb.wrapping_shl".
Proof.
  start. unfold Bits.sp_val, spec_shl, wshl, wrap. rewrite Bn_1.
  rewrite <- word_to_limbs by apply is_word_mod. reflexivity.
Qed.
Lemma tbl_limb_wrapping_shr : tbl_ok "limb.wrapping_shr".
Proof.
  start. unfold Bits.sp_val, spec_shr. pose proof (sarg_word 0 a Hwf) as H0.
  pose proof (Z.mod_pos_bound (sarg 1 a) 64 ltac:(lia)) as Hm.
  rewrite <- word_to_limbs; [reflexivity|]. apply (is_word_wshr _ _ H0). lia.
Qed.
Lemma tbl_limb_bits : tbl_ok "limb.bits".
Proof. start. rewrite (limb_bits_correct _ (sarg_word 0 a Hwf)). reflexivity. Qed.
Lemma tbl_limb_leading_zeros : tbl_ok "limb.leading_zeros".
Proof.
  start. rewrite <- (limb_bits_correct _ (sarg_word 0 a Hwf)).
  replace (64 - (64 - wlz (sarg 0 a))) with (wlz (sarg 0 a)) by lia. reflexivity.
Qed.
Lemma tbl_limb_trailing_zeros : tbl_ok "limb.trailing_zeros".
Proof. start. rewrite (limb_trailing_zeros_correct _ (sarg_word 0 a Hwf)). reflexivity. Qed.
Lemma tbl_limb_trailing_ones : tbl_ok "limb.trailing_ones".
Proof. start. rewrite (limb_trailing_ones_correct _ (sarg_word 0 a Hwf)). reflexivity. Qed.
Lemma tbl_limb_and : tbl_ok "limb.and". Proof. start. reflexivity. Qed.
Lemma tbl_limb_or : tbl_ok "limb.or". Proof. start. reflexivity. Qed.
Lemma tbl_limb_xor : tbl_ok "limb.xor". Proof. start. reflexivity. Qed.
Lemma tbl_limb_not : tbl_ok "limb.not".
Proof. start. unfold wnot. rewrite MAXW_val. reflexivity. Qed.

(* ================================================================== Uint shifts *)
Section ShiftArgs.
Variables (a : list (list Z)).
Hypothesis Hwf : wf_args a.
Lemma wf_x : wf (arg 0 a). Proof. apply wf_arg; exact Hwf. Qed.
Lemma s_ge0 : 0 <= sarg 1 a. Proof. apply (sarg_word 1 a Hwf). Qed.
End ShiftArgs.

Local Ltac sp_open := unfold spx_shl, spx_shr, spx_sar, Bits.ln, Bits.ev, sev.
(* variable-time forms: no side condition *)
Local Ltac vt_shl a Hwf :=
  destruct (shl_pack (arg 0 a) (sarg 1 a) (wf_x a Hwf) (s_ge0 a Hwf)) as (v & -> & Hi & Ho); sp_open.
Local Ltac vt_shr a Hwf :=
  destruct (shr_pack (arg 0 a) (sarg 1 a) (wf_x a Hwf) (s_ge0 a Hwf)) as (v & -> & Hi & Ho); sp_open.
(* constant-time ladder = variable-time result, for a u32 shift *)
Local Ltac ct_shl a Hwf Hne Hty :=
  destruct (u32_bits_shift_true a Hty) as [Hb Hs];
  rewrite (uint_shl_ct_eq_vartime (arg 0 a) (sarg 1 a) (wf_x a Hwf) Hne Hb (conj (s_ge0 a Hwf) Hs)); vt_shl a Hwf.
Local Ltac ct_shr a Hwf Hne Hty :=
  destruct (u32_bits_shift_true a Hty) as [Hb Hs];
  rewrite (uint_shr_ct_eq_vartime (arg 0 a) (sarg 1 a) (wf_x a Hwf) Hne Hb (conj (s_ge0 a Hwf) Hs)); vt_shr a Hwf.

Lemma tbl_uint_overflowing_shl : tbl_ok "uint.overflowing_shl".
Proof. start. dom. ct_shl a Hwf Hne Hty. apply f_ctopt; assumption. Qed.
Lemma tbl_uint_overflowing_shl_vartime : tbl_ok "uint.overflowing_shl_vartime".
Proof. start. dom. vt_shl a Hwf. apply f_ctopt; assumption. Qed.
Lemma tbl_uint_shl_vartime : tbl_ok "uint.shl_vartime".
Proof. start. dom. vt_shl a Hwf. apply f_expect; assumption. Qed.
Lemma tbl_uint_wrapping_shl : tbl_ok "uint.wrapping_shl".
Proof. start. dom. ct_shl a Hwf Hne Hty. apply f_unwrap; [assumption | apply zeros_to_limbs]. Qed.
Lemma tbl_uint_wrapping_shl_vartime : tbl_ok "uint.wrapping_shl_vartime".
Proof. start. dom. vt_shl a Hwf. apply f_unwrap; [assumption | apply zeros_to_limbs]. Qed.
Lemma tbl_uint_shl : tbl_ok "uint.shl".
Proof.
  start. dom. apply u32_bits_true in Hty. apply f_guard; [apply s_ge0; assumption | exact Hty |]. intros Hs.
  rewrite (uint_shl_ct_eq_vartime (arg 0 a) (sarg 1 a) (wf_x a Hwf) Hne Hty (conj (s_ge0 a Hwf) Hs)).
  vt_shl a Hwf. apply f_expect; assumption.
Qed.

Lemma tbl_uint_overflowing_shr : tbl_ok "uint.overflowing_shr".
Proof. start. dom. ct_shr a Hwf Hne Hty. apply f_ctopt; assumption. Qed.
Lemma tbl_uint_overflowing_shr_vartime : tbl_ok "uint.overflowing_shr_vartime".
Proof. start. dom. vt_shr a Hwf. apply f_ctopt; assumption. Qed.
Lemma tbl_uint_shr_vartime : tbl_ok "uint.shr_vartime".
Proof. start. dom. vt_shr a Hwf. apply f_expect; assumption. Qed.
Lemma tbl_uint_wrapping_shr : tbl_ok "uint.wrapping_shr".
Proof. start. dom. ct_shr a Hwf Hne Hty. apply f_unwrap; [assumption | apply zeros_to_limbs]. Qed.
Lemma tbl_uint_wrapping_shr_vartime : tbl_ok "uint.wrapping_shr_vartime".
Proof. start. dom. vt_shr a Hwf. apply f_unwrap; [assumption | apply zeros_to_limbs]. Qed.
Lemma tbl_uint_shr : tbl_ok "uint.shr".
Proof.
  start. dom. apply u32_bits_true in Hty. apply f_guard; [apply s_ge0; assumption | exact Hty |]. intros Hs.
  rewrite (uint_shr_ct_eq_vartime (arg 0 a) (sarg 1 a) (wf_x a Hwf) Hne Hty (conj (s_ge0 a Hwf) Hs)).
  vt_shr a Hwf. apply f_expect; assumption.
Qed.

(* ================================================================== double-width shifts *)
Lemma wide_split n l h r : wf l -> wf h -> length l = n -> length h = n -> eval l + Bn n * eval h = r ->
  l = to_limbs n (r mod Bn n) /\ h = to_limbs n (r / Bn n).
Proof.
  intros Wl Wh Ll Lh E. pose proof (eval_bounds l Wl) as Bl. rewrite Ll in Bl.
  split; apply limbs_canon; auto.
  - apply (Z.mod_unique_pos r (Bn n) (eval h) (eval l)); lia.
  - apply (Z.div_unique_pos r (Bn n) (eval h) (eval l)); lia.
Qed.

Lemma tbl_uint_shl_vartime_wide : tbl_ok "uint.shl_vartime_wide".
Proof.
  start. dom. unfold halves_eq in Hty. apply Nat.eqb_eq in Hty. pose proof (sarg_word 2 a Hwf) as [Hs _].
  unfold sp_wide. cbv zeta. unfold Bits.ln, Bits.ev, bitsn.
  destruct (Z.leb_spec (2 * (64 * Z.of_nat (length (arg 0 a)))) (sarg 2 a)) as [Hge|Hlt].
  - destruct (uint_wide_overflow _ _ Hty (sarg 2 a) Hge) as [-> _]. reflexivity.
  - destruct (uint_shl_vartime_wide_correct _ _ (wf_arg 0 a Hwf) (wf_arg 1 a Hwf) Hty Hne (sarg 2 a) (conj Hs Hlt))
      as (l & h & -> & Wl & Wh & Ll & Lh & E).
    destruct (wide_split _ l h _ Wl Wh Ll Lh E) as [<- <-]. reflexivity.
Qed.
Lemma tbl_uint_shr_vartime_wide : tbl_ok "uint.shr_vartime_wide".
Proof.
  start. dom. unfold halves_eq in Hty. apply Nat.eqb_eq in Hty. pose proof (sarg_word 2 a Hwf) as [Hs _].
  unfold sp_wide. cbv zeta. unfold Bits.ln, Bits.ev, bitsn.
  destruct (Z.leb_spec (2 * (64 * Z.of_nat (length (arg 0 a)))) (sarg 2 a)) as [Hge|Hlt].
  - destruct (uint_wide_overflow _ _ Hty (sarg 2 a) Hge) as [_ ->]. reflexivity.
  - destruct (uint_shr_vartime_wide_correct _ _ (wf_arg 0 a Hwf) (wf_arg 1 a Hwf) Hty Hne (sarg 2 a) (conj Hs Hlt))
      as (l & h & -> & Wl & Wh & Ll & Lh & E).
    destruct (wide_split _ l h _ Wl Wh Ll Lh E) as [<- <-]. reflexivity.
Qed.

(* ================================================================== Int arithmetic right shift *)
Lemma seval_mod_eval v : wf v -> seval v mod Bn (length v) = eval v.
Proof.
  intros Hw. rewrite seval_is_neg. pose proof (eval_bounds v Hw). destruct (is_neg v).
  - symmetry. apply (Z.mod_unique_pos _ _ (-1)); lia.
  - apply Z.mod_small. lia.
Qed.
Lemma sar_canon x s v : wf v -> length v = length x -> seval v = seval x / 2 ^ s ->
  v = to_limbs (length x) (spec_sar (length x) (seval x) s).
Proof.
  intros Wv Lv E. apply limbs_canon; auto. unfold spec_sar. rewrite <- E, <- Lv. symmetry. apply seval_mod_eval. exact Wv.
Qed.
Lemma sign_fill_canon x : wf x -> x <> [] ->
  int_sign_fill x = to_limbs (length x) (if seval x <? 0 then Bn (length x) - 1 else 0).
Proof.
  intros Hw Hne. rewrite int_sign_fill_correct, is_neg_seval by assumption.
  destruct (seval x <? 0); [apply maxs_to_limbs | apply zeros_to_limbs].
Qed.
Lemma sar_vt_pack x s : wf x -> x <> [] -> 0 <= s ->
  exists v, int_overflowing_shr_vartime x s = (v, choice_of_bool (s <? bitsn (length x))) /\
            sh_in (length x) s (spec_sar (length x) (seval x) s) v.
Proof.
  intros Hw Hne Hs. pose proof (int_shr_vartime_correct x s Hw Hne Hs) as H. cbn zeta in H. destruct H as (Hc & Wr & Lr & Er).
  destruct (int_overflowing_shr_vartime x s) as [v c]. cbn [fst snd] in *. subst c.
  exists v. split; [reflexivity|]. repeat split; auto. intros _. apply sar_canon; assumption.
Qed.
Lemma sar_ct_pack x s : wf x -> x <> [] -> 64 * Z.of_nat (length x) < U32 -> 0 <= s < U32 ->
  exists v, int_overflowing_shr x s = Some (v, choice_of_bool (s <? bitsn (length x))) /\
            sh_in (length x) s (spec_sar (length x) (seval x) s) v.
Proof.
  intros Hw Hne Hb Hs. destruct (int_overflowing_shr_correct x s Hw Hne Hb Hs) as (v & E & Wv & Lv & Ev).
  exists v. split; [exact E|]. repeat split; auto. intros Hin. apply sar_canon; auto. apply Ev.
  apply Z.ltb_lt in Hin. exact Hin.
Qed.
Local Ltac vt_sar a Hwf Hne :=
  destruct (sar_vt_pack (arg 0 a) (sarg 1 a) (wf_x a Hwf) Hne (s_ge0 a Hwf)) as (v & -> & Hi); sp_open.
Local Ltac ct_sar a Hwf Hne Hty :=
  destruct (u32_bits_shift_true a Hty) as [Hb Hs];
  destruct (sar_ct_pack (arg 0 a) (sarg 1 a) (wf_x a Hwf) Hne Hb (conj (s_ge0 a Hwf) Hs)) as (v & -> & Hi); sp_open.

Lemma tbl_int_overflowing_shr : tbl_ok "int.overflowing_shr".
Proof. start. dom. ct_sar a Hwf Hne Hty. apply f_ctopt; assumption. Qed.
Lemma tbl_int_overflowing_shr_vartime : tbl_ok "int.overflowing_shr_vartime".
Proof. start. dom. vt_sar a Hwf Hne. apply f_ctopt; assumption. Qed.
Lemma tbl_int_shr_vartime : tbl_ok "int.shr_vartime".
Proof. start. dom. vt_sar a Hwf Hne. apply f_expect; assumption. Qed.
Lemma tbl_int_wrapping_shr : tbl_ok "int.wrapping_shr".
Proof.
  start. dom. ct_sar a Hwf Hne Hty. unfold sp_fill, sev, Bits.ln.
  apply f_unwrap; [assumption | apply sign_fill_canon; [apply wf_x; assumption | assumption]].
Qed.
Lemma tbl_int_wrapping_shr_vartime : tbl_ok "int.wrapping_shr_vartime".
Proof.
  start. dom. vt_sar a Hwf Hne. unfold sp_fill, sev, Bits.ln.
  apply f_unwrap; [assumption | apply sign_fill_canon; [apply wf_x; assumption | assumption]].
Qed.
Lemma tbl_int_shr : tbl_ok "int.shr".
Proof.
  start. dom. apply u32_bits_true in Hty. apply f_guard; [apply s_ge0; assumption | exact Hty |]. intros Hs.
  destruct (sar_ct_pack (arg 0 a) (sarg 1 a) (wf_x a Hwf) Hne Hty (conj (s_ge0 a Hwf) Hs)) as (v & -> & Hi); sp_open.
  apply f_expect; assumption.
Qed.

(* ================================================================== BoxedUint shifts *)
Lemma bshl_pack x s : wf x -> x <> [] -> 0 <= s ->
  exists v, boxed_overflowing_shl x s = Some (v, negb (s <? bitsn (length x))) /\
            sh_in (length x) s (spec_shl (length x) (eval x) s) v /\ sh_out (length x) s v.
Proof. exact (boxed_pack _ _ shl_kernel x s). Qed.
Lemma bshr_pack x s : wf x -> x <> [] -> 0 <= s ->
  exists v, boxed_overflowing_shr x s = Some (v, negb (s <? bitsn (length x))) /\
            sh_in (length x) s (spec_shr (eval x) s) v /\ sh_out (length x) s v.
Proof. exact (boxed_pack _ _ boxed_shr_kernel x s). Qed.
Local Ltac b_shl a Hwf Hne :=
  destruct (bshl_pack (arg 0 a) (sarg 1 a) (wf_x a Hwf) Hne (s_ge0 a Hwf)) as (v & -> & Hi & Ho); sp_open.
Local Ltac b_shr a Hwf Hne :=
  destruct (bshr_pack (arg 0 a) (sarg 1 a) (wf_x a Hwf) Hne (s_ge0 a Hwf)) as (v & -> & Hi & Ho); sp_open.
Local Ltac bvt_shl a Hwf := unfold boxed_shl_vartime_into; vt_shl a Hwf.
Local Ltac bvt_shr a Hwf := rewrite boxed_shr_vartime_into_eq; vt_shr a Hwf.

Lemma tbl_boxed_overflowing_shl : tbl_ok "boxed.overflowing_shl".
Proof. start. dom. b_shl a Hwf Hne. apply f_bpair; assumption. Qed.
Lemma tbl_boxed_shl : tbl_ok "boxed.shl".
Proof.
  start. dom. apply u32_bits_true in Hty. apply f_guard; [apply s_ge0; assumption | exact Hty |]. intros _.
  b_shl a Hwf Hne. apply f_bpanic; assumption.
Qed.
Lemma tbl_boxed_wrapping_shl : tbl_ok "boxed.wrapping_shl".
Proof. start. dom. b_shl a Hwf Hne. apply f_bwrap; assumption. Qed.
Lemma tbl_boxed_overflowing_shl_opt : tbl_ok "boxed.overflowing_shl_opt".
Proof. start. dom. b_shl a Hwf Hne. apply f_bopt; assumption. Qed.
Lemma tbl_boxed_shl_vartime : tbl_ok "boxed.shl_vartime".
Proof. start. dom. bvt_shl a Hwf. apply f_optstd; assumption. Qed.
Lemma tbl_boxed_wrapping_shl_vartime : tbl_ok "boxed.wrapping_shl_vartime".
Proof. start. dom. bvt_shl a Hwf. cbn [fst]. apply f_fst; assumption. Qed.

Lemma tbl_boxed_overflowing_shr : tbl_ok "boxed.overflowing_shr".
Proof. start. dom. b_shr a Hwf Hne. apply f_bpair; assumption. Qed.
Lemma tbl_boxed_shr : tbl_ok "boxed.shr".
Proof.
  start. dom. apply u32_bits_true in Hty. apply f_guard; [apply s_ge0; assumption | exact Hty |]. intros _.
  b_shr a Hwf Hne. apply f_bpanic; assumption.
Qed.
Lemma tbl_boxed_wrapping_shr : tbl_ok "boxed.wrapping_shr".
Proof. start. dom. b_shr a Hwf Hne. apply f_bwrap; assumption. Qed.
Lemma tbl_boxed_overflowing_shr_opt : tbl_ok "boxed.overflowing_shr_opt".
Proof. start. dom. b_shr a Hwf Hne. apply f_bopt; assumption. Qed.
Lemma tbl_boxed_shr_vartime : tbl_ok "boxed.shr_vartime".
Proof. start. dom. bvt_shr a Hwf. apply f_optstd; assumption. Qed.
Lemma tbl_boxed_wrapping_shr_vartime : tbl_ok "boxed.wrapping_shr_vartime".
Proof. start. dom. bvt_shr a Hwf. cbn [fst]. apply f_fst; assumption. Qed.

(* ================================================================== bit queries *)
Lemma tbl_bits_bit : tbl_ok "bits.bit".
Proof.
  start. destruct (u32_index_true a Hty) as [Hl Hi].
  rewrite (limbs_bit_correct _ _ (wf_x a Hwf) Hl (conj (s_ge0 a Hwf) Hi)), choice_to_bool_choice. reflexivity.
Qed.
Lemma tbl_bits_bit_vartime : tbl_ok "bits.bit_vartime".
Proof. start. rewrite (limbs_bit_vartime_correct _ _ (wf_x a Hwf) (s_ge0 a Hwf)). reflexivity. Qed.
Lemma tbl_bits_bits : tbl_ok "bits.bits".
Proof.
  start. rewrite (limbs_leading_zeros_correct _ (wf_x a Hwf)). unfold bitsn, Bits.ln, Bits.ev.
  match goal with |- vu32 ?x = vu32 ?y => replace x with y by lia end. reflexivity.
Qed.
Lemma tbl_bits_bits_vartime : tbl_ok "bits.bits_vartime".
Proof. start. dom. rewrite (limbs_bits_vartime_correct _ (wf_x a Hwf) Hne). reflexivity. Qed.
Lemma tbl_bits_leading_zeros : tbl_ok "bits.leading_zeros".
Proof. start. rewrite (limbs_leading_zeros_correct _ (wf_x a Hwf)). reflexivity. Qed.
Lemma tbl_bits_leading_zeros_vartime : tbl_ok "bits.leading_zeros_vartime".
Proof. start. dom. rewrite (limbs_bits_vartime_correct _ (wf_x a Hwf) Hne). reflexivity. Qed.
Lemma tbl_bits_trailing_zeros : tbl_ok "bits.trailing_zeros".
Proof. start. rewrite (limbs_trailing_zeros_correct _ (wf_x a Hwf)). reflexivity. Qed.
Lemma tbl_bits_trailing_zeros_vartime : tbl_ok "bits.trailing_zeros_vartime".
Proof. start. rewrite (limbs_trailing_zeros_vartime_correct _ (wf_x a Hwf)). reflexivity. Qed.
Lemma tbl_bits_trailing_ones : tbl_ok "bits.trailing_ones".
Proof. start. rewrite (limbs_trailing_ones_correct _ (wf_x a Hwf)). reflexivity. Qed.
Lemma tbl_bits_trailing_ones_vartime : tbl_ok "bits.trailing_ones_vartime".
Proof. start. rewrite (limbs_trailing_ones_vartime_correct _ (wf_x a Hwf)). reflexivity. Qed.

Lemma in_range_spec a : wf_args a -> in_range a = (sarg 1 a <? 64 * Z.of_nat (length (arg 0 a))).
Proof.
  intros Hwf. unfold in_range, bitsn, Bits.ln.
  replace (0 <=? sarg 1 a) with true by (symmetry; apply Z.leb_le; apply s_ge0; assumption). reflexivity.
Qed.
Lemma tbl_bits_set_bit : tbl_ok "bits.set_bit".
Proof.
  start. destruct (u32_index_true a Hty) as [Hl Hi]. unfold sp_set_bit. rewrite in_range_spec by assumption. unfold Bits.sp_val, Bits.ln, Bits.ev.
  destruct (Z.ltb_spec (sarg 1 a) (64 * Z.of_nat (length (arg 0 a)))) as [Hlt|Hge].
  - pose proof (limbs_set_bit_correct _ _ (negb (sarg 2 a =? 0)) (wf_x a Hwf) Hl (conj (s_ge0 a Hwf) Hlt)) as H. cbv zeta in H.
    destruct H as (Wr & Lr & Er). rewrite <- Er, <- Lr, to_limbs_eval by exact Wr. reflexivity.
  - rewrite (limbs_set_bit_out_of_range _ _ (negb (sarg 2 a =? 0)) (wf_x a Hwf) Hl (conj Hge Hi)), to_limbs_eval by (apply wf_x; assumption).
    reflexivity.
Qed.
Lemma tbl_bits_set_bit_vartime : tbl_ok "bits.set_bit_vartime".
Proof.
  start. pose proof (limbs_set_bit_vartime_correct (arg 0 a) (sarg 1 a) (negb (sarg 2 a =? 0)) (wf_x a Hwf) (s_ge0 a Hwf)) as H.
  unfold sp_set_bit. rewrite in_range_spec by assumption. unfold Bits.sp_val, Bits.ln, Bits.ev.
  destruct (sarg 1 a <? 64 * Z.of_nat (length (arg 0 a))).
  - destruct H as (r & -> & Wr & Lr & Er). unfold out_optL. rewrite <- Er, <- Lr, to_limbs_eval by exact Wr. reflexivity.
  - rewrite H. reflexivity.
Qed.

(* ================================================================== bitwise operators *)
Local Ltac canon3 H := cbv zeta in H; destruct H as (Wr & Lr & Er); unfold Bits.sp_val, Bits.lmax, Bits.ln, Bits.ev;
  rewrite <- Er, <- Lr, to_limbs_eval by exact Wr; reflexivity.
Lemma tbl_uint_and : tbl_ok "uint.and".
Proof.
  start. unfold same_lenb in Hty. apply Nat.eqb_eq in Hty.
  pose proof (limbs_and_correct _ _ (wf_arg 0 a Hwf) (wf_arg 1 a Hwf) Hty) as H1. canon3 H1.
Qed.
Lemma tbl_uint_or : tbl_ok "uint.or".
Proof.
  start. unfold same_lenb in Hty. apply Nat.eqb_eq in Hty.
  pose proof (limbs_or_correct _ _ (wf_arg 0 a Hwf) (wf_arg 1 a Hwf) Hty) as H1. canon3 H1.
Qed.
Lemma tbl_uint_xor : tbl_ok "uint.xor".
Proof.
  start. unfold same_lenb in Hty. apply Nat.eqb_eq in Hty.
  pose proof (limbs_xor_correct _ _ (wf_arg 0 a Hwf) (wf_arg 1 a Hwf) Hty) as H1. canon3 H1.
Qed.
Lemma tbl_uint_not : tbl_ok "uint.not".
Proof. start. pose proof (limbs_not_correct _ (wf_arg 0 a Hwf)) as H1. canon3 H1. Qed.
Lemma tbl_uint_and_limb : tbl_ok "uint.and_limb".
Proof.
  start. pose proof (uint_and_limb_correct _ _ (wf_arg 0 a Hwf) (sarg_word 1 a Hwf)) as H1. canon3 H1.
Qed.
Lemma tbl_boxed_and : tbl_ok "boxed.and".
Proof. start. pose proof (boxed_and_correct _ _ (wf_arg 0 a Hwf) (wf_arg 1 a Hwf)) as H1. canon3 H1. Qed.
Lemma tbl_boxed_or : tbl_ok "boxed.or".
Proof. start. pose proof (boxed_or_correct _ _ (wf_arg 0 a Hwf) (wf_arg 1 a Hwf)) as H1. canon3 H1. Qed.
Lemma tbl_boxed_xor : tbl_ok "boxed.xor".
Proof. start. pose proof (boxed_xor_correct _ _ (wf_arg 0 a Hwf) (wf_arg 1 a Hwf)) as H1. canon3 H1. Qed.
Lemma tbl_boxed_or_assign : tbl_ok "boxed.or_assign".
Proof.
  start. pose proof (boxed_or_assign_correct _ _ (wf_arg 0 a Hwf) (wf_arg 1 a Hwf)) as H1. cbv zeta in H1.
  destruct H1 as (_ & H1). canon3 H1.
Qed.

(* ================================================================== the area theorem: all 65 keys *)
(* [bits_keys] (Proofs/TotalityP.v) is exactly the key set of the two tables *)
Lemma bits_tables_same_keys : map fst ops_bits_model = map fst ops_bits_spec.
Proof. reflexivity. Qed.
Lemma bits_keys_iff k : In k (map fst ops_bits_model) <-> In k bits_keys.
Proof.
  split.
  - intros H. apply mem_str_In. pose proof bits_cover as C. unfold covers in C. rewrite forallb_forall in C. apply C; exact H.
  - apply sublist_In. vm_compute. reflexivity.
Qed.
Lemma bits_keys_count : length bits_keys = 65%nat /\ length ops_bits_model = 65%nat.
Proof. split; reflexivity. Qed.

(* the lemmas of all keys, in the order of [bits_keys] *)
Lemma bits_all_keys_ok k : In k bits_keys -> tbl_ok k.
Proof.
  revert k. exact (all_of_sigs tbl_ok
    [exist _ _ tbl_limb_wrapping_shl; exist _ _ tbl_limb_wrapping_shr; exist _ _ tbl_limb_bits;
     exist _ _ tbl_limb_leading_zeros; exist _ _ tbl_limb_trailing_zeros; exist _ _ tbl_limb_trailing_ones;
     exist _ _ tbl_limb_and; exist _ _ tbl_limb_or; exist _ _ tbl_limb_xor; exist _ _ tbl_limb_not;
     exist _ _ tbl_uint_overflowing_shl_vartime; exist _ _ tbl_uint_wrapping_shl_vartime;
     exist _ _ tbl_uint_overflowing_shr_vartime; exist _ _ tbl_uint_wrapping_shr_vartime;
     exist _ _ tbl_int_overflowing_shr_vartime; exist _ _ tbl_int_wrapping_shr_vartime;
     exist _ _ tbl_boxed_shl_vartime; exist _ _ tbl_boxed_wrapping_shl_vartime; exist _ _ tbl_boxed_shr_vartime;
     exist _ _ tbl_boxed_wrapping_shr_vartime; exist _ _ tbl_bits_bit; exist _ _ tbl_bits_bit_vartime;
     exist _ _ tbl_bits_bits; exist _ _ tbl_bits_leading_zeros; exist _ _ tbl_bits_trailing_zeros;
     exist _ _ tbl_bits_trailing_zeros_vartime; exist _ _ tbl_bits_trailing_ones;
     exist _ _ tbl_bits_trailing_ones_vartime; exist _ _ tbl_bits_set_bit; exist _ _ tbl_uint_and;
     exist _ _ tbl_uint_or; exist _ _ tbl_uint_xor; exist _ _ tbl_uint_not; exist _ _ tbl_uint_and_limb;
     exist _ _ tbl_boxed_and; exist _ _ tbl_boxed_or; exist _ _ tbl_boxed_xor; exist _ _ tbl_boxed_or_assign;
     exist _ _ tbl_limb_shl; exist _ _ tbl_limb_shr; exist _ _ tbl_uint_overflowing_shl; exist _ _ tbl_uint_shl;
     exist _ _ tbl_uint_shl_vartime; exist _ _ tbl_uint_wrapping_shl; exist _ _ tbl_uint_overflowing_shr;
     exist _ _ tbl_uint_shr; exist _ _ tbl_uint_shr_vartime; exist _ _ tbl_uint_wrapping_shr;
     exist _ _ tbl_uint_shl_vartime_wide; exist _ _ tbl_uint_shr_vartime_wide; exist _ _ tbl_int_overflowing_shr;
     exist _ _ tbl_int_shr; exist _ _ tbl_int_shr_vartime; exist _ _ tbl_int_wrapping_shr;
     exist _ _ tbl_boxed_overflowing_shl; exist _ _ tbl_boxed_shl; exist _ _ tbl_boxed_wrapping_shl;
     exist _ _ tbl_boxed_overflowing_shl_opt; exist _ _ tbl_boxed_overflowing_shr; exist _ _ tbl_boxed_shr;
     exist _ _ tbl_boxed_wrapping_shr; exist _ _ tbl_boxed_overflowing_shr_opt; exist _ _ tbl_bits_bits_vartime;
     exist _ _ tbl_bits_leading_zeros_vartime; exist _ _ tbl_bits_set_bit_vartime]).
Qed.
