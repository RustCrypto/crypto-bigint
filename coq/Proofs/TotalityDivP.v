(** C11, area div (Model/Div.v, owner C02): every panic of the model is the explicit zero-divisor test (or the
    equal-precision test of the boxed constant-time forms); for a non-zero divisor no entry panics, in either profile. *)
From CB Require Import Model.Limbs Model.Div Proofs.WordP Proofs.LimbsP Proofs.DivShiftP Proofs.TotalityP.
From Coq Require Import ZArith Lia List String Bool.
Open Scope Z_scope.
Notation length := List.length.

Lemma div_cover : covers div_keys ops_div_model = true.
Proof. vm_compute. reflexivity. Qed.
Lemma div_quiet : quiet_keys_ok ops_div_model ops_div_spec div_quiet_keys.
Proof. unfold div_quiet_keys. quiet_tac ops_div_model ops_div_spec. Qed.

(* ---- the zero tests ---- *)
Lemma is_zero_l_iff y : wf y -> (is_zero_l y = true <-> eval y = 0).
Proof.
  induction y as [|x y IH]; intros Hy; cbn [is_zero_l forallb eval].
  - tauto.
  - apply wf_cons in Hy. destruct Hy as [Hx Hy]. specialize (IH Hy). pose proof (eval_nonneg y Hy). pose proof B_pos.
    unfold is_word in Hx. assert (0 <= B * eval y) by (apply Z.mul_nonneg_nonneg; lia).
    rewrite andb_true_iff, Z.eqb_eq. unfold is_zero_l in IH. rewrite IH. split; [intros [-> ->]; lia | intros; split; nia].
Qed.
Lemma is_zero_l_eqb y : wf y -> is_zero_l y = (eval y =? 0).
Proof.
  intros Hy. pose proof (is_zero_l_iff y Hy) as H. destruct (is_zero_l y); destruct (Z.eqb_spec (eval y) 0); try reflexivity.
  - exfalso. apply n. apply H. reflexivity.
  - destruct H as [_ H]. specialize (H e). discriminate.
Qed.
Lemma bits_of_pos' v : 0 < v -> 0 < bits_of v.
Proof. intros H. pose proof (bits_of_spec v H). lia. Qed.
Lemma bits_of_nonneg v : 0 <= bits_of v.
Proof. unfold bits_of. destruct (v <=? 0) eqn:E; [lia|]. apply Z.leb_gt in E. pose proof (Z.log2_nonneg v). lia. Qed.
Lemma limb_count_zero_iff v : Z.to_nat ((bits_of v + 63) / 64) = 0%nat <-> v <= 0.
Proof.
  split; intros H.
  - destruct (Z.le_gt_cases v 0) as [|Hp]; [assumption|exfalso]. pose proof (bits_of_pos' v Hp).
    assert (1 <= (bits_of v + 63) / 64) by (apply Z.div_le_lower_bound; lia). lia.
  - rewrite bits_of_0 by assumption. reflexivity.
Qed.

(* ---- Uint::div_rem: None exactly for the zero divisor (the operands have one width) ---- *)
Lemma uint_div_rem_none_iff x y : wf y -> length x = length y -> (uint_div_rem x y = None <-> eval y = 0).
Proof.
  intros Hy Hl. unfold uint_div_rem. pose proof (eval_nonneg y Hy) as Hn.
  destruct (Nat.eqb_spec (length x) 1) as [H1|H1].
  - destruct y as [|d [|? ?]]; cbn [length] in Hl; try lia. cbn [nthz nth eval]. rewrite Z.mul_0_r, Z.add_0_r.
    destruct (Z.eqb_spec d 0) as [->|Hd]; [tauto|].
    destruct (div_rem_limb_with_reciprocal x (recip_new d)). split; [discriminate|contradiction].
  - destruct (Z.eqb_spec (bits_of (eval y)) 0) as [E|E].
    + split; [intros _|reflexivity]. destruct (Z.eq_dec (eval y) 0) as [|Hne]; [assumption|].
      pose proof (bits_of_pos' (eval y) ltac:(lia)). lia.
    + split; [discriminate|]. intros E0. rewrite E0 in E. contradiction E. reflexivity.
Qed.
Lemma boxed_div_rem_none_iff x y : wf y -> (boxed_div_rem x y = None <-> length x <> length y \/ eval y = 0).
Proof.
  intros Hy. unfold boxed_div_rem. destruct (Nat.eqb_spec (length x) (length y)) as [Hl|Hl]; cbn [negb].
  - rewrite (uint_div_rem_none_iff x y Hy Hl). tauto.
  - tauto.
Qed.
Lemma boxed_div_rem_vartime_none_iff x y : wf y -> (boxed_div_rem_vartime x y = None <-> eval y = 0).
Proof.
  intros Hy. unfold boxed_div_rem_vartime. pose proof (eval_nonneg y Hy) as Hn.
  pose proof (limb_count_zero_iff (eval y)) as Hz.
  destruct (Z.to_nat ((bits_of (eval y) + 63) / 64)) as [|[|k]].
  - split; [intros _; destruct Hz as [Hz _]; specialize (Hz eq_refl); lia | reflexivity].
  - destruct (div_rem_limb_with_reciprocal x (recip_new (nthz y 0))).
    split; [discriminate|]. intros E. destruct Hz as [_ Hz]. specialize (Hz ltac:(lia)). discriminate.
  - destruct (boxed_div_rem_in_place x (firstn (S (S k)) y)).
    split; [discriminate|]. intros E. destruct Hz as [_ Hz]. specialize (Hz ltac:(lia)). discriminate.
Qed.
Lemma boxed_rem_vartime_none_iff x y : wf y -> (boxed_rem_vartime x y = None <-> eval y = 0).
Proof.
  intros Hy. unfold boxed_rem_vartime. pose proof (eval_nonneg y Hy) as Hn.
  pose proof (limb_count_zero_iff (eval y)) as Hz.
  destruct (Z.to_nat ((bits_of (eval y) + 63) / 64)) as [|[|k]].
  - split; [intros _; destruct Hz as [Hz _]; specialize (Hz eq_refl); lia | reflexivity].
  - split; [discriminate|]. intros E. destruct Hz as [_ Hz]. specialize (Hz ltac:(lia)). discriminate.
  - assert (forall A (o : option A), o <> None -> (o = None <-> eval y = 0)) as K.
    { intros A o Ho. split; [contradiction|]. intros E. destruct Hz as [_ Hz]. specialize (Hz ltac:(lia)). discriminate. }
    apply K. destruct (length x <? S (S k))%nat; [discriminate|].
    destruct (boxed_div_rem_in_place x (firstn (S (S k)) y)). discriminate.
Qed.

Lemma o_qr_iff o : o_qr o = PanicV <-> o = None.
Proof. apply expect_iff. discriminate. Qed.
Lemma o_fst_iff o : o_fst o = PanicV <-> o = None.
Proof. apply expect_iff. discriminate. Qed.
Lemma o_snd_iff o : o_snd o = PanicV <-> o = None.
Proof. apply expect_iff. discriminate. Qed.

Local Ltac start := start_key ops_div_model ops_div_spec div_ty.
(* the spec's domain test [nz_dom] *)
Local Ltac in_dom := unfold nz_dom, ev in *;
  match goal with Hdom : (if ?c then _ else _) <> Unsupported |- _ =>
    let E := fresh "Enz" in destruct c eqn:E; [contradiction Hdom; reflexivity|]; apply Z.eqb_neq in E end.
Local Ltac never_spec := split; [intros HP | unfold sp_qr, sp_q, sp_r, spec_div_rem; intros HP; discriminate].
Local Ltac never_spec_k tac :=
  split; [let HP := fresh "HP" in intros HP; tac HP
         | let HP := fresh "HP" in unfold sp_qr, sp_q, sp_r, spec_div_rem; intros HP; discriminate].

Lemma key_uint_div_rem : key_ok ops_div_model ops_div_spec div_ty "uint.div_rem".
Proof. start. in_dom. never_spec. apply o_qr_iff, uint_div_rem_none_iff in HP; auto using wf_arg. contradiction. Qed.
Lemma key_uint_rem : key_ok ops_div_model ops_div_spec div_ty "uint.rem".
Proof. start. in_dom. never_spec. apply o_snd_iff, uint_div_rem_none_iff in HP; auto using wf_arg. contradiction. Qed.
Lemma key_uint_div : key_ok ops_div_model ops_div_spec div_ty "uint.div".
Proof. start. in_dom. never_spec. apply o_fst_iff, uint_div_rem_none_iff in HP; auto using wf_arg. contradiction. Qed.

Lemma key_uint_div_plain : key_ok ops_div_model ops_div_spec div_ty "uint.div_plain".
Proof.
  start. rewrite is_zero_l_eqb by (apply wf_arg; assumption). unfold ev.
  destruct (Z.eqb_spec (eval (arg 1 a)) 0) as [E|E]; [tauto|]. never_spec.
  apply o_fst_iff, uint_div_rem_none_iff in HP; auto using wf_arg. contradiction.
Qed.
Lemma key_uint_rem_plain : key_ok ops_div_model ops_div_spec div_ty "uint.rem_plain".
Proof.
  start. rewrite is_zero_l_eqb by (apply wf_arg; assumption). unfold ev.
  destruct (Z.eqb_spec (eval (arg 1 a)) 0) as [E|E]; [tauto|]. never_spec.
  apply o_snd_iff, uint_div_rem_none_iff in HP; auto using wf_arg. contradiction.
Qed.
Lemma key_uint_checked_div : key_ok ops_div_model ops_div_spec div_ty "uint.checked_div".
Proof.
  start. rewrite is_zero_l_eqb by (apply wf_arg; assumption). unfold ev.
  destruct (Z.eqb_spec (eval (arg 1 a)) 0) as [E|E]; [split; discriminate|]. never_spec.
  apply o_fst_iff, uint_div_rem_none_iff in HP; auto using wf_arg. contradiction.
Qed.
Lemma key_uint_checked_rem : key_ok ops_div_model ops_div_spec div_ty "uint.checked_rem".
Proof.
  start. rewrite is_zero_l_eqb by (apply wf_arg; assumption). unfold ev.
  destruct (Z.eqb_spec (eval (arg 1 a)) 0) as [E|E]; [split; discriminate|]. never_spec.
  apply o_snd_iff, uint_div_rem_none_iff in HP; auto using wf_arg. contradiction.
Qed.
Lemma key_uint_wrapping_rem_vartime : key_ok ops_div_model ops_div_spec div_ty "uint.wrapping_rem_vartime".
Proof.
  start. rewrite is_zero_l_eqb by (apply wf_arg; assumption). unfold ev.
  destruct (Z.eqb_spec (eval (arg 1 a)) 0) as [E|E]; [tauto|]. split; discriminate.
Qed.

(* boxed constant-time forms: the documented panic is the precision mismatch *)
Local Ltac boxed_ct lem :=
  start; in_dom; unfold ln;
  match goal with |- context[(length ?x =? length ?y)%nat] =>
    destruct (Nat.eqb_spec (length x) (length y)) as [Hl|Hl] end; cbn [negb];
  [ never_spec_k ltac:(fun HP => apply lem, boxed_div_rem_none_iff in HP; auto using wf_arg; destruct HP; contradiction)
  | split; [reflexivity|]; intros _; apply lem, boxed_div_rem_none_iff; auto using wf_arg ].
Lemma key_boxed_div_rem : key_ok ops_div_model ops_div_spec div_ty "boxed.div_rem".
Proof. boxed_ct o_qr_iff. Qed.
Lemma key_boxed_rem : key_ok ops_div_model ops_div_spec div_ty "boxed.rem".
Proof. boxed_ct o_snd_iff. Qed.
Lemma key_boxed_div : key_ok ops_div_model ops_div_spec div_ty "boxed.div".
Proof. boxed_ct o_fst_iff. Qed.
Lemma key_boxed_checked_div : key_ok ops_div_model ops_div_spec div_ty "boxed.checked_div".
Proof.
  start. unfold ln in *.
  destruct (Nat.eqb_spec (length (arg 0 a)) (length (arg 1 a))) as [Hl|Hl]; cbn [negb] in *;
    [|contradiction Hdom; reflexivity].
  rewrite is_zero_l_eqb by (apply wf_arg; assumption). unfold ev.
  destruct (Z.eqb_spec (eval (arg 1 a)) 0) as [E|E]; [split; discriminate|]. never_spec.
  apply o_fst_iff, boxed_div_rem_none_iff in HP; auto using wf_arg. destruct HP; contradiction.
Qed.
Lemma key_boxed_div_rem_vartime : key_ok ops_div_model ops_div_spec div_ty "boxed.div_rem_vartime".
Proof. start. in_dom. never_spec. apply o_qr_iff, boxed_div_rem_vartime_none_iff in HP; auto using wf_arg. contradiction. Qed.
Lemma key_boxed_div_vartime : key_ok ops_div_model ops_div_spec div_ty "boxed.div_vartime".
Proof. start. in_dom. never_spec. apply o_fst_iff, boxed_div_rem_vartime_none_iff in HP; auto using wf_arg. contradiction. Qed.
Lemma key_boxed_rem_vartime : key_ok ops_div_model ops_div_spec div_ty "boxed.rem_vartime".
Proof.
  start. in_dom. never_spec.
  destruct (boxed_rem_vartime (arg 0 a) (arg 1 a)) eqn:E; [discriminate|].
  apply boxed_rem_vartime_none_iff in E; auto using wf_arg. contradiction.
Qed.
#[export] Hint Resolve key_uint_div_rem key_uint_rem key_uint_div key_uint_div_plain key_uint_rem_plain
  key_uint_checked_div key_uint_checked_rem key_uint_wrapping_rem_vartime key_boxed_div_rem key_boxed_rem
  key_boxed_div key_boxed_checked_div key_boxed_div_rem_vartime key_boxed_rem_vartime key_boxed_div_vartime : c11keys.

Theorem div_panics_iff_documented : panics_iff_documented ops_div_model ops_div_spec div_keys div_ty.
Proof. apply panics_from_parts; [exact div_quiet | unfold div_panic_keys; by_keys]. Qed.

(** anchor src/uint/div_limb.rs:125-162, src/uint/div.rs:113-121: with a non-zero divisor (and, for the constant-time
    boxed forms, the documented equal precisions) no division entry of the model panics, in the release profile and in
    the debug-assertions profile alike *)
Definition div_divisor_keys : list string :=
  ["uint.div_rem"; "uint.rem"; "uint.div"; "uint.div_plain"; "uint.rem_plain"; "uint.checked_div"; "uint.checked_rem";
   "uint.div_rem_vartime"; "uint.rem_vartime"; "uint.div_vartime"; "uint.wrapping_rem_vartime";
   "uint.div_rem_limb"; "uint.rem_limb"; "uint.div_limb"; "boxed.div_rem_limb"; "boxed.rem_limb";
   "boxed.div_rem"; "boxed.rem"; "boxed.div"; "boxed.checked_div";
   "boxed.div_rem_vartime"; "boxed.rem_vartime"; "boxed.div_vartime"]%string.
Definition div_nz_ty : typing :=
  [("uint.div_rem", same_len); ("uint.rem", same_len); ("uint.div", same_len); ("uint.div_plain", same_len);
   ("uint.rem_plain", same_len); ("uint.checked_div", same_len); ("uint.checked_rem", same_len);
   ("boxed.div_rem", same_len); ("boxed.rem", same_len); ("boxed.div", same_len); ("boxed.checked_div", same_len)]%string.

Lemma div_divisor_keys_sub : sublist div_divisor_keys div_keys = true.
Proof. vm_compute. reflexivity. Qed.

Theorem div_nonzero_divisor_never_panics : forall k dbg a, In k div_divisor_keys ->
  wf_args a -> typed div_nz_ty k a -> eval (arg 1 a) <> 0 -> run_tab ops_div_model k dbg a <> PanicV.
Proof.
  intros k dbg a Hin Hwf Hty Hnz HP.
  assert (Enz : (ev 1 a =? 0) = false) by (apply Z.eqb_neq; exact Hnz).
  pose proof (sublist_In _ _ div_divisor_keys_sub k Hin) as Hk.
  (* key by key: with a non-zero divisor the spec entry is defined and is not a panic *)
  assert (Hs : run_tab ops_div_spec k dbg a <> Unsupported /\ run_tab ops_div_spec k dbg a <> PanicV /\ typed div_ty k a).
  { clear HP Hk. revert Hty. pattern k. revert k Hin. apply Forall_forall. unfold div_divisor_keys.
    repeat (apply Forall_cons;
      [ intros Hty; open_typed div_nz_ty Hty; unfold typed; open_tabs ops_div_model ops_div_spec;
        lazy beta iota delta [lookup div_ty String.eqb Ascii.eqb Bool.eqb];
        unfold nz_dom; rewrite ?Enz; try (unfold same_len in Hty; rewrite ?Hty, ?Nat.eqb_refl; cbn [negb]);
        unfold sp_qr, sp_q, sp_r, spec_div_rem;
        repeat split; solve [discriminate | exact Hty | exact I] |]).
    apply Forall_nil. }
  destruct Hs as (Hs1 & Hs2 & Hs3).
  apply Hs2. exact (proj1 (div_panics_iff_documented k dbg a Hk Hwf Hs3 Hs1) HP).
Qed.
