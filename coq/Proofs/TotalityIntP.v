(** C11, areas intarith and intdiv (Model/IntArith.v, Model/IntDiv.v, owners C13 / C14): the panicking operators are
    `checked_*().expect()`; the table lemmas of Proofs/IntTablesP.v give model entry = spec entry. *)
From CB Require Import Model.Limbs Model.AddSub Model.IntArith Model.IntDiv Proofs.WordP Proofs.LimbsP
  Proofs.IntTablesP Proofs.TotalityP.
From Coq Require Import ZArith Lia List String Bool.
Open Scope Z_scope.
Notation length := List.length.

Lemma intarith_cover : covers intarith_keys ops_intarith_model = true.
Proof. vm_compute. reflexivity. Qed.
Lemma intarith_quiet : quiet_keys_ok ops_intarith_model ops_intarith_spec intarith_quiet_keys.
Proof. unfold intarith_quiet_keys. quiet_tac ops_intarith_model ops_intarith_spec. Qed.
Lemma intdiv_cover : covers intdiv_keys ops_intdiv_model = true.
Proof. vm_compute. reflexivity. Qed.
Lemma intdiv_quiet : quiet_keys_ok ops_intdiv_model ops_intdiv_spec intdiv_quiet_keys.
Proof. unfold intdiv_quiet_keys. quiet_tac ops_intdiv_model ops_intdiv_spec. Qed.

(* the entry depends on the argument list only through the canonical list a' *)
Ltac via_table a' lem :=
  match goal with |- (run_tab ?M ?k ?dbg ?a = PanicV <-> run_tab ?S ?k ?dbg ?a = PanicV) =>
    change (run_tab M k dbg a) with (run_op M k dbg a');
    change (run_tab S k dbg a) with (run_op S k dbg a');
    rewrite lem; tauto
  end.

Lemma key_sint_add : key_ok ops_intarith_model ops_intarith_spec intarith_ty "sint.add".
Proof.
  intros dbg a Hwf Hty _. open_typed intarith_ty Hty.
  via_table [arg 0 a; arg 1 a] (tbl_add dbg (arg 0 a) (arg 1 a) (wf_arg 0 a Hwf) (wf_arg 1 a Hwf) Hty).
Qed.
Lemma key_sint_sub : key_ok ops_intarith_model ops_intarith_spec intarith_ty "sint.sub".
Proof.
  intros dbg a Hwf Hty _. open_typed intarith_ty Hty.
  via_table [arg 0 a; arg 1 a] (tbl_sub dbg (arg 0 a) (arg 1 a) (wf_arg 0 a Hwf) (wf_arg 1 a Hwf) Hty).
Qed.
Lemma key_sint_mul : key_ok ops_intarith_model ops_intarith_spec intarith_ty "sint.mul".
Proof.
  intros dbg a Hwf _ _.
  via_table [arg 0 a; arg 1 a] (tbl_mul dbg (arg 0 a) (arg 1 a) (wf_arg 0 a Hwf) (wf_arg 1 a Hwf)).
Qed.
Lemma key_sint_mul_uint : key_ok ops_intarith_model ops_intarith_spec intarith_ty "sint.mul_uint".
Proof.
  intros dbg a Hwf _ _.
  via_table [arg 0 a; arg 1 a] (tbl_mul_uint dbg (arg 0 a) (arg 1 a) (wf_arg 0 a Hwf) (wf_arg 1 a Hwf)).
Qed.
Lemma key_sint_from_i8 : key_ok ops_intarith_model ops_intarith_spec intarith_ty "sint.from_i8".
Proof.
  intros dbg a Hwf Hty _. open_typed intarith_ty Hty. pose proof (sarg_word 1 a Hwf) as [Ht _].
  via_table [[sarg 0 a]; [sarg 1 a]] (tbl_from_i8 dbg (sarg 0 a) (sarg 1 a) Hty Ht).
Qed.
Lemma key_sint_from_i16 : key_ok ops_intarith_model ops_intarith_spec intarith_ty "sint.from_i16".
Proof.
  intros dbg a Hwf Hty _. open_typed intarith_ty Hty. pose proof (sarg_word 1 a Hwf) as [Ht _].
  via_table [[sarg 0 a]; [sarg 1 a]] (tbl_from_i16 dbg (sarg 0 a) (sarg 1 a) Hty Ht).
Qed.
Lemma key_sint_from_i32 : key_ok ops_intarith_model ops_intarith_spec intarith_ty "sint.from_i32".
Proof.
  intros dbg a Hwf Hty _. open_typed intarith_ty Hty. pose proof (sarg_word 1 a Hwf) as [Ht _].
  via_table [[sarg 0 a]; [sarg 1 a]] (tbl_from_i32 dbg (sarg 0 a) (sarg 1 a) Hty Ht).
Qed.
Lemma key_sint_from_i64 : key_ok ops_intarith_model ops_intarith_spec intarith_ty "sint.from_i64".
Proof.
  intros dbg a Hwf Hty _. open_typed intarith_ty Hty. pose proof (sarg_word 1 a Hwf) as [Ht _].
  via_table [[sarg 0 a]; [sarg 1 a]] (tbl_from_i64 dbg (sarg 0 a) (sarg 1 a) Hty Ht).
Qed.
(* from_i128 / From<i128>: the same width assertion in both tables *)
Lemma key_sint_from_i128 : key_ok ops_intarith_model ops_intarith_spec intarith_ty "sint.from_i128".
Proof.
  start_key ops_intarith_model ops_intarith_spec intarith_ty. unfold int_from_i128_op, isp_val.
  destruct (nat_arg 1 a <? 2)%nat; [tauto | split; discriminate].
Qed.
Lemma key_sint_from_i128_trait : key_ok ops_intarith_model ops_intarith_spec intarith_ty "sint.from_i128_trait".
Proof.
  start_key ops_intarith_model ops_intarith_spec intarith_ty. unfold int_from_i128_op, isp_val.
  destruct (nat_arg 1 a <? 2)%nat; [tauto | split; discriminate].
Qed.
#[export] Hint Resolve key_sint_add key_sint_sub key_sint_mul key_sint_mul_uint key_sint_from_i8 key_sint_from_i16
  key_sint_from_i32 key_sint_from_i64 key_sint_from_i128 key_sint_from_i128_trait : c11keys.

(* ---- Int division: the only panicking form is the `/` operator family (MIN / -1) ---- *)
Lemma key_sdiv_div_expect : key_ok ops_intdiv_model ops_intdiv_spec intdiv_ty "sdiv.div_expect".
Proof.
  intros dbg a Hwf _ _.
  via_table [arg 0 a; arg 1 a] (tbl_div_expect dbg (arg 0 a) (arg 1 a) (wf_arg 0 a Hwf) (wf_arg 1 a Hwf)).
Qed.
#[export] Hint Resolve key_sdiv_div_expect : c11keys.
