(** C02 (limb-level shifts): the value-level shortcut of Model/Div.v is harmless.
    Model/DivL0.v runs Uint::div_rem / BoxedUint::div_rem with the limb-level constant-time shift ladder and the
    limb-level bit length of Model/Bits.v.  Here: the two models are EQUAL (and the panicking wrappers `shl` / `shr`
    never take their panic branch), hence the l0 functions inherit the exactness theorems of Proofs/DivFinalP.v. *)
From CB Require Import Model.Limbs Model.AddSub Model.Bits Model.Div Model.DivL0
  Proofs.WordP Proofs.WordPredP Proofs.LimbsP Proofs.AddSubP Proofs.BitsWordP Proofs.ShiftP Proofs.LadderP Proofs.BitQueryP
  Proofs.DivP Proofs.Div3by2P Proofs.Rem2kP Proofs.DivShiftP Proofs.DivCtP Proofs.DivFinalP.
From Coq Require Import ZArith Lia List Bool.
Open Scope Z_scope.

(* every stored limb is the output of a word operation *)
Lemma l0_word_sel c a b : is_word a -> is_word b -> is_word (sel c a b).
Proof. destruct c; auto. Qed.
Lemma l0_sbb_word a b c : is_word (fst (sbb a b c)).
Proof. unfold sbb. cbn [fst]. apply is_word_mod. Qed.
Lemma l0_adc_word a b c : is_word (fst (adc a b c)).
Proof. unfold adc. cbn [fst]. apply is_word_mod. Qed.

Lemma l0_wf_upd l i v : wf l -> is_word v -> wf (upd l i v).
Proof.
  intros Hl Hv. unfold upd. apply wf_app. split; [apply wf_firstn; assumption|].
  apply wf_cons. split; [assumption | apply wf_skipn; assumption].
Qed.

Lemma l0_length_upd (l : list Z) i v : (i < length l)%nat -> length (upd l i v) = length l.
Proof.
  intros Hi. unfold upd. rewrite app_length, firstn_length_le by lia. cbn [length]. rewrite skipn_length. lia.
Qed.

Lemma l0_wf_map (f : nat -> Z) l : (forall i, is_word (f i)) -> wf (map f l).
Proof. intros Hf. induction l as [|a l IH]; cbn [map]; [apply wf_nil | apply wf_cons; split; auto]. Qed.

Lemma l0_mulsub_go_wf : forall cnt i x y base yoff quo carry borrow,
  wf x -> (base + i + cnt <= length x)%nat ->
  wf (fst (fst (mulsub_go cnt i x y base yoff quo carry borrow))) /\
  length (fst (fst (mulsub_go cnt i x y base yoff quo carry borrow))) = length x.
Proof.
  induction cnt as [|c IH]; intros i x y base yoff quo carry borrow Hw Hl; cbn [mulsub_go].
  - cbn [fst]. auto.
  - destruct (mac 0 (nthz y (yoff + i)) quo carry) as [tmp carry'].
    pose proof (l0_sbb_word (nthz x (base + i)) tmp borrow) as Hxv.
    destruct (sbb (nthz x (base + i)) tmp borrow) as [xv borrow']. cbn [fst] in Hxv.
    destruct (IH (S i) (upd x (base + i) xv) y base yoff quo carry' borrow') as [H1 H2].
    + apply l0_wf_upd; assumption.
    + rewrite l0_length_upd by lia. lia.
    + rewrite l0_length_upd in H2 by lia. auto.
Qed.

Lemma l0_addback_go_wf : forall cnt i x y base yoff mask carry,
  wf x -> (base + i + cnt <= length x)%nat ->
  wf (addback_go cnt i x y base yoff mask carry) /\
  length (addback_go cnt i x y base yoff mask carry) = length x.
Proof.
  induction cnt as [|c IH]; intros i x y base yoff mask carry Hw Hl; cbn [addback_go].
  - auto.
  - pose proof (l0_adc_word (nthz x (base + i)) (sel mask 0 (nthz y (yoff + i))) carry) as Hxv.
    destruct (adc (nthz x (base + i)) (sel mask 0 (nthz y (yoff + i))) carry) as [xv carry']. cbn [fst] in Hxv.
    destruct (IH (S i) (upd x (base + i) xv) y base yoff mask carry') as [H1 H2].
    + apply l0_wf_upd; assumption.
    + rewrite l0_length_upd by lia. lia.
    + rewrite l0_length_upd in H2 by lia. auto.
Qed.

Lemma l0_knuth_step_wf x y x_hi base yoff cnt quo : wf x -> (base + cnt <= length x)%nat ->
  wf (fst (knuth_step x y x_hi base yoff cnt quo)) /\
  length (fst (knuth_step x y x_hi base yoff cnt quo)) = length x.
Proof.
  intros Hw Hl. unfold knuth_step.
  pose proof (l0_mulsub_go_wf cnt 0 x y base yoff quo 0 0 Hw ltac:(lia)) as [H1 H2].
  destruct (mulsub_go cnt 0 x y base yoff quo 0 0) as [[x1 carry] borrow]. cbn [fst] in H1, H2.
  destruct (sbb x_hi carry borrow) as [t borrow2]. cbn [fst].
  destruct (l0_addback_go_wf cnt 0 x1 y base yoff (negb (borrow2 =? 0)) 0 H1 ltac:(lia)) as [H3 H4].
  split; [assumption | lia].
Qed.

(* the loop state stays a well-formed n-limb value *)
Definition ct_wf (n : nat) (st : ctst) : Prop := wf (c_x st) /\ length (c_x st) = n /\ is_word (c_xhi st).

Lemma l0_ct_body_wf xi' n dwords y rc st : (S xi' < n)%nat -> ct_wf n st -> ct_wf n (ct_body xi' n dwords y rc st).
Proof.
  intros Hxi (Hw & Hl & Hh). unfold ct_body. cbv zeta.
  assert (Hq : is_word (sel (Z.of_nat (S xi') <? dwords - 1)
                 (div3by2 (c_xhi st) (c_xlo st) (nthz (c_x st) xi') rc (nthz y (n - 2))) 0))
    by (apply l0_word_sel; [apply div3by2_is_word | apply is_word_0']).
  set (quo := sel (Z.of_nat (S xi') <? dwords - 1)
                 (div3by2 (c_xhi st) (c_xlo st) (nthz (c_x st) xi') rc (nthz y (n - 2))) 0) in *.
  pose proof (l0_knuth_step_wf (c_x st) y (c_xhi st) 0 (n - S xi' - 1) (S (S xi')) quo Hw ltac:(lia)) as [H1 H2].
  destruct (knuth_step (c_x st) y (c_xhi st) 0 (n - S xi' - 1) (S (S xi')) quo) as [x2 mask]. cbn [fst] in H1, H2.
  unfold ct_wf. cbn [c_x c_xhi].
  assert (Hq' : is_word (sel mask quo (if quo =? 0 then 0 else quo - 1))).
  { apply l0_word_sel; [assumption|]. destruct (quo =? 0) eqn:E; [apply is_word_0'|].
    apply Z.eqb_neq in E. unfold is_word in *. lia. }
  split; [|split].
  - apply l0_wf_upd; [assumption|]. apply l0_word_sel; [assumption | apply wf_nthz; assumption].
  - rewrite l0_length_upd by lia. lia.
  - apply l0_word_sel; [apply wf_nthz; assumption | assumption].
Qed.

Lemma l0_div_ct_loop_wf : forall xi n dwords y rc st,
  (xi < n)%nat -> ct_wf n st -> ct_wf n (div_ct_loop xi n dwords y rc st).
Proof. intros xi n dwords y rc. apply div_ct_loop_ind. intros. apply l0_ct_body_wf; assumption. Qed.

(* the part of div_rem between the first and the last shifts *)
Definition ct_mid (y x0 : list Z) (dbits : Z) : list Z * list Z :=
  let n := length x0 in
  let dwords := (dbits + 63) / 64 in
  let lshift := (64 - dbits mod 64) mod 64 in
  let '(x, x_hi) := shl_limb x0 lshift in
  let rc := recip_new (nthz y (n - 1)) in
  let st := div_ct_loop (n - 1) n dwords y rc {| c_x := x; c_xhi := x_hi; c_xlo := nthz x (n - 1) |} in
  let x := c_x st in
  let limb_div := dwords =? 1 in
  let x_hi_adj := sel limb_div 0 (c_xhi st) in
  let '(quo2, rem2) := div2by1 x_hi_adj (c_xlo st) rc in
  let x := upd x 0 (sel limb_div (nthz x 0) quo2) in
  let y0' := sel limb_div (nthz x 0) rem2 in
  let ytail := map (fun i => let yi := sel (Z.of_nat i <? dwords) 0 (nthz x i) in
                             sel (Z.of_nat i =? dwords - 1) yi (c_xhi st)) (seq 1 (n - 1)) in
  (x, y0' :: ytail).

Lemma l0_core_split x0 y0 dbits :
  div_rem_ct_core x0 y0 dbits =
  (shr_val (length x0) (fst (ct_mid (shl_val (length x0) y0 (64 * Z.of_nat (length x0) - dbits)) x0 dbits))
     (((dbits + 63) / 64 - 1) * 64),
   shr_val (length x0) (snd (ct_mid (shl_val (length x0) y0 (64 * Z.of_nat (length x0) - dbits)) x0 dbits))
     ((64 - dbits mod 64) mod 64)).
Proof.
  unfold div_rem_ct_core, ct_mid. cbv zeta.
  destruct (shl_limb x0 ((64 - dbits mod 64) mod 64)) as [x x_hi].
  destruct (div2by1 _ _ _) as [quo2 rem2]. reflexivity.
Qed.

Lemma l0_gen_split shl shr x0 y0 dbits :
  div_rem_ct_core_gen shl shr x0 y0 dbits =
  match shl y0 (64 * Z.of_nat (length x0) - dbits) with
  | None => None
  | Some y =>
      match shr (fst (ct_mid y x0 dbits)) (((dbits + 63) / 64 - 1) * 64),
            shr (snd (ct_mid y x0 dbits)) ((64 - dbits mod 64) mod 64) with
      | Some q, Some r => Some (q, r)
      | _, _ => None
      end
  end.
Proof.
  unfold div_rem_ct_core_gen, ct_mid. cbv zeta.
  destruct (shl y0 (64 * Z.of_nat (length x0) - dbits)) as [y|]; [|reflexivity].
  destruct (shl_limb x0 ((64 - dbits mod 64) mod 64)) as [x x_hi].
  destruct (div2by1 _ _ _) as [quo2 rem2]. reflexivity.
Qed.

(** the two lists handed to the final shifts are well-formed values of the full width (for ANY divisor list y) *)
Lemma l0_ct_mid_wf y x0 dbits : wf x0 -> (1 <= length x0)%nat ->
  wf (fst (ct_mid y x0 dbits)) /\ length (fst (ct_mid y x0 dbits)) = length x0 /\
  wf (snd (ct_mid y x0 dbits)) /\ length (snd (ct_mid y x0 dbits)) = length x0.
Proof.
  intros Hwx Hn. unfold ct_mid. cbv zeta. set (n := length x0) in *.
  set (s := (64 - dbits mod 64) mod 64).
  assert (Hs : 0 <= s < 64) by (apply Z.mod_pos_bound; lia).
  pose proof (shl_limb_correct x0 s Hwx Hs) as Hx. fold n in Hx.
  destruct (shl_limb x0 s) as [x x_hi]. destruct Hx as (_ & Hwxs & Hlxs & Hxhi).
  pose proof (shift_carry_word x_hi s Hxhi Hs) as Hxhiw.
  set (dwords := (dbits + 63) / 64).
  set (rc := recip_new (nthz y (n - 1))).
  set (st0 := {| c_x := x; c_xhi := x_hi; c_xlo := nthz x (n - 1) |}).
  assert (H0 : ct_wf n st0) by (unfold ct_wf, st0; cbn [c_x c_xhi]; auto).
  pose proof (l0_div_ct_loop_wf (n - 1) n dwords y rc st0 ltac:(lia) H0) as (Hw & Hl & Hh).
  set (st := div_ct_loop (n - 1) n dwords y rc st0) in *.
  pose proof (div2by1_words (sel (dwords =? 1) 0 (c_xhi st)) (c_xlo st) rc) as [Hq2 Hr2].
  destruct (div2by1 (sel (dwords =? 1) 0 (c_xhi st)) (c_xlo st) rc) as [quo2 rem2]. cbn [fst snd] in Hq2, Hr2 |- *.
  assert (Hwu : wf (upd (c_x st) 0 (sel (dwords =? 1) (nthz (c_x st) 0) quo2))).
  { apply l0_wf_upd; [assumption|]. apply l0_word_sel; [apply wf_nthz; assumption | assumption]. }
  split; [exact Hwu|]. split; [rewrite l0_length_upd by lia; exact Hl|]. split.
  - apply wf_cons. split.
    + apply l0_word_sel; [apply wf_nthz; assumption | assumption].
    + apply l0_wf_map. intros i. apply l0_word_sel; [|assumption].
      apply l0_word_sel; [apply is_word_0' | apply wf_nthz; assumption].
  - cbn [length]. rewrite map_length, seq_length. lia.
Qed.

(* generic in the shift wrappers *)
Section Gen.
Variables (shl shr : list Z -> Z -> option (list Z)) (n : nat).
Hypothesis Hshl : forall a s, wf a -> length a = n -> 0 <= s < 64 * Z.of_nat n -> shl a s = Some (shl_val n a s).
Hypothesis Hshr : forall a s, wf a -> length a = n -> 0 <= s < 64 * Z.of_nat n -> shr a s = Some (shr_val n a s).

Lemma l0_core_gen_eq x0 y0 dbits :
  wf x0 -> wf y0 -> length x0 = n -> length y0 = n -> (1 <= n)%nat -> 0 < dbits <= 64 * Z.of_nat n ->
  div_rem_ct_core_gen shl shr x0 y0 dbits = Some (div_rem_ct_core x0 y0 dbits).
Proof.
  intros Hwx Hwy Hlx Hly Hn Hd.
  rewrite l0_gen_split, l0_core_split, Hlx.
  rewrite (Hshl y0 (64 * Z.of_nat n - dbits) Hwy Hly ltac:(lia)).
  set (y := shl_val n y0 (64 * Z.of_nat n - dbits)).
  destruct (l0_ct_mid_wf y x0 dbits Hwx ltac:(lia)) as (H1 & H2 & H3 & H4). rewrite Hlx in H2, H4.
  assert (Hdw : 0 <= ((dbits + 63) / 64 - 1) * 64 < 64 * Z.of_nat n).
  { pose proof (Z.div_mod (dbits + 63) 64 ltac:(lia)) as Hdm.
    pose proof (Z.mod_pos_bound (dbits + 63) 64 ltac:(lia)) as Hmb. lia. }
  assert (Hls : 0 <= (64 - dbits mod 64) mod 64 < 64 * Z.of_nat n).
  { pose proof (Z.mod_pos_bound (64 - dbits mod 64) 64 ltac:(lia)). lia. }
  rewrite (Hshr _ _ H1 H2 Hdw), (Hshr _ _ H3 H4 Hls). reflexivity.
Qed.
End Gen.

(* the panicking wrappers on in-range shifts *)
Lemma l0_uint_shl_val a s : wf a -> a <> [] -> 64 * Z.of_nat (length a) < U32 -> 0 <= s < 64 * Z.of_nat (length a) ->
  l0_uint_shl a s = Some (shl_val (length a) a s).
Proof.
  intros Hw Hne Hb Hs.
  destruct (uint_overflowing_shl_correct a s Hw Hne Hb ltac:(lia)) as (v & E & Wv & Lv & Ev).
  unfold bitsZ' in E, Ev. assert (Hlt : s <? 64 * Z.of_nat (length a) = true) by (apply Z.ltb_lt; lia).
  rewrite Hlt in E, Ev. cbn [choice_of_bool] in E.
  unfold l0_uint_shl. rewrite E, ct_expect_some. f_equal.
  unfold shl_val. rewrite <- Ev, <- Lv. symmetry. apply to_limbs_eval. assumption.
Qed.

Lemma l0_uint_shr_val a s : wf a -> a <> [] -> 64 * Z.of_nat (length a) < U32 -> 0 <= s < 64 * Z.of_nat (length a) ->
  l0_uint_shr a s = Some (shr_val (length a) a s).
Proof.
  intros Hw Hne Hb Hs.
  destruct (uint_overflowing_shr_correct a s Hw Hne Hb ltac:(lia)) as (v & E & Wv & Lv & Ev).
  unfold bitsZ' in E, Ev. assert (Hlt : s <? 64 * Z.of_nat (length a) = true) by (apply Z.ltb_lt; lia).
  rewrite Hlt in E, Ev. cbn [choice_of_bool] in E.
  unfold l0_uint_shr. rewrite E, ct_expect_some. f_equal.
  unfold shr_val. rewrite <- Ev, <- Lv. symmetry. apply to_limbs_eval. assumption.
Qed.

Lemma l0_boxed_shl_val a s : wf a -> a <> [] -> 0 <= s < 64 * Z.of_nat (length a) ->
  l0_boxed_shl a s = Some (shl_val (length a) a s).
Proof.
  intros Hw Hne Hs.
  destruct (boxed_overflowing_shl_correct a s Hw Hne ltac:(lia)) as (v & E & Wv & Lv & Ev).
  unfold bitsZ' in E, Ev. assert (Hlt : s <? 64 * Z.of_nat (length a) = true) by (apply Z.ltb_lt; lia).
  rewrite Hlt in E, Ev. cbn [negb] in E.
  unfold l0_boxed_shl. rewrite E. f_equal.
  unfold shl_val. rewrite <- Ev, <- Lv. symmetry. apply to_limbs_eval. assumption.
Qed.

Lemma l0_boxed_shr_val a s : wf a -> a <> [] -> 0 <= s < 64 * Z.of_nat (length a) ->
  l0_boxed_shr a s = Some (shr_val (length a) a s).
Proof.
  intros Hw Hne Hs.
  destruct (boxed_overflowing_shr_correct a s Hw Hne ltac:(lia)) as (v & E & Wv & Lv & Ev).
  unfold bitsZ' in E, Ev. assert (Hlt : s <? 64 * Z.of_nat (length a) = true) by (apply Z.ltb_lt; lia).
  rewrite Hlt in E, Ev. cbn [negb] in E.
  unfold l0_boxed_shr. rewrite E. f_equal.
  unfold shr_val. rewrite <- Ev, <- Lv. symmetry. apply to_limbs_eval. assumption.
Qed.

(** `rhs.bits()` computed on the limbs is the bit length of the value *)
Lemma l0_bits_val y : wf y -> l0_bits y = bits_of (eval y).
Proof.
  intros Hw. unfold l0_bits, lenZ. rewrite limbs_leading_zeros_correct by assumption.
  change (spec_bits (eval y)) with (bits_of (eval y)). lia.
Qed.

Lemma l0_bits_of_range y : wf y -> 0 <= bits_of (eval y) <= 64 * Z.of_nat (length y).
Proof.
  intros Hw. pose proof (eval_bounds y Hw) as Hb. destruct (Z.eq_dec (eval y) 0) as [E|E].
  - rewrite E. change (bits_of 0) with 0. lia.
  - destruct (bits_of_spec (eval y) ltac:(lia)) as (H1 & H2 & H3). split; [lia|].
    rewrite Bn_pow2 in Hb.
    destruct (Z_le_gt_dec (bits_of (eval y)) (64 * Z.of_nat (length y))) as [|Hgt]; [assumption|]. exfalso.
    assert (2 ^ (64 * Z.of_nat (length y)) <= 2 ^ (bits_of (eval y) - 1)) by (apply Z.pow_le_mono_r; lia). lia.
Qed.

Lemma l0_same_len_ne (a x : list Z) : length a = length x -> x <> [] -> a <> [].
Proof. intros Hl Hx ->. destruct x; [congruence | discriminate]. Qed.

(** Uint::div_rem with limb-level `bits` / `shl` / `shr` = the model of Div.v, on every input (zero divisor included:
    both are None); the `expect`s of Uint::shl / Uint::shr are never hit *)
Theorem uint_div_rem_l0_eq x y :
  wf x -> wf y -> length y = length x -> x <> [] -> 64 * Z.of_nat (length x) < 2 ^ 32 ->
  uint_div_rem_l0 x y = uint_div_rem x y.
Proof.
  intros Hx Hy Hl Hne Hb. unfold uint_div_rem_l0, uint_div_rem.
  destruct (length x =? 1)%nat; [reflexivity|].
  rewrite l0_bits_val by assumption.
  destruct (bits_of (eval y) =? 0) eqn:E0; [reflexivity|]. apply Z.eqb_neq in E0.
  pose proof (l0_bits_of_range y Hy) as Hr. rewrite Hl in Hr.
  assert (Hn1 : (1 <= length x)%nat) by (destruct x; [congruence | cbn [length]; lia]).
  unfold div_rem_ct_core_l0.
  apply (l0_core_gen_eq l0_uint_shl l0_uint_shr (length x)); try assumption; try reflexivity; try lia.
  - intros a s Ha Hla Hs. rewrite <- Hla in *. apply l0_uint_shl_val; try assumption.
    + eapply l0_same_len_ne; eassumption.
  - intros a s Ha Hla Hs. rewrite <- Hla in *. apply l0_uint_shr_val; try assumption.
    + eapply l0_same_len_ne; eassumption.
Qed.

(** BoxedUint::div_rem likewise (no width bound needed: the boxed overflow test is subtle's ct_lt on u32) *)
Theorem boxed_div_rem_l0_eq x y :
  wf x -> wf y -> x <> [] -> boxed_div_rem_l0 x y = boxed_div_rem x y.
Proof.
  intros Hx Hy Hne. unfold boxed_div_rem_l0, boxed_div_rem, uint_div_rem.
  destruct (length x =? length y)%nat eqn:El; cbn [negb]; [|reflexivity].
  apply Nat.eqb_eq in El.
  destruct (length x =? 1)%nat; [reflexivity|].
  rewrite l0_bits_val by assumption.
  destruct (bits_of (eval y) =? 0) eqn:E0; [reflexivity|]. apply Z.eqb_neq in E0.
  pose proof (l0_bits_of_range y Hy) as Hr. rewrite <- El in Hr.
  assert (Hn1 : (1 <= length x)%nat) by (destruct x; [congruence | cbn [length]; lia]).
  unfold boxed_div_rem_ct_core_l0.
  apply (l0_core_gen_eq l0_boxed_shl l0_boxed_shr (length x)); try assumption; try reflexivity; try lia.
  - intros a s Ha Hla Hs. rewrite <- Hla in *. apply l0_boxed_shl_val; try assumption.
    eapply l0_same_len_ne; eassumption.
  - intros a s Ha Hla Hs. rewrite <- Hla in *. apply l0_boxed_shr_val; try assumption.
    eapply l0_same_len_ne; eassumption.
Qed.

Lemma l0_nonzero_ne (x0 y0 : list Z) : length y0 = length x0 -> eval y0 <> 0 -> x0 <> [].
Proof. intros Hl Hnz ->. destruct y0; [apply Hnz; reflexivity | discriminate]. Qed.

(** the statement of [uint_div_rem_total] for the limb-level model; the only extra hypothesis is that the width
    in bits is a u32 (as `Uint::BITS : u32` is) *)
Theorem uint_div_rem_l0_total x0 y0 :
  wf x0 -> wf y0 -> length y0 = length x0 -> 64 * Z.of_nat (length x0) < 2 ^ 32 -> eval y0 <> 0 ->
  exists q r, uint_div_rem_l0 x0 y0 = Some (q, r) /\
  eval x0 = eval q * eval y0 + eval r /\ 0 <= eval r < eval y0 /\
  length q = length x0 /\ length r = length x0 /\ wf q /\ wf r.
Proof.
  intros Hx Hy Hl Hb Hnz.
  rewrite uint_div_rem_l0_eq by (try assumption; eapply l0_nonzero_ne; eassumption).
  apply uint_div_rem_total; assumption.
Qed.

