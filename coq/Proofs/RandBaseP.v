(** C19, part 1: words, masks, comparisons, bit lengths and the stream primitives. *)
From CB Require Import Model.Limbs Model.AddSub Model.Rand Proofs.BitsP Proofs.BitLenP Proofs.WordP Proofs.WordPredP
  Proofs.LimbsP Proofs.AddSubP Proofs.PowMathP.
From Coq Require Import ZArith Lia List Bool.
Open Scope Z_scope. Open Scope list_scope.

Lemma rnd_ones_div n s : 0 <= s <= n -> (2 ^ n - 1) / 2 ^ s = 2 ^ (n - s) - 1.
Proof.
  intros H. pose proof (pow2_pos s ltac:(lia)). pose proof (pow2_pos (n - s) ltac:(lia)).
  assert (Hp : 2 ^ n = 2 ^ s * 2 ^ (n - s)) by (rewrite <- pow2_split by lia; f_equal; lia).
  symmetry. apply (Z.div_unique_pos _ _ _ (2 ^ s - 1)); lia.
Qed.
Lemma rnd_ones_mod n t : 0 <= t <= n -> (2 ^ n - 1) mod 2 ^ t = 2 ^ t - 1.
Proof.
  intros H. pose proof (pow2_pos t ltac:(lia)). pose proof (pow2_pos (n - t) ltac:(lia)).
  assert (Hp : 2 ^ n = 2 ^ t * 2 ^ (n - t)) by (rewrite <- pow2_split by lia; f_equal; lia).
  symmetry. apply (Z.mod_unique_pos _ _ (2 ^ (n - t) - 1)); lia.
Qed.

Lemma rnd_is_word_bound x : is_word x <-> 0 <= x < 2 ^ 64.
Proof. unfold is_word. rewrite B_val. tauto. Qed.
Lemma rnd_word_lt x : is_word x -> 0 <= x < 2 ^ 64.
Proof. apply rnd_is_word_bound. Qed.
Lemma rnd_lt_word x : 0 <= x < 2 ^ 64 -> is_word x.
Proof. apply rnd_is_word_bound. Qed.
Lemma rnd_ceil64 k : 0 < k -> let q := (k + 63) / 64 in 1 <= q /\ 64 * (q - 1) < k <= 64 * q.
Proof.
  intros Hk q. pose proof (Z.div_mod (k + 63) 64 ltac:(lia)) as Hdm.
  pose proof (Z.mod_pos_bound (k + 63) 64 ltac:(lia)). fold q in Hdm. lia.
Qed.

(** [rnd_bitlen] is [bitlen] of Proofs/BitLenP.v *)
Lemma rnd_bitlen_pos x : 0 < x -> rnd_bitlen x = Z.log2 x + 1.
Proof. exact (bitlen_pos x). Qed.
Lemma rnd_bitlen_nonneg x : 0 <= rnd_bitlen x.
Proof. exact (bitlen_nonneg x). Qed.
Lemma rnd_bitlen_spec x : 0 < x -> 0 < rnd_bitlen x /\ 2 ^ (rnd_bitlen x - 1) <= x < 2 ^ rnd_bitlen x.
Proof. exact (bitlen_range x). Qed.
Lemma rnd_bitlen_lt x k : 0 <= x < 2 ^ k -> rnd_bitlen x <= k.
Proof. intros Hx. apply (bitlen_le_iff x k); lia. Qed.
Lemma rnd_bitlen_shift lo h k : 0 <= k -> 0 <= lo < 2 ^ k -> 0 < h -> rnd_bitlen (lo + 2 ^ k * h) = k + rnd_bitlen h.
Proof. exact (bitlen_shift lo h k). Qed.
Lemma rnd_odd_MAXW : Z.odd MAXW = true. Proof. vm_compute. reflexivity. Qed.

(** Uint::ct_lt / BoxedUint::ct_lt: the borrow of the limb-wise subtraction decides  a < b *)
Lemma rnd_ct_lt_spec a b :
  wf a -> wf b -> length a = length b -> length a <> 0%nat -> rnd_ct_lt a b = (eval a <? eval b).
Proof.
  intros Ha Hb Hl Hn. unfold rnd_ct_lt.
  destruct (sbb_limbs a b 0) as [r bo] eqn:E. cbn [snd].
  pose proof (sbb_limbs_correct a b 0 r bo Ha Hb Hl is_word_0 E) as (Hwr & Hlr & [(Hz & _)|(_ & Hib & Hv)]); [contradiction|].
  rewrite bin_0 in Hv. pose proof (eval_bounds r Hwr) as Hr. rewrite Hlr in Hr.
  destruct Hib as [-> | ->].
  - rewrite bout_0 in Hv. cbn. symmetry. apply Z.ltb_ge. lia.
  - rewrite bout_MAXW in Hv. change (MAXW =? 0) with false. cbn.
    symmetry. apply Z.ltb_lt. lia.
Qed.
Lemma rnd_lz_pos h : 0 < h -> rnd_lz h = 63 - Z.log2 h.
Proof. intros. unfold rnd_lz. destruct (Z.eqb_spec h 0); [lia | reflexivity]. Qed.

Lemma rnd_shr_ones s : 0 <= s <= 64 -> wshr MAXW s = 2 ^ (64 - s) - 1.
Proof. intros H. unfold wshr. rewrite MAXW_val, B_val. apply rnd_ones_div. assumption. Qed.
(** !0 >> h.leading_zeros()  is the mask with as many ones as h has bits *)
Lemma rnd_mask_spec h : 0 < h < B -> wshr MAXW (rnd_lz h) = 2 ^ (rnd_bitlen h) - 1.
Proof.
  intros Hh. rewrite rnd_lz_pos, rnd_bitlen_pos by lia. rewrite B_val in Hh.
  pose proof (Z.log2_nonneg h). assert (Z.log2 h < 64) by (apply Z.log2_lt_pow2; lia).
  rewrite rnd_shr_ones by lia. do 2 f_equal. lia.
Qed.

Lemma rnd_land_ones w k : 0 <= k -> wand w (2 ^ k - 1) = w mod 2 ^ k.
Proof. intros Hk. unfold wand. rewrite <- Z.land_ones by assumption. rewrite Z.ones_equiv. reflexivity. Qed.

Lemma rnd_mod_pow_word w k : 0 <= k <= 64 -> is_word (w mod 2 ^ k).
Proof.
  intros Hk. apply rnd_lt_word. pose proof (pow2_pos k ltac:(lia)).
  pose proof (Z.mod_pos_bound w (2 ^ k) ltac:(lia)). pose proof (pow2_le k 64 ltac:(lia)). lia.
Qed.
Lemma rnd_nthz_word ls i : wf ls -> is_word (nthz ls i).
Proof.
  intros H. unfold nthz. destruct (Nat.lt_ge_cases i (length ls)).
  - unfold wf in H. rewrite Forall_forall in H. apply H. apply nth_In. assumption.
  - rewrite nth_overflow by assumption. apply is_word_0.
Qed.

Lemma rnd_eval_zero_all ls : wf ls -> eval ls = 0 -> ls = zeros (length ls).
Proof.
  intros Hw He. apply eval_inj; auto using wf_zeros.
  - rewrite length_zeros. reflexivity.
  - rewrite eval_zeros. assumption.
Qed.

Lemma rnd_all_zero_spec ls : wf ls -> rnd_all_zero ls = (eval ls =? 0).
Proof.
  induction ls as [|x ls IH]; intros Hw; [reflexivity|].
  apply wf_cons in Hw. destruct Hw as [Hx Hl]. cbn [rnd_all_zero forallb eval].
  fold (rnd_all_zero ls). rewrite IH by assumption.
  pose proof (eval_nonneg ls Hl). unfold is_word in Hx. pose proof B_pos.
  destruct (Z.eqb_spec x 0), (Z.eqb_spec (eval ls) 0); cbn; symmetry;
    try (apply Z.eqb_eq; nia); apply Z.eqb_neq; nia.
Qed.
Lemma rnd_skipn_app_plus (pre ws : list Z) j : skipn (length pre + j) (pre ++ ws) = skipn j ws.
Proof. induction pre as [|x pre IH]; [reflexivity | exact IH]. Qed.

Lemma rnd_words_spec k : forall ws nw nb,
  rnd_words k (Rng ws nw nb) =
  if (length ws <? k)%nat then None
  else Some (firstn k ws, Rng (skipn k ws) (nw + Z.of_nat k) (nb + 8 * Z.of_nat k)).
Proof.
  induction k as [|k IH]; intros ws nw nb.
  - cbn. rewrite !Z.add_0_r. reflexivity.
  - destruct ws as [|w ws]; [reflexivity|].
    cbn [rnd_words rnd_u64]. rewrite IH. cbn [length firstn skipn].
    change (S (length ws) <? S k)%nat with (length ws <? k)%nat.
    destruct (length ws <? k)%nat; [reflexivity|].
    do 3 f_equal; lia.
Qed.

Lemma rnd_firstn_block n ws : wf ws -> (n <= length ws)%nat ->
  wf (firstn n ws) /\ length (firstn n ws) = n /\ to_limbs n (eval (firstn n ws)) = firstn n ws /\
  0 <= eval (firstn n ws) < Bn n.
Proof.
  intros Hws Hn. assert (Hwf : wf (firstn n ws)) by (apply wf_firstn; assumption).
  assert (Hl : length (firstn n ws) = n) by (rewrite firstn_length; lia).
  pose proof (eval_bounds _ Hwf) as Hb. pose proof (to_limbs_eval _ Hwf) as Ht. rewrite Hl in Hb, Ht. auto.
Qed.

Lemma rnd_fill_full_spec k : forall buf ws nw nb,
  rnd_fill_full k buf (Rng ws nw nb) =
  if (length ws <? k)%nat then None
  else Some (map (fun w => w mod 2 ^ 64) (firstn k ws), (if (k =? 0)%nat then buf else nthz ws (k - 1) mod 2 ^ 64),
             Rng (skipn k ws) (nw + Z.of_nat k) (nb + 8 * Z.of_nat k)).
Proof.
  induction k as [|k IH]; intros buf ws nw nb.
  - cbn. rewrite !Z.add_0_r. reflexivity.
  - destruct ws as [|w ws]; [reflexivity|].
    cbn [rnd_fill_full rnd_fill]. change (4 <? 8) with true. cbn iota. change (8 * 8) with 64.
    rewrite IH. cbn [length firstn skipn map].
    change (S (length ws) <? S k)%nat with (length ws <? k)%nat.
    destruct (length ws <? k)%nat; [reflexivity|].
    change (S k =? 0)%nat with false. cbn iota.
    replace (S k - 1)%nat with k by lia.
    destruct k as [|k].
    + cbn. do 3 f_equal; lia.
    + change (S k =? 0)%nat with false. cbn iota. unfold nthz. cbn [nth].
      replace (S k - 1)%nat with k by lia. do 3 f_equal; lia.
Qed.

Lemma rnd_map_mod_wf ws : wf ws -> map (fun w => w mod 2 ^ 64) ws = ws.
Proof.
  induction ws as [|w ws IH]; intros H; [reflexivity|].
  apply wf_cons in H. destruct H as [Hw Hl]. cbn [map]. rewrite IH by assumption.
  f_equal. apply Z.mod_small. apply rnd_word_lt. assumption.
Qed.
Lemma rnd_lz_loop_done l : forall c, rnd_lz_loop l c 0 = c.
Proof.
  induction l as [|x l IH]; intros c; [reflexivity|].
  cbn [rnd_lz_loop]. unfold wand. rewrite Z.land_0_l. cbn [choice_to_bool Z.odd]. rewrite Z.add_0_r. apply IH.
Qed.

Lemma rnd_lz_word x : is_word x -> 0 <= rnd_lz x <= 64 /\ (0 < x -> rnd_bitlen x = 64 - rnd_lz x).
Proof.
  intros Hx. apply rnd_word_lt in Hx. unfold rnd_lz. destruct (Z.eqb_spec x 0) as [->|Hn].
  - split; [lia|]. lia.
  - pose proof (Z.log2_nonneg x). assert (Z.log2 x < 64) by (apply Z.log2_lt_pow2; lia).
    split; [lia|]. intros. rewrite rnd_bitlen_pos by lia. lia.
Qed.

Lemma rnd_lz_loop_spec l : wf l -> forall c,
  64 * Z.of_nat (length l) - (rnd_lz_loop l c MAXW - c) = rnd_bitlen (eval (rev l)).
Proof.
  induction l as [|x l IH]; intros Hw c.
  - cbn. lia.
  - apply wf_cons in Hw. destruct Hw as [Hx Hl].
    cbn [rnd_lz_loop rev]. unfold choice_to_bool at 1. rewrite rnd_odd_MAXW.
    rewrite from_word_nonzero_spec by assumption.
    rewrite eval_app, rev_length. cbn [eval]. rewrite Z.mul_0_r, Z.add_0_r.
    cbn [length]. rewrite Nat2Z.inj_succ. unfold Z.succ.
    destruct (Z.eqb_spec x 0) as [->|Hn]; cbn [negb choice_of_bool].
    + replace (wand MAXW (wnot 0)) with MAXW by (vm_compute; reflexivity).
      rewrite Z.mul_0_r, Z.add_0_r. specialize (IH Hl (c + rnd_lz 0)).
      change (rnd_lz 0) with 64 in *. lia.
    + replace (wand MAXW (wnot MAXW)) with 0 by (vm_compute; reflexivity).
      rewrite rnd_lz_loop_done.
      assert (Hr : wf (rev l)). { unfold wf in *. apply Forall_rev. assumption. }
      pose proof (eval_bounds _ Hr) as Hb. rewrite rev_length, Bn_pow2 in Hb.
      unfold is_word in Hx. rewrite Bn_pow2.
      rewrite rnd_bitlen_shift by lia.
      destruct (rnd_lz_word x) as [_ Hs]; [assumption|]. rewrite Hs by lia. lia.
Qed.

(** BoxedUint::bits (bits_precision - leading_zeros) is the bit length of the value *)
Lemma rnd_bits_ct_spec ls : wf ls -> rnd_bits_ct ls = rnd_bitlen (eval ls).
Proof.
  intros Hw. unfold rnd_bits_ct, rnd_leading_zeros, lenZ.
  assert (Hr : wf (rev ls)). { unfold wf in *. apply Forall_rev. assumption. }
  pose proof (rnd_lz_loop_spec (rev ls) Hr 0) as H. rewrite rev_length, rev_involutive in H. lia.
Qed.

Lemma rnd_top_index_spec ls : wf ls -> forall i, eval ls < Bn (S i) ->
  eval ls < Bn (S (rnd_top_index ls i)) /\ (rnd_top_index ls i = 0%nat \/ nthz ls (rnd_top_index ls i) <> 0).
Proof.
  intros Hw. induction i as [|i IH]; intros Hb.
  - cbn [rnd_top_index]. auto.
  - cbn [rnd_top_index]. destruct (Z.eqb_spec (nthz ls (S i)) 0) as [Hz|Hn]; [|auto].
    apply IH. rewrite nthz_eval in Hz by assumption.
    pose proof (eval_nonneg ls Hw). pose proof (Bn_pos (S i)). pose proof B_pos.
    rewrite (Bn_S (S i)) in Hb.
    assert (Hq : 0 <= eval ls / Bn (S i) < B).
    { split; [apply Z.div_pos; lia | apply Z.div_lt_upper_bound; lia]. }
    rewrite Z.mod_small in Hz by assumption.
    pose proof (Z.div_mod (eval ls) (Bn (S i)) ltac:(lia)) as Hdm.
    pose proof (Z.mod_pos_bound (eval ls) (Bn (S i)) ltac:(lia)). rewrite Hz in Hdm. lia.
Qed.

(** Uint::bits_vartime is the bit length of the value *)
Lemma rnd_bits_vartime_spec ls : wf ls -> length ls <> 0%nat -> rnd_bits_vartime ls = rnd_bitlen (eval ls).
Proof.
  intros Hw Hn. unfold rnd_bits_vartime.
  assert (Hb0 : eval ls < Bn (S (length ls - 1))).
  { replace (S (length ls - 1)) with (length ls) by lia. apply eval_bounds. assumption. }
  destruct (rnd_top_index_spec ls Hw _ Hb0) as [Hb Ht].
  set (t := rnd_top_index ls (length ls - 1)) in *.
  pose proof (eval_nonneg ls Hw) as H0. pose proof (Bn_pos t). pose proof B_pos.
  rewrite Bn_S in Hb.
  assert (Hq : 0 <= eval ls / Bn t < B).
  { split; [apply Z.div_pos; lia | apply Z.div_lt_upper_bound; lia]. }
  assert (Hd : nthz ls t = eval ls / Bn t).
  { rewrite nthz_eval by assumption. apply Z.mod_small. assumption. }
  rewrite Hd in *.
  pose proof (Z.div_mod (eval ls) (Bn t) ltac:(lia)) as Hdm.
  pose proof (Z.mod_pos_bound (eval ls) (Bn t) ltac:(lia)) as Hm.
  destruct (Z.eq_dec (eval ls / Bn t) 0) as [Hz|Hnz].
  - destruct Ht as [Ht|Ht]; [|contradiction]. rewrite Ht in *. rewrite Bn_0, Z.div_1_r in Hz.
    rewrite Hz. cbn. reflexivity.
  - rewrite Bn_pow2 in *. set (k := 64 * Z.of_nat t) in *.
    assert (Hsb : rnd_bitlen (eval ls) = k + rnd_bitlen (eval ls / 2 ^ k)).
    { replace (rnd_bitlen (eval ls)) with (rnd_bitlen (eval ls mod 2 ^ k + 2 ^ k * (eval ls / 2 ^ k))) by (f_equal; lia).
      apply rnd_bitlen_shift; lia. }
    destruct (rnd_lz_word (eval ls / 2 ^ k)) as [_ Hs]; [unfold is_word; lia|].
    rewrite Hsb, Hs by lia. lia.
Qed.
