(** C16 proofs, part 6: concat / split, BoxedUint::from_be_hex, the serde decoder and the NonZero / Odd decoders,
    as corollaries of parts 1-5. *)
From CB Require Import Model.Limbs Model.Conv Proofs.WordP Proofs.LimbsP Proofs.ConvDigitsP Proofs.ConvBytesP
  Proofs.ConvHexP Proofs.ConvBoxedP Proofs.ConvCopyP.
From Coq Require Import ZArith Lia List Bool.
Import ListNotations.
Open Scope Z_scope.
Open Scope list_scope.

Lemma concat_spec lo hi :
  uint_concat_mixed lo hi (length lo + length hi) = lo ++ hi /\
  eval (uint_concat_mixed lo hi (length lo + length hi)) = eval lo + Bn (length lo) * eval hi.
Proof. rewrite uint_concat_mixed_app. split; [reflexivity | apply eval_app]. Qed.

Lemma split_spec a l lo hi : wf a -> (l <= length a)%nat -> uint_split_mixed a l (length a - l) = (lo, hi) ->
  length lo = l /\ length hi = (length a - l)%nat /\ wf lo /\ wf hi /\
  eval lo = eval a mod Bn l /\ eval hi = eval a / Bn l /\ lo ++ hi = a.
Proof.
  intros Hw Hl E. rewrite uint_split_mixed_eq in E by assumption. inv_pair E.
  destruct (firstn_skipn_eval a l Hw Hl) as [E1 E2].
  split; [apply firstn_length_le; assumption|]. split; [rewrite skipn_length; reflexivity|].
  split; [apply wf_firstn; assumption|]. split; [apply wf_skipn; assumption|].
  split; [assumption|]. split; [assumption | apply firstn_skipn].
Qed.

(** BoxedUint::from_be_hex: exactly 16 * ceil(p/64) hex characters are accepted, the result has ceil(p/64)
    limbs and the positional value *)
Lemma boxed_from_be_hex_spec p cs : wfd 256 cs ->
  let n := Z.to_nat ((p + 63) / 64) in
  match boxed_from_be_hex p cs with
  | HexLen => length cs <> (16 * n)%nat
  | HexInvalid => length cs = (16 * n)%nat /\ hexvals cs = None
  | HexOk r => length cs = (16 * n)%nat /\
               exists ds, hexvals cs = Some ds /\ wf r /\ length r = n /\ eval r = evalb 16 (rev ds)
  end.
Proof.
  intros Hw n. unfold boxed_from_be_hex. rewrite limbs_for_precision_eq. apply from_be_hex_spec. assumption.
Qed.

(** the serde decoder accepts only a payload whose length field is 8n and that carries 8n bytes *)
Lemma serde_de_strict n bs r : wfd 256 bs -> uint_serde_de n bs = Val [r] ->
  (8 + 8 * n <= length bs)%nat /\ evalb 256 (firstn 8 bs) = Z.of_nat (8 * n) /\ wf r /\ length r = n /\ eval r = evalb 256 (firstn (8 * n) (skipn 8 bs)).
Proof.
  intros Hw. unfold uint_serde_de, word_from_le_bytes.
  destruct (Nat.ltb_spec (length bs) 8); [discriminate|].
  destruct (Z.ltb_spec (Z.of_nat (length (skipn 8 bs))) (evalb 256 (firstn 8 bs))) as [|Hlen]; [discriminate|].
  destruct (Z.eqb_spec (evalb 256 (firstn 8 bs)) (Z.of_nat (8 * n))) as [He|]; cbn [negb]; [|discriminate].
  destruct (uint_from_le_slice n (firstn (8 * n) (skipn 8 bs))) as [r'|] eqn:E; [|discriminate].
  intros H'. injection H' as <-.
  destruct (from_le_slice_spec _ _ _ (wfd_firstn 256 _ _ (wfd_skipn 256 8 bs Hw)) E) as (_ & H1 & H2 & H3).
  rewrite skipn_length in Hlen. split; [lia|]. auto.
Qed.

Lemma is_zero_limbs_eval r : wf r -> is_zero_limbs r = true <-> eval r = 0.
Proof.
  unfold is_zero_limbs. induction r as [|x r IH]; intros Hw; cbn [forallb eval]; [tauto|].
  apply wf_cons in Hw. destruct Hw as [Hx Hw]. specialize (IH Hw).
  pose proof (eval_nonneg r Hw). unfold is_word in Hx. pose proof B_pos.
  rewrite andb_true_iff, Z.eqb_eq, IH. split; [intros [-> ->]; lia | intros E; split; nia].
Qed.

Lemma odd_low_limb r : Z.odd (nthz r 0) = Z.odd (eval r).
Proof.
  destruct r as [|x r]; [reflexivity|]. unfold nthz. cbn [nth eval].
  rewrite Z.odd_add, Z.odd_mul. rewrite B_val at 1. change (Z.odd (2 ^ 64)) with false.
  cbn [andb]. rewrite xorb_false_r. reflexivity.
Qed.

(** Odd::from_le_hex: strict little-endian hex decoding; accepted exactly when, in addition, the value is odd *)
Lemma odd_from_le_hex_spec n cs : wfd 256 cs ->
  match odd_from_le_hex n cs with
  | Val [r] => length cs = (16 * n)%nat /\
               exists ds, hexvals cs = Some ds /\ wf r /\ length r = n /\
                          eval r = evalb 256 (nib_pairs ds) /\ Z.odd (eval r) = true
  | PanicV => length cs <> (16 * n)%nat \/ hexvals cs = None \/
              exists ds, hexvals cs = Some ds /\ Z.odd (evalb 256 (nib_pairs ds)) = false
  | _ => False
  end.
Proof.
  intros Hw. unfold odd_from_le_hex, odd_new. pose proof (from_le_hex_spec n cs Hw) as S.
  destruct (uint_from_le_hex n cs) as [r| |].
  - destruct S as (Hl & ds & Hh & Hwr & Hlr & Her). rewrite odd_low_limb.
    destruct (Z.odd (eval r)) eqn:Eo.
    + split; [assumption|]. exists ds. auto.
    + right. right. exists ds. rewrite <- Her. auto.
  - right. left. tauto.
  - left. assumption.
Qed.
Lemma odd_from_be_hex_spec n cs : wfd 256 cs ->
  match odd_from_be_hex n cs with
  | Val [r] => length cs = (16 * n)%nat /\
               exists ds, hexvals cs = Some ds /\ wf r /\ length r = n /\
                          eval r = evalb 16 (rev ds) /\ Z.odd (eval r) = true
  | PanicV => length cs <> (16 * n)%nat \/ hexvals cs = None \/
              exists ds, hexvals cs = Some ds /\ Z.odd (evalb 16 (rev ds)) = false
  | _ => False
  end.
Proof.
  intros Hw. unfold odd_from_be_hex, odd_new. pose proof (from_be_hex_spec n cs Hw) as S.
  destruct (uint_from_be_hex n cs) as [r| |].
  - destruct S as (Hl & ds & Hh & Hwr & Hlr & Her). rewrite odd_low_limb.
    destruct (Z.odd (eval r)) eqn:Eo.
    + split; [assumption|]. exists ds. auto.
    + right. right. exists ds. rewrite <- Her. auto.
  - right. left. tauto.
  - left. assumption.
Qed.
