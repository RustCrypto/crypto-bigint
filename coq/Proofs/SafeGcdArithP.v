(** C10 proofs: arithmetic helpers (congruences, machine integers, bit tricks),
    [inv_mod2_62_correct], trailing-zero counting, the specification function [modinv]. *)
From CB Require Import Model.Limbs Model.AddSub Model.SafeGcd Proofs.WordP Proofs.LimbsP Proofs.BitsP.
From Coq Require Import ZArith Lia List Bool Znumtheory Zdiv Zpow_facts Setoid Morphisms.
Open Scope Z_scope.

Definition cg (N a b : Z) : Prop := a mod N = b mod N.
Global Instance cg_equiv N : Equivalence (cg N). Proof. exact (eqm_setoid N). Qed.
Global Instance cg_add N : Proper (cg N ==> cg N ==> cg N) Z.add. Proof. exact (Zplus_eqm N). Qed.
Global Instance cg_sub N : Proper (cg N ==> cg N ==> cg N) Z.sub. Proof. exact (Zminus_eqm N). Qed.
Global Instance cg_mul N : Proper (cg N ==> cg N ==> cg N) Z.mul. Proof. exact (Zmult_eqm N). Qed.
Global Instance cg_opp N : Proper (cg N ==> cg N) Z.opp. Proof. exact (Zopp_eqm N). Qed.
Lemma cg_mod N a : cg N (a mod N) a. Proof. exact (Zmod_eqm N a). Qed.
Lemma cg_iff N a b : cg N a b <-> a mod N = b mod N. Proof. reflexivity. Qed.
Lemma cg_of_eq N a b : a = b -> cg N a b.
Proof. intros ->. reflexivity. Qed.
Lemma cg_divide N a b : N <> 0 -> (cg N a b <-> (N | a - b)).
Proof.
  intros HN. unfold cg. split; intros H.
  - apply Z.mod_divide; [assumption|]. rewrite Zminus_mod, H, Z.sub_diag. apply Z.mod_0_l. assumption.
  - apply Z.mod_divide in H; [|assumption].
    assert (E : a = b + (a - b)) by ring. rewrite E at 1. rewrite Zplus_mod, H, Z.add_0_r. apply Z.mod_mod. assumption.
Qed.
Lemma cg_weaken N M a b : N <> 0 -> M <> 0 -> (M | N) -> cg N a b -> cg M a b.
Proof.
  intros HN HM D H. apply cg_divide; [assumption|]. apply cg_divide in H; [|assumption].
  eapply Z.divide_trans; eassumption.
Qed.
Global Typeclasses Opaque cg.
Global Opaque cg.

Lemma B_P64 : B = P64. Proof. rewrite B_val. reflexivity. Qed.
Lemma P62_pow : P62 = 2 ^ 62. Proof. reflexivity. Qed.
Lemma P63_pow : P63 = 2 ^ 63. Proof. reflexivity. Qed.
Lemma P64_pow : P64 = 2 ^ 64. Proof. reflexivity. Qed.
Lemma P127_pow : P127 = 2 ^ 127. Proof. reflexivity. Qed.
Lemma P128_pow : P128 = 2 ^ 128. Proof. reflexivity. Qed.
Lemma MASK62_ones : MASK62 = Z.ones 62. Proof. reflexivity. Qed.
Lemma MASK62_val : MASK62 = P62 - 1. Proof. reflexivity. Qed.
Lemma P64_P62 : P64 = 4 * P62. Proof. reflexivity. Qed.

Lemma P63_2P62 : P63 = 2 * P62. Proof. reflexivity. Qed.
Lemma P62_pos : 0 < P62. Proof. reflexivity. Qed.
Lemma P62_ge64 : 64 <= P62. Proof. unfold P62. lia. Qed.
Lemma P127_big : 64 * P62 <= P127. Proof. unfold P62, P127. lia. Qed.
Ltac pfacts := pose proof P63_2P62; pose proof P62_pos; pose proof P127_big; pose proof P62_ge64.
Lemma s64_id x : - P63 <= x < P63 -> s64 x = x.
Proof. intros H. unfold s64. rewrite Z.mod_small by (unfold P63, P64 in *; lia). lia. Qed.
Lemma s128_id x : - P127 <= x < P127 -> s128 x = x.
Proof. intros H. unfold s128. rewrite Z.mod_small by (unfold P127, P128 in *; lia). lia. Qed.
Lemma u64_small x : 0 <= x < P64 -> u64 x = x.
Proof. intros H. unfold u64. apply Z.mod_small. assumption. Qed.
Lemma land_mask62 x : Z.land x MASK62 = x mod P62.
Proof. rewrite MASK62_ones, Z.land_ones by lia. reflexivity. Qed.
Lemma mod64_mod62 x : (x mod P64) mod P62 = x mod P62.
Proof. symmetry. apply Zmod_div_mod; [reflexivity | reflexivity |]. exists 4. reflexivity. Qed.
Lemma land_u64_mask62 x : Z.land (u64 x) MASK62 = x mod P62.
Proof. rewrite land_mask62. unfold u64. apply mod64_mod62. Qed.

Lemma pow2_divide a b : 0 <= a <= b -> (2 ^ a | 2 ^ b).
Proof. intros H. exists (2 ^ (b - a)). rewrite <- Z.pow_add_r by lia. f_equal. lia. Qed.
Lemma mod_pow2_mod_pow2 x a b : 0 <= a <= b -> (x mod 2 ^ b) mod 2 ^ a = x mod 2 ^ a.
Proof.
  intros H. symmetry. apply Zmod_div_mod; [apply pow2_pos; lia | apply pow2_pos; lia | apply pow2_divide; assumption].
Qed.

Lemma lxor_mod_pow2 a b n : 0 <= n -> (Z.lxor a b) mod 2 ^ n = Z.lxor (a mod 2 ^ n) (b mod 2 ^ n).
Proof.
  intros Hn. apply Z.bits_inj'. intros i Hi. destruct (Z_lt_ge_dec i n).
  - rewrite Z.mod_pow2_bits_low, !Z.lxor_spec, !Z.mod_pow2_bits_low by lia. reflexivity.
  - rewrite Z.mod_pow2_bits_high, Z.lxor_spec, !Z.mod_pow2_bits_high by lia. reflexivity.
Qed.

Definition chk (f : Z -> bool) (n : nat) : bool := forallb f (map Z.of_nat (seq 0 n)).
Lemma chk_spec f n : chk f n = true -> forall r, 0 <= r < Z.of_nat n -> f r = true.
Proof.
  unfold chk. intros H r Hr. rewrite forallb_forall in H. apply H.
  apply in_map_iff. exists (Z.to_nat r). split; [lia|]. apply in_seq. lia.
Qed.

(** Montgomery's 5-bit seeds, checked on the odd residues: (3 v) xor 2 = 1/v and (3 v) xor 28 = -1/v modulo 32 *)
Lemma seed5 c e v :
  chk (fun r => negb (Z.odd r) || ((Z.lxor ((r * (3 mod 32)) mod 32) (c mod 32) * r) mod 32 =? e)) 32 = true ->
  Z.odd v = true -> (Z.lxor ((v * 3) mod P64) c * v) mod 32 = e.
Proof.
  intros Hchk Ho.
  assert (E32 : forall x, (x mod P64) mod 32 = x mod 32).
  { intros x. symmetry. apply Zmod_div_mod; [reflexivity | reflexivity |]. exists (2 ^ 59). reflexivity. }
  rewrite Zmult_mod. change 32 with (2 ^ 5) at 1. rewrite lxor_mod_pow2 by lia. change (2 ^ 5) with 32.
  rewrite E32. rewrite (Zmult_mod v 3 32).
  set (r := v mod 32).
  assert (Hr : 0 <= r < 32) by (apply Z.mod_pos_bound; lia).
  assert (Or : Z.odd r = true).
  { unfold r. rewrite <- Z.bit0_odd, <- (Z.mod_pow2_bits_low v 5 0), Z.bit0_odd in Ho by lia. exact Ho. }
  pose proof (chk_spec _ 32 Hchk r Hr) as C.
  cbv beta in C. rewrite Or in C. cbn [negb orb] in C. apply Z.eqb_eq in C. exact C.
Qed.
Lemma seed_inv5 v : Z.odd v = true -> (Z.lxor ((v * 3) mod P64) 2 * v) mod 32 = 1.
Proof. apply seed5. reflexivity. Qed.
Lemma seed_neginv5 v : Z.odd v = true -> (Z.lxor ((v * 3) mod P64) 28 * v) mod 32 = 31.
Proof. apply seed5. reflexivity. Qed.

(** inv_mod2_62: Newton/Hurchalla iteration from the 5-bit seed *)
Lemma newton_poly x0 v :
  let y0 := 1 - x0 * v in
  x0 * (y0 + 1) * (y0 * y0 + 1) * (y0 * y0 * (y0 * y0) + 1) * (y0 * y0 * (y0 * y0) * (y0 * y0 * (y0 * y0)) + 1) * v
  = 1 - y0 ^ 16.
Proof. intros y0. unfold y0. ring. Qed.

Theorem inv_mod2_62_correct v : 0 <= v < P64 -> Z.odd v = true ->
  0 <= inv_mod2_62 v < P62 /\ (v * inv_mod2_62 v) mod P62 = 1.
Proof.
  intros Hv Ho. unfold inv_mod2_62. rewrite land_mask62.
  split; [apply Z.mod_pos_bound; reflexivity|].
  rewrite Zmult_mod_idemp_r.
  unfold wmul, wadd, wsub, wxor, wrap. rewrite !B_P64.
  set (x0 := Z.lxor ((v * 3) mod P64) 2).
  assert (S : (32 | 1 - x0 * v)).
  { apply Z.mod_divide; [lia|]. rewrite Zminus_mod. unfold x0. rewrite (seed_inv5 v Ho). reflexivity. }
  destruct S as [q Hq].
  (* everything modulo 2^64 *)
  match goal with |- ?X mod P62 = 1 => assert (C : cg P64 X 1) end.
  { repeat (rewrite_strat (outermost cg_mod)).
    match goal with |- cg _ ?L _ => replace L with (1 - (1 - x0 * v) ^ 16) by ring end.
    rewrite Hq.
    apply cg_divide; [discriminate|]. exists (- (q ^ 16 * 2 ^ 16)).
    replace ((q * 32) ^ 16) with (q ^ 16 * 2 ^ 16 * P64) by (rewrite Z.pow_mul_l; change (32 ^ 16) with (2 ^ 16 * P64); ring).
    ring. }
  apply (cg_weaken P64 P62) in C; [| discriminate | discriminate | exists 4; reflexivity].
  apply cg_iff in C. rewrite C. reflexivity.
Qed.

Lemma ctz_upto_range n g : 0 <= ctz_upto n g <= Z.of_nat n.
Proof.
  revert g. induction n as [|n IH]; intros g; [cbn; lia|].
  cbn [ctz_upto]. destruct (Z.odd g); [lia|]. specialize (IH (g / 2)). lia.
Qed.
Lemma ctz_upto_of_odd n g : Z.odd g = true -> ctz_upto n g = 0.
Proof. intros H. destruct n; [reflexivity|]. cbn [ctz_upto]. rewrite H. reflexivity. Qed.
Lemma even_div2 g : Z.odd g = false -> g = 2 * (g / 2).
Proof. intros H. rewrite (Z.div_mod g 2) at 1 by lia. rewrite Zmod_odd, H. lia. Qed.
Lemma ctz_upto_divide n g : g = 2 ^ ctz_upto n g * (g / 2 ^ ctz_upto n g).
Proof.
  revert g. induction n as [|n IH]; intros g; cbn [ctz_upto].
  - rewrite Z.pow_0_r, Z.div_1_r. lia.
  - destruct (Z.odd g) eqn:O.
    + rewrite Z.pow_0_r, Z.div_1_r. lia.
    + pose proof (ctz_upto_range n (g / 2)) as R.
      rewrite Z.pow_add_r by lia. change (2 ^ 1) with 2.
      rewrite <- Z.div_div by (try apply pow2_pos; lia).
      rewrite <- Z.mul_assoc, <- IH. apply even_div2. assumption.
Qed.
Lemma ctz_upto_odd n g : ctz_upto n g < Z.of_nat n -> Z.odd (g / 2 ^ ctz_upto n g) = true.
Proof.
  revert g. induction n as [|n IH]; intros g; cbn [ctz_upto]; [lia|].
  destruct (Z.odd g) eqn:O.
  - intros _. rewrite Z.pow_0_r, Z.div_1_r. assumption.
  - intros H. pose proof (ctz_upto_range n (g / 2)) as R.
    rewrite Z.pow_add_r by lia. change (2 ^ 1) with 2.
    rewrite <- Z.div_div by (try apply pow2_pos; lia). apply IH. lia.
Qed.
Lemma ctz_upto_ge n g k : 0 <= k <= Z.of_nat n -> (2 ^ k | g) -> k <= ctz_upto n g.
Proof.
  revert g k. induction n as [|n IH]; intros g k Hk D; cbn [ctz_upto]; [lia|].
  destruct (Z.eq_dec k 0) as [->|Hk0]; [pose proof (ctz_upto_range n (g / 2)); destruct (Z.odd g); lia|].
  assert (E : Z.odd g = false).
  { destruct D as [c ->]. replace k with (1 + (k - 1)) by lia. rewrite Z.pow_add_r by lia.
    change (2 ^ 1) with 2. rewrite Z.mul_assoc, Z.odd_mul, (Z.odd_mul c 2). cbn. rewrite andb_false_r. reflexivity. }
  rewrite E. specialize (IH (g / 2) (k - 1)).
  assert (D' : (2 ^ (k - 1) | g / 2)).
  { destruct D as [c ->]. exists c. replace k with ((k - 1) + 1) at 1 by lia.
    rewrite Z.pow_add_r by lia. change (2 ^ 1) with 2. rewrite Z.mul_assoc. apply Z.div_mul. lia. }
  specialize (IH ltac:(lia) D'). lia.
Qed.
Lemma ctz_upto_zero n : ctz_upto n 0 = Z.of_nat n.
Proof. induction n as [|n IH]; [reflexivity|]. cbn [ctz_upto]. change (Z.odd 0) with false. cbv iota. change (0 / 2) with 0. rewrite IH. lia. Qed.

Lemma rel_prime_odd_pow2 m k : Z.odd m = true -> 0 <= k -> rel_prime m (2 ^ k).
Proof.
  intros Ho Hk. apply Zpow_facts.rel_prime_Zpower_r; [assumption|].
  assert (E : m = 2 * (m / 2) + 1) by (rewrite (Z.div_mod m 2) at 1 by lia; rewrite Zmod_odd, Ho; reflexivity).
  apply bezout_rel_prime. apply (Bezout_intro m 2 1 1 (- (m / 2))). lia.
Qed.
Lemma gauss_pow2 m k x : Z.odd m = true -> 0 <= k -> (m | 2 ^ k * x) -> (m | x).
Proof. intros Ho Hk D. apply (Gauss m (2 ^ k) x); [assumption | apply rel_prime_odd_pow2; assumption]. Qed.

(* extended Euclid: invariant r0 = s0 a, r1 = s1 a (mod m), gcd preserved *)
Fixpoint egcd_ok (fuel : nat) (r0 r1 : Z) : Prop :=
  match fuel with
  | O => r1 = 0
  | S k => r1 = 0 \/ egcd_ok k r1 (r0 mod r1)
  end.
Lemma egcd_loop_inv fuel : forall a m r0 r1 s0 s1 g s,
  0 <= r0 -> 0 <= r1 -> cg m r0 (s0 * a) -> cg m r1 (s1 * a) -> egcd_ok fuel r0 r1 ->
  egcd_loop fuel r0 r1 s0 s1 = (g, s) ->
  0 <= g /\ cg m g (s * a) /\ g = Z.gcd r0 r1.
Proof.
  induction fuel as [|k IH]; intros a m r0 r1 s0 s1 g s H0 H1 C0 C1 OK E; cbn [egcd_loop egcd_ok] in *.
  - inv_pair E. subst r1. repeat split; [assumption | assumption |]. rewrite Z.gcd_0_r, Z.abs_eq; lia.
  - destruct (Z.eqb_spec r1 0) as [->|Hnz].
    + inv_pair E. repeat split; [assumption | assumption |]. rewrite Z.gcd_0_r, Z.abs_eq; lia.
    + destruct OK as [OK|OK]; [contradiction|].
      assert (Er : r0 - r0 / r1 * r1 = r0 mod r1) by (rewrite Z.mod_eq by assumption; ring).
      rewrite Er in E.
      assert (Hm : 0 <= r0 mod r1 < r1) by (apply Z.mod_pos_bound; lia).
      assert (C2 : cg m (r0 mod r1) ((s0 - r0 / r1 * s1) * a)).
      { rewrite <- Er. rewrite Z.mul_sub_distr_r, <- C0, <- Z.mul_assoc, <- C1. reflexivity. }
      destruct (IH a m r1 (r0 mod r1) s1 (s0 - r0 / r1 * s1) g s H1 ltac:(lia) C1 C2 OK E) as (G0 & G1 & G2).
      repeat split; [assumption | assumption |].
      rewrite G2. rewrite (Z.gcd_comm r0 r1). rewrite Z.gcd_comm. apply Z.gcd_mod. assumption.
Qed.

Lemma mod_half r0 r1 : 0 < r1 <= r0 -> 2 * (r0 mod r1) <= r0.
Proof.
  intros H. pose proof (Z.div_mod r0 r1 ltac:(lia)) as E.
  pose proof (Z.mod_pos_bound r0 r1 ltac:(lia)) as Hm.
  assert (Q : 1 <= r0 / r1) by (apply Z.div_le_lower_bound; lia).
  assert (P : r1 * 1 <= r1 * (r0 / r1)) by (apply Z.mul_le_mono_nonneg_l; lia).
  lia.
Qed.
(* the product of the pair at least halves in every step *)
Lemma egcd_ok_fuel k : forall r0 r1, 0 <= r1 <= r0 -> r0 * r1 < 2 ^ Z.of_nat k -> egcd_ok k r0 r1.
Proof.
  induction k as [|k IH]; intros r0 r1 H P.
  - cbn. change (2 ^ Z.of_nat 0) with 1 in P.
    destruct (Z.eq_dec r1 0) as [E|E]; [assumption|].
    assert (1 * 1 <= r0 * r1) by (apply Z.mul_le_mono_nonneg; lia). lia.
  - cbn [egcd_ok]. destruct (Z.eq_dec r1 0) as [E|E]; [left; assumption|]. right.
    pose proof (Z.mod_pos_bound r0 r1 ltac:(lia)) as Hm.
    apply IH; [lia|].
    pose proof (mod_half r0 r1 ltac:(lia)) as Hh.
    rewrite Nat2Z.inj_succ, Z.pow_succ_r in P by lia.
    assert (r1 * (2 * (r0 mod r1)) <= r1 * r0) by (apply Z.mul_le_mono_nonneg_l; lia).
    lia.
Qed.

Theorem modinv_spec a m : 0 < m ->
  0 <= modinv a m < m /\ (a * modinv a m) mod m = Z.gcd a m mod m.
Proof.
  intros Hm. unfold modinv.
  destruct (egcd_loop (2 * Z.to_nat (Z.log2 (Z.abs m)) + 4) (a mod m) m 1 0) as [g s] eqn:E.
  split; [apply Z.mod_pos_bound; assumption|].
  pose proof (Z.mod_pos_bound a m Hm) as Ha.
  assert (OK : egcd_ok (2 * Z.to_nat (Z.log2 (Z.abs m)) + 4) (a mod m) m).
  { replace (2 * Z.to_nat (Z.log2 (Z.abs m)) + 4)%nat with (S (2 * Z.to_nat (Z.log2 (Z.abs m)) + 3)) by lia.
    cbn [egcd_ok]. right. rewrite Z.mod_mod by lia.
    apply egcd_ok_fuel; [lia|].
    rewrite Z.abs_eq by lia.
    pose proof (Z.log2_nonneg m) as L0.
    destruct (Z.log2_spec m Hm) as [_ Lm].
    replace (Z.of_nat (2 * Z.to_nat (Z.log2 m) + 3)) with (Z.succ (Z.log2 m) + Z.succ (Z.log2 m) + 1) by lia.
    rewrite !Z.pow_add_r by lia. change (2 ^ 1) with 2.
    assert (m * (a mod m) <= m * m) by (apply Z.mul_le_mono_nonneg_l; lia).
    assert (m * m < 2 ^ Z.succ (Z.log2 m) * 2 ^ Z.succ (Z.log2 m)) by (apply Z.mul_lt_mono_nonneg; lia).
    lia. }
  assert (C0 : cg m (a mod m) (1 * a)) by (rewrite cg_mod, Z.mul_1_l; reflexivity).
  assert (C1 : cg m m (0 * a)).
  { apply cg_divide; [lia|]. exists 1. ring. }
  destruct (egcd_loop_inv _ a m (a mod m) m 1 0 g s ltac:(lia) ltac:(lia) C0 C1 OK E) as (G0 & G1 & G2).
  rewrite Zmult_mod_idemp_r. rewrite Z.mul_comm.
  apply cg_iff in G1. rewrite <- G1. rewrite G2.
  rewrite Z.gcd_mod by lia. rewrite Z.gcd_comm. reflexivity.
Qed.

Lemma inv_unique m a c x y : 0 < m -> Z.gcd a m = 1 ->
  (a * x) mod m = c mod m -> (a * y) mod m = c mod m -> 0 <= x < m -> 0 <= y < m -> x = y.
Proof.
  intros Hm G Hx Hy Rx Ry.
  assert (D : (m | a * (x - y))).
  { apply Z.mod_divide; [lia|]. rewrite Z.mul_sub_distr_l, Zminus_mod, Hx, Hy, Z.sub_diag. apply Z.mod_0_l. lia. }
  apply Gauss in D; [| apply rel_prime_sym; apply Zgcd_1_rel_prime; assumption].
  destruct D as [q Hq].
  assert (q = 0) by nia. subst q. lia.
Qed.
