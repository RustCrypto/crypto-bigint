(** C17 proofs, part 4: the per-radix constants of the encoder (RadixDivisionParams::ALL, recomputed by the
    model with the loops of the source).  For every radix the loops yield the largest power of the radix below
    2^64 and a 32-limb power of the radix with a non-zero top limb; only the index arithmetic of for_radix and
    the exponents of the five power-of-two radixes are facts about a finite table. *)
From CB Require Import Model.Limbs Model.Div Model.Conv Model.Radix Proofs.WordP Proofs.WordPredP Proofs.LimbsP Proofs.ConvDigitsP
  Proofs.DivP Proofs.DivShiftP Proofs.KnuthStepP Proofs.DivFinalP Proofs.RadixSpecP Proofs.RadixParseP.
From Coq Require Import ZArith Lia List Bool.
Import ListNotations.
Open Scope Z_scope.
Open Scope list_scope.

Definition lookup_okb (r : Z) : bool :=
  if is_power_of_two r then
    let rb := trailing_zeros r in (1 <=? rb) && (rb <=? 5) && (r =? 2 ^ rb)
  else
    let idx := r + (32 - bits_of r) - 33 in
    (0 <=? idx) && (idx <? Z.of_nat (length ALL_radixes)) && (nth (Z.to_nat idx) ALL_radixes 0 =? r).
Lemma lookup_sweep : forallb lookup_okb (map Z.of_nat (seq 2 35)) = true.
Proof. vm_compute. reflexivity. Qed.
Lemma lookup_ok r : 2 <= r <= 36 -> lookup_okb r = true.
Proof.
  intros Hr. pose proof lookup_sweep as H. rewrite forallb_forall in H. apply H.
  apply in_map_iff. exists (Z.to_nat r). split; [apply Z2Nat.id; lia | apply in_seq; lia].
Qed.

Lemma pow2_facts r : 2 <= r <= 36 -> is_power_of_two r = true ->
  1 <= trailing_zeros r <= 5 /\ r = 2 ^ trailing_zeros r.
Proof.
  intros Hr Hp. pose proof (lookup_ok r Hr) as H. unfold lookup_okb in H. rewrite Hp in H. cbv zeta in H.
  rewrite !andb_true_iff, !Z.leb_le, Z.eqb_eq in H. lia.
Qed.

(* the fields of the entry, without the pattern match on the pair of radix_large_divisor *)
Lemma params_new_eq r : params_new r =
  let k := ilog_max r in let D := wrap (r ^ Z.of_nat k) in
  {| rp_radix := r; rp_digits_limb := k; rp_recip := recip_new D;
     rp_digits_large := snd (radix_large_divisor r D k); rp_div_large := fst (radix_large_divisor r D k) |}.
Proof. unfold params_new. cbv zeta. destruct (radix_large_divisor _ _ _). reflexivity. Qed.
Lemma for_radix_generic r : 2 <= r <= 36 -> is_power_of_two r = false -> for_radix r = Some (params_new r).
Proof.
  intros Hr Hp. pose proof (lookup_ok r Hr) as H. unfold lookup_okb in H. rewrite Hp in H. cbv zeta in H.
  rewrite !andb_true_iff, Z.leb_le, Z.ltb_lt, Z.eqb_eq in H. destruct H as [[H0 H1] Hn].
  unfold for_radix. destruct (Z.ltb_spec r 2); [lia|]. destruct (Z.ltb_spec 36 r); [lia|]. cbn [orb]. cbv zeta.
  destruct (Z.ltb_spec (r + (32 - bits_of r) - 33) 0); [lia|].
  destruct (Z.leb_spec (Z.of_nat (length ALL_radixes)) (r + (32 - bits_of r) - 33)); [lia|]. cbn [orb].
  rewrite Hn, params_new_eq. cbn [rp_radix]. rewrite Z.eqb_refl. reflexivity.
Qed.

Lemma top_limb_nonzero out n : wf out -> length out = S n -> (nthz out n <> 0 <-> Bn n <= eval out).
Proof.
  intros Hw Hl. destruct (list_snoc out n Hl) as (lo & top & -> & Hlo).
  rewrite (nthz_app_mid lo top [] n Hlo), eval_snoc, Hlo.
  apply wf_app in Hw. destruct Hw as [Hwl Hwt]. apply wf_cons in Hwt. destruct Hwt as [Hwt _]. unfold is_word in Hwt.
  pose proof (eval_bounds lo Hwl) as Hb. rewrite Hlo in Hb. nia.
Qed.

Section LargeDivisor.
Variables (r D : Z) (k : nat).
Hypothesis Hr : 2 <= r <= 36.
Hypothesis HD : D = r ^ Z.of_nat k.
Hypothesis HDlt : D < B.
Hypothesis HDr : B <= D * r.

(* 32 limbs holding r^dl, the top limb non-zero *)
Definition large_pow (out : list Z) (dl : nat) : Prop :=
  wf out /\ length out = 32%nat /\ eval out = r ^ Z.of_nat dl /\ Bn 31 <= eval out.

(* [fuel] further multiplications by D would make the number exceed 31 limbs: the loop ends because 32 limbs are
   reached, not for lack of fuel *)
Lemma rld_grow_spec : forall fuel cur dl cur' dl',
  wf cur -> minimal cur -> eval cur = r ^ Z.of_nat dl -> (length cur <= 32)%nat ->
  Bn 31 <= eval cur * D ^ Z.of_nat fuel ->
  rld_grow fuel D k cur dl = (cur', dl') -> large_pow cur' dl' /\ (dl <= dl')%nat.
Proof.
  assert (HDw : is_word D /\ 1 <= D) by (unfold is_word; rewrite B_val in *; nia). destruct HDw as [HDw HD1].
  induction fuel as [|f IH]; intros cur dl cur' dl' Hw Hmin He Hl Hf E.
  - cbn in E. inv_pair E. change (Z.of_nat 0) with 0 in Hf. rewrite Z.pow_0_r, Z.mul_1_r in Hf.
    pose proof (eval_bounds cur Hw) as Hb.
    assert (length cur = 32%nat).
    { destruct (Nat.eq_dec (length cur) 32) as [|Hne]; [assumption|]. pose proof (Bn_le (length cur) 31 ltac:(lia)). lia. }
    unfold large_pow. auto.
  - cbn [rld_grow] in E. unfold RADIX_LIMBS_LARGE in E. destruct (Nat.ltb_spec (length cur) 32) as [Hlt|Hge].
    + destruct (mul_add_limbs cur D 0) as [cur1 carry] eqn:Em.
      destruct (mul_add_push cur D 0 cur1 carry Hw Hmin HDw HD1 is_word_0' Em) as (Hl1 & Hw1 & Hmin1 & He1).
      apply IH in E; try assumption.
      * split; [apply E | lia].
      * rewrite He1, He, HD, pow_add_nat. lia.
      * destruct (carry =? 0); [|rewrite app_length; cbn [length]]; lia.
      * rewrite He1, Z.add_0_r. rewrite pow_S_nat, Z.mul_assoc in Hf. exact Hf.
    + inv_pair E. assert (Hl32 : length cur = 32%nat) by lia. split; [|lia].
      specialize (Hmin ltac:(intros ->; discriminate)). rewrite Hl32 in Hmin. unfold large_pow. auto.
Qed.

Lemma rld_fill_spec : forall fuel out dl out' dl', large_pow out dl ->
  rld_fill fuel r out dl = (out', dl') -> large_pow out' dl' /\ (dl <= dl')%nat.
Proof.
  induction fuel as [|f IH]; intros out dl out' dl' Hp E; [cbn in E; inv_pair E; auto|].
  cbn [rld_fill] in E. destruct (mul_add_limbs out r 0) as [t c] eqn:Em.
  destruct (Z.eqb_spec c 0) as [->|_]; [|inv_pair E; auto].
  destruct Hp as (Hw & Hl & He & Htop).
  destruct (mul_add_limbs_correct r ltac:(unfold is_word; rewrite B_val; lia) out 0 t 0 Hw is_word_0' Em)
    as (Het & Hwt & Hlt & _).
  apply IH in E; [split; [apply E | lia]|].
  unfold large_pow. rewrite pow_S_nat. split; [assumption|]. split; [lia|]. split; nia.
Qed.

(* D^65 has more than 31 limbs, since D > 2^58 *)
Lemma grow_fuel : Bn 31 <= D * D ^ Z.of_nat 64.
Proof.
  assert (H58 : 2 ^ 58 <= D) by (rewrite B_val in HDr; nia).
  rewrite <- pow_S_nat, Bn_2. transitivity ((2 ^ 58) ^ Z.of_nat 65); [|apply Z.pow_le_mono_l; lia].
  rewrite <- Z.pow_mul_r by lia. apply Z.pow_le_mono_r; lia.
Qed.

Lemma radix_large_divisor_spec out dl : (1 <= k)%nat ->
  radix_large_divisor r D k = (out, dl) -> large_pow out dl /\ (1 <= dl)%nat.
Proof.
  intros Hk E. unfold radix_large_divisor in E. destruct (rld_grow 64 D k [D] k) as [cur dl0] eqn:Eg.
  assert (HDw : is_word D) by (unfold is_word; rewrite B_val in *; nia).
  assert (HeD : eval [D] = D) by (cbn [eval]; lia).
  apply rld_grow_spec in Eg.
  - destruct Eg as [Hp Hdl0]. pose proof Hp as (_ & Hl & _). unfold RADIX_LIMBS_LARGE in E.
    rewrite Hl, Nat.sub_diag in E. cbn [zeros repeat] in E. rewrite app_nil_r in E.
    apply rld_fill_spec in E; [|assumption]. split; [apply E | lia].
  - apply wf_cons. split; [assumption | apply wf_nil].
  - intros _. cbn [length Nat.sub]. rewrite HeD, Bn_0. unfold is_word in HDw. rewrite B_val in HDr. nia.
  - rewrite HeD. exact HD.
  - cbn [length]. lia.
  - rewrite HeD. exact grow_fuel.
Qed.
End LargeDivisor.

Record params_good (r : Z) (rp : rparams) : Prop := {
  pg_radix : rp_radix rp = r;
  pg_k : (1 <= rp_digits_limb rp)%nat;
  pg_D : rp_div_limb rp = r ^ Z.of_nat (rp_digits_limb rp);
  pg_Dlt : r ^ Z.of_nat (rp_digits_limb rp) < B;
  pg_Dr : B <= r ^ Z.of_nat (rp_digits_limb rp) * r;
  pg_recip : recip_for (r ^ Z.of_nat (rp_digits_limb rp)) (rp_recip rp);
  pg_len : length (rp_div_large rp) = 32%nat;
  pg_wf : wf (rp_div_large rp);
  pg_large : eval (rp_div_large rp) = r ^ Z.of_nat (rp_digits_large rp);
  pg_top : nthz (rp_div_large rp) 31 <> 0;
  pg_dl : (1 <= rp_digits_large rp)%nat
}.

Lemma params_new_good r : 2 <= r <= 36 -> params_good r (params_new r).
Proof.
  intros Hr. destruct (ilog_max_spec r ltac:(rewrite MAXW_val, B_val; lia)) as (Hk & HDle & HDr).
  rewrite MAXW_val in HDle, HDr. rewrite pow_S_nat in HDr.
  set (k := ilog_max r) in *. set (D := r ^ Z.of_nat k) in *.
  pose proof (pow_pos_nat r k ltac:(lia)) as HD0. fold D in HD0.
  unfold params_new. fold k. fold D. unfold wrap. rewrite (Z.mod_small D B) by lia.
  destruct (radix_large_divisor r D k) as [out dl] eqn:El.
  destruct (radix_large_divisor_spec r D k Hr eq_refl ltac:(lia) ltac:(lia) out dl Hk El) as ((Hw & Hl & He & Htop) & Hdl).
  pose proof (recip_new_correct D ltac:(lia)) as Hrec.
  constructor; cbn [rp_radix rp_digits_limb rp_recip rp_digits_large rp_div_large]; fold k; fold D;
    try assumption; try reflexivity; try lia.
  - unfold rp_div_limb. cbn [rp_recip]. destruct Hrec as (Hs & -> & _). apply Z.div_mul, Z.pow_nonzero; lia.
  - apply (top_limb_nonzero out 31); assumption.
Qed.

Theorem params_facts r : 2 <= r <= 36 -> is_power_of_two r = false ->
  exists rp, for_radix r = Some rp /\ params_good r rp.
Proof.
  intros Hr Hp. exists (params_new r). split; [apply for_radix_generic | apply params_new_good]; assumption.
Qed.
