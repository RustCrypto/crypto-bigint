(** C03 proofs, part 4: BoxedUint multiplication (recursive Karatsuba on the even overlap, trailing-limb
    paths, carry ripple) and squaring, for ALL pairs of lengths. *)
From CB Require Import Model.Limbs Model.AddSub Model.Mul Proofs.WordP Proofs.LimbsP Proofs.AddSubP
  Proofs.MulBaseP Proofs.MulSqP Proofs.MulKaraP.
From Coq Require Import ZArith Lia List.
Open Scope Z_scope.

Lemma skipn_eq_mono {A} k k' (a b : list A) : skipn k a = skipn k b -> (k <= k')%nat -> skipn k' a = skipn k' b.
Proof.
  intros E Hk. replace k' with (k + (k' - k))%nat by lia. rewrite <- !skipn_skipn'. rewrite E. reflexivity.
Qed.

Lemma adc_into_correct out off src carry out' c k :
  wf out -> wf src -> 0 <= carry <= 4 -> (off + length src <= k)%nat -> (k <= length out)%nat ->
  adc_into out off src carry = (out', c) ->
  eval out' + Bn (off + length src) * c = eval out + Bn off * (eval src + carry) /\
  wf out' /\ length out' = length out /\ 0 <= c /\ (carry <= 1 -> c <= 1) /\ (carry <= 2 -> c <= 2) /\
  skipn k out' = skipn k out.
Proof.
  intros Ho Hs Hc Hk Hkl E. unfold adc_into in E.
  destruct (split3 out off (length src) ltac:(lia)) as (Hsp & Hl1 & Hl2).
  set (pre := firstn off out) in *. set (mid := slice out off (length src)) in *.
  set (post := skipn (off + length src) out) in *.
  clearbody pre mid post. subst out.
  apply wf_app3 in Ho. destruct Ho as (Hwp & Hwm & Hwq).
  destruct (adc_limbs mid src carry) as [r co] eqn:Ea.
  destruct (adc_h (length src) mid src carry r co Hwm Hs Hl2 eq_refl Hc Ea) as (A & W & L & P & Q1 & Q2).
  inv_pair E. subst off. rewrite splice_struct by lia.
  rewrite !eval3, L, Hl2, Bn_add.
  split; [|split; [|split; [|split; [|split; [|split]]]]]; auto.
  - assert (eval r = eval mid + eval src + carry - Bn (length src) * co) as -> by lia. ring.
  - apply wf_app3. auto.
  - rewrite !app_length. lia.
  - apply (skipn_eq_mono (length pre + length src)); [|assumption].
    rewrite !app_assoc. rewrite !skipn_exact' by (rewrite app_length; lia). reflexivity.
Qed.

Lemma ripple_correct l : forall c, wf l -> 0 <= c <= 1 ->
  exists c', 0 <= c' <= 1 /\ eval (ripple l c) + Bn (length l) * c' = eval l + c /\
    wf (ripple l c) /\ length (ripple l c) = length l.
Proof.
  induction l as [|wd l IH]; intros c Hl Hc.
  - exists c. cbn [ripple eval length]. rewrite Bn_0. split; [assumption|]. split; [lia|]. split; [apply wf_nil | reflexivity].
  - apply wf_cons in Hl. destruct Hl as [Hwd Hl]. cbn [ripple].
    destruct (adc wd 0 c) as [v c1] eqn:Ea.
    pose proof (adc_exact _ _ _ _ _ Hwd is_word_0 (is_word_01 _ Hc) Ea) as (Hv & Hvw & _).
    pose proof (adc_carry_small _ _ _ _ _ Hwd is_word_0 Hc Ea) as Hc1.
    destruct (IH c1 Hl Hc1) as (c' & Hc' & He & Hw & Hlen).
    exists c'. cbn [eval length]. rewrite Bn_S, Hlen.
    split; [assumption|]. split; [|split; [apply wf_cons; split; assumption | reflexivity]].
    assert (eval (ripple l c1) = eval l + c1 - Bn (length l) * c') as -> by lia.
    assert (v = wd + 0 + c - B * c1) as -> by lia. ring.
Qed.

Lemma Bn_4 h : Bn (4 * h) = Bn h * Bn h * Bn h * Bn h.
Proof. replace (4 * h)%nat with (h + h + h + h)%nat by lia. rewrite !Bn_add. reflexivity. Qed.

Lemma recomb6_correct out z0 z2 half size cin o1 c1 o2 c2 o3 c3 o4 c4 o5 c5 o6 c6 :
  wf out -> wf z0 -> wf z2 -> size = (2 * half)%nat -> length z0 = size -> length z2 = size ->
  (4 * half <= length out)%nat -> 0 <= cin <= 1 ->
  adc_into out 0 z0 cin = (o1, c1) ->
  adc_into o1 half (firstn half z0) 0 = (o2, c2) ->
  adc_into o2 size (skipn half z0) (wadd c1 c2) = (o3, c3) ->
  adc_into o3 half z2 0 = (o4, c4) ->
  adc_into o4 size (firstn half z2) 0 = (o5, c5) ->
  adc_into o5 (size + half) (skipn half z2) (wadd (wadd c3 c4) c5) = (o6, c6) ->
  wf o6 /\ length o6 = length out /\ skipn (4 * half) o6 = skipn (4 * half) out /\ 0 <= c6 /\
  eval o6 + Bn half * Bn half * Bn half * Bn half * c6 =
    eval out + cin + eval z0 * (1 + Bn half) + eval z2 * (Bn half + Bn half * Bn half).
Proof.
  (* every addition puts src * B^off into the buffer and hands a carry up; c1 .. c5 stay below 3, so the [wadd]
     sums are exact; adding the six equations cancels the intermediate carries *)
  intros Ho Hz0 Hz2 Hsz Hl0 Hl2 Hlen Hcin E1 E2 E3 E4 E5 E6. pose proof B_gt4 as HB4.
  assert (Hw0l : wf (firstn half z0)) by (apply wf_firstn; assumption).
  assert (Hw0h : wf (skipn half z0)) by (apply wf_skipn; assumption).
  assert (Hw2l : wf (firstn half z2)) by (apply wf_firstn; assumption).
  assert (Hw2h : wf (skipn half z2)) by (apply wf_skipn; assumption).
  assert (Hl0l : length (firstn half z0) = half) by (apply firstn_length_le; lia).
  assert (Hl0h : length (skipn half z0) = half) by (rewrite skipn_length; lia).
  assert (Hl2l : length (firstn half z2) = half) by (apply firstn_length_le; lia).
  assert (Hl2h : length (skipn half z2) = half) by (rewrite skipn_length; lia).
  pose proof (eval_firstn_skipn half z0) as Hs0. rewrite Hl0l in Hs0.
  pose proof (eval_firstn_skipn half z2) as Hs2. rewrite Hl2l in Hs2.
  destruct (adc_into_correct out 0 z0 cin o1 c1 (4 * half) Ho Hz0 ltac:(lia) ltac:(lia) Hlen E1)
    as (A1 & W1 & L1 & P1 & Q1 & _ & S1).
  destruct (adc_into_correct o1 half _ 0 o2 c2 (4 * half) W1 Hw0l ltac:(lia) ltac:(lia) ltac:(lia) E2)
    as (A2 & W2 & L2 & P2 & Q2 & _ & S2).
  rewrite (wadd_small c1 c2) in E3 by lia.
  destruct (adc_into_correct o2 size _ (c1 + c2) o3 c3 (4 * half) W2 Hw0h ltac:(lia) ltac:(lia) ltac:(lia) E3)
    as (A3 & W3 & L3 & P3 & _ & Q3 & S3).
  destruct (adc_into_correct o3 half z2 0 o4 c4 (4 * half) W3 Hz2 ltac:(lia) ltac:(lia) ltac:(lia) E4)
    as (A4 & W4 & L4 & P4 & Q4 & _ & S4).
  destruct (adc_into_correct o4 size _ 0 o5 c5 (4 * half) W4 Hw2l ltac:(lia) ltac:(lia) ltac:(lia) E5)
    as (A5 & W5 & L5 & P5 & Q5 & _ & S5).
  rewrite (wadd_small c3 c4) in E6 by lia. rewrite (wadd_small (c3 + c4) c5) in E6 by lia.
  destruct (adc_into_correct o5 (size + half) _ (c3 + c4 + c5) o6 c6 (4 * half) W5 Hw2h ltac:(lia) ltac:(lia) ltac:(lia) E6)
    as (A6 & W6 & L6 & P6 & _ & _ & S6).
  split; [assumption|]. split; [lia|]. split; [congruence|]. split; [assumption|].
  rewrite Hl0 in A1. rewrite Hl0l in A2. rewrite Hl0h in A3. rewrite Hl2 in A4. rewrite Hl2l in A5. rewrite Hl2h in A6.
  subst size.
  replace (0 + 2 * half)%nat with (half + half)%nat in A1 by lia.
  replace (2 * half + half)%nat with (half + half + half)%nat in A3, A5, A6 by lia.
  replace (half + 2 * half)%nat with (half + half + half)%nat in A4 by lia.
  replace (2 * half)%nat with (half + half)%nat in A3, A5 by lia.
  replace (half + half + half + half)%nat with (half + half + (half + half))%nat in A6 by lia.
  rewrite ?Bn_add, ?Bn_0 in *.
  set (H := Bn half) in *. rewrite Hs0, Hs2.
  rewrite Hs0 in A1. rewrite Hs2 in A4. apply -> Z.add_move_r in A1. apply -> Z.add_move_r in A2.
  apply -> Z.add_move_r in A3. apply -> Z.add_move_r in A4. apply -> Z.add_move_r in A5. apply -> Z.add_move_r in A6.
  rewrite A6, A5, A4, A3, A2, A1.
  ring.
Qed.

Lemma adc_mul_zero xs ys : wf xs -> wf ys ->
  eval (fst (adc_mul_limbs xs ys (zeros (length xs + length ys)))) = eval xs * eval ys /\
  wf (fst (adc_mul_limbs xs ys (zeros (length xs + length ys)))) /\
  length (fst (adc_mul_limbs xs ys (zeros (length xs + length ys)))) = (length xs + length ys)%nat.
Proof.
  intros Hx Hy. destruct (adc_mul_limbs xs ys (zeros (length xs + length ys))) as [o c] eqn:E. cbn [fst].
  destruct (adc_mul_limbs_correct xs ys _ o c Hx Hy (wf_zeros _) (length_zeros _) E) as (A & W & L & C).
  rewrite length_zeros in *. rewrite eval_zeros, Bn_add in A.
  pose proof (eval_bounds o W) as Bo. rewrite L, Bn_add in Bo.
  pose proof (prod_lt _ _ _ _ (eval_bounds xs Hx) (eval_bounds ys Hy)) as Hp.
  split; [|split; assumption].
  assert (c = 0 \/ c = 1) as [-> | ->] by lia; lia.
Qed.

(** the two trailing-limb matches at the end of [kara_boxed], as functions of the buffer *)
Definition kb_xt (out : list Z) (size : nat) (xt rhs : list Z) : list Z :=
  match xt with
  | [] => out
  | _ => splice out size (fst (adc_mul_limbs xt rhs (skipn size out)))
  end.
Definition kb_yt (out : list Z) (size : nat) (yt x : list Z) : list Z :=
  match yt with
  | [] => out
  | _ => let end_pos := (2 * size + length yt)%nat in
         let '(seg, c) := adc_mul_limbs yt x (slice out size (end_pos - size)) in
         let out := splice out size seg in
         firstn end_pos out ++ ripple (skipn end_pos out) c
  end.

(** out += xs * ys on the window [mid] of pre ++ mid ++ post, the carry rippled through [post] *)
Lemma adc_mul_window pre mid post xs ys seg c :
  wf pre -> wf mid -> wf post -> wf xs -> wf ys -> length mid = (length xs + length ys)%nat ->
  adc_mul_limbs xs ys mid = (seg, c) ->
  let out := pre ++ mid ++ post in let out' := pre ++ seg ++ ripple post c in
  exists c', 0 <= c' <= 1 /\ eval out' + Bn (length out) * c' = eval out + Bn (length pre) * (eval xs * eval ys) /\
    wf out' /\ length out' = length out.
Proof.
  intros Hp Hm Hq Hx Hy Hl E. cbv zeta.
  destruct (adc_mul_limbs_correct xs ys mid seg c Hx Hy Hm Hl E) as (A & W & L & C).
  destruct (ripple_correct post c Hq C) as (c' & C' & R & WR & LR).
  exists c'. split; [assumption|].
  rewrite !eval3, !app_length, L, LR, !Bn_add.
  split; [|split; [apply wf_app3; auto | reflexivity]].
  apply Z.add_move_r in A. rewrite A. apply Z.add_move_r in R. rewrite R. ring.
Qed.

Lemma kb_xt_correct out size xt rhs : wf out -> wf xt -> wf rhs ->
  length out = (size + (length xt + length rhs))%nat ->
  exists c, 0 <= c <= 1 /\
    eval (kb_xt out size xt rhs) + Bn (length out) * c = eval out + Bn size * (eval xt * eval rhs) /\
    wf (kb_xt out size xt rhs) /\ length (kb_xt out size xt rhs) = length out.
Proof.
  intros Ho Hxt Hr Hl. destruct xt as [|t xt'].
  - exists 0. cbn [kb_xt eval]. split; [lia|]. split; [ring|]. auto.
  - cbn [kb_xt]. set (xt := t :: xt') in *. clearbody xt.
    pose proof (firstn_skipn size out) as Hsp.
    assert (Hl1 : length (firstn size out) = size) by (apply firstn_length_le; lia).
    assert (Hl2 : length (skipn size out) = (length xt + length rhs)%nat) by (rewrite skipn_length; lia).
    set (lo := firstn size out) in *. set (hi := skipn size out) in *. clearbody lo hi. subst out.
    apply wf_app in Ho. destruct Ho as [Hwl Hwh].
    destruct (adc_mul_limbs xt rhs hi) as [seg c] eqn:E. cbn [fst].
    assert (L : length seg = length hi) by (destruct (adc_mul_limbs_correct xt rhs hi seg c Hxt Hr Hwh Hl2 E); tauto).
    pose proof (adc_mul_window lo hi [] xt rhs seg c Hwl Hwh wf_nil Hxt Hr Hl2 E) as Hw.
    cbv zeta in Hw. cbn [ripple] in Hw. rewrite !app_nil_r, Hl1 in Hw.
    replace (splice (lo ++ hi) size seg) with (lo ++ seg); [exact Hw|].
    rewrite <- (app_nil_r hi), <- Hl1, splice_struct, app_nil_r by assumption. reflexivity.
Qed.

Lemma kb_yt_correct out size yt x : wf out -> wf yt -> wf x -> length x = size ->
  (2 * size + length yt <= length out)%nat ->
  exists c, 0 <= c <= 1 /\
    eval (kb_yt out size yt x) + Bn (length out) * c = eval out + Bn size * (eval yt * eval x) /\
    wf (kb_yt out size yt x) /\ length (kb_yt out size yt x) = length out.
Proof.
  intros Ho Hyt Hx Hlx Hl. destruct yt as [|t yt'].
  - exists 0. cbn [kb_yt eval]. split; [lia|]. split; [ring|]. auto.
  - cbn [kb_yt]. set (yt := t :: yt') in *. clearbody yt. cbv zeta.
    replace (2 * size + length yt - size)%nat with (size + length yt)%nat by lia.
    destruct (split3 out size (size + length yt) ltac:(lia)) as (Hsp & Hl1 & Hl2).
    set (A := firstn size out) in *. set (Mid := slice out size (size + length yt)) in *.
    set (Zs := skipn (size + (size + length yt)) out) in *. clearbody A Mid Zs. subst out.
    apply wf_app3 in Ho. destruct Ho as (HwA & HwM & HwZ).
    destruct (adc_mul_limbs yt x Mid) as [seg c] eqn:E.
    assert (L : length seg = length Mid) by (destruct (adc_mul_limbs_correct yt x Mid seg c Hyt Hx HwM ltac:(lia) E); tauto).
    assert (Hspl : splice (A ++ Mid ++ Zs) size seg = A ++ seg ++ Zs) by (rewrite <- Hl1; apply splice_struct; assumption).
    rewrite !Hspl, (app_assoc A seg Zs), firstn_exact', skipn_exact', <- app_assoc by (rewrite app_length; lia).
    pose proof (adc_mul_window A Mid Zs yt x seg c HwA HwM HwZ Hyt Hx ltac:(lia) E) as Hw. rewrite Hl1 in Hw. exact Hw.
Qed.

(** one Karatsuba step on the buffer: if the first 4*half limbs hold H * (x0 - x1) * (y1 - y0) modulo H^4
    (H = B^half; the carry-in and any multiple [t] of H^4 count in), the limbs above are zero, and z0, z2 are
    the low and high products, then the six additions leave the full product in the buffer *)
Lemma kara_phase out half size z0 z2 cin x0 x1 y0 y1 t o1 c1 o2 c2 o3 c3 o4 c4 o5 c5 o6 c6 :
  wf out -> wf z0 -> wf z2 -> size = (2 * half)%nat -> length z0 = size -> length z2 = size ->
  (4 * half <= length out)%nat -> 0 <= cin <= 1 ->
  adc_into out 0 z0 cin = (o1, c1) ->
  adc_into o1 half (firstn half z0) 0 = (o2, c2) ->
  adc_into o2 size (skipn half z0) (wadd c1 c2) = (o3, c3) ->
  adc_into o3 half z2 0 = (o4, c4) ->
  adc_into o4 size (firstn half z2) 0 = (o5, c5) ->
  adc_into o5 (size + half) (skipn half z2) (wadd (wadd c3 c4) c5) = (o6, c6) ->
  eval (skipn (4 * half) out) = 0 ->
  0 <= x0 + Bn half * x1 < Bn half * Bn half -> 0 <= y0 + Bn half * y1 < Bn half * Bn half ->
  eval z0 = x0 * y0 -> eval z2 = x1 * y1 ->
  eval out + cin = Bn half * ((x0 - x1) * (y1 - y0)) + Bn half * Bn half * Bn half * Bn half * t ->
  eval o6 = (x0 + Bn half * x1) * (y0 + Bn half * y1) /\ wf o6 /\ length o6 = length out.
Proof.
  intros Ho Hz0 Hz2 Hsz L0 L2 Hlen Hcin E1 E2 E3 E4 E5 E6 Htail Hbx Hby P0 P2 Einit.
  destruct (recomb6_correct out z0 z2 half size cin o1 c1 o2 c2 o3 c3 o4 c4 o5 c5 o6 c6
              Ho Hz0 Hz2 Hsz L0 L2 Hlen Hcin E1 E2 E3 E4 E5 E6) as (W6 & L6 & S6 & _ & A6).
  split; [|auto].
  pose proof (eval_firstn_skipn (4 * half) o6) as Hfs.
  pose proof (eval_bounds _ (wf_firstn (4 * half) o6 W6)) as Hb.
  rewrite S6, Htail, Z.mul_0_r, Z.add_0_r in Hfs. rewrite <- Hfs, firstn_length_le, Bn_4 in Hb by lia.
  apply (kara_final (Bn half) x0 x1 y0 y1 (eval o6) c6 t); [lia | assumption | assumption|].
  rewrite A6, Einit, P0, P2. ring.
Qed.

Lemma cond_neg_sel l c : cond_neg l c = sel_limbs c l (uint_wrapping_neg l).
Proof. reflexivity. Qed.

Lemma cond_neg_correct W s : wf W ->
  exists co, 0 <= co <= 1 /\ wf (cond_neg W s) /\ length (cond_neg W s) = length W /\
    eval (cond_neg W s) = if s then Bn (length W) - eval W - Bn (length W) * co else eval W.
Proof.
  intros Hw. destruct s; cbn [cond_neg].
  - destruct (neg_limbs W 1) as [r co] eqn:E. cbn [fst].
    destruct (neg_limbs_correct W 1 r co Hw ltac:(lia) E) as (A & C & D & F).
    exists co. repeat split; auto; lia.
  - exists 0. repeat split; auto; lia.
Qed.

(** the cleared buffer with z1 written at offset half, seen as 4 half-blocks and a tail *)
Lemma init_buf L half size z1 : length z1 = size -> size = (2 * half)%nat -> (4 * half <= L)%nat ->
  splice (zeros L) half z1 = (zeros half ++ z1 ++ zeros half) ++ zeros (L - 4 * half).
Proof.
  intros Hz Hs HL.
  replace L with (half + (size + (half + (L - 4 * half))))%nat at 1 by lia.
  rewrite !zeros_app. rewrite <- (length_zeros half) at 4.
  rewrite splice_struct by (rewrite length_zeros; assumption).
  rewrite <- !app_assoc. reflexivity.
Qed.

Lemma splice_0_prefix (P Q N : list Z) : length N = length P -> splice (P ++ Q) 0 N = N ++ Q.
Proof.
  intros H. change (P ++ Q) with ([] ++ P ++ Q). change 0%nat with (length (@nil Z)).
  rewrite splice_struct by assumption. reflexivity.
Qed.

(** the Karatsuba phase on the even overlap: z1 = |x0 - x1| * |y1 - y0| is written at offset half of the
    cleared buffer, the first 4*half limbs are negated if the middle term is negative (sign s), then z0 and
    z2 are added in *)
Lemma kara_even L half size z1 z0 z2 (s : bool) x0 x1 y0 y1 o1 c1 o2 c2 o3 c3 o4 c4 o5 c5 o6 c6 :
  size = (2 * half)%nat -> (2 * size <= L)%nat ->
  wf z1 -> wf z0 -> wf z2 -> length z1 = size -> length z0 = size -> length z2 = size ->
  0 <= x0 + Bn half * x1 < Bn half * Bn half -> 0 <= y0 + Bn half * y1 < Bn half * Bn half ->
  eval z0 = x0 * y0 -> eval z2 = x1 * y1 ->
  (x0 - x1) * (y1 - y0) = (if s then - eval z1 else eval z1) ->
  let buf := splice (zeros L) half z1 in
  adc_into (splice buf 0 (cond_neg (firstn (2 * size) buf) s)) 0 z0 0 = (o1, c1) ->
  adc_into o1 half (firstn half z0) 0 = (o2, c2) ->
  adc_into o2 size (skipn half z0) (wadd c1 c2) = (o3, c3) ->
  adc_into o3 half z2 0 = (o4, c4) ->
  adc_into o4 size (firstn half z2) 0 = (o5, c5) ->
  adc_into o5 (size + half) (skipn half z2) (wadd (wadd c3 c4) c5) = (o6, c6) ->
  eval o6 = (x0 + Bn half * x1) * (y0 + Bn half * y1) /\ wf o6 /\ length o6 = L.
Proof.
  intros Hsz HL Hwz1 Hwz0 Hwz2 Hlz1 Hlz0 Hlz2 Hbx Hby P0 P2 Hmid buf. subst buf.
  rewrite (init_buf L half size z1) by lia.
  set (T := (L - 4 * half)%nat). set (W := zeros half ++ z1 ++ zeros half).
  assert (HwW : wf W) by (apply wf_app3; auto using wf_zeros).
  assert (HlW : length W = (4 * half)%nat) by (unfold W; rewrite !app_length, !length_zeros; lia).
  assert (HeW : eval W = Bn half * eval z1) by (unfold W; rewrite eval3, !eval_zeros, length_zeros; ring).
  rewrite (firstn_exact' (2 * size) W (zeros T)) by lia.
  destruct (cond_neg_correct W s HwW) as (co & Hco & HwN & HlN & HeN).
  set (N := cond_neg W s) in *. clearbody N.
  rewrite splice_0_prefix by assumption. intros E1 E2 E3 E4 E5 E6.
  assert (HL0 : length (N ++ zeros T) = L) by (rewrite app_length, length_zeros; lia). rewrite <- HL0.
  apply (kara_phase _ half size z0 z2 0 x0 x1 y0 y1 (if s then 1 - co else 0) o1 c1 o2 c2 o3 c3 o4 c4 o5 c5 o6 c6);
    try assumption.
  - apply wf_app; auto using wf_zeros.
  - lia.
  - lia.
  - rewrite skipn_exact' by lia. apply eval_zeros.
  - rewrite eval_app, eval_zeros, HeN, HeW, HlW, Bn_4, Hmid. destruct s; ring.
Qed.

Lemma even_size overlap :
  let size := if Nat.odd overlap then (overlap - 1)%nat else overlap in
  size = (2 * Nat.div2 size)%nat /\ (size <= overlap)%nat.
Proof.
  cbv zeta. pose proof (Nat.div2_odd overlap) as H. destruct (Nat.odd overlap); cbn [Nat.b2n] in H.
  - replace (overlap - 1)%nat with (2 * Nat.div2 overlap)%nat by lia. rewrite Nat.div2_double. lia.
  - rewrite Nat.add_0_r in H. rewrite <- H. lia.
Qed.

Theorem kara_boxed_correct f : forall lhs rhs, wf lhs -> wf rhs ->
  eval (kara_boxed f lhs rhs) = eval lhs * eval rhs /\ wf (kara_boxed f lhs rhs) /\
  length (kara_boxed f lhs rhs) = (length lhs + length rhs)%nat.
Proof.
  induction f as [|f IH]; intros lhs rhs Hl Hr.
  - cbn [kara_boxed]. apply adc_mul_zero; assumption.
  - (* split off the even overlap; the three half-size products come from the IH and are recombined by [kara_even];
       the two trailing-limb products are added last, and their carries out of the top vanish since lhs * rhs fits *)
    cbn [kara_boxed]. cbv zeta.
    set (n := length lhs). set (m := length rhs).
    destruct (even_size (Nat.min n m)) as [Hsz Hle]. cbv zeta in Hsz, Hle.
    set (size := if Nat.odd (Nat.min n m) then (Nat.min n m - 1)%nat else Nat.min n m) in *.
    destruct (size <=? 24)%nat; [apply adc_mul_zero; assumption|].
    set (half := Nat.div2 size) in *. clearbody half. clearbody size.
    destruct (split_at size lhs) as [x xt] eqn:Ex. destruct (split_at size rhs) as [y yt] eqn:Ey.
    destruct (split_at_eval size lhs x xt Hl ltac:(fold n; lia) Ex) as (Hle' & Hx & Hxt & Hlx & Hlxt).
    destruct (split_at_eval size rhs y yt Hr ltac:(fold m; lia) Ey) as (Hre & Hy & Hyt & Hly & Hlyt).
    fold n in Hlxt. fold m in Hlyt.
    destruct (split_at half x) as [x0 x1] eqn:Ex0. destruct (split_at half y) as [y0 y1] eqn:Ey0.
    destruct (split_halves half x x0 x1 Hx ltac:(lia) Ex0) as (Hxe & Hx0 & Hx1 & Hlx0 & Hlx1).
    destruct (split_halves half y y0 y1 Hy ltac:(lia) Ey0) as (Hye & Hy0 & Hy1 & Hly0 & Hly1).
    destruct (sbb_limbs x0 x1 0) as [s0 b0] eqn:Es0. destruct (sbb_limbs y1 y0 0) as [s1 b1] eqn:Es1.
    rewrite !cond_neg_sel with (l := s0). rewrite !cond_neg_sel with (l := s1).
    destruct (abs_diff x0 x1 s0 b0 Hx0 Hx1 ltac:(lia) Es0) as (Hwa0 & Hla0 & Hea0).
    destruct (abs_diff y1 y0 s1 b1 Hy1 Hy0 ltac:(lia) Es1) as (Hwa1 & Hla1 & Hea1).
    pose proof (signed_mid _ _ _ _ _ _ _ _ Hea0 Hea1) as Hmid.
    set (a0 := sel_limbs (is_mask b0) s0 (uint_wrapping_neg s0)) in *.
    set (a1 := sel_limbs (is_mask b1) s1 (uint_wrapping_neg s1)) in *.
    destruct (IH a0 a1 Hwa0 Hwa1) as (Hz1 & Hwz1 & Hlz1). rewrite <- Hz1 in Hmid.
    destruct (IH x0 y0 Hx0 Hy0) as (Hz0 & Hwz0 & Hlz0).
    destruct (IH x1 y1 Hx1 Hy1) as (Hz2 & Hwz2 & Hlz2).
    set (z1 := kara_boxed f a0 a1) in *. set (z0 := kara_boxed f x0 y0) in *. set (z2 := kara_boxed f x1 y1) in *.
    clearbody z1 z0 z2.
    set (buf := splice (zeros (n + m)) half z1).
    destruct (adc_into (splice buf 0 (cond_neg (firstn (2 * size) buf) _)) 0 z0 0) as [o1 c1] eqn:E1.
    destruct (adc_into o1 half (firstn half z0) 0) as [o2 c2] eqn:E2.
    destruct (adc_into o2 size (skipn half z0) (wadd c1 c2)) as [o3 c3] eqn:E3.
    destruct (adc_into o3 half z2 0) as [o4 c4] eqn:E4.
    destruct (adc_into o4 size (firstn half z2) 0) as [o5 c5] eqn:E5.
    destruct (adc_into o5 (size + half) (skipn half z2) (wadd (wadd c3 c4) c5)) as [o6 c6] eqn:E6.
    destruct (kara_even (n + m) half size z1 z0 z2 _ (eval x0) (eval x1) (eval y0) (eval y1)
                o1 c1 o2 c2 o3 c3 o4 c4 o5 c5 o6 c6 Hsz ltac:(lia) Hwz1 Hwz0 Hwz2 ltac:(lia) ltac:(lia) ltac:(lia)
                (eval_pair_bounds x0 x1 half half Hx0 Hx1 Hlx0 Hlx1)
                (eval_pair_bounds y0 y1 half half Hy0 Hy1 Hly0 Hly1) Hz0 Hz2 Hmid E1 E2 E3 E4 E5 E6)
      as (Hxy & W6 & L6).
    rewrite <- Hxe, <- Hye in Hxy.
    (* trailing limbs *)
    fold (kb_xt o6 size xt rhs). set (o7 := kb_xt o6 size xt rhs). fold (kb_yt o7 size yt x).
    destruct (kb_xt_correct o6 size xt rhs W6 Hxt Hr ltac:(lia)) as (c7 & Hc7 & A7 & W7 & L7). fold o7 in A7, W7, L7.
    clearbody o7.
    destruct (kb_yt_correct o7 size yt x W7 Hyt Hx Hlx ltac:(lia)) as (c8 & Hc8 & A8 & W8 & L8).
    set (o8 := kb_yt o7 size yt x) in *. clearbody o8.
    split; [|split; [assumption | lia]].
    pose proof (eval_bounds _ W8) as Hb8.
    pose proof (prod_lt _ _ _ _ (eval_bounds _ Hl) (eval_bounds _ Hr)) as Hp. fold n m in Hp.
    rewrite L8, L7, L6, Bn_add in Hb8. rewrite L7, L6, Bn_add in A8. rewrite L6, Bn_add in A7.
    rewrite Hxy, <- Hre in A7. rewrite <- Hle', <- Hre in Hp |- *.
    clear - Hb8 Hp A7 A8.
    apply (divmod_uniq (Bn n * Bn m) (c7 + c8) (eval o8) 0 _ Hb8 Hp).
    apply Z.add_move_r in A8. rewrite A8. apply Z.add_move_r in A7. rewrite A7. ring.
Qed.

Theorem boxed_mul_correct x y : wf x -> wf y ->
  eval (boxed_mul x y) = eval x * eval y /\ wf (boxed_mul x y) /\
  length (boxed_mul x y) = (length x + length y)%nat.
Proof.
  intros Hx Hy. unfold boxed_mul. destruct (32 <=? Nat.min (length x) (length y))%nat.
  - apply kara_boxed_correct; assumption.
  - apply schoolbook_mul_correct; assumption.
Qed.

Lemma boxed_mul_schoolbook x y : wf x -> wf y -> boxed_mul x y = schoolbook_mul x y.
Proof.
  intros Hx Hy. destruct (boxed_mul_correct x y Hx Hy) as (A & C & D).
  destruct (schoolbook_mul_correct x y Hx Hy) as (A' & C' & D'). apply eval_inj; auto; lia.
Qed.

Theorem kara_sq_boxed_correct f : forall x, wf x ->
  eval (kara_sq_boxed f x) = eval x * eval x /\ wf (kara_sq_boxed f x) /\
  length (kara_sq_boxed f x) = (2 * length x)%nat.
Proof.
  induction f as [|f IH]; intros x Hx.
  - cbn [kara_sq_boxed]. apply schoolbook_sq_correct; assumption.
  - (* as [kara_boxed] with y = x: the middle term is -(x0 - x1)^2, entered as the ones' complement of the buffer
       holding z1 at offset half, with carry-in 1 *)
    cbn [kara_sq_boxed].
    destruct ((length x <=? 48)%nat || Nat.odd (length x)) eqn:Eb; [apply schoolbook_sq_correct; assumption|].
    apply orb_false_iff in Eb. destruct Eb as [_ Hodd].
    pose proof (Nat.div2_odd (length x)) as Hsz. rewrite Hodd in Hsz. cbn [Nat.b2n] in Hsz. rewrite Nat.add_0_r in Hsz.
    set (size := length x) in *. set (half := Nat.div2 size) in *. clearbody half.
    destruct (split_at half x) as [x0 x1] eqn:Ex0.
    destruct (split_halves half x x0 x1 Hx Hsz Ex0) as (Hxe & Hx0 & Hx1 & Hlx0 & Hlx1).
    destruct (sbb_limbs x0 x1 0) as [s0 b0] eqn:Es0.
    rewrite !cond_neg_sel.
    destruct (abs_diff x0 x1 s0 b0 Hx0 Hx1 ltac:(lia) Es0) as (Hwa0 & Hla0 & Hea0).
    set (a0 := sel_limbs (is_mask b0) s0 (uint_wrapping_neg s0)) in *.
    destruct (IH a0 Hwa0) as (Hz1 & Hwz1 & Hlz1).
    destruct (IH x0 Hx0) as (Hz0 & Hwz0 & Hlz0).
    destruct (IH x1 Hx1) as (Hz2 & Hwz2 & Hlz2).
    set (z1 := kara_sq_boxed f a0) in *. set (z0 := kara_sq_boxed f x0) in *. set (z2 := kara_sq_boxed f x1) in *.
    clearbody z1 z0 z2.
    rewrite (init_buf (2 * size) half size z1) by lia.
    replace (2 * size - 4 * half)%nat with 0%nat by lia. cbn [zeros repeat]. rewrite app_nil_r.
    set (W := zeros half ++ z1 ++ zeros half).
    assert (HwW : wf W) by (apply wf_app3; auto using wf_zeros).
    assert (HlW : length W = (4 * half)%nat) by (unfold W; rewrite !app_length, !length_zeros; lia).
    assert (HeW : eval W = Bn half * eval z1).
    { unfold W. rewrite eval3, !eval_zeros, length_zeros. ring. }
    destruct (lnot_limbs_correct W HwW) as (HeN & HwN & HlN).
    set (out0 := lnot_limbs W) in *. clearbody out0. clearbody W.
    destruct (adc_into out0 0 z0 1) as [o1 c1] eqn:E1.
    destruct (adc_into o1 half (firstn half z0) 0) as [o2 c2] eqn:E2.
    destruct (adc_into o2 size (skipn half z0) (wadd c1 c2)) as [o3 c3] eqn:E3.
    destruct (adc_into o3 half z2 0) as [o4 c4] eqn:E4.
    destruct (adc_into o4 size (firstn half z2) 0) as [o5 c5] eqn:E5.
    destruct (adc_into o5 (size + half) (skipn half z2) (wadd (wadd c3 c4) c5)) as [o6 c6] eqn:E6.
    destruct (kara_phase out0 half size z0 z2 1 (eval x0) (eval x1) (eval x0) (eval x1) 1
                o1 c1 o2 c2 o3 c3 o4 c4 o5 c5 o6 c6 HwN Hwz0 Hwz2 Hsz ltac:(lia) ltac:(lia) ltac:(lia) ltac:(lia)
                E1 E2 E3 E4 E5 E6) as (Hxx & W6 & L6).
    { rewrite skipn_all2 by lia. reflexivity. }
    { exact (eval_pair_bounds x0 x1 half half Hx0 Hx1 Hlx0 Hlx1). }
    { exact (eval_pair_bounds x0 x1 half half Hx0 Hx1 Hlx0 Hlx1). }
    { assumption. }
    { assumption. }
    { rewrite HeN, HeW, HlW, Bn_4, Hz1, Hea0. destruct (is_mask b0); ring. }
    rewrite Hxe. split; [assumption|]. split; [assumption | lia].
Qed.

Theorem boxed_square_correct x : wf x ->
  eval (boxed_square x) = eval x * eval x /\ wf (boxed_square x) /\
  length (boxed_square x) = (2 * length x)%nat.
Proof.
  intros Hx. unfold boxed_square. destruct (64 <=? length x)%nat.
  - apply kara_sq_boxed_correct; assumption.
  - apply schoolbook_sq_correct; assumption.
Qed.

Lemma boxed_square_schoolbook x : wf x -> boxed_square x = schoolbook_sq x.
Proof.
  intros Hx. destruct (boxed_square_correct x Hx) as (A & C & D).
  destruct (schoolbook_sq_correct x Hx) as (A' & C' & D'). apply eval_inj; auto; lia.
Qed.
