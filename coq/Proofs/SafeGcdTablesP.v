(** C10: the model table and the spec table of Model/SafeGcd.v agree, key by key, wherever the spec is defined, for
    all well-formed argument lists, under the convergence flag that the model itself reports for that key and those
    arguments ([conv_ok]: the op "conv:<key>" returns 1; ./check evaluates it on every generated case). *)
From CB Require Import Model.Limbs Model.AddSub Model.SafeGcd Proofs.WordP Proofs.LimbsP Proofs.BitsP
  Proofs.SafeGcdArithP Proofs.SafeGcdUnsatP Proofs.SafeGcdCoreP Proofs.InvMod2kP Proofs.SafeGcdInvP Proofs.SafeGcdConvP
  Proofs.SafeGcdUintP Proofs.SafeGcdWrapP.
From CB Require Proofs.TotalityP.
From Coq Require Import ZArith Lia List Bool String.
Open Scope Z_scope.
Notation length := List.length.

Definition run10 (t : list (string * opfn)) (k : string) (dbg : bool) (args : list (list Z)) : outcome :=
  match lookup k t with Some f => f dbg args | None => Unsupported end.
Notation M10 := (run10 ops_safegcd_model).
Notation S10 := (run10 ops_safegcd_spec).
(** the reported convergence flag of key k on arguments a *)
Definition conv_ok (k : string) (a : list (list Z)) : Prop :=
  run10 ops_safegcdconv_model (String.append "conv:" k) false a = Val [[1]].
(** Rust's types: limb counts fit u32 bit lengths *)
Definition typed10 (a : list (list Z)) : Prop := Z.of_nat (ln 0 a) <= 2 ^ 32.
(** the property's domain is m >= 1; the spec table also records inv_mod(x, 0) = none (F4) - not covered by the proof *)
Definition modulus_nonzero (k : string) (a : list (list Z)) : Prop :=
  (k = "uint.inv_mod" \/ k = "boxed.inv_mod")%string -> ev 1 a <> 0.
Definition safegcd_keys : list string := map fst ops_safegcd_model.

Definition wf_args (a : list (list Z)) : Prop := Forall wf a.
Lemma cv_true b : cv b = Val [[1]] -> b = true.
Proof. unfold cv, vbool. destruct b; [reflexivity | discriminate]. Qed.

Ltac dom_hyps H :=
  repeat match type of H with
  | (_ && _)%bool = true => let H1 := fresh H in apply andb_prop in H; destruct H as [H H1]; try dom_hyps H1
  end.
Ltac dom_conv :=
  repeat match goal with
  | H : (_ <? _) = true |- _ => apply Z.ltb_lt in H
  | H : (_ <=? _) = true |- _ => apply Z.leb_le in H
  | H : (_ =? _)%nat = true |- _ => apply Nat.eqb_eq in H
  | H : (_ <? _)%nat = true |- _ => apply Nat.ltb_lt in H
  | H : negb _ = true |- _ => apply negb_true_iff in H
  | H : (_ =? _) = false |- _ => apply Z.eqb_neq in H
  | H : (_ =? _) = true |- _ => apply Z.eqb_eq in H
  end.
(* open `okdom c o <> Unsupported` *)
Ltac open_dom D :=
  match goal with
  | |- okdom ?c _ <> Unsupported -> _ => destruct c eqn:D; [cbn [okdom]; intros Hdom | intros Hdom; contradiction Hdom; reflexivity]
  end.

Section Entries.
  Context (a : list (list Z)) (Hwf : wf_args a) (Hty : typed10 a).

  Lemma arg_wf i : wf (arg i a).
  Proof. exact (TotalityP.wf_arg i a Hwf). Qed.
  Lemma same_len_facts : same_len a = true -> ln 1 a = ln 0 a /\ (0 < ln 0 a)%nat /\ length (arg 1 a) = ln 0 a /\ length (arg 0 a) = ln 0 a.
  Proof. unfold same_len, ln. intros H. dom_hyps H. dom_conv. repeat split; lia. Qed.
  Lemma odd_pos i : Z.odd (ev i a) = true -> 0 < ev i a.
  Proof.
    intros O. pose proof (eval_bounds _ (arg_wf i)). unfold ev in *.
    destruct (Z.eq_dec (eval (arg i a)) 0) as [E|E]; [rewrite E in O; discriminate | lia].
  Qed.

  Lemma args_sized : same_len a = true -> sized (ln 0 a) (arg 0 a) (arg 1 a).
  Proof.
    intros D. destruct (same_len_facts D) as (L1 & Hn & La1 & La0). unfold typed10 in Hty.
    repeat split; try apply arg_wf; assumption.
  Qed.

  (* -- odd modulus -- *)
  Lemma entry_inv_odd dbg vartime boxed : conv_inv boxed (arg 1 a) (arg 0 a) = true ->
    dom_odd a (sp_inv a (ev 0 a)) <> Unsupported ->
    okdom (same_len a && odd1 a) (out_sg (sg_inv dbg vartime boxed (ones_limbs (ln 1 a)) (arg 1 a) (arg 0 a))) = dom_odd a (sp_inv a (ev 0 a)).
  Proof.
    intros Hc. unfold dom_odd. open_dom D. cbn [okdom]. dom_hyps D. destruct (same_len_facts D) as (L1 & Hn & La1 & La0).
    unfold sp_inv in *. destruct (Z.eqb_spec (ev 1 a) 1) as [E1|E1]; [contradiction Hdom; reflexivity|].
    unfold odd1 in D0. pose proof (odd_pos 1 D0). rewrite L1. unfold ev in *.
    apply out_sg_inv_one; [apply sized_swap, args_sized; exact D | assumption || lia ..].
  Qed.
  Lemma entry_inv_adj dbg vartime : conv_inv false (arg 1 a) (arg 0 a) = true ->
    okdom (same_len a && odd1 a && (ev 2 a <? ev 1 a) && (ln 2 a =? ln 1 a)%nat) (spec_inv_adj (ln 1 a) (ev 0 a) (ev 1 a) (ev 2 a)) <> Unsupported ->
    okdom (same_len a && odd1 a) (out_sg (sg_inv dbg vartime false (arg 2 a) (arg 1 a) (arg 0 a))) =
    okdom (same_len a && odd1 a && (ev 2 a <? ev 1 a) && (ln 2 a =? ln 1 a)%nat) (spec_inv_adj (ln 1 a) (ev 0 a) (ev 1 a) (ev 2 a)).
  Proof.
    intros Hc. open_dom D. dom_hyps D. rewrite D, D2. cbn [okdom andb]. dom_conv. destruct (same_len_facts D) as (L1 & Hn & La1 & La0).
    unfold odd1 in D2. rewrite L1 in *. unfold ev, ln in *.
    apply out_sg_inv_adj; try apply arg_wf; try assumption; try lia.
  Qed.
  Lemma entry_inv_odd_some dbg boxed : conv_inv boxed (arg 1 a) (arg 0 a) = true ->
    okdom (same_len a && odd1 a) (sp_is_some a (ev 0 a)) <> Unsupported ->
    okdom (same_len a && odd1 a) (out_some (sg_inv dbg false boxed (ones_limbs (ln 1 a)) (arg 1 a) (arg 0 a))) =
    okdom (same_len a && odd1 a) (sp_is_some a (ev 0 a)).
  Proof.
    intros Hc. open_dom D. dom_hyps D. destruct (same_len_facts D) as (L1 & Hn & La1 & La0).
    unfold odd1 in D0. rewrite L1. unfold sp_is_some, ev in *.
    apply out_some_sg_inv_one; [apply sized_swap, args_sized; exact D | assumption || lia ..].
  Qed.

  (* -- general modulus -- *)
  Lemma entry_inv_mod dbg boxed : ev 1 a <> 0 -> conv_inv boxed (odd_part (arg 1 a)) (arg 0 a) = true ->
    okdom (same_len a) (if ev 1 a =? 0 then (if ev 0 a =? 1 then Unsupported else NoneV) else sp_inv a (ev 0 a)) <> Unsupported ->
    okdom (same_len a) (out_sg (uint_inv_mod dbg boxed (arg 0 a) (arg 1 a))) =
    okdom (same_len a) (if ev 1 a =? 0 then (if ev 0 a =? 1 then Unsupported else NoneV) else sp_inv a (ev 0 a)).
  Proof.
    intros Hnz Hc. open_dom D. destruct (same_len_facts D) as (L1 & Hn & La1 & La0).
    destruct (Z.eqb_spec (ev 1 a) 0) as [E0|E0]; [contradiction|].
    unfold sp_inv in *. destruct (Z.eqb_spec (ev 1 a) 1) as [E1|E1]; [contradiction Hdom; reflexivity|].
    pose proof (eval_bounds _ (arg_wf 1)). rewrite L1. unfold ev in *.
    apply out_sg_inv_mod; [apply args_sized; exact D | assumption || lia ..].
  Qed.
  Lemma entry_inv_some dbg boxed : conv_inv boxed (odd_part (arg 1 a)) (arg 0 a) = true ->
    okdom (same_len a && negb (ev 1 a =? 0)) (sp_is_some a (ev 0 a)) <> Unsupported ->
    okdom (same_len a) (out_some (uint_inv_mod dbg boxed (arg 0 a) (arg 1 a))) =
    okdom (same_len a && negb (ev 1 a =? 0)) (sp_is_some a (ev 0 a)).
  Proof.
    intros Hc. open_dom D. dom_hyps D. rewrite D. cbn [okdom]. dom_conv. destruct (same_len_facts D) as (L1 & Hn & La1 & La0).
    pose proof (eval_bounds _ (arg_wf 1)). unfold sp_is_some, ev in *.
    apply (out_some_inv_mod dbg boxed _ _ (ln 0 a)); [apply args_sized; exact D | assumption || lia ..].
  Qed.

  (* -- Int wrappers -- *)
  Lemma int_abs_arg : same_len a = true ->
    wf (int_abs (arg 0 a)) /\ length (int_abs (arg 0 a)) = ln 0 a /\ eval (int_abs (arg 0 a)) = Z.abs (sev 0 a).
  Proof. intros D. destruct (same_len_facts D) as (L1 & Hn & La1 & La0). apply int_abs_spec; try apply arg_wf; assumption. Qed.
  Lemma int_abs_arg1 : same_len a = true ->
    wf (int_abs (arg 1 a)) /\ length (int_abs (arg 1 a)) = ln 0 a /\ eval (int_abs (arg 1 a)) = Z.abs (sev 1 a).
  Proof. intros D. destruct (same_len_facts D) as (L1 & Hn & La1 & La0). apply int_abs_spec; try apply arg_wf; assumption. Qed.

  Lemma entry_int_inv_odd_some dbg : conv_inv false (arg 1 a) (int_abs (arg 0 a)) = true ->
    okdom (same_len a && odd1 a) (sp_is_some a (sev 0 a)) <> Unsupported ->
    okdom (same_len a && odd1 a)
      (out_some (int_fix_sign (int_neg (arg 0 a)) (arg 1 a) (sg_inv dbg false false (ones_limbs (ln 1 a)) (arg 1 a) (int_abs (arg 0 a))))) =
    okdom (same_len a && odd1 a) (sp_is_some a (sev 0 a)).
  Proof.
    intros Hc. open_dom D. dom_hyps D. destruct (same_len_facts D) as (L1 & Hn & La1 & La0).
    destruct (int_abs_arg D) as (Wx & Lx & Ex). unfold odd1 in D0. rewrite L1. unfold sp_is_some, sev, ev in *.
    apply out_some_int_fix. rewrite <- Ex.
    apply out_some_sg_inv_one; [apply sized_swap, sized_abs_l, args_sized; exact D | assumption || lia ..].
  Qed.
  Lemma entry_int_inv_some dbg : conv_inv false (odd_part (arg 1 a)) (int_abs (arg 0 a)) = true ->
    okdom (same_len a && negb (ev 1 a =? 0)) (sp_is_some a (sev 0 a)) <> Unsupported ->
    okdom (same_len a) (if ev 1 a =? 0 then Unsupported else
      out_some (int_fix_sign (int_neg (arg 0 a)) (arg 1 a) (uint_inv_mod dbg false (int_abs (arg 0 a)) (arg 1 a)))) =
    okdom (same_len a && negb (ev 1 a =? 0)) (sp_is_some a (sev 0 a)).
  Proof.
    intros Hc. open_dom D. dom_hyps D. rewrite D. cbn [okdom]. rewrite (proj1 (negb_true_iff _) D0). dom_conv.
    destruct (same_len_facts D) as (L1 & Hn & La1 & La0). destruct (int_abs_arg D) as (Wx & Lx & Ex).
    pose proof (eval_bounds _ (arg_wf 1)). unfold sp_is_some, sev, ev in *.
    apply out_some_int_fix. rewrite <- Ex.
    apply (out_some_inv_mod dbg false _ _ (ln 0 a)); [apply sized_abs_l, args_sized; exact D | assumption || lia ..].
  Qed.
  Lemma entry_int_inv_odd dbg : conv_inv false (arg 1 a) (int_abs (arg 0 a)) = true ->
    dom_odd a (sp_inv a (sev 0 a)) <> Unsupported ->
    okdom (same_len a && odd1 a)
      (out_sg (int_fix_sign (int_neg (arg 0 a)) (arg 1 a) (sg_inv dbg false false (ones_limbs (ln 1 a)) (arg 1 a) (int_abs (arg 0 a))))) =
    dom_odd a (sp_inv a (sev 0 a)).
  Proof.
    intros Hc. unfold dom_odd. open_dom D. cbn [okdom]. dom_hyps D. destruct (same_len_facts D) as (L1 & Hn & La1 & La0).
    destruct (int_abs_arg D) as (Wx & Lx & Ex).
    unfold sp_inv in *. destruct (Z.eqb_spec (ev 1 a) 1) as [E1|E1]; [contradiction Hdom; reflexivity|].
    unfold odd1 in D0. pose proof (odd_pos 1 D0). rewrite L1. unfold sev, ev in *. rewrite int_neg_eq.
    apply out_int_fix; try apply arg_wf; try assumption; try lia. rewrite <- Ex.
    apply out_sg_inv_one; [apply sized_swap, sized_abs_l, args_sized; exact D | assumption || lia ..].
  Qed.
  Lemma entry_int_inv_mod dbg : conv_inv false (odd_part (arg 1 a)) (int_abs (arg 0 a)) = true ->
    okdom (same_len a && negb (ev 1 a =? 0)) (sp_inv a (sev 0 a)) <> Unsupported ->
    okdom (same_len a) (if ev 1 a =? 0 then Unsupported else
      out_sg (int_fix_sign (int_neg (arg 0 a)) (arg 1 a) (uint_inv_mod dbg false (int_abs (arg 0 a)) (arg 1 a)))) =
    okdom (same_len a && negb (ev 1 a =? 0)) (sp_inv a (sev 0 a)).
  Proof.
    intros Hc. open_dom D. dom_hyps D. rewrite D. cbn [okdom]. rewrite (proj1 (negb_true_iff _) D0). dom_conv.
    destruct (same_len_facts D) as (L1 & Hn & La1 & La0). destruct (int_abs_arg D) as (Wx & Lx & Ex).
    unfold sp_inv in *. destruct (Z.eqb_spec (ev 1 a) 1) as [E1|E1]; [contradiction Hdom; reflexivity|].
    pose proof (eval_bounds _ (arg_wf 1)). rewrite L1. unfold sev, ev in *. rewrite int_neg_eq.
    apply out_int_fix; try apply arg_wf; try assumption; try lia. rewrite <- Ex.
    apply out_sg_inv_mod; [apply sized_abs_l, args_sized; exact D | assumption || lia ..].
  Qed.

  (* -- inverse modulo 2^k -- *)
  Lemma inv2k_pair n av k : (0 < n)%nat -> 0 <= av -> 0 <= k <= bitsn n ->
    inv_mod2k_ct n av k = inv_mod2k_vartime n av k /\ out_pair n (inv_mod2k_vartime n av k) = spec_inv n av (2 ^ k).
  Proof.
    intros Hn Ha Hk. unfold bitsn in Hk. destruct (inv_mod2k_correct n av k Hn Ha Hk) as (E1 & _ & E3 & E4).
    split; [assumption|]. unfold out_pair, spec_inv. destruct (snd (inv_mod2k_vartime n av k)) eqn:S.
    - rewrite (proj1 E3 eq_refl). cbn [Z.eqb Pos.eqb]. destruct (E4 eq_refl) as (_ & _ & ->). reflexivity.
    - destruct (Z.eqb_spec (Z.gcd av (2 ^ k)) 1) as [G|G]; [apply E3 in G; discriminate | reflexivity].
  Qed.
  Lemma inv2k_entries : sp_inv2k a <> Unsupported ->
    sarg 1 a <= bitsn (ln 0 a) /\
    inv_mod2k_ct (ln 0 a) (ev 0 a) (sarg 1 a) = inv_mod2k_vartime (ln 0 a) (ev 0 a) (sarg 1 a) /\
    out_pair (ln 0 a) (inv_mod2k_vartime (ln 0 a) (ev 0 a) (sarg 1 a)) = sp_inv2k a.
  Proof.
    unfold sp_inv2k. cbv zeta. destruct (_ && _)%bool eqn:D; [intros _ | intros H; contradiction H; reflexivity].
    dom_hyps D. dom_conv. pose proof (eval_bounds _ (arg_wf 0)). split; [assumption|].
    apply inv2k_pair; [assumption | unfold ev; lia | lia].
  Qed.
  Lemma entry_inv2k_ct : sp_inv2k a <> Unsupported ->
    out_pair (ln 0 a) (inv_mod2k_ct (ln 0 a) (ev 0 a) (sarg 1 a)) = sp_inv2k a.
  Proof. intros H. destruct (inv2k_entries H) as (_ & -> & E). exact E. Qed.
  Lemma entry_inv2k_vt_uint : sp_inv2k a <> Unsupported ->
    (if bitsn (ln 0 a) <? sarg 1 a then PanicV else out_pair (ln 0 a) (inv_mod2k_vartime (ln 0 a) (ev 0 a) (sarg 1 a))) = sp_inv2k a.
  Proof. intros H. destruct (inv2k_entries H) as (Hk & _ & E). destruct (Z.ltb_spec (bitsn (ln 0 a)) (sarg 1 a)); [lia | exact E]. Qed.
  Lemma entry_inv2k_vt_boxed : sp_inv2k a <> Unsupported ->
    okdom (sarg 1 a <=? bitsn (ln 0 a)) (out_pair (ln 0 a) (inv_mod2k_vartime (ln 0 a) (ev 0 a) (sarg 1 a))) = sp_inv2k a.
  Proof. intros H. destruct (inv2k_entries H) as (Hk & _ & E). rewrite (proj2 (Z.leb_le _ _) Hk). exact E. Qed.
  Lemma entry_inv2k_full64 : okdom (Z.odd (ev 0 a)) (Val [[modinv (ev 0 a) B]]) <> Unsupported ->
    match inv_mod2k_full_vartime (ln 0 a) (ev 0 a) 64 with Some x => Val [[x mod B]] | None => PanicV end =
    okdom (Z.odd (ev 0 a)) (Val [[modinv (ev 0 a) B]]).
  Proof.
    open_dom D. pose proof (eval_bounds _ (arg_wf 0)) as Ba.
    assert (Hn : (0 < ln 0 a)%nat).
    { unfold ln, ev in *. destruct (arg 0 a); [cbn in D; discriminate | cbn; lia]. }
    destruct (inv_mod2k_correct (ln 0 a) (ev 0 a) 64 Hn ltac:(unfold ev; lia) ltac:(lia)) as (_ & E2 & E3 & E4).
    assert (S : snd (inv_mod2k_vartime (ln 0 a) (ev 0 a) 64) = true).
    { apply E3. apply Z.eqb_eq. rewrite gcd_pow2 by lia. rewrite D. apply orb_true_r. }
    rewrite E2, S. destruct (E4 S) as (R & _ & Ex). rewrite Ex in *. rewrite B_val. rewrite Z.mod_small by assumption. reflexivity.
  Qed.

  (* -- gcd -- *)
  Lemma entry_gcd dbg boxed : uint_gcd_converged boxed (arg 0 a) (arg 1 a) = true ->
    okdom (same_len a) (sp_gcd (ln 0 a) (ev 0 a) (ev 1 a)) <> Unsupported ->
    okdom (same_len a) (out_sg (uint_gcd dbg boxed (arg 0 a) (arg 1 a))) = okdom (same_len a) (sp_gcd (ln 0 a) (ev 0 a) (ev 1 a)).
  Proof.
    intros Hc. open_dom D. destruct (same_len_facts D) as (L1 & Hn & La1 & La0). unfold ev.
    apply out_uint_gcd; [apply args_sized; exact D | exact Hc].
  Qed.
  Lemma entry_gcd_vt dbg boxed : conv_gcd_vt boxed (arg 0 a) (arg 1 a) = true ->
    okdom (same_len a) (sp_gcd (ln 0 a) (ev 0 a) (ev 1 a)) <> Unsupported ->
    okdom (same_len a) (out_sg (uint_gcd_vartime dbg boxed (arg 0 a) (arg 1 a))) = okdom (same_len a) (sp_gcd (ln 0 a) (ev 0 a) (ev 1 a)).
  Proof.
    intros Hc. open_dom D. destruct (same_len_facts D) as (L1 & Hn & La1 & La0). unfold ev.
    apply out_uint_gcd_vt; [apply args_sized; exact D | exact Hc].
  Qed.
  Lemma entry_sg_gcd dbg vartime boxed : sg_converged boxed (arg 0 a) (arg 1 a) (unsat_nlimbs (ln 0 a)) = true ->
    okdom (same_len a && Z.odd (ev 0 a)) (sp_gcd (ln 0 a) (ev 0 a) (ev 1 a)) <> Unsupported ->
    okdom (same_len a && Z.odd (ev 0 a)) (out_sg (sg_gcd dbg vartime boxed (arg 0 a) (arg 1 a))) =
    okdom (same_len a && Z.odd (ev 0 a)) (sp_gcd (ln 0 a) (ev 0 a) (ev 1 a)).
  Proof.
    intros Hc. open_dom D. dom_hyps D. destruct (same_len_facts D) as (L1 & Hn & La1 & La0). unfold ev in *.
    apply out_sg_gcd; [apply args_sized; exact D | assumption ..].
  Qed.
  (* signed operands: s0 / s1 say whether operand 0 / 1 is an Int *)
  Definition gop (s : bool) (i : nat) : list Z := if s then int_abs (arg i a) else arg i a.
  Definition gval (s : bool) (i : nat) : Z := if s then sev i a else ev i a.
  Lemma gop_facts s0 s1 : same_len a = true ->
    sized (ln 0 a) (gop s0 0) (gop s1 1) /\ Z.gcd (eval (gop s0 0)) (eval (gop s1 1)) = Z.gcd (gval s0 0) (gval s1 1).
  Proof.
    intros D. pose proof (args_sized D) as S.
    destruct (int_abs_arg D) as (_ & _ & E0). destruct (int_abs_arg1 D) as (_ & _ & E1).
    unfold gop, gval. destruct s0, s1; rewrite ?E0, ?E1, ?Z.gcd_abs_l, ?Z.gcd_abs_r; (split; [|reflexivity]).
    - apply sized_abs_l, sized_swap, sized_abs_l, sized_swap, S.
    - apply sized_abs_l, S.
    - apply sized_swap, sized_abs_l, sized_swap, S.
    - exact S.
  Qed.
  Lemma entry_gcd_signed dbg s0 s1 : uint_gcd_converged false (gop s0 0) (gop s1 1) = true ->
    okdom (same_len a) (sp_gcd (ln 0 a) (gval s0 0) (gval s1 1)) <> Unsupported ->
    okdom (same_len a) (out_sg (uint_gcd dbg false (gop s0 0) (gop s1 1))) = okdom (same_len a) (sp_gcd (ln 0 a) (gval s0 0) (gval s1 1)).
  Proof.
    intros Hc. open_dom D. destruct (gop_facts s0 s1 D) as (S & G).
    rewrite (out_uint_gcd dbg false _ _ (ln 0 a) S Hc). unfold sp_gcd. rewrite G. reflexivity.
  Qed.
  Lemma entry_gcd_vt_signed dbg s0 s1 : conv_gcd_vt false (gop s0 0) (gop s1 1) = true ->
    okdom (same_len a) (sp_gcd (ln 0 a) (gval s0 0) (gval s1 1)) <> Unsupported ->
    okdom (same_len a) (out_sg (uint_gcd_vartime dbg false (gop s0 0) (gop s1 1))) = okdom (same_len a) (sp_gcd (ln 0 a) (gval s0 0) (gval s1 1)).
  Proof.
    intros Hc. open_dom D. destruct (gop_facts s0 s1 D) as (S & G).
    rewrite (out_uint_gcd_vt dbg false _ _ (ln 0 a) S Hc). unfold sp_gcd. rewrite G. reflexivity.
  Qed.

  (* -- the convergence reports themselves -- *)
  Lemma entry_conv b : b = true -> sp_conv a <> Unsupported -> okdom (same_len a) (Val [vbool b]) = sp_conv a.
  Proof. intros -> _. reflexivity. Qed.

  (* -- Montgomery forms -- *)
  Lemma entry_monty dbg vartime boxed : conv_inv boxed (arg 1 a) (monty_arg (arg 0 a) (arg 1 a)) = true ->
    okdom (same_len a && odd1 a && (1 <? ev 1 a)) (sp_inv a (ev 0 a)) <> Unsupported ->
    okdom (same_len a && odd1 a) (out_sg (monty_inv dbg vartime boxed (arg 0 a) (arg 1 a))) =
    okdom (same_len a && odd1 a && (1 <? ev 1 a)) (sp_inv a (ev 0 a)).
  Proof.
    intros Hc. open_dom D. dom_hyps D. rewrite D, D1. cbn [okdom andb]. dom_conv. destruct (same_len_facts D) as (L1 & Hn & La1 & La0).
    unfold sp_inv in *. destruct (Z.eqb_spec (ev 1 a) 1) as [E1|E1]; [lia|].
    unfold odd1 in D1. rewrite L1. unfold ev in *.
    apply out_monty_inv; try apply arg_wf; try assumption; try lia.
  Qed.
End Entries.

Lemma safegcd_keys_eq : safegcd_keys = [
  "uint.inv_odd_mod"; "uint.inv_odd_mod_vartime"; "uint.inv_adj"; "uint.inv_adj_vartime"; "uint.inv_mod"; "uint.inv_odd_is_some";
  "uint.inv_is_some"; "boxed.inv_odd_is_some"; "boxed.inv_is_some"; "int.inv_odd_is_some"; "int.inv_is_some"; "uint.inv_mod2k";
  "uint.inv_mod2k_vartime"; "uint.inv_mod2k_full64"; "uint.gcd"; "uint.gcd_vartime"; "odd.gcd_vartime"; "uint.safegcd_converged";
  "uint.gcd_converged"; "boxed.gcd_converged"; "int.inv_odd_mod"; "int.inv_mod"; "int.gcd"; "int.gcd_vartime"; "int.gcd_uint";
  "int.gcd_uint_vartime"; "uint.gcd_int"; "uint.gcd_int_vartime"; "boxed.inv_odd_mod"; "boxed.inv_odd_mod_vartime"; "boxed.inv_mod";
  "boxed.inv_mod2k"; "boxed.inv_mod2k_vartime"; "boxed.inv_mod2k_full64"; "boxed.gcd"; "boxed.gcd_vartime"; "boxed_odd.gcd";
  "boxed_odd.gcd_vartime"; "boxed.safegcd_converged"; "monty.inv"; "monty.inv_vartime"; "boxedmonty.inv"; "boxedmonty.inv_vartime"]%string.
Proof. reflexivity. Qed.
Lemma safegcd_spec_keys_eq : map fst ops_safegcd_spec = safegcd_keys.
Proof. reflexivity. Qed.
Lemma safegcd_conv_keys_eq : map fst ops_safegcdconv_model = map (String.append "conv:") safegcd_keys.
Proof. reflexivity. Qed.

Ltac table_open10 :=
  unfold conv_ok, run10 in *;
  lazy beta iota zeta delta [lookup ops_safegcd_model ops_safegcd_spec ops_safegcdconv_model String.eqb Ascii.eqb Bool.eqb String.append] in *.

(** THE TABLE THEOREM: every entry of ops_safegcd_model equals the entry of ops_safegcd_spec wherever the latter is defined *)
Theorem safegcd_tables_agree_partial k dbg a :
  In k safegcd_keys -> wf_args a -> typed10 a -> modulus_nonzero k a ->
  conv_ok k a ->                                   (* named hypothesis: the iteration converged (reported by the model) *)
  S10 k dbg a <> Unsupported -> M10 k dbg a = S10 k dbg a.
Proof.
  intros Hk Hwf Hty Hnz Hc Hdom. rewrite safegcd_keys_eq in Hk.
  repeat (destruct Hk as [<-|Hk]); try contradiction; table_open10; try apply cv_true in Hc.
  (* the keys in the order of the table *)
  1-2: eapply entry_inv_odd; eassumption.   (* uint.inv_odd_mod, uint.inv_odd_mod_vartime *)
  1-2: eapply entry_inv_adj; eassumption.   (* uint.inv_adj, uint.inv_adj_vartime *)
  1: eapply entry_inv_mod; try eassumption; apply Hnz; auto.   (* uint.inv_mod *)
  1: eapply entry_inv_odd_some; eassumption.   (* uint.inv_odd_is_some *)
  1: eapply entry_inv_some; eassumption.   (* uint.inv_is_some *)
  1: eapply entry_inv_odd_some; eassumption.   (* boxed.inv_odd_is_some *)
  1: eapply entry_inv_some; eassumption.   (* boxed.inv_is_some *)
  1: eapply entry_int_inv_odd_some; eassumption.   (* int.inv_odd_is_some *)
  1: eapply entry_int_inv_some; eassumption.   (* int.inv_is_some *)
  1: eapply entry_inv2k_ct; eassumption.   (* uint.inv_mod2k *)
  1: eapply entry_inv2k_vt_uint; eassumption.   (* uint.inv_mod2k_vartime *)
  1: eapply entry_inv2k_full64; eassumption.   (* uint.inv_mod2k_full64 *)
  1: eapply entry_gcd; eassumption.   (* uint.gcd *)
  1: eapply entry_gcd_vt; eassumption.   (* uint.gcd_vartime *)
  1: eapply entry_sg_gcd; eassumption.   (* odd.gcd_vartime *)
  1-3: eapply entry_conv; eassumption.   (* uint.safegcd_converged, uint.gcd_converged, boxed.gcd_converged *)
  1: eapply entry_int_inv_odd; eassumption.   (* int.inv_odd_mod *)
  1: eapply entry_int_inv_mod; eassumption.   (* int.inv_mod *)
  1: eapply (entry_gcd_signed _ Hwf Hty dbg true true); eassumption.   (* int.gcd *)
  1: eapply (entry_gcd_vt_signed _ Hwf Hty dbg true true); eassumption.   (* int.gcd_vartime *)
  1: eapply (entry_gcd_signed _ Hwf Hty dbg true false); eassumption.   (* int.gcd_uint *)
  1: eapply (entry_gcd_vt_signed _ Hwf Hty dbg true false); eassumption.   (* int.gcd_uint_vartime *)
  1: eapply (entry_gcd_signed _ Hwf Hty dbg false true); eassumption.   (* uint.gcd_int *)
  1: eapply (entry_gcd_vt_signed _ Hwf Hty dbg false true); eassumption.   (* uint.gcd_int_vartime *)
  1-2: eapply entry_inv_odd; eassumption.   (* boxed.inv_odd_mod, boxed.inv_odd_mod_vartime *)
  1: eapply entry_inv_mod; try eassumption; apply Hnz; auto.   (* boxed.inv_mod *)
  1: eapply entry_inv2k_ct; eassumption.   (* boxed.inv_mod2k *)
  1: eapply entry_inv2k_vt_boxed; eassumption.   (* boxed.inv_mod2k_vartime *)
  1: eapply entry_inv2k_full64; eassumption.   (* boxed.inv_mod2k_full64 *)
  1: eapply entry_gcd; eassumption.   (* boxed.gcd *)
  1: eapply entry_gcd_vt; eassumption.   (* boxed.gcd_vartime *)
  1-2: eapply entry_sg_gcd; eassumption.   (* boxed_odd.gcd, boxed_odd.gcd_vartime *)
  1: eapply entry_conv; eassumption.   (* boxed.safegcd_converged *)
  all: eapply entry_monty; eassumption.   (* monty.inv, monty.inv_vartime, boxedmonty.inv, boxedmonty.inv_vartime *)
Qed.
