(** C10 proofs: [jump] (src/modular/safegcd.rs:265-298).  62 divsteps on the low limbs produce a matrix t
    with  t (f0, g0) = 2^62 (f', g')  exactly on the integers, row sums <= 2^62, det t = 2^62, even first row,
    f' odd, and no i64 / i128 operation wraps.  Induction over the loop, for all inputs. *)
From CB Require Import Model.Limbs Model.AddSub Model.SafeGcd Proofs.WordP Proofs.LimbsP Proofs.BitsP Proofs.SafeGcdArithP.
From Coq Require Import ZArith Lia List Bool Znumtheory Zdiv Setoid Morphisms.
Open Scope Z_scope.

(** invariant of the loop: s steps done, row 1 may be ahead by p (the zero bits of g not yet shifted out) *)
Definition JI (f0 g0 s p f g t00 t01 t10 t11 : Z) : Prop :=
  t00 * f0 + t01 * g0 = 2 ^ s * f /\
  t10 * f0 + t11 * g0 = 2 ^ s * g /\
  Z.abs t00 + Z.abs t01 <= 2 ^ s /\
  Z.abs t10 + Z.abs t11 <= 2 ^ (s + p) /\
  t00 * t11 - t01 * t10 = 2 ^ s.

Lemma abs_lin ta tb x y M : Z.abs x <= M -> Z.abs y <= M -> Z.abs (ta * x + tb * y) <= (Z.abs ta + Z.abs tb) * M.
Proof.
  intros Hx Hy.
  assert (A : Z.abs (ta * x) <= Z.abs ta * M) by (rewrite Z.abs_mul; apply Z.mul_le_mono_nonneg_l; lia).
  assert (C : Z.abs (tb * y) <= Z.abs tb * M) by (rewrite Z.abs_mul; apply Z.mul_le_mono_nonneg_l; lia).
  pose proof (Z.abs_triangle (ta * x) (tb * y)). lia.
Qed.

Lemma JI_bounds f0 g0 s p f g t00 t01 t10 t11 : 0 <= s -> 0 <= p -> s + p <= 62 -> 0 <= f0 < P62 -> 0 <= g0 < P62 ->
  JI f0 g0 s p f g t00 t01 t10 t11 ->
  Z.abs f < P62 /\ Z.abs g < 2 ^ p * P62 /\
  Z.abs t00 <= P62 /\ Z.abs t01 <= P62 /\ Z.abs t10 <= P62 /\ Z.abs t11 <= P62.
Proof.
  intros Hs Hp Hsp Hf Hg (E0 & E1 & R0 & R1 & _).
  assert (Ps : 0 < 2 ^ s) by (apply pow2_pos; assumption).
  assert (Pp : 0 < 2 ^ p) by (apply pow2_pos; assumption).
  assert (Psp : 2 ^ s * 2 ^ p <= P62) by (rewrite <- Z.pow_add_r, P62_pow by assumption; apply Z.pow_le_mono_r; lia).
  pose proof (abs_lin t00 t01 f0 g0 (P62 - 1) ltac:(lia) ltac:(lia)) as A0.
  pose proof (abs_lin t10 t11 f0 g0 (P62 - 1) ltac:(lia) ltac:(lia)) as A1.
  rewrite E0 in A0. rewrite E1 in A1. rewrite Z.abs_mul, (Z.abs_eq (2 ^ s)) in A0, A1 by lia.
  rewrite Z.pow_add_r in R1 by assumption.
  assert (B0 : (Z.abs t00 + Z.abs t01) * (P62 - 1) <= 2 ^ s * (P62 - 1)) by (apply Z.mul_le_mono_nonneg_r; pfacts; lia).
  assert (B1 : (Z.abs t10 + Z.abs t11) * (P62 - 1) <= 2 ^ s * 2 ^ p * (P62 - 1)) by (apply Z.mul_le_mono_nonneg_r; pfacts; lia).
  assert (Q : 2 ^ s * 1 <= 2 ^ s * 2 ^ p) by (apply Z.mul_le_mono_nonneg_l; lia).
  repeat split; try lia.
  - assert (H : 2 ^ s * Z.abs f <= 2 ^ s * (P62 - 1)) by lia.
    apply Z.mul_le_mono_pos_l in H; lia.
  - assert (H : 2 ^ s * Z.abs g <= 2 ^ s * (2 ^ p * (P62 - 1))) by lia.
    apply Z.mul_le_mono_pos_l in H; [|lia].
    assert (2 ^ p * (P62 - 1) < 2 ^ p * P62) by (apply Z.mul_lt_mono_pos_l; lia). lia.
Qed.

Lemma JI_shift f0 g0 s z f g g1 t00 t01 t10 t11 : 0 <= s -> 0 <= z -> g = 2 ^ z * g1 ->
  JI f0 g0 s z f g t00 t01 t10 t11 -> JI f0 g0 (s + z) 0 f g1 (t00 * 2 ^ z) (t01 * 2 ^ z) t10 t11.
Proof.
  intros Hs Hz Eg (E0 & E1 & R0 & R1 & D).
  assert (Pz : 0 < 2 ^ z) by (apply pow2_pos; assumption).
  unfold JI. rewrite Z.add_0_r, !Z.pow_add_r by assumption. repeat split.
  - replace (t00 * 2 ^ z * f0 + t01 * 2 ^ z * g0) with (2 ^ z * (t00 * f0 + t01 * g0)) by ring. rewrite E0. ring.
  - rewrite E1, Eg. ring.
  - rewrite !Z.abs_mul, (Z.abs_eq (2 ^ z)) by lia.
    replace (Z.abs t00 * 2 ^ z + Z.abs t01 * 2 ^ z) with ((Z.abs t00 + Z.abs t01) * 2 ^ z) by ring.
    apply Z.mul_le_mono_nonneg_r; lia.
  - rewrite Z.pow_add_r in R1 by assumption. assumption.
  - replace (t00 * 2 ^ z * t11 - t01 * 2 ^ z * t10) with ((t00 * t11 - t01 * t10) * 2 ^ z) by ring. rewrite D. reflexivity.
Qed.

Lemma JI_swap f0 g0 s f g t00 t01 t10 t11 :
  JI f0 g0 s 0 f g t00 t01 t10 t11 -> JI f0 g0 s 0 g (- f) t10 t11 (- t00) (- t01).
Proof.
  intros (E0 & E1 & R0 & R1 & D). rewrite Z.add_0_r in R1.
  unfold JI. rewrite Z.add_0_r, !Z.abs_opp. repeat split; try assumption.
  - replace (- t00 * f0 + - t01 * g0) with (- (t00 * f0 + t01 * g0)) by ring. rewrite E0. ring.
  - rewrite <- D. ring.
Qed.

Lemma JI_wstep f0 g0 s k w f g t00 t01 t10 t11 : 0 <= s -> 0 <= k -> 0 <= w < 2 ^ k ->
  JI f0 g0 s 0 f g t00 t01 t10 t11 -> JI f0 g0 s k f (g + w * f) t00 t01 (t00 * w + t10) (t01 * w + t11).
Proof.
  intros Hs Hk Hw (E0 & E1 & R0 & R1 & D). rewrite Z.add_0_r in R1.
  assert (Ps : 0 < 2 ^ s) by (apply pow2_pos; assumption).
  unfold JI. rewrite Z.pow_add_r by assumption. repeat split; try assumption.
  - replace ((t00 * w + t10) * f0 + (t01 * w + t11) * g0) with (w * (t00 * f0 + t01 * g0) + (t10 * f0 + t11 * g0)) by ring.
    rewrite E0, E1. ring.
  - pose proof (Z.abs_triangle (t00 * w) t10). pose proof (Z.abs_triangle (t01 * w) t11).
    rewrite Z.abs_mul, (Z.abs_eq w) in H, H0 by lia.
    assert ((Z.abs t00 + Z.abs t01) * w <= 2 ^ s * w) by (apply Z.mul_le_mono_nonneg_r; lia).
    assert (2 ^ s * (w + 1) <= 2 ^ s * 2 ^ k) by (apply Z.mul_le_mono_nonneg_l; lia).
    lia.
  - rewrite <- D. ring.
Qed.

(** the multiplier w clears k low bits of g *)
Lemma w_clears f g k : Z.odd f = true -> 0 <= k <= 5 ->
  let w := Z.land (wmul (u64 g) (wxor (wmul (u64 f) 3) 28)) (2 ^ k - 1) in
  0 <= w < 2 ^ k /\ (2 ^ k | g + w * f).
Proof.
  (* with v = f mod 2^64 and c = (3 v) xor 28 = -1/v mod 32 ([seed_neginv5]): w = g c, so g + w f = g (1 + c v) = 0,
     all modulo 2^k, which divides 32 and 2^64 *)
  intros Ho Hk w.
  assert (Pk : 0 < 2 ^ k) by (apply pow2_pos; lia).
  assert (Ew : w = (wmul (u64 g) (wxor (wmul (u64 f) 3) 28)) mod 2 ^ k).
  { unfold w. replace (2 ^ k - 1) with (Z.ones k) by (rewrite Z.ones_equiv; lia). apply Z.land_ones. lia. }
  split; [rewrite Ew; apply Z.mod_pos_bound; assumption|].
  set (v := u64 f) in *.
  assert (Ov : Z.odd v = true).
  { unfold v, u64. rewrite <- Z.bit0_odd in *. rewrite P64_pow, Z.mod_pow2_bits_low by lia. assumption. }
  pose proof (seed_neginv5 v Ov) as S5.
  set (c := wxor (wmul v 3) 28) in *.
  assert (Ec : c = Z.lxor ((v * 3) mod P64) 28) by (unfold c, wxor, wmul, wrap; rewrite B_P64; reflexivity).
  rewrite <- Ec in S5.
  assert (D32 : (2 ^ k | 32)) by (change 32 with (2 ^ 5); apply pow2_divide; lia).
  assert (D64 : (2 ^ k | P64)) by (rewrite P64_pow; apply pow2_divide; lia).
  assert (Cv : cg (2 ^ k) v f).
  { apply (cg_weaken P64); [discriminate | lia | assumption |]. unfold v, u64. apply cg_mod. }
  assert (Cg : cg (2 ^ k) (u64 g) g).
  { apply (cg_weaken P64); [discriminate | lia | assumption |]. unfold u64. apply cg_mod. }
  assert (Cc : cg (2 ^ k) (c * v) (-1)).
  { apply (cg_weaken 32); [discriminate | lia | assumption |]. apply cg_iff. rewrite S5. reflexivity. }
  assert (Cw : cg (2 ^ k) w (g * c)).
  { rewrite Ew, cg_mod. unfold wmul, wrap. rewrite B_P64.
    transitivity (u64 g * c); [apply (cg_weaken P64); [discriminate | lia | assumption | apply cg_mod]|].
    rewrite Cg. reflexivity. }
  assert (Fin : cg (2 ^ k) (g + w * f) 0).
  { rewrite Cw, <- Cv. replace (g * c * v) with (g * (c * v)) by ring. rewrite Cc.
    apply eq_subrelation; [typeclasses eauto | ring]. }
  apply cg_divide in Fin; [|lia]. rewrite Z.sub_0_r in Fin. exact Fin.
Qed.

Definition JPost (f0 g0 delta : Z) (r : Z * matrix) : Prop :=
  let '(delta', (t00, t01, t10, t11)) := r in
  exists f' g',
    t00 * f0 + t01 * g0 = P62 * f' /\ t10 * f0 + t11 * g0 = P62 * g' /\
    Z.abs t00 + Z.abs t01 <= P62 /\ Z.abs t10 + Z.abs t11 <= P62 /\
    t00 * t11 - t01 * t10 = P62 /\
    Z.even t00 = true /\ Z.even t01 = true /\ Z.odd f' = true /\
    Z.abs delta' <= Z.abs delta + 62.

Lemma even_mul_pow2 x z : 1 <= z -> Z.even (x * 2 ^ z) = true.
Proof.
  intros Hz. replace z with (1 + (z - 1)) by lia. rewrite Z.pow_add_r by lia. change (2 ^ 1) with 2.
  rewrite Z.mul_assoc, Z.even_mul, (Z.even_mul x 2). cbn. rewrite orb_true_r. reflexivity.
Qed.

Lemma JI_mono f0 g0 s p q f g t00 t01 t10 t11 : p <= q ->
  JI f0 g0 s p f g t00 t01 t10 t11 -> JI f0 g0 s q f g t00 t01 t10 t11.
Proof.
  intros Hpq (E0 & E1 & R0 & R1 & D). repeat split; try assumption.
  eapply Z.le_trans; [exact R1|]. apply Z.pow_le_mono_r; lia.
Qed.

Lemma JI_init f0 g0 p : 0 <= p -> JI f0 g0 0 p f0 g0 1 0 0 1.
Proof.
  intros Hp. pose proof (pow2_pos p Hp). unfold JI. rewrite Z.add_0_l. change (2 ^ 0) with 1. cbn [Z.abs]. lia.
Qed.

(** everything the loop stores fits its machine type *)
Lemma s64_small x b : Z.abs x <= b -> b <= P62 -> s64 x = x.
Proof. intros H K. apply s64_id. pfacts; lia. Qed.
Lemma s128_small x b : Z.abs x < b * P62 -> b <= 32 -> s128 x = x.
Proof.
  intros H K. apply s128_id. assert (b * P62 <= 32 * P62) by (apply Z.mul_le_mono_nonneg_r; pfacts; lia).
  pfacts; lia.
Qed.

(** at the head of the loop, [steps] divsteps to go; d0 is the delta the jump started from *)
Definition JHead (f0 g0 d0 steps delta f g t00 t01 t10 t11 : Z) : Prop :=
  1 <= steps <= 62 /\
  JI f0 g0 (62 - steps) (ctz_upto (Z.to_nat steps) g) f g t00 t01 t10 t11 /\
  (Z.odd f = true \/ (0 < delta /\ Z.odd g = true)) /\
  Z.abs delta + steps <= Z.abs d0 + 62.

(** first half of an iteration: the zeros of g are shifted out *)
Lemma jump_shift f0 g0 d0 steps delta f g t00 t01 t10 t11 :
  0 <= f0 < P62 -> 0 <= g0 < P62 -> Z.abs d0 + 62 <= P62 ->
  JHead f0 g0 d0 steps delta f g t00 t01 t10 t11 ->
  let z := ctz_upto (Z.to_nat steps) g in
  0 <= z <= steps /\
  s64 (delta + z) = delta + z /\ s64 (t00 * 2 ^ z) = t00 * 2 ^ z /\ s64 (t01 * 2 ^ z) = t01 * 2 ^ z /\
  JI f0 g0 (62 - (steps - z)) 0 f (g / 2 ^ z) (t00 * 2 ^ z) (t01 * 2 ^ z) t10 t11 /\
  Z.abs (delta + z) + (steps - z) <= Z.abs d0 + 62 /\
  (Z.odd f = true \/ 0 < delta + z) /\
  (z < steps -> Z.odd (g / 2 ^ z) = true) /\
  (z = steps -> 1 <= z /\ Z.odd f = true).
Proof.
  intros Hf0 Hg0 Hd0 (Hst & J & Hodd & Hd) z.
  pose proof (ctz_upto_range (Z.to_nat steps) g) as Hz. rewrite Z2Nat.id in Hz by lia.
  pose proof (ctz_upto_odd (Z.to_nat steps) g) as Og. rewrite Z2Nat.id in Og by lia.
  fold z in J, Hz, Og.
  assert (J1 : JI f0 g0 (62 - (steps - z)) 0 f (g / 2 ^ z) (t00 * 2 ^ z) (t01 * 2 ^ z) t10 t11).
  { replace (62 - (steps - z)) with (62 - steps + z) by ring.
    apply JI_shift with (g := g); [lia | lia | apply ctz_upto_divide | exact J]. }
  destruct (JI_bounds _ _ (62 - (steps - z)) 0 _ _ _ _ _ _ ltac:(lia) (Z.le_refl 0) ltac:(lia) Hf0 Hg0 J1) as (_ & _ & B00 & B01 & _).
  split; [exact Hz|].
  split; [apply s64_id; clear - Hz Hst Hd Hd0; pfacts; lia|].
  split; [exact (s64_small _ _ B00 (Z.le_refl _))|]. split; [exact (s64_small _ _ B01 (Z.le_refl _))|]. split; [exact J1|].
  split; [clear - Hz Hd; lia|].
  split; [destruct Hodd as [Ho|[Hp _]]; [left; exact Ho | right; lia]|].
  split; [exact Og|].
  intros E. destruct Hodd as [Ho|[_ Ho]]; [split; [lia | exact Ho]|].
  apply (ctz_upto_of_odd (Z.to_nat steps)) in Ho. fold z in Ho. lia.
Qed.

(** the swap leaves f odd and delta <= 0 *)
Lemma jump_swap f0 g0 s d f g t00 t01 t10 t11 : 0 <= s <= 62 -> 0 <= f0 < P62 -> 0 <= g0 < P62 -> Z.abs d <= P62 ->
  JI f0 g0 s 0 f g t00 t01 t10 t11 -> Z.odd g = true -> (Z.odd f = true \/ 0 < d) ->
  exists d2 f2 g2 v00 v01 v10 v11,
    (if 0 <? d then (s64 (- d), s64 g, s64 (- f), t10, t11, s64 (- t00), s64 (- t01))
     else (d, f, g, t00, t01, t10, t11)) = (d2, f2, g2, v00, v01, v10, v11) /\
    JI f0 g0 s 0 f2 g2 v00 v01 v10 v11 /\ Z.odd f2 = true /\ d2 <= 0 /\ Z.abs d2 = Z.abs d.
Proof.
  intros Hs Hf0 Hg0 Hd J Og Hodd.
  destruct (Z.ltb_spec 0 d) as [Hpos|Hnp].
  - destruct (JI_bounds _ _ s 0 _ _ _ _ _ _ (proj1 Hs) (Z.le_refl 0) ltac:(lia) Hf0 Hg0 J) as (Bf & Bg & B00 & B01 & _).
    change (2 ^ 0) with 1 in Bg. rewrite Z.mul_1_l in Bg.
    exists (- d), g, (- f), t10, t11, (- t00), (- t01).
    rewrite !(s64_small _ P62) by (rewrite ?Z.abs_opp; lia).
    split; [reflexivity|]. split; [apply JI_swap; exact J|]. split; [exact Og|]. rewrite Z.abs_opp. lia.
  - exists d, f, g, t00, t01, t10, t11.
    split; [reflexivity|]. split; [exact J|]. split; [destruct Hodd; [assumption | lia]|]. lia.
Qed.

(** second half: the multiplier w clears at least one more bit of g *)
Lemma jump_mult f0 g0 d0 st d f g t00 t01 t10 t11 :
  0 <= f0 < P62 -> 0 <= g0 < P62 -> Z.abs d0 + 62 <= P62 -> 1 <= st <= 62 ->
  JI f0 g0 (62 - st) 0 f g t00 t01 t10 t11 -> Z.odd f = true -> d <= 0 -> Z.abs d + st <= Z.abs d0 + 62 ->
  let w := Z.land (wmul (u64 g) (wxor (wmul (u64 f) 3) 28)) (2 ^ Z.min (Z.min st (s64 (1 - d))) 5 - 1) in
  s128 (g + w * f) = g + w * f /\ s64 (t00 * w + t10) = t00 * w + t10 /\ s64 (t01 * w + t11) = t01 * w + t11 /\
  1 <= ctz_upto (Z.to_nat st) (g + w * f) /\
  JHead f0 g0 d0 st d f (g + w * f) t00 t01 (t00 * w + t10) (t01 * w + t11).
Proof.
  intros Hf0 Hg0 Hd0 Hst J Of Hd HdK.
  rewrite (s64_id (1 - d)) by (clear - Hd HdK Hd0 Hst; pfacts; lia).
  set (k := Z.min (Z.min st (1 - d)) 5).
  assert (Hk : 1 <= k <= 5 /\ k <= st) by (clear - Hd Hst; unfold k; lia).
  destruct (w_clears f g k Of ltac:(lia)) as (Hw & Dw). intros w. fold w in Hw, Dw.
  assert (Pk : 2 ^ k <= 32) by (change 32 with (2 ^ 5); apply Z.pow_le_mono_r; lia).
  pose proof (JI_wstep _ _ (62 - st) k w _ _ _ _ _ _ ltac:(lia) ltac:(lia) Hw J) as J3.
  destruct (JI_bounds _ _ (62 - st) k _ _ _ _ _ _ ltac:(lia) ltac:(lia) ltac:(lia) Hf0 Hg0 J3) as (_ & Bg & _ & _ & B10 & B11).
  assert (Hkz : k <= ctz_upto (Z.to_nat st) (g + w * f)) by (apply ctz_upto_ge; [lia | exact Dw]).
  split; [apply (s128_small _ (2 ^ k)); assumption|].
  split; [exact (s64_small _ _ B10 (Z.le_refl _))|]. split; [exact (s64_small _ _ B11 (Z.le_refl _))|]. split; [lia|].
  split; [exact Hst|]. split; [exact (JI_mono _ _ _ _ _ _ _ _ _ _ _ Hkz J3)|]. split; [left; exact Of | exact HdK].
Qed.

Lemma jump_loop_inv f0 g0 d0 : 0 <= f0 < P62 -> 0 <= g0 < P62 -> Z.abs d0 + 62 <= P62 ->
  forall fuel steps delta f g t00 t01 t10 t11,
  JHead f0 g0 d0 steps delta f g t00 t01 t10 t11 ->
  steps + (if ctz_upto (Z.to_nat steps) g =? 0 then 1 else 0) <= Z.of_nat fuel ->
  JPost f0 g0 d0 (jump_loop fuel steps delta f g (t00, t01, t10, t11)).
Proof.
  intros Hf0 Hg0 Hd0.
  induction fuel as [|fuel IH]; intros steps delta f g t00 t01 t10 t11 Head Hfuel.
  - destruct Head as (Hst & _). destruct (_ =? 0); change (Z.of_nat 0) with 0 in Hfuel; lia.
  - cbn [jump_loop].
    destruct (jump_shift _ _ _ _ _ _ _ _ _ _ _ Hf0 Hg0 Hd0 Head) as (Hz & Ed & E00 & E01 & J1 & Hd1 & Hodd & Og1 & Done).
    destruct Head as (Hst & _).
    set (z := ctz_upto (Z.to_nat steps) g) in *.
    rewrite Ed, E00, E01.
    destruct (Z.eqb_spec (steps - z) 0) as [Est|Est].
    + destruct Done as (Hz1 & Of); [lia|].
      rewrite Est, Z.sub_0_r in J1. destruct J1 as (F0 & F1 & R0 & R1 & D).
      exists f, (g / 2 ^ z). rewrite <- P62_pow in *.
      repeat split; try assumption; try (apply even_mul_pow2; exact Hz1).
      clear - Hd1 Est. lia.
    + set (st := steps - z) in *.
      assert (Hst' : 1 <= st <= 62) by (clear - Hz Hst Est; unfold st in *; lia).
      destruct (jump_swap _ _ (62 - st) (delta + z) _ _ _ _ _ _ ltac:(lia) Hf0 Hg0 ltac:(lia) J1 (Og1 ltac:(lia)) Hodd)
        as (d2 & f2 & g2 & v00 & v01 & v10 & v11 & Esw & J2 & Of2 & Hd2 & Ed2).
      rewrite Esw.
      destruct (jump_mult _ _ d0 st d2 _ _ _ _ _ _ Hf0 Hg0 Hd0 Hst' J2 Of2 Hd2 ltac:(lia)) as (Eg & E10 & E11 & Hz' & Head').
      rewrite Eg, E10, E11.
      apply IH; [exact Head'|].
      (* only the first round can find g odd (z = 0) and make no progress: w has just cleared a bit of the new g *)
      clear - Hfuel Hz Hz'. rewrite Nat2Z.inj_succ in Hfuel.
      destruct (ctz_upto (Z.to_nat st) _ =? 0) eqn:E; [apply Z.eqb_eq in E; lia|].
      destruct (Z.eqb_spec z 0); unfold st; lia.
Qed.

(** [jump]: t (f0, g0) = 2^62 (f', g') exactly, entries bounded, det = 2^62, first row even, f' odd *)
Theorem jump_matrix f0 g0 delta : 0 <= f0 < P62 -> 0 <= g0 < P62 ->
  (Z.odd f0 = true \/ (0 < delta /\ Z.odd g0 = true)) -> Z.abs delta + 62 <= P62 ->
  JPost f0 g0 delta (jump f0 g0 delta).
Proof.
  intros Hf Hg Ho Hd. apply jump_loop_inv; try assumption.
  - split; [lia|]. split; [apply JI_init, ctz_upto_range|]. split; [exact Ho | lia].
  - destruct (_ =? 0); lia.
Qed.

Lemma jump_matrix_eq f0 g0 delta d' t00 t01 t10 t11 : 0 <= f0 < P62 -> 0 <= g0 < P62 ->
  (Z.odd f0 = true \/ (0 < delta /\ Z.odd g0 = true)) -> Z.abs delta + 62 <= P62 ->
  jump f0 g0 delta = (d', (t00, t01, t10, t11)) ->
  exists f' g',
    t00 * f0 + t01 * g0 = P62 * f' /\ t10 * f0 + t11 * g0 = P62 * g' /\
    Z.abs t00 + Z.abs t01 <= P62 /\ Z.abs t10 + Z.abs t11 <= P62 /\
    t00 * t11 - t01 * t10 = P62 /\
    Z.even t00 = true /\ Z.even t01 = true /\ Z.odd f' = true /\
    Z.abs d' <= Z.abs delta + 62.
Proof.
  intros Hf Hg Ho Hd E. pose proof (jump_matrix f0 g0 delta Hf Hg Ho Hd) as JP. rewrite E in JP. exact JP.
Qed.

(** g0 = 0: the jump is the identity on (f, g) whatever f0 is (used for gcd(x, 0), gcd(0, 0) and after convergence) *)
Lemma jump_loop_g0 fuel steps delta f t00 t01 t10 t11 : 0 <= steps ->
  jump_loop (S fuel) steps delta f 0 (t00, t01, t10, t11) =
  (s64 (delta + steps), (s64 (t00 * 2 ^ steps), s64 (t01 * 2 ^ steps), t10, t11)).
Proof.
  intros Hs. cbn [jump_loop]. rewrite ctz_upto_zero, Z2Nat.id, Z.sub_diag by assumption. reflexivity.
Qed.
Lemma jump_g0 f0 delta : - P62 <= delta <= P62 -> jump f0 0 delta = (delta + 62, (P62, 0, 0, 1)).
Proof.
  intros Hd. unfold jump. rewrite jump_loop_g0 by lia.
  rewrite s64_id by (pfacts; lia). reflexivity.
Qed.
