(** C11, area rand (Model/Rand.v, owner C19): on the spec's domain every entry of the model table returns what the spec
    entry returns (Proofs/RandTablesP.v), so with the infallible RNG wrappers the only panic is the replay stream running
    out (the rejection samplers terminate iff the stream eventually offers an acceptable word); the try_* forms return
    every error, including the documented random_bits errors, and never panic. *)
From CB Require Import Model.Limbs Model.AddSub Model.Rand Proofs.LimbsP Proofs.TotalityP Proofs.RandTablesP.
From Coq Require Import ZArith Lia List String Bool.
Open Scope Z_scope.
Notation length := List.length.

Lemma rand_cover : covers rand_keys ops_rand_model = true.
Proof. vm_compute. reflexivity. Qed.
Lemma rand_quiet : quiet_keys_ok ops_rand_model ops_rand_spec rand_quiet_keys.
Proof. unfold rand_quiet_keys. intros k dbg a []. Qed.

Lemma key_limb_random : key_ok ops_rand_model ops_rand_spec rand_ty "limb.random".
Proof. apply key_of_eq. intros dbg a Hwf _. exact (tbl_limb_random dbg a Hwf). Qed.
Lemma key_uint_random : key_ok ops_rand_model ops_rand_spec rand_ty "uint.random".
Proof. apply key_of_eq. intros dbg a Hwf _. exact (tbl_uint_random dbg a Hwf). Qed.
Lemma key_uint_random_mod : key_ok ops_rand_model ops_rand_spec rand_ty "uint.random_mod".
Proof. apply key_of_eq. intros dbg a Hwf _. exact (tbl_uint_random_mod dbg a Hwf). Qed.
Lemma key_boxed_random_mod : key_ok ops_rand_model ops_rand_spec rand_ty "boxed.random_mod".
Proof. apply key_of_eq. intros dbg a Hwf _. exact (tbl_boxed_random_mod dbg a Hwf). Qed.
Lemma key_limb_random_mod : key_ok ops_rand_model ops_rand_spec rand_ty "limb.random_mod".
Proof. apply key_of_eq. intros dbg a Hwf _. exact (tbl_limb_random_mod dbg a Hwf). Qed.
Lemma key_nonzero_uint_random : key_ok ops_rand_model ops_rand_spec rand_ty "nonzero_uint.random".
Proof. apply key_of_eq. intros dbg a Hwf _. exact (tbl_nonzero_uint_random dbg a Hwf). Qed.
Lemma key_nonzero_monty_random : key_ok ops_rand_model ops_rand_spec rand_ty "nonzero_monty.random".
Proof. apply key_of_eq. intros dbg a Hwf _. exact (tbl_nonzero_monty_random dbg a Hwf). Qed.
Lemma key_odd_uint_random : key_ok ops_rand_model ops_rand_spec rand_ty "odd_uint.random".
Proof. apply key_of_eq. intros dbg a Hwf _. exact (tbl_odd_uint_random dbg a Hwf). Qed.
Lemma key_uint_random_bits : key_ok ops_rand_model ops_rand_spec rand_ty "uint.random_bits".
Proof. apply key_of_eq. intros dbg a Hwf _. exact (tbl_uint_random_bits dbg a Hwf). Qed.
Lemma key_boxed_random_bits : key_ok ops_rand_model ops_rand_spec rand_ty "boxed.random_bits".
Proof. apply key_of_eq. intros dbg a Hwf _. exact (tbl_boxed_random_bits dbg a Hwf). Qed.
Lemma key_odd_boxed_random : key_ok ops_rand_model ops_rand_spec rand_ty "odd_boxed.random".
Proof. apply key_of_eq. intros dbg a Hwf _. exact (tbl_odd_boxed_random dbg a Hwf). Qed.

#[export] Hint Resolve key_limb_random key_uint_random key_uint_random_bits key_boxed_random_bits key_uint_random_mod
  key_boxed_random_mod key_limb_random_mod key_nonzero_uint_random key_nonzero_monty_random key_odd_uint_random
  key_odd_boxed_random : c11keys.

(* the try_* forms (fallible flag not 0, mode not 1): an exhausted stream or a documented error is returned *)
Lemma exh_fallible {A} (o : option A) (w : A -> outcome) f : (forall x, w x <> PanicV) -> f <> 0 ->
  match o with Some x => w x | None => rnd_exh f end <> PanicV.
Proof. intros Hw Hf. apply Z.eqb_neq in Hf. destruct o; [apply Hw | unfold rnd_exh; rewrite Hf; discriminate]. Qed.
Lemma rnd_out_bits_mode m r : m <> 1 -> rnd_out_bits m r <> PanicV.
Proof.
  intros Hm. apply Z.eqb_neq in Hm. destruct r as [v [ws nw nb]|c f1 f2]; cbn.
  - destruct (m =? 2); discriminate.
  - rewrite Hm. destruct (m =? 0); discriminate.
Qed.
