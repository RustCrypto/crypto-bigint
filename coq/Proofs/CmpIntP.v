(** C06 proofs, part 2: Int<N>.  The signed comparisons (flip the sign bit, compare as Uint) are proved here.  The
    sign tests, MIN / MAX tests, abs_sign and new_from_abs_sign of Model/Cmp.v are the functions of Model/IntArith.v
    under Model/Cmp.v's names (convertible), so their lemmas are those of Proofs/IntArithP.v, restated over these names
    and over [half].  All statements for every non-zero limb count. *)
From CB Require Import Model.Limbs Model.AddSub Model.Cmp Proofs.WordP Proofs.LimbsP Proofs.AddSubP
  Proofs.CmpWordP Proofs.CmpP.
From CB Require Proofs.IntArithP.
From Coq Require Import ZArith Lia List Bool.
Open Scope Z_scope.

Lemma half_S k : half (S k) = 2 ^ 63 * Bn k.
Proof.
  unfold half. rewrite Bn_S, B_half.
  replace (2 * 2 ^ 63 * Bn k) with (2 ^ 63 * Bn k * 2) by ring. apply Z.div_mul. lia.
Qed.
Lemma Bn_half (a : list Z) : a <> [] -> Bn (length a) = 2 * half (length a).
Proof. destruct a; [congruence|]. intros _. cbn [length]. rewrite half_S, Bn_S, B_half. ring. Qed.

Lemma seval_zero_iff a : wf a -> (seval a = 0 <-> eval a = 0).
Proof. exact (IntArithP.seval_zero_iff a). Qed.

Lemma seval_range a : wf a -> a <> [] -> - half (length a) <= seval a < half (length a).
Proof. intros Ha Hn. pose proof (IntArithP.seval_range a Ha) as H. rewrite (Bn_half a Hn) in H. lia. Qed.

Lemma combine_app2 {A C} (a1 a2 : list A) (b1 b2 : list C) : length a1 = length b1 ->
  combine (a1 ++ a2) (b1 ++ b2) = combine a1 b1 ++ combine a2 b2.
Proof.
  revert b1. induction a1 as [|x a1 IH]; intros [|y b1] H; try discriminate; [reflexivity|].
  simpl. f_equal. apply IH. simpl in H. lia.
Qed.

Lemma xor_limbs_zeros l : xor_limbs l (zeros (length l)) = l.
Proof.
  unfold xor_limbs, zeros. induction l as [|x l IH]; [reflexivity|].
  cbn [length repeat combine map fst snd]. unfold wxor at 1. rewrite Z.lxor_0_r. f_equal. exact IH.
Qed.

Lemma int_invert_msb_snoc l x : int_invert_msb (l ++ [x]) = l ++ [wxor x (2 ^ 63)].
Proof.
  unfold int_invert_msb. rewrite app_length. cbn [length]. rewrite Nat.add_1_r. cbn [sign_mask].
  unfold xor_limbs. rewrite combine_app2 by (rewrite length_zeros; reflexivity).
  rewrite map_app. fold (xor_limbs l (zeros (length l))). rewrite xor_limbs_zeros. reflexivity.
Qed.

(** flipping the sign bit maps the signed order onto the unsigned order *)
Lemma invert_msb_facts a : wf a -> a <> [] ->
  eval (int_invert_msb a) = seval a + half (length a) /\ wf (int_invert_msb a) /\
  length (int_invert_msb a) = length a.
Proof.
  intros Ha Hn. destruct (IntArithP.msw_sign a Ha Hn) as [Hx Hs]. pose proof (IntArithP.seval_cases a Ha) as Hc.
  rewrite (Bn_half a Hn) in Hs, Hc. destruct (exists_last Hn) as (l & x & ->).
  unfold IntArith.int_msw in Hx, Hs. rewrite last_last in Hx, Hs.
  rewrite int_invert_msb_snoc, eval_app, !app_length in *. cbn [eval length] in *.
  rewrite Nat.add_1_r, half_S in *.
  split; [|split; [|reflexivity]].
  - unfold wxor. rewrite (lxor_p63 x Hx). destruct (Z.leb_spec (2 ^ 63) x); destruct Hc as [[? ->]|[? ->]]; lia.
  - apply wf_app in Ha. apply wf_app. split; [tauto|]. apply wf_one, is_word_lxor; [assumption | apply is_word_p63].
Qed.

Section SignedOrder.
  Variables a b : list Z.
  Hypothesis Ha : wf a.
  Hypothesis Hb : wf b.
  Hypothesis Hl : length a = length b.
  Hypothesis Hn : a <> [].

  Let Hnb : b <> [].
  Proof. destruct b; [destruct a; [congruence | discriminate] | discriminate]. Qed.

  (* both operands with the sign bit flipped: values shifted by one and the same offset *)
  Let flipped : eval (int_invert_msb a) = seval a + half (length a) /\
    eval (int_invert_msb b) = seval b + half (length a) /\
    wf (int_invert_msb a) /\ wf (int_invert_msb b) /\ length (int_invert_msb a) = length (int_invert_msb b).
  Proof.
    destruct (invert_msb_facts a Ha Hn) as (Ea & Wa & La). destruct (invert_msb_facts b Hb Hnb) as (Eb & Wb & Lb).
    rewrite Hl. repeat split; auto; congruence.
  Qed.

  Lemma int_lt_spec : int_lt a b = choice_of_bool (seval a <? seval b).
  Proof.
    destruct flipped as (Ea & Eb & Wa & Wb & L).
    unfold int_lt. rewrite uint_lt_spec, Ea, Eb, ltb_shift by assumption. reflexivity.
  Qed.
  Lemma int_gt_spec : int_gt a b = choice_of_bool (seval b <? seval a).
  Proof.
    destruct flipped as (Ea & Eb & Wa & Wb & L).
    unfold int_gt. rewrite uint_gt_spec, Ea, Eb, ltb_shift by assumption. reflexivity.
  Qed.
  Lemma int_cmp_spec : int_cmp a b = ordz (seval a) (seval b).
  Proof.
    destruct flipped as (Ea & Eb & Wa & Wb & L).
    unfold int_cmp. rewrite uint_cmp_spec, Ea, Eb by assumption. apply ordz_shift.
  Qed.
  Lemma int_cmp_vartime_spec : int_cmp_vartime a b = ordz (seval a) (seval b).
  Proof.
    destruct flipped as (Ea & Eb & Wa & Wb & L).
    unfold int_cmp_vartime. rewrite uint_cmp_vartime_spec, Ea, Eb by assumption. apply ordz_shift.
  Qed.
  (** Int::eq compares the bit patterns, which is equality of the signed values *)
  Lemma int_eq_spec : uint_eq a b = choice_of_bool (seval a =? seval b).
  Proof.
    rewrite uint_eq_spec by assumption. f_equal.
    pose proof (eval_bounds a Ha) as Ba. pose proof (eval_bounds b Hb). pose proof (IntArithP.seval_cases a Ha) as Ca.
    pose proof (IntArithP.seval_cases b Hb) as Cb. rewrite Hl in Ba, Ca.
    apply eq_true_iff_eq. rewrite !Z.eqb_eq. destruct Ca as [[? ->]|[? ->]], Cb as [[? ->]|[? ->]]; lia.
  Qed.
End SignedOrder.

Lemma cc_not_choice p : cc_not (choice_of_bool p) = choice_of_bool (negb p).
Proof. exact (IntArithP.cc_not_bool p). Qed.

Lemma int_is_negative_spec a : wf a -> int_is_negative a = choice_of_bool (seval a <? 0).
Proof. exact (IntArithP.int_is_negative_spec a). Qed.
Lemma int_is_positive_spec a : wf a -> int_is_positive a = choice_of_bool (0 <? seval a).
Proof. exact (IntArithP.int_is_positive_spec a). Qed.

Lemma length_sign_mask n : length (sign_mask n) = n.
Proof. destruct n; [reflexivity | apply (IntArithP.int_min_limbs_spec (S n)); discriminate]. Qed.
Lemma eval_int_max k : eval (int_max (S k)) = half (S k) - 1.
Proof. rewrite half_S. apply (IntArithP.int_max_limbs_spec (S k)). discriminate. Qed.
Lemma wf_int_max n : wf (int_max n).
Proof. destruct n; [apply wf_nil | apply (IntArithP.int_max_limbs_spec (S n)); discriminate]. Qed.
Lemma length_int_max n : length (int_max n) = n.
Proof. destruct n; [reflexivity | apply (IntArithP.int_max_limbs_spec (S n)); discriminate]. Qed.

Lemma int_is_min_spec a : wf a -> a <> [] -> int_is_min a = choice_of_bool (seval a =? - half (length a)).
Proof.
  intros Ha Hn. rewrite (IntArithP.int_is_min_spec a Ha Hn : int_is_min a = _), (Bn_half a Hn). f_equal.
  apply eq_true_iff_eq. rewrite !Z.eqb_eq. lia.
Qed.
Lemma int_is_max_spec a : wf a -> a <> [] -> int_is_max a = choice_of_bool (seval a =? half (length a) - 1).
Proof.
  intros Ha Hn. rewrite (IntArithP.int_is_max_spec a Ha Hn : int_is_max a = _), (Bn_half a Hn). f_equal.
  apply eq_true_iff_eq. rewrite !Z.eqb_eq. lia.
Qed.

(** to_nz / to_odd on Int test the bit pattern: zero-ness and parity of the signed value *)
Lemma int_to_nz_spec a : wf a -> uint_is_nonzero a = choice_of_bool (negb (seval a =? 0)).
Proof.
  intros Ha. rewrite uint_is_nonzero_spec by assumption. do 2 f_equal.
  apply eq_true_iff_eq. rewrite !Z.eqb_eq. symmetry. apply seval_zero_iff. assumption.
Qed.

Lemma int_to_odd_spec a : wf a -> a <> [] -> uint_is_odd a = choice_of_bool (Z.odd (seval a)).
Proof.
  intros Ha Hn. rewrite uint_is_odd_spec by assumption. f_equal.
  destruct (IntArithP.seval_cases a Ha) as [[_ ->]|[_ ->]]; [reflexivity|]. rewrite (Bn_half a Hn).
  replace (eval a - 2 * half (length a)) with (eval a + 2 * (- half (length a))) by ring.
  symmetry. apply Z.odd_add_mul_2.
Qed.

(** Some exactly when (+-)abs fits the signed range, and then the result is that value *)
Lemma int_new_from_abs_sign_spec ab (c : bool) v fits : wf ab -> ab <> [] ->
  int_new_from_abs_sign ab (choice_of_bool c) = (v, fits) ->
  let n := length ab in
  let s := if c then - eval ab else eval ab in
  fits = choice_of_bool ((- half n <=? s) && (s <? half n)) /\
  wf v /\ length v = n /\ eval v = s mod Bn n /\
  ((- half n <=? s) && (s <? half n) = true -> seval v = s).
Proof.
  intros Ha Hn E n s. unfold int_new_from_abs_sign in E. inv_pair E.
  change (uint_neg_if ab (choice_of_bool c)) with (IntArith.int_wrapping_neg_if ab (choice_of_bool c)).
  rewrite (IntArithP.abs_sign_value_spec ab c Ha). fold n s.
  assert (F : IntArith.isp_fits n s = (- half n <=? s) && (s <? half n)).
  { unfold IntArith.isp_fits, n. rewrite (Bn_half ab Hn). apply eq_true_iff_eq.
    rewrite !andb_true_iff, !Z.leb_le, !Z.ltb_lt. lia. }
  rewrite <- F. split; [exact (IntArithP.abs_sign_fits_spec ab c Ha)|].
  split; [apply IntArithP.wf_to_limbs_s|]. split; [apply IntArithP.length_to_limbs_s|].
  split; [apply IntArithP.eval_to_limbs_s|].
  intros Hf. apply IntArithP.seval_to_limbs_s, IntArithP.isp_fits_iff. exact Hf.
Qed.

(** the magnitude |value| (which always fits the unsigned width) and the sign *)
Lemma int_abs_sign_spec a m sg : wf a -> a <> [] -> int_abs_sign a = (m, sg) ->
  sg = choice_of_bool (seval a <? 0) /\ eval m = Z.abs (seval a) /\ wf m /\ length m = length a.
Proof.
  intros Ha _ E. rewrite (IntArithP.int_abs_sign_spec a Ha : int_abs_sign a = _) in E. inv_pair E.
  split; [reflexivity|]. split; [apply IntArithP.eval_abs; assumption|].
  split; [apply wf_to_limbs | apply length_to_limbs].
Qed.
