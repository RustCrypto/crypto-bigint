(** C16 proofs, part 2: big / little endian byte encodings of limb lists (Uint, Int, BoxedUint). *)
From CB Require Import Model.Limbs Model.Conv Proofs.WordP Proofs.LimbsP Proofs.ConvDigitsP.
From Coq Require Import ZArith Lia List.
Import ListNotations.
Open Scope Z_scope.
Open Scope list_scope.

Lemma Z256_pos : 0 < 256. Proof. reflexivity. Qed.

Lemma uint_to_le_bytes_digits ls : wf ls ->
  uint_to_le_bytes ls = digits 256 (8 * length ls) (eval ls).
Proof. intros Hw. unfold uint_to_le_bytes, word_to_le_bytes. apply limbs_regroup; [reflexivity | apply B_256 | assumption]. Qed.

Lemma uint_to_be_bytes_rev ls : uint_to_be_bytes ls = rev (uint_to_le_bytes ls).
Proof. unfold uint_to_be_bytes, uint_to_le_bytes, word_to_be_bytes, word_to_le_bytes. rewrite flat_map_rev. reflexivity. Qed.

Lemma length_uint_to_le_bytes ls : wf ls -> length (uint_to_le_bytes ls) = (8 * length ls)%nat.
Proof. intros. rewrite uint_to_le_bytes_digits, length_digits by assumption. reflexivity. Qed.
Lemma length_uint_to_be_bytes ls : wf ls -> length (uint_to_be_bytes ls) = (8 * length ls)%nat.
Proof. intros. rewrite uint_to_be_bytes_rev, rev_length. apply length_uint_to_le_bytes. assumption. Qed.
Lemma wfd_uint_to_le_bytes ls : wf ls -> wfd 256 (uint_to_le_bytes ls).
Proof. intros. rewrite uint_to_le_bytes_digits by assumption. apply wfd_digits. reflexivity. Qed.
Lemma wfd_uint_to_be_bytes ls : wf ls -> wfd 256 (uint_to_be_bytes ls).
Proof. intros. rewrite uint_to_be_bytes_rev. apply wfd_rev, wfd_uint_to_le_bytes. assumption. Qed.

(** positional: little-endian byte i is floor(x / 256^i) mod 256 *)
Lemma le_positional ls i : wf ls -> (i < 8 * length ls)%nat ->
  nth i (uint_to_le_bytes ls) 0 = (eval ls / 256 ^ Z.of_nat i) mod 256.
Proof. intros Hw Hi. rewrite uint_to_le_bytes_digits by assumption. apply nth_digits; [reflexivity | assumption]. Qed.

(** positional: big-endian byte i of the n-byte value x is floor(x / 256^(n-1-i)) mod 256 *)
Lemma be_positional ls i : wf ls -> (i < 8 * length ls)%nat ->
  nth i (uint_to_be_bytes ls) 0 = (eval ls / 256 ^ (Z.of_nat (8 * length ls) - 1 - Z.of_nat i)) mod 256.
Proof.
  intros Hw Hi. rewrite uint_to_be_bytes_rev.
  pose proof (length_uint_to_le_bytes ls Hw) as Hl.
  rewrite nth_rev_lt by lia. rewrite Hl, le_positional by (assumption || lia).
  do 3 f_equal. lia.
Qed.

Lemma from_le_slice_len n bs : uint_from_le_slice n bs = None <-> length bs <> (8 * n)%nat.
Proof. unfold uint_from_le_slice. destruct (Nat.eqb_spec (length bs) (8 * n)); split; intros; (congruence || discriminate || tauto). Qed.
Lemma from_be_slice_len n bs : uint_from_be_slice n bs = None <-> length bs <> (8 * n)%nat.
Proof. unfold uint_from_be_slice. destruct (Nat.eqb_spec (length bs) (8 * n)); split; intros; (congruence || discriminate || tauto). Qed.

Lemma le_limbs_of_chunks n bs : wfd 256 bs -> length bs = (8 * n)%nat ->
  let r := map word_from_le_bytes (chunks 8 n bs) in
  wf r /\ length r = n /\ eval r = evalb 256 bs.
Proof.
  intros Hw Hl r. destruct (chunks_spec 8 n bs Hl) as (Hc & Hf & Hn).
  pose proof (wfd_chunks 256 8 n bs Hw) as Hwc.
  unfold r, word_from_le_bytes. repeat split.
  - apply (proj1 (wfd_wf _)). rewrite B_256. apply wfd_evalb_chunks; (reflexivity || assumption).
  - rewrite map_length. assumption.
  - rewrite eval_evalb, B_256, evalb_concat by (reflexivity || assumption). rewrite Hc. reflexivity.
Qed.

Lemma be_limbs_of_chunks n bs : wfd 256 bs -> length bs = (8 * n)%nat ->
  let r := rev (map word_from_be_bytes (chunks 8 n bs)) in
  wf r /\ length r = n /\ eval r = evalb 256 (rev bs).
Proof.
  intros Hw Hl r. destruct (chunks_spec 8 n bs Hl) as (Hc & Hf & Hn).
  pose proof (wfd_chunks 256 8 n bs Hw) as Hwc.
  assert (Er : r = map (evalb 256) (map (@rev Z) (rev (chunks 8 n bs)))).
  { unfold r, word_from_be_bytes. rewrite <- map_rev, map_map. reflexivity. }
  assert (Hf' : Forall (fun c => length c = 8%nat) (map (@rev Z) (rev (chunks 8 n bs)))).
  { apply Forall_forall. intros c Hin. apply in_map_iff in Hin. destruct Hin as (c' & <- & Hin').
    apply in_rev in Hin'. rewrite Forall_forall in Hf. rewrite rev_length. auto. }
  assert (Hw' : Forall (wfd 256) (map (@rev Z) (rev (chunks 8 n bs)))).
  { apply Forall_forall. intros c Hin. apply in_map_iff in Hin. destruct Hin as (c' & <- & Hin').
    apply in_rev in Hin'. rewrite Forall_forall in Hwc. apply wfd_rev. auto. }
  rewrite Er. repeat split.
  - apply (proj1 (wfd_wf _)). rewrite B_256. apply wfd_evalb_chunks; (reflexivity || assumption).
  - rewrite !map_length, rev_length. assumption.
  - rewrite eval_evalb, B_256, evalb_concat by (reflexivity || assumption).
    rewrite concat_map_rev, Hc. reflexivity.
Qed.

Lemma from_le_slice_spec n bs r : wfd 256 bs -> uint_from_le_slice n bs = Some r ->
  length bs = (8 * n)%nat /\ wf r /\ length r = n /\ eval r = evalb 256 bs.
Proof.
  unfold uint_from_le_slice. intros Hw E. destruct (Nat.eqb_spec (length bs) (8 * n)) as [Hl|]; [|discriminate].
  injection E as <-. split; [assumption|]. apply le_limbs_of_chunks; assumption.
Qed.
Lemma from_be_slice_spec n bs r : wfd 256 bs -> uint_from_be_slice n bs = Some r ->
  length bs = (8 * n)%nat /\ wf r /\ length r = n /\ eval r = evalb 256 (rev bs).
Proof.
  unfold uint_from_be_slice. intros Hw E. destruct (Nat.eqb_spec (length bs) (8 * n)) as [Hl|]; [|discriminate].
  injection E as <-. split; [assumption|]. apply be_limbs_of_chunks; assumption.
Qed.

Lemma le_roundtrip ls : wf ls -> uint_from_le_slice (length ls) (uint_to_le_bytes ls) = Some ls.
Proof.
  intros Hw. pose proof (length_uint_to_le_bytes ls Hw) as Hl.
  destruct (uint_from_le_slice (length ls) (uint_to_le_bytes ls)) as [r|] eqn:E.
  - destruct (from_le_slice_spec _ _ _ (wfd_uint_to_le_bytes ls Hw) E) as (_ & Hwr & Hlr & Her).
    f_equal. apply eval_inj; try assumption.
    rewrite Her, uint_to_le_bytes_digits, evalb_digits, <- Bn_256 by (assumption || reflexivity).
    apply Z.mod_small. apply eval_bounds. assumption.
  - apply from_le_slice_len in E. contradiction.
Qed.

Lemma be_roundtrip ls : wf ls -> uint_from_be_slice (length ls) (uint_to_be_bytes ls) = Some ls.
Proof.
  intros Hw. pose proof (length_uint_to_be_bytes ls Hw) as Hl.
  destruct (uint_from_be_slice (length ls) (uint_to_be_bytes ls)) as [r|] eqn:E.
  - destruct (from_be_slice_spec _ _ _ (wfd_uint_to_be_bytes ls Hw) E) as (_ & Hwr & Hlr & Her).
    f_equal. apply eval_inj; try assumption.
    rewrite Her, uint_to_be_bytes_rev, rev_involutive, uint_to_le_bytes_digits, evalb_digits, <- Bn_256 by (assumption || reflexivity).
    apply Z.mod_small. apply eval_bounds. assumption.
  - apply from_be_slice_len in E. contradiction.
Qed.

(* the plain "value of a big-endian digit string" (Horner) used by the spec table *)
Lemma horner_fold b ds acc : fold_left (fun a d => a * b + d) ds acc = acc * b ^ Z.of_nat (length ds) + evalb b (rev ds).
Proof.
  revert acc; induction ds as [|d ds IH]; intros acc; cbn [fold_left rev length].
  - change (Z.of_nat 0) with 0. rewrite Z.pow_0_r. cbn [evalb]. lia.
  - rewrite IH, evalb_app, rev_length. cbn [evalb]. rewrite pow_S_nat. ring.
Qed.
Lemma horner_evalb b ds : horner b ds = evalb b (rev ds).
Proof. unfold horner. rewrite horner_fold. lia. Qed.

Lemma firstn_app_len {A} (l1 l2 : list A) n : length l1 = n -> firstn n (l1 ++ l2) = l1.
Proof. intros <-. induction l1 as [|x l1 IH]; cbn [length firstn app]; [destruct l2; reflexivity | rewrite IH; reflexivity]. Qed.
Lemma skipn_app_len {A} (l1 l2 : list A) n : length l1 = n -> skipn n (l1 ++ l2) = l2.
Proof. intros <-. induction l1 as [|x l1 IH]; cbn [length skipn app]; [reflexivity | assumption]. Qed.

(* serde payload: length prefix + little-endian bytes; the decoder inverts the encoder *)
Lemma serde_roundtrip ls : wf ls -> Z.of_nat (8 * length ls) < B ->
  uint_serde_de (length ls) (uint_serde_ser ls) = Val [ls].
Proof.
  intros Hw Hsz. unfold uint_serde_de, uint_serde_ser.
  pose proof (length_uint_to_le_bytes ls Hw) as Hl. rewrite Hl.
  set (hdr := digits 256 8 (Z.of_nat (8 * length ls))).
  assert (Hh : length hdr = 8%nat) by apply length_digits.
  rewrite app_length, Hh.
  destruct (Nat.ltb_spec (8 + 8 * length ls) 8) as [Hc|_]; [lia|].
  assert (F : firstn 8 (hdr ++ uint_to_le_bytes ls) = hdr) by (apply firstn_app_len; assumption).
  assert (S : skipn 8 (hdr ++ uint_to_le_bytes ls) = uint_to_le_bytes ls) by (apply skipn_app_len; assumption).
  rewrite F, S, Hl. unfold word_from_le_bytes, hdr. rewrite evalb_digits by reflexivity.
  rewrite <- B_256. rewrite Z.mod_small by lia.
  destruct (Z.ltb_spec (Z.of_nat (8 * length ls)) (Z.of_nat (8 * length ls))) as [Hc|_]; [lia|].
  rewrite Z.eqb_refl. cbn [negb].
  rewrite <- Hl, firstn_all, le_roundtrip by assumption. reflexivity.
Qed.
