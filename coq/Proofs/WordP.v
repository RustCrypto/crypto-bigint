(** Lemmas about the word-level primitives (Model/Word.v). *)
From CB Require Import Model.Word.
From Coq Require Import ZArith Lia List.
Open Scope Z_scope.

Lemma B_gt1 : 1 < B. Proof. reflexivity. Qed.
Lemma B_pos : 0 < B. Proof. reflexivity. Qed.
Lemma B_gt4 : 4 < B. Proof. reflexivity. Qed.
Lemma B_val : B = 2 ^ 64. Proof. reflexivity. Qed.
Lemma B_half : B = 2 * 2 ^ 63. Proof. reflexivity. Qed.
Lemma BB_val : BB = B * B. Proof. reflexivity. Qed.
Lemma MAXW_val : MAXW = B - 1. Proof. reflexivity. Qed.
Lemma p63_pos : 0 < 2 ^ 63. Proof. reflexivity. Qed.
Lemma MAXW_nonzero : (MAXW =? 0) = false. Proof. reflexivity. Qed.
Global Opaque B.

Ltac inv_pair E := apply pair_equal_spec in E; destruct E as [<- <-].
Ltac word_facts := pose proof B_gt1; pose proof B_half; pose proof p63_pos.

Lemma is_word_0 : is_word 0. Proof. unfold is_word. pose proof B_pos. lia. Qed.
Lemma is_word_mod x : is_word (x mod B).
Proof. unfold is_word. pose proof B_pos. apply Z.mod_pos_bound; lia. Qed.

Lemma div_small_pos a b : 0 <= a < b -> a / b = 0.
Proof. intros; apply Z.div_small; lia. Qed.

Lemma mod_small' a : 0 <= a < B -> a mod B = a.
Proof. intros; apply Z.mod_small; lia. Qed.

(** [x = q * b + r] with [0 <= r < b] determines the quotient and the remainder *)
Lemma div_mod_unique_pos b q r x : 0 <= r < b -> x = q * b + r -> x / b = q /\ x mod b = r.
Proof.
  intros Hr Hx. assert (0 < b) by lia.
  split; [symmetry; apply (Z.div_unique_pos x b q r); lia
         | symmetry; apply (Z.mod_unique_pos x b q r); lia].
Qed.

Lemma adc_exact a b c r co :
  is_word a -> is_word b -> is_word c -> adc a b c = (r, co) ->
  r + B * co = a + b + c /\ is_word r /\ 0 <= co <= 2.
Proof.
  unfold is_word, adc. intros Ha Hb Hc E. inv_pair E.
  pose proof B_pos.
  pose proof (Z.div_mod (a + b + c) B ltac:(lia)).
  pose proof (Z.mod_pos_bound (a + b + c) B ltac:(lia)).
  repeat split; try lia.
  - apply Z.div_pos; lia.
  - apply Z.lt_succ_r. apply Z.div_lt_upper_bound; lia.
Qed.

Lemma adc_carry_small a b c r co :
  is_word a -> is_word b -> 0 <= c <= 1 -> adc a b c = (r, co) -> 0 <= co <= 1.
Proof.
  unfold is_word, adc. intros Ha Hb Hc E. inv_pair E.
  pose proof B_pos. split.
  - apply Z.div_pos; lia.
  - apply Z.lt_succ_r. apply Z.div_lt_upper_bound; lia.
Qed.

(* sbb: the borrow-in counts iff the top bit of the incoming word is set; the borrow-out is 0 or MAXW *)
Definition bin (bw : Z) : Z := bw / 2 ^ 63.

Lemma bin_range bw : is_word bw -> 0 <= bin bw <= 1.
Proof.
  unfold is_word, bin. intros. word_facts. split.
  - apply Z.div_pos; lia.
  - apply Z.lt_succ_r. apply Z.div_lt_upper_bound; lia.
Qed.

Lemma bin_0 : bin 0 = 0. Proof. reflexivity. Qed.
Lemma bin_MAXW : bin MAXW = 1. Proof. reflexivity. Qed.

Lemma sbb_exact a b bw r bo :
  is_word a -> is_word b -> is_word bw -> sbb a b bw = (r, bo) ->
  is_word r /\ ((bo = 0 /\ a - b - bin bw = r) \/ (bo = MAXW /\ a - b - bin bw = r - B)).
Proof.
  unfold is_word, sbb, wrap2. intros Ha Hb Hbw E. inv_pair E.
  pose proof (bin_range bw Hbw) as Hbi. fold (bin bw).
  set (d := a - (b + bin bw)).
  pose proof B_gt1. pose proof BB_val. pose proof MAXW_val.
  assert (0 < BB) by nia.
  destruct (Z_lt_ge_dec d 0) as [Hn|Hp].
  - 
    assert (Hm : d mod BB = d + BB).
    { symmetry. apply (Z.mod_unique d BB (-1) (d + BB)); [left; nia|lia]. }
    rewrite Hm.
    assert (Hq : (d + BB) / B = B - 1 /\ (d + BB) mod B = d + B).
    { apply div_mod_unique_pos; [unfold d; lia | nia]. }
    destruct Hq as [-> ->]. split; [unfold d; lia|]. right. split; [lia | unfold d; lia].
  - assert (Hm : d mod BB = d) by (apply Z.mod_small; unfold d in *; nia).
    rewrite Hm.
    assert (Hq : d / B = 0 /\ d mod B = d).
    { apply div_mod_unique_pos; unfold d in *; lia. }
    destruct Hq as [-> ->]. split; [unfold d in *; lia|]. left. split; [reflexivity | unfold d; lia].
Qed.

Lemma mac_exact a b c carry lo hi :
  is_word a -> is_word b -> is_word c -> is_word carry -> mac a b c carry = (lo, hi) ->
  lo + B * hi = a + b * c + carry /\ is_word lo /\ is_word hi.
Proof.
  unfold is_word, mac, wadd, wrap. intros Ha Hb Hc Hk E. inv_pair E.
  pose proof B_gt1.
  set (ret := a + b * c).
  assert (Hbc : 0 <= b * c <= (B - 1) * (B - 1)) by nia.
  assert (Hret : 0 <= ret <= B * B - B) by (unfold ret; nia).
  pose proof (Z.div_mod ret B ltac:(lia)) as Hdm.
  pose proof (Z.mod_pos_bound ret B ltac:(lia)) as Hmb.
  assert (Hhi : 0 <= ret / B <= B - 1).
  { split; [apply Z.div_pos; lia | apply Z.lt_succ_r; apply Z.div_lt_upper_bound; nia]. }
  set (s := ret mod B + carry).
  pose proof (Z.div_mod s B ltac:(lia)) as Hsdm.
  pose proof (Z.mod_pos_bound s B ltac:(lia)) as Hsmb.
  assert (Hc' : 0 <= s / B <= 1).
  { split; [apply Z.div_pos; unfold s; lia | apply Z.lt_succ_r; apply Z.div_lt_upper_bound; unfold s; lia]. }
  (* hi + c' does not wrap: the total fits two words *)
  assert (Htot : ret / B + s / B < B).
  { assert (B * (ret / B) + B * (s / B) + s mod B = a + b * c + carry) by (unfold s, ret in *; lia).
    assert (a + b * c + carry <= B * B - 1) by nia.
    destruct (Z_lt_ge_dec (ret / B + s / B) B); [assumption|].
    assert (B * B <= B * (ret / B + s / B)) by (apply Z.mul_le_mono_nonneg_l; lia). lia. }
  rewrite (Z.mod_small (ret / B + s / B) B) by lia.
  repeat split; try lia.
Qed.

Lemma wneg_0 : wneg 0 = 0. Proof. reflexivity. Qed.
Lemma wneg_1 : wneg 1 = MAXW. Proof. reflexivity. Qed.
Lemma from_word_lsb_bool (b : bool) : from_word_lsb (if b then 1 else 0) = choice_of_bool b.
Proof. destruct b; reflexivity. Qed.

Lemma land_MAXW x : is_word x -> Z.land MAXW x = x.
Proof.
  unfold is_word. intros H. rewrite MAXW_val, B_val in *.
  change (2 ^ 64 - 1) with (Z.ones 64). rewrite Z.land_comm, Z.land_ones by lia.
  apply Z.mod_small. lia.
Qed.

Lemma wand_MAXW_r x : is_word x -> wand x MAXW = x.
Proof. intros H. unfold wand. rewrite Z.land_comm. apply land_MAXW. exact H. Qed.
Lemma wand_0_r x : wand x 0 = 0.
Proof. apply Z.land_0_r. Qed.

Lemma select_word_0 a b : select_word 0 a b = a.
Proof. unfold select_word, wxor, wand. rewrite Z.land_0_l, Z.lxor_0_r. reflexivity. Qed.

Lemma select_word_MAXW a b : is_word a -> is_word b -> select_word MAXW a b = b.
Proof.
  intros Ha Hb. unfold select_word, wxor, wand.
  assert (Hx : is_word (Z.lxor a b)).
  { unfold is_word in *. rewrite B_val in *. split.
    - apply Z.lxor_nonneg. lia.
    - destruct (Z.eq_dec (Z.lxor a b) 0) as [->|Hnz]; [lia|].
      apply Z.log2_lt_pow2. { pose proof (Z.lxor_nonneg a b). lia. }
      eapply Z.le_lt_trans. apply Z.log2_lxor; lia.
      apply Z.max_lub_lt.
      + destruct (Z.eq_dec a 0) as [->|]; [reflexivity|]. apply Z.log2_lt_pow2; lia.
      + destruct (Z.eq_dec b 0) as [->|]; [reflexivity|]. apply Z.log2_lt_pow2; lia. }
  rewrite land_MAXW by assumption.
  rewrite <- Z.lxor_assoc, Z.lxor_nilpotent, Z.lxor_0_l. reflexivity.
Qed.

Lemma select_word_choice c a b :
  is_word a -> is_word b -> select_word (choice_of_bool c) a b = if c then b else a.
Proof. destruct c; simpl; [apply select_word_MAXW | intros; apply select_word_0]. Qed.
