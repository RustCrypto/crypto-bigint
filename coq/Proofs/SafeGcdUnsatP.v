(** C10 proofs: the 62-bit unsaturated integers (UnsatInt / BoxedUnsatInt): add, mul by an i64, neg, shr,
    eq, is_negative as operations on the represented two's complement value, for every limb count. *)
From CB Require Import Model.Limbs Model.AddSub Model.SafeGcd Proofs.WordP Proofs.LimbsP Proofs.BitsP Proofs.SafeGcdArithP.
From Coq Require Import ZArith Lia List Bool Znumtheory Zdiv Setoid Morphisms.
Open Scope Z_scope.

Fixpoint uval (a : list Z) : Z := match a with [] => 0 | x :: r => x + P62 * uval r end.
Definition wf62 (a : list Z) : Prop := Forall (fun x => 0 <= x < P62) a.
Definition M62 (L : nat) : Z := P62 ^ Z.of_nat L.
(* the signed (two's complement) value *)
Definition sval (a : list Z) : Z :=
  let v := uval a in if 2 * v <? M62 (length a) then v else v - M62 (length a).

Lemma M62_0 : M62 0 = 1. Proof. reflexivity. Qed.
Lemma M62_S L : M62 (S L) = P62 * M62 L.
Proof. unfold M62. rewrite Nat2Z.inj_succ, Z.pow_succ_r by lia. reflexivity. Qed.
Lemma M62_pos L : 0 < M62 L.
Proof. unfold M62. apply Z.pow_pos_nonneg; [reflexivity | lia]. Qed.
Lemma M62_pow2 L : M62 L = 2 ^ (62 * Z.of_nat L).
Proof. unfold M62. rewrite P62_pow, <- Z.pow_mul_r by lia. reflexivity. Qed.
Lemma M62_add a b : M62 (a + b) = M62 a * M62 b.
Proof. unfold M62. rewrite Nat2Z.inj_add, Z.pow_add_r by lia. reflexivity. Qed.
Lemma M62_half L : (0 < L)%nat -> exists h, M62 L = 2 * h /\ 0 < h.
Proof.
  intros H. destruct L as [|L]; [lia|]. exists (2 ^ 61 * M62 L). rewrite M62_S.
  split; [unfold P62; ring|]. pose proof (M62_pos L). lia.
Qed.

Lemma wf62_cons x a : wf62 (x :: a) <-> 0 <= x < P62 /\ wf62 a.
Proof. unfold wf62. split; [intros H; inversion H; auto | intros [H1 H2]; constructor; assumption]. Qed.
Lemma wf62_nil : wf62 []. Proof. constructor. Qed.
Lemma wf62_app a b : wf62 (a ++ b) <-> wf62 a /\ wf62 b.
Proof. unfold wf62. apply Forall_app. Qed.
Lemma uval_bounds a : wf62 a -> 0 <= uval a < M62 (length a).
Proof.
  induction a as [|x a IH]; intros H; cbn [uval length].
  - rewrite M62_0. lia.
  - apply wf62_cons in H. destruct H as [Hx Ha]. specialize (IH Ha). rewrite M62_S. pfacts. nia.
Qed.
Lemma uval_app a b : uval (a ++ b) = uval a + M62 (length a) * uval b.
Proof.
  induction a as [|x a IH]; cbn [app uval length].
  - rewrite M62_0. lia.
  - rewrite IH, M62_S. ring.
Qed.
Lemma uval_zeros n : uval (zeros n) = 0.
Proof. unfold zeros. induction n as [|n IH]; cbn [repeat uval]; [reflexivity | rewrite IH; reflexivity]. Qed.
Lemma wf62_zeros n : wf62 (zeros n).
Proof. unfold zeros, wf62. apply Forall_forall. intros x Hx. apply repeat_spec in Hx. subst. pfacts. lia. Qed.
Lemma uval_inj a b : wf62 a -> wf62 b -> length a = length b -> uval a = uval b -> a = b.
Proof.
  revert b. induction a as [|x a IH]; intros [|y b] Ha Hb Hl E; try discriminate; [reflexivity|].
  apply wf62_cons in Ha. apply wf62_cons in Hb. destruct Ha as [Hx Ha]. destruct Hb as [Hy Hb].
  cbn [uval] in E. cbn [length] in Hl.
  assert (x = y /\ uval a = uval b) as [-> E'].
  { pfacts. assert (x mod P62 = y mod P62).
    { rewrite <- (Z.mod_small x P62), <- (Z.mod_small y P62) by lia.
      replace x with ((x + P62 * uval a) - uval a * P62) by ring. rewrite E.
      rewrite Zminus_mod, Z.mod_mul, Z.sub_0_r, Z.mod_mod by lia.
      replace ((y + P62 * uval b) mod P62) with (y mod P62) by (rewrite Z.mul_comm, Z.mod_add; lia).
      rewrite !Z.mod_mod by lia. reflexivity. }
    rewrite !Z.mod_small in H3 by lia. subst. split; [reflexivity|]. nia. }
  f_equal. apply IH; try assumption. lia.
Qed.

Lemma sval_cases a : sval a = uval a /\ 2 * uval a < M62 (length a) \/
                     sval a = uval a - M62 (length a) /\ M62 (length a) <= 2 * uval a.
Proof. unfold sval. cbv zeta. destruct (Z.ltb_spec (2 * uval a) (M62 (length a))); [left | right]; split; (reflexivity || assumption). Qed.
Lemma sval_range a : wf62 a -> (0 < length a)%nat -> - M62 (length a) <= 2 * sval a < M62 (length a).
Proof.
  intros H HL. pose proof (uval_bounds a H). destruct (sval_cases a) as [[-> ?]|[-> ?]]; lia.
Qed.
Lemma sval_cg a : cg (M62 (length a)) (sval a) (uval a).
Proof.
  destruct (sval_cases a) as [[-> _]|[-> _]]; [reflexivity|].
  apply cg_divide; [pose proof (M62_pos (length a)); lia|]. exists (-1). ring.
Qed.
Lemma sval_unique a X : wf62 a -> cg (M62 (length a)) (uval a) X -> - M62 (length a) <= 2 * X < M62 (length a) -> sval a = X.
Proof.
  intros H C R. pose proof (uval_bounds a H) as B. pose proof (M62_pos (length a)) as P.
  apply cg_divide in C; [|lia]. destruct C as [q Hq].
  destruct (sval_cases a) as [[-> ?]|[-> ?]].
  - assert (q = 0) by nia. subst q. lia.
  - assert (q = 1) by nia. subst q. lia.
Qed.
Lemma sval_inj a b : wf62 a -> wf62 b -> length a = length b -> sval a = sval b -> a = b.
Proof.
  intros Ha Hb Hl E. apply uval_inj; try assumption.
  pose proof (uval_bounds a Ha). pose proof (uval_bounds b Hb). rewrite <- Hl in *.
  pose proof (sval_cg a) as Ca. pose proof (sval_cg b) as Cb. rewrite <- Hl in Cb. rewrite E in Ca.
  assert (C : cg (M62 (length a)) (uval a) (uval b)) by (rewrite <- Ca, Cb; reflexivity).
  apply cg_iff in C. rewrite !Z.mod_small in C by lia. exact C.
Qed.
Lemma sval_nonneg_uval a : wf62 a -> 0 <= sval a -> sval a = uval a.
Proof.
  intros H S. pose proof (uval_bounds a H). destruct (sval_cases a) as [[E ?]|[E ?]]; lia.
Qed.

(* one limb of a carry chain: the limb is s mod 2^62, the carry s / 2^62 goes into the rest *)
Lemma carry_cons s r n co X : wf62 r -> length r = n -> uval r + M62 n * co = X + s / P62 ->
  wf62 (s mod P62 :: r) /\ length (s mod P62 :: r) = S n /\ uval (s mod P62 :: r) + M62 (S n) * co = s + P62 * X.
Proof.
  intros W Ln E. pfacts. split; [apply wf62_cons; split; [apply Z.mod_pos_bound; lia | exact W]|].
  split; [cbn [length]; rewrite Ln; reflexivity|].
  cbn [uval]. rewrite M62_S. pose proof (Z.div_mod s P62 ltac:(lia)) as D.
  replace (s mod P62 + P62 * uval r + P62 * M62 n * co) with (s mod P62 + P62 * (uval r + M62 n * co)) by ring.
  rewrite E. lia.
Qed.

Lemma u_add_c_spec a : forall b c, wf62 a -> wf62 b -> length a = length b -> 0 <= c <= 1 ->
  wf62 (u_add_c a b c) /\ length (u_add_c a b c) = length a /\
  exists co, uval (u_add_c a b c) + M62 (length a) * co = uval a + uval b + c.
Proof.
  induction a as [|x a IH]; intros [|y b] c Ha Hb Hl Hc; try discriminate; cbn [u_add_c uval length].
  - repeat split; [apply wf62_nil|]. exists c. rewrite M62_0. lia.
  - apply wf62_cons in Ha. apply wf62_cons in Hb. destruct Ha as [Hx Ha]. destruct Hb as [Hy Hb].
    cbn [length] in Hl. rewrite land_mask62.
    pfacts.
    assert (Hq : 0 <= (x + y + c) / P62 <= 1).
    { split; [apply Z.div_pos; lia|]. apply Z.lt_succ_r. apply Z.div_lt_upper_bound; lia. }
    destruct (IH b ((x + y + c) / P62) Ha Hb ltac:(lia) Hq) as (W & Ln & co & E).
    destruct (carry_cons (x + y + c) _ _ co (uval a + uval b) W Ln ltac:(lia)) as (W' & L' & E').
    split; [exact W'|]. split; [exact L'|]. exists co. cbn [uval] in E'. rewrite E'. ring.
Qed.
Lemma mod_from_carry X M r co : 0 < M -> 0 <= r < M -> r + M * co = X -> r = X mod M.
Proof. intros HM Hr E. apply (Z.mod_unique_pos X M co); lia. Qed.
Lemma u_add_spec a b : wf62 a -> wf62 b -> length a = length b ->
  wf62 (u_add a b) /\ length (u_add a b) = length a /\ uval (u_add a b) = (uval a + uval b) mod M62 (length a).
Proof.
  intros Ha Hb Hl. destruct (u_add_c_spec a b 0 Ha Hb Hl ltac:(lia)) as (W & Ln & co & E). fold (u_add a b) in *.
  repeat split; try assumption.
  apply (mod_from_carry _ _ _ co); [apply M62_pos | rewrite <- Ln; apply uval_bounds; assumption | lia].
Qed.

Lemma lxor_mask62 x : 0 <= x < P62 -> Z.lxor x MASK62 = MASK62 - x.
Proof.
  intros Hx. rewrite MASK62_ones.
  assert (L : Z.ldiff x (Z.ones 62) = 0).
  { apply Z.bits_inj'. intros i Hi. rewrite Z.ldiff_spec, Z.bits_0.
    destruct (Z_lt_ge_dec i 62).
    - rewrite Z.ones_spec_low by lia. apply andb_false_r.
    - rewrite (testbit_small x 62 i) by (try rewrite <- P62_pow; lia). reflexivity. }
  rewrite (Z.sub_nocarry_ldiff _ _ L).
  apply Z.bits_inj'. intros i Hi. rewrite Z.lxor_spec, Z.ldiff_spec.
  destruct (Z_lt_ge_dec i 62).
  - rewrite Z.ones_spec_low by lia. destruct (Z.testbit x i); reflexivity.
  - rewrite Z.ones_spec_high by lia. rewrite (testbit_small x 62 i) by (try rewrite <- P62_pow; lia). reflexivity.
Qed.
Definition cmask (mask : Z) (a : list Z) : list Z := map (fun x => Z.lxor x mask) a.
Lemma cmask_0 a : cmask 0 a = a.
Proof. unfold cmask. induction a as [|x a IH]; [reflexivity|]. cbn [map]. rewrite Z.lxor_0_r, IH. reflexivity. Qed.
Lemma cmask_full a : wf62 a -> wf62 (cmask MASK62 a) /\ uval (cmask MASK62 a) = M62 (length a) - 1 - uval a.
Proof.
  induction a as [|x a IH]; intros H; cbn [cmask map uval length].
  - split; [apply wf62_nil | rewrite M62_0; lia].
  - apply wf62_cons in H. destruct H as [Hx Ha]. destruct (IH Ha) as [W E]. fold (cmask MASK62 a).
    rewrite lxor_mask62 by assumption. split.
    + apply wf62_cons. split; [rewrite MASK62_val; lia | assumption].
    + rewrite E, M62_S, MASK62_val. ring.
Qed.

Lemma u_mul_c_spec a : forall other mask carry, wf62 (cmask mask a) -> 0 <= other < P63 -> 0 <= carry < P64 ->
  wf62 (u_mul_c a other mask carry) /\ length (u_mul_c a other mask carry) = length a /\
  exists co, uval (u_mul_c a other mask carry) + M62 (length a) * co = carry + uval (cmask mask a) * other.
Proof.
  induction a as [|x a IH]; intros other mask carry Hm Ho Hc; cbn [u_mul_c cmask map uval length] in *.
  - repeat split; [apply wf62_nil|]. exists carry. rewrite M62_0. lia.
  - fold (cmask mask a) in *. apply wf62_cons in Hm. destruct Hm as [Hx Ha].
    set (xm := Z.lxor x mask) in *. set (s := carry + xm * other).
    rewrite land_u64_mask62.
    pfacts.
    assert (Hs : 0 <= s < P64 + P62 * P63).
    { unfold s. assert (0 <= xm * other) by (apply Z.mul_nonneg_nonneg; lia).
      assert (xm * other <= P62 * other) by (apply Z.mul_le_mono_nonneg_r; lia).
      assert (P62 * other < P62 * P63) by (apply Z.mul_lt_mono_pos_l; lia). lia. }
    assert (Hq : 0 <= s / P62 < P64).
    { split; [apply Z.div_pos; lia|]. apply Z.div_lt_upper_bound; [lia|]. unfold P64, P63, P62 in *. lia. }
    rewrite (u64_small (s / P62)) by assumption.
    destruct (IH other mask (s / P62) Ha Ho Hq) as (W & Ln & co & E).
    destruct (carry_cons s _ _ co (uval (cmask mask a) * other) W Ln ltac:(lia)) as (W' & L' & E').
    split; [exact W'|]. split; [exact L'|]. exists co. cbn [uval] in E'. rewrite E'. unfold s. ring.
Qed.
Lemma u_mul_spec a c : wf62 a -> - P63 < c < P63 ->
  wf62 (u_mul a c) /\ length (u_mul a c) = length a /\ uval (u_mul a c) = (uval a * c) mod M62 (length a).
Proof.
  intros Ha Hc. unfold u_mul. pfacts. pose proof (M62_pos (length a)) as PM.
  destruct (Z.ltb_spec c 0) as [Hn|Hp].
  - rewrite s64_id by lia. rewrite u64_small by (unfold P64, P63 in *; lia).
    destruct (cmask_full a Ha) as [Wm Em].
    destruct (u_mul_c_spec a (- c) MASK62 (- c) Wm ltac:(lia) ltac:(unfold P64, P63 in *; lia)) as (W & Ln & co & E).
    repeat split; try assumption.
    rewrite Em in E.
    apply (mod_from_carry _ _ _ (co + c)); [assumption | rewrite <- Ln; apply uval_bounds; assumption | lia].
  - assert (Wm : wf62 (cmask 0 a)) by (rewrite cmask_0; assumption).
    destruct (u_mul_c_spec a c 0 0 Wm ltac:(lia) ltac:(unfold P64; lia)) as (W & Ln & co & E).
    rewrite cmask_0 in E.
    repeat split; try assumption.
    apply (mod_from_carry _ _ _ co); [assumption | rewrite <- Ln; apply uval_bounds; assumption | lia].
Qed.

Lemma u_neg_c_spec a : forall c, wf62 a -> 0 <= c <= 1 ->
  wf62 (u_neg_c a c) /\ length (u_neg_c a c) = length a /\
  exists co, uval (u_neg_c a c) + M62 (length a) * co = uval (cmask MASK62 a) + c.
Proof.
  induction a as [|x a IH]; intros c Ha Hc; cbn [u_neg_c cmask map uval length].
  - repeat split; [apply wf62_nil|]. exists c. rewrite M62_0. lia.
  - fold (cmask MASK62 a). apply wf62_cons in Ha. destruct Ha as [Hx Ha].
    rewrite land_mask62, lxor_mask62 by assumption. pfacts. pose proof MASK62_val as MV.
    assert (Hq : 0 <= (MASK62 - x + c) / P62 <= 1).
    { split; [apply Z.div_pos; lia|]. apply Z.lt_succ_r. apply Z.div_lt_upper_bound; lia. }
    destruct (IH ((MASK62 - x + c) / P62) Ha Hq) as (W & Ln & co & E).
    destruct (carry_cons (MASK62 - x + c) _ _ co (uval (cmask MASK62 a)) W Ln ltac:(lia)) as (W' & L' & E').
    split; [exact W'|]. split; [exact L'|]. exists co. cbn [uval] in E'. rewrite E'. ring.
Qed.
Lemma u_neg_spec a : wf62 a ->
  wf62 (u_neg a) /\ length (u_neg a) = length a /\ uval (u_neg a) = (- uval a) mod M62 (length a).
Proof.
  intros Ha. destruct (u_neg_c_spec a 1 Ha ltac:(lia)) as (W & Ln & co & E). fold (u_neg a) in *.
  destruct (cmask_full a Ha) as [_ Em]. rewrite Em in E.
  repeat split; try assumption.
  apply (mod_from_carry _ _ _ (co - 1)); [apply M62_pos | rewrite <- Ln; apply uval_bounds; assumption | lia].
Qed.

Lemma uval_last a : a <> [] -> uval a = uval (removelast a) + M62 (length a - 1) * last a 0.
Proof.
  intros H. rewrite (app_removelast_last 0 H) at 1. rewrite uval_app.
  cbn [uval]. rewrite Z.mul_0_r, Z.add_0_r. f_equal. f_equal. f_equal.
  rewrite (app_removelast_last 0 H) at 2. rewrite app_length. cbn [length]. lia.
Qed.
Lemma wf62_last a : wf62 a -> a <> [] -> wf62 (removelast a) /\ 0 <= last a 0 < P62 /\ length (removelast a) = (length a - 1)%nat.
Proof.
  intros H Hn. rewrite (app_removelast_last 0 Hn) in H. apply wf62_app in H. destruct H as [H1 H2].
  apply wf62_cons in H2. destruct H2 as [H2 _]. repeat split; try assumption; try lia.
  rewrite (app_removelast_last 0 Hn) at 2. rewrite app_length. cbn [length]. lia.
Qed.
Lemma u_is_negative_spec a : wf62 a -> a <> [] -> u_is_negative a = (M62 (length a) <=? 2 * uval a).
Proof.
  intros H Hn. destruct (wf62_last a H Hn) as (W & Hl & Ln).
  pose proof (uval_bounds _ W) as B. rewrite Ln in B.
  rewrite (uval_last a Hn). unfold u_is_negative.
  assert (EL : M62 (length a) = P62 * M62 (length a - 1)).
  { rewrite <- M62_S. f_equal. destruct a; [contradiction | cbn [length]; lia]. }
  rewrite EL. pose proof (M62_pos (length a - 1)) as PM.
  change (MASK62 / 2) with (2 ^ 61 - 1).
  destruct (Z.ltb_spec (2 ^ 61 - 1) (last a 0)); destruct (Z.leb_spec (P62 * M62 (length a - 1)) (2 * (uval (removelast a) + M62 (length a - 1) * last a 0))); try reflexivity; exfalso; unfold P62 in *; nia.
Qed.
Lemma u_is_negative_sval a : wf62 a -> a <> [] -> u_is_negative a = (sval a <? 0).
Proof.
  intros H Hn. rewrite u_is_negative_spec by assumption. pose proof (uval_bounds a H) as B.
  destruct (sval_cases a) as [[-> ?]|[-> ?]]; destruct (Z.leb_spec (M62 (length a)) (2 * uval a)); lia.
Qed.

Lemma sval_cons x r : 0 <= x < P62 -> wf62 r -> r <> [] -> sval (x :: r) = x + P62 * sval r.
Proof.
  intros Hx Hr Hn. pose proof (uval_bounds r Hr) as B.
  destruct (M62_half (length r)) as (h & Eh & Hh); [destruct r; [contradiction | cbn; lia]|].
  unfold sval. cbv zeta. cbn [uval length]. rewrite M62_S. pfacts.
  destruct (Z.ltb_spec (2 * uval r) (M62 (length r))); destruct (Z.ltb_spec (2 * (x + P62 * uval r)) (P62 * M62 (length r))); try ring; exfalso.
  - assert (P62 * uval r <= P62 * (h - 1)) by (apply Z.mul_le_mono_nonneg_l; lia). rewrite Eh in *. lia.
  - assert (P62 * h <= P62 * uval r) by (apply Z.mul_le_mono_nonneg_l; lia). rewrite Eh in *. lia.
Qed.
Lemma sval_sign_ext r : wf62 r -> r <> [] ->
  sval (r ++ [if u_is_negative r then MASK62 else 0]) = sval r.
Proof.
  intros Hr Hn. pose proof (uval_bounds r Hr) as B. pose proof (M62_pos (length r)) as PM.
  rewrite u_is_negative_spec by assumption.
  unfold sval at 1. cbv zeta. rewrite uval_app, app_length. cbn [length uval].
  replace (length r + 1)%nat with (S (length r)) by lia. rewrite M62_S, Z.mul_0_r, Z.add_0_r. pfacts.
  unfold sval. cbv zeta.
  destruct (Z.leb_spec (M62 (length r)) (2 * uval r)); destruct (Z.ltb_spec (2 * uval r) (M62 (length r))); try lia.
  - rewrite MASK62_val.
    destruct (Z.ltb_spec (2 * (uval r + M62 (length r) * (P62 - 1))) (P62 * M62 (length r))); [exfalso; nia | ring].
  - rewrite Z.mul_0_r, Z.add_0_r.
    destruct (Z.ltb_spec (2 * uval r) (P62 * M62 (length r))); [reflexivity | exfalso; nia].
Qed.
Lemma u_shr_spec a : wf62 a -> (0 < length a)%nat ->
  wf62 (u_shr a) /\ length (u_shr a) = length a /\ sval (u_shr a) = sval a / P62.
Proof.
  intros H HL. destruct a as [|x r]; [cbn in HL; lia|].
  apply wf62_cons in H. destruct H as [Hx Hr]. pfacts.
  assert (Wfill : forall b : bool, 0 <= (if b then MASK62 else 0) < P62) by (intros []; rewrite ?MASK62_val; lia).
  unfold u_shr. cbn [tl]. split; [|split].
  - apply wf62_app. split; [assumption|]. apply wf62_cons. split; [apply Wfill | apply wf62_nil].
  - rewrite app_length. cbn [length]. lia.
  - destruct r as [|y r'].
    + cbn [app]. unfold u_is_negative. cbn [last]. change (MASK62 / 2) with (2 ^ 61 - 1).
      unfold sval. cbv zeta. cbn [uval length]. rewrite M62_S, M62_0, !Z.mul_0_r, !Z.add_0_r, Z.mul_1_r.
      destruct (Z.ltb_spec (2 ^ 61 - 1) x).
      * destruct (Z.ltb_spec (2 * MASK62) P62); [unfold MASK62, P62 in *; lia|].
        destruct (Z.ltb_spec (2 * x) P62); [unfold P62 in *; lia|].
        apply (Z.div_unique_pos _ _ _ x); [lia | unfold MASK62, P62; ring].
      * destruct (Z.ltb_spec (2 * 0) P62); [|lia].
        destruct (Z.ltb_spec (2 * x) P62); [|unfold P62 in *; lia].
        symmetry. apply Z.div_small. lia.
    + assert (Hn : y :: r' <> []) by discriminate.
      assert (EN : u_is_negative (x :: y :: r') = u_is_negative (y :: r')) by reflexivity.
      rewrite EN, sval_sign_ext by assumption.
      rewrite (sval_cons x (y :: r')) by assumption.
      apply (Z.div_unique_pos _ _ _ x); [lia | ring].
Qed.

Lemma wf62_one L : wf62 (u_one L).
Proof. destruct L; [apply wf62_nil|]. cbn. apply wf62_cons. split; [pfacts; lia | apply wf62_zeros]. Qed.
Lemma length_one L : length (u_one L) = L.
Proof. destruct L; [reflexivity|]. cbn. rewrite length_zeros. reflexivity. Qed.
Lemma uval_one L : (0 < L)%nat -> uval (u_one L) = 1.
Proof. destruct L; [lia|]. intros _. cbn. rewrite uval_zeros. reflexivity. Qed.
Lemma wf62_minus_one L : wf62 (u_minus_one L).
Proof. unfold u_minus_one, wf62. apply Forall_forall. intros x Hx. apply repeat_spec in Hx. subst. rewrite MASK62_val. pfacts. lia. Qed.
Lemma length_minus_one L : length (u_minus_one L) = L.
Proof. apply repeat_length. Qed.
Lemma uval_minus_one L : uval (u_minus_one L) = M62 L - 1.
Proof.
  unfold u_minus_one. induction L as [|L IH]; cbn [repeat uval]; [reflexivity|].
  rewrite IH, M62_S, MASK62_val. ring.
Qed.
Lemma M62_ge L : (0 < L)%nat -> P62 <= M62 L.
Proof. intros H. destruct L; [lia|]. rewrite M62_S. pose proof (M62_pos L). pfacts. nia. Qed.
Lemma sval_one L : (0 < L)%nat -> sval (u_one L) = 1.
Proof.
  intros H. apply sval_unique; [apply wf62_one | rewrite uval_one by assumption; reflexivity |].
  rewrite length_one. pose proof (M62_ge L H). pfacts. lia.
Qed.
Lemma sval_minus_one L : (0 < L)%nat -> sval (u_minus_one L) = -1.
Proof.
  intros H. apply sval_unique; [apply wf62_minus_one | |].
  - rewrite uval_minus_one, length_minus_one. apply cg_divide; [pose proof (M62_pos L); lia|]. exists 1. ring.
  - rewrite length_minus_one. pose proof (M62_ge L H). pfacts. lia.
Qed.
Lemma sval_zero L : sval (u_zero L) = 0.
Proof. unfold sval, u_zero. cbv zeta. rewrite uval_zeros. pose proof (M62_pos (length (zeros L))). destruct (Z.ltb_spec (2 * 0) (M62 (length (zeros L)))); lia. Qed.
Lemma u_eq_sval a b : wf62 a -> wf62 b -> length a = length b -> u_eq a b = (sval a =? sval b).
Proof.
  intros Ha Hb Hl. unfold u_eq. destruct (Z.eqb_spec (sval a) (sval b)) as [E|E].
  - apply list_eqb_eq. apply sval_inj; assumption.
  - destruct (list_eqb a b) eqn:Q; [|reflexivity]. apply list_eqb_eq in Q. subst. contradiction.
Qed.
Lemma u_eq_one f L : wf62 f -> length f = L -> (0 < L)%nat -> u_eq f (u_one L) = (sval f =? 1).
Proof. intros W Lf HL. rewrite u_eq_sval, sval_one by (try apply wf62_one; try rewrite length_one; assumption). reflexivity. Qed.
Lemma u_eq_minus_one f L : wf62 f -> length f = L -> (0 < L)%nat -> u_eq f (u_minus_one L) = (sval f =? -1).
Proof. intros W Lf HL. rewrite u_eq_sval, sval_minus_one by (try apply wf62_minus_one; try rewrite length_minus_one; assumption). reflexivity. Qed.
Lemma u_is_zero_spec a : wf62 a -> u_is_zero a = (uval a =? 0).
Proof.
  induction a as [|x a IH]; intros H; cbn [u_is_zero forallb uval]; [reflexivity|].
  apply wf62_cons in H. destruct H as [Hx Ha]. fold (u_is_zero a). rewrite (IH Ha).
  pose proof (uval_bounds a Ha). pfacts.
  destruct (Z.eqb_spec x 0); destruct (Z.eqb_spec (uval a) 0); destruct (Z.eqb_spec (x + P62 * uval a) 0); cbn; try reflexivity; exfalso; nia.
Qed.
Lemma u_is_zero_sval a : wf62 a -> u_is_zero a = (sval a =? 0).
Proof.
  intros H. rewrite u_is_zero_spec by assumption. pose proof (uval_bounds a H). pose proof (M62_pos (length a)).
  destruct (sval_cases a) as [[-> ?]|[-> ?]]; [reflexivity|].
  destruct (Z.eqb_spec (uval a) 0); destruct (Z.eqb_spec (uval a - M62 (length a)) 0); try reflexivity; lia.
Qed.

Lemma u_is_zero_zeros g : u_is_zero g = true -> g = zeros (length g).
Proof.
  induction g as [|x g IH]; [reflexivity|]. cbn [u_is_zero forallb length]. intros H.
  apply andb_prop in H. destruct H as [Hx Hg]. apply Z.eqb_eq in Hx. subst x. unfold zeros in *. cbn [repeat]. rewrite <- (IH Hg). reflexivity.
Qed.
Lemma u_mul_c_zeros n c : u_mul_c (zeros n) c 0 0 = zeros n.
Proof.
  induction n as [|n IH]; [reflexivity|].
  change (u_mul_c (zeros (S n)) c 0 0) with (0 :: u_mul_c (zeros n) c 0 0). rewrite IH. reflexivity.
Qed.
Lemma u_mul_c_0 a : u_mul_c a 0 0 0 = zeros (length a).
Proof.
  induction a as [|x a IH]; [reflexivity|]. cbn [u_mul_c]. rewrite Z.mul_0_r.
  change (0 :: u_mul_c a 0 0 0 = zeros (length (x :: a))). rewrite IH. reflexivity.
Qed.
Lemma u_add_c_zeros n : forall k, u_add_c (zeros n) (zeros k) 0 = zeros (Nat.min n k).
Proof.
  induction n as [|n IH]; intros [|k]; try reflexivity.
  change (u_add_c (zeros (S n)) (zeros (S k)) 0) with (0 :: u_add_c (zeros n) (zeros k) 0). rewrite IH. reflexivity.
Qed.
Lemma u_shr_zeros n : u_is_zero (u_shr (zeros n)) = true.
Proof.
  unfold u_shr. replace (u_is_negative (zeros n)) with false.
  - destruct n; [reflexivity|]. cbn [zeros repeat tl]. unfold u_is_zero. rewrite forallb_app. 
    cbn. rewrite andb_true_r. apply forallb_forall. intros x Hx. apply repeat_spec in Hx. subst x. reflexivity.
  - unfold u_is_negative. induction n as [|[|n] IH]; try reflexivity. exact IH.
Qed.
