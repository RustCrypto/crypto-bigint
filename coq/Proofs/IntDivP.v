(** C14 proofs: signed division.  The unsigned division is the value-level [ux_div_rem]
    (Z.div / Z.modulo on eval); what is proved here is that the sign handling, the floor adjustment
    and the fit test of the Int code turn it into Z.quot / Z.rem (truncating) resp. Z.div / Z.modulo
    (flooring) of the signed values, for every width (also mixed). *)
From CB Require Import Model.Limbs Model.AddSub Model.IntArith Model.IntDiv
  Proofs.WordP Proofs.WordPredP Proofs.LimbsP Proofs.AddSubP Proofs.IntArithP.
From Coq Require Import ZArith Lia List Bool.
Open Scope Z_scope.

Lemma mag_div_bounds A E : 0 <= A -> 0 < E -> 0 <= A / E <= A /\ 0 <= A mod E < E.
Proof.
  intros HA HE. split; [split|].
  - apply Z.div_pos; lia.
  - apply Z.div_le_upper_bound; [lia|].
    assert (1 * A <= E * A) by (apply Z.mul_le_mono_nonneg_r; lia). lia.
  - apply Z.mod_pos_bound. lia.
Qed.

(* In the three lemmas below the divisor D is given by its magnitude E and its sign sd, as the code
   has it: E = |D|, sd = (D < 0) for an Int divisor; E = D, sd = false for a Uint divisor. *)
Lemma quot_sign N D E (sd : bool) : 0 < E -> D = (if sd then - E else E) ->
  (if xorb (N <? 0) sd then - (Z.abs N / E) else Z.abs N / E) = Z.quot N D.
Proof.
  intros HE ->.
  assert (Hpos : forall A, 0 <= A -> Z.quot A E = A / E) by (intros; apply Z.quot_div_nonneg; lia).
  destruct (Z.ltb_spec N 0), sd; cbn [xorb];
    rewrite ?Z.quot_opp_r, ?(Z.abs_neq N), ?(Z.abs_eq N) by lia;
    rewrite <- ?(Hpos (- N)), <- ?(Hpos N), ?Z.quot_opp_l by lia; lia.
Qed.

Lemma rem_sign N D E (sd : bool) : 0 < E -> D = (if sd then - E else E) ->
  (if N <? 0 then - (Z.abs N mod E) else Z.abs N mod E) = Z.rem N D.
Proof.
  intros HE ->.
  assert (Hpos : forall A, 0 <= A -> Z.rem A E = A mod E) by (intros; apply Z.rem_mod_nonneg; lia).
  replace (Z.rem N (if sd then - E else E)) with (Z.rem N E) by (destruct sd; rewrite ?Z.rem_opp_r by lia; reflexivity).
  destruct (Z.ltb_spec N 0); rewrite ?(Z.abs_neq N), ?(Z.abs_eq N) by lia;
    rewrite <- ?(Hpos (- N)), <- ?(Hpos N), ?Z.rem_opp_l by lia; lia.
Qed.

(* flooring quotient and remainder from the quotient / remainder of the magnitudes *)
Lemma floor_qr N D E (sd : bool) : 0 < E -> D = (if sd then - E else E) ->
  let q0 := Z.abs N / E in let r0 := Z.abs N mod E in
  let opp := xorb (N <? 0) sd in
  let m := negb (r0 =? 0) && opp in
  let q' := if m then q0 + 1 else q0 in
  let r' := if m then E - r0 else r0 in
  (if opp then - q' else q') = N / D /\ (if sd then - r' else r') = N mod D.
Proof.
  intros HE HD q0 r0 opp m q' r'.
  pose proof (Z.div_mod (Z.abs N) E ltac:(lia)) as Hdm. fold q0 r0 in Hdm.
  pose proof (Z.mod_pos_bound (Z.abs N) E HE) as Hr. fold r0 in Hr.
  assert (Huniq : forall q r, (0 <= r < D \/ D < r <= 0) -> N = D * q + r -> q = N / D /\ r = N mod D).
  { intros q r H1 H2. split; [apply (Z.div_unique N D q r) | apply (Z.mod_unique N D q r)]; assumption. }
  unfold q', r', m, opp.
  destruct (Z.ltb_spec N 0), sd, (Z.eqb_spec r0 0); cbn [xorb negb andb];
    match goal with |- ?q = _ /\ ?r = _ => apply (Huniq q r) end; lia.
Qed.

(* A quotient Q of N by D (either convention: N = D Q + r with |r| < |D|) of a dividend in [-h, h)
   leaves [-h, h) only as h = (-h) / (-1). *)
Lemma quotient_overflow_iff h N D Q r : 1 < h -> - h <= N < h -> N = D * Q + r -> Z.abs r < Z.abs D ->
  (Q < - h \/ h <= Q) <-> (N = - h /\ D = -1).
Proof.
  intros Hh HN E Hr. split.
  - intros Hbad.
    assert (Hp : Z.abs (D * Q) < Z.abs N + Z.abs D) by lia. rewrite Z.abs_mul in Hp.
    assert (Z.abs D * h <= Z.abs D * Z.abs Q) by (apply Z.mul_le_mono_nonneg_l; lia).
    (* |D| (h - 1) < h leaves |D| = 1 *)
    assert (Hd : Z.abs D = 1).
    { destruct (Z_le_gt_dec 2 (Z.abs D)); [|lia].
      assert (2 * (h - 1) <= Z.abs D * (h - 1)) by (apply Z.mul_le_mono_nonneg_r; lia). lia. }
    assert (D = 1 \/ D = -1) as [-> | ->] by lia; lia.
  - intros [-> ->]. lia.
Qed.

Lemma seval_nonzero_nonempty d : seval d <> 0 -> d <> [].
Proof. intros H ->. apply H. reflexivity. Qed.

Lemma add_one_to_limbs n q : n <> 0%nat -> 0 <= q -> q + 1 < Bn n ->
  uint_wrapping_add (to_limbs n q) (one_limbs n) = to_limbs n (q + 1).
Proof.
  intros Hn Hq Hb. destruct (one_limbs_spec n Hn) as (E1 & W1 & L1).
  destruct (wrapping_add_spec (to_limbs n q) (one_limbs n) (wf_to_limbs n q) W1
              ltac:(rewrite length_to_limbs, L1; reflexivity)) as (He & Hw & Hl).
  rewrite length_to_limbs in *. apply to_limbs_unique; auto.
  rewrite He, E1, eval_to_limbs. rewrite (Z.mod_small q) by lia. reflexivity.
Qed.

Lemma sub_to_limbs d r : wf d -> 0 <= r <= eval d ->
  uint_wrapping_sub d (to_limbs (length d) r) = to_limbs (length d) (eval d - r).
Proof.
  intros Hd Hr. pose proof (eval_bounds d Hd).
  destruct (wrapping_sub_spec d (to_limbs (length d) r) Hd (wf_to_limbs _ r)
              ltac:(rewrite length_to_limbs; reflexivity)) as (He & Hw & Hl).
  apply to_limbs_unique; auto. rewrite He, eval_to_limbs. rewrite (Z.mod_small r) by lia. reflexivity.
Qed.

Lemma select_to_limbs n (m : bool) x y :
  select_limbs (choice_of_bool m) (to_limbs n x) (to_limbs n y) = to_limbs n (if m then y else x).
Proof.
  rewrite select_limbs_choice; auto using wf_to_limbs; [destruct m; reflexivity|].
  rewrite !length_to_limbs. reflexivity.
Qed.

(* the adjustment of the flooring forms: when the remainder r0 of the magnitudes is non-zero and the
   signs oppose ([opp]), the quotient q0 becomes q0 + 1 and the remainder E - r0 ([rm] holds E) *)
Lemma floor_fixup n q0 r0 rm (opp : bool) : n <> 0%nat -> wf rm -> 0 <= q0 -> q0 + 1 < Bn n -> 0 <= r0 <= eval rm ->
  let q := to_limbs n q0 in let r := to_limbs (length rm) r0 in
  let modify := cc_and (ux_is_nonzero r) (choice_of_bool opp) in
  let m := negb (r0 =? 0) && opp in
  select_limbs modify q (uint_wrapping_add q (one_limbs n)) = to_limbs n (if m then q0 + 1 else q0) /\
  select_limbs modify r (uint_wrapping_sub rm r) = to_limbs (length rm) (if m then eval rm - r0 else r0).
Proof.
  intros Hn Wrm Hq0 Hq1 Hr0. cbv zeta. pose proof (eval_bounds rm Wrm).
  rewrite ux_is_nonzero_spec by apply wf_to_limbs. rewrite eval_to_limbs, (Z.mod_small r0), cc_and_bool by lia.
  rewrite add_one_to_limbs, sub_to_limbs, !select_to_limbs by assumption. split; reflexivity.
Qed.

Lemma neg_if_to_limbs n x (b : bool) : 0 <= x < Bn n ->
  int_wrapping_neg_if (to_limbs n x) (choice_of_bool b) = to_limbs_s n (if b then - x else x).
Proof.
  intros Hx. unfold int_wrapping_neg_if.
  rewrite <- (length_to_limbs n x) at 2. apply neg_if_encodes; [apply wf_to_limbs|].
  rewrite length_to_limbs. apply eval_to_limbs.
Qed.

Lemma nz_is_zero d : wf d -> seval d <> 0 -> choice_to_bool (ux_is_zero d) = false.
Proof.
  intros Hd Hnz. rewrite ux_is_zero_spec, choice_to_bool_choice by assumption. apply Z.eqb_neq.
  rewrite <- seval_zero_iff; assumption.
Qed.

(* the sign and magnitude of an Int divisor, in the form the integer facts take them *)
Lemma signed_mag D : D <> 0 -> 0 < Z.abs D /\ D = (if D <? 0 then - Z.abs D else Z.abs D).
Proof. intros HD. destruct (Z.ltb_spec D 0); lia. Qed.

(* Both checked fronts end by handing a quotient magnitude and a sign to Int::new_from_abs_sign.  With that call as
   a parameter [mk], one statement serves the model (where it returns an option) and the source text (where it
   returns the ConstCtOption pair). *)
Definition checked_div_rem_with {A} (mk : list Z -> Z -> A) (n d : list Z) : A * list Z :=
  let '(q, r, ls, rs) := int_div_rem_base n d in (mk q (cc_ne ls rs), int_wrapping_neg_if r ls).
Definition checked_div_rem_floor_with {A} (mk : list Z -> Z -> A) (n d : list Z) : A * list Z :=
  let '(lm, ls) := int_abs_sign n in
  let '(rm, rs) := int_abs_sign d in
  let '(q, r) := ux_div_rem lm rm in
  let opp := cc_xor ls rs in
  let modify := cc_and (ux_is_nonzero r) opp in
  let q' := select_limbs modify q (uint_wrapping_add q (one_limbs (length q))) in
  let r' := select_limbs modify r (uint_wrapping_sub rm r) in
  (mk q' opp, int_wrapping_neg_if r' rs).

(* what both fronts come to: [mk] applied to the magnitude and sign of the quotient Q, and the encoded remainder *)
Definition quotient_via {A} (mk : list Z -> Z -> A) (k : nat) (Q : Z) (R : list Z) (res : A * list Z) : Prop :=
  exists q (b : bool), 0 <= q < Bn k /\ (if b then - q else q) = Q /\ res = (mk (to_limbs k q) (choice_of_bool b), R).

Lemma quotient_via_option k Q R res : quotient_via int_new_from_abs_sign k Q R res ->
  res = (if isp_fits k Q then Some (to_limbs_s k Q) else None, R).
Proof.
  intros (q & b & Hq & <- & ->).
  pose proof (int_new_from_abs_sign_spec (to_limbs k q) b (wf_to_limbs k q)) as E. cbv zeta in E.
  rewrite length_to_limbs, to_limbs_small in E by assumption. rewrite E. reflexivity.
Qed.

Section Trunc.
Variables n d : list Z.
Hypothesis Hn : wf n.
Hypothesis Hd : wf d.
Hypothesis Hnz : seval d <> 0.
Let N := seval n. Let D := seval d.

Lemma checked_div_rem_with_spec {A} (mk : list Z -> Z -> A) :
  quotient_via mk (length n) (Z.quot N D) (to_limbs_s (length d) (Z.rem N D)) (checked_div_rem_with mk n d).
Proof.
  destruct (signed_mag D Hnz) as [HE HD].
  destruct (mag_div_bounds (Z.abs N) (Z.abs D) ltac:(lia) HE) as [Hq Hr].
  destruct (abs_bound n Hn) as [Bn' _]. destruct (abs_bound d Hd) as [Bd' _]. fold N in Bn'. fold D in Bd'.
  exists (Z.abs N / Z.abs D), (xorb (N <? 0) (D <? 0)). split; [lia|]. split; [apply (quot_sign N D _ _ HE HD)|].
  unfold checked_div_rem_with, int_div_rem_base. rewrite !int_abs_sign_spec by assumption.
  unfold ux_div_rem. rewrite !length_to_limbs, !eval_abs by assumption. fold N D.
  rewrite cc_ne_bool, neg_if_to_limbs by lia. rewrite (rem_sign N D _ _ HE HD). reflexivity.
Qed.

Lemma int_checked_div_rem_spec :
  int_checked_div_rem n d =
    (if isp_fits (length n) (Z.quot N D) then Some (to_limbs_s (length n) (Z.quot N D)) else None,
     to_limbs_s (length d) (Z.rem N D)).
Proof. apply quotient_via_option. apply (checked_div_rem_with_spec int_new_from_abs_sign). Qed.

Lemma trunc_rem_fits : - Bn (length d) <= 2 * Z.rem N D < Bn (length d).
Proof.
  pose proof (seval_range d Hd) as Rd. fold D in Rd.
  assert (Z.abs (Z.rem N D) < Z.abs D) by (apply Z.rem_bound_abs; assumption). lia.
Qed.
End Trunc.

(* a quotient in either convention is none exactly for MIN / -1 *)
Lemma quot_fits_iff n D Q r : wf n -> n <> [] -> seval n = D * Q + r -> Z.abs r < Z.abs D ->
  (isp_fits (length n) Q = false <-> (2 * seval n = - Bn (length n) /\ D = -1)).
Proof.
  intros Hn Hne E Hr. destruct (Bn_half _ (nonempty_len n Hne)) as [HM _].
  pose proof (halfB_ge _ (nonempty_len n Hne)). word_facts. pose proof (seval_range n Hn) as Rn.
  rewrite isp_fits_false, HM in *.
  pose proof (quotient_overflow_iff (halfB (length n)) (seval n) D Q r ltac:(lia) ltac:(lia) E Hr). lia.
Qed.

Section Floor.
Variables n d : list Z.
Hypothesis Hn : wf n.
Hypothesis Hd : wf d.
Hypothesis Hne : n <> [].
Hypothesis Hnz : seval d <> 0.
Let N := seval n. Let D := seval d.

(* quotient = floor(n / d); remainder = n mod d (sign of the divisor) *)
Lemma checked_div_rem_floor_with_spec {A} (mk : list Z -> Z -> A) :
  quotient_via mk (length n) (N / D) (to_limbs_s (length d) (N mod D)) (checked_div_rem_floor_with mk n d).
Proof.
  destruct (signed_mag D Hnz) as [HE HD].
  destruct (mag_div_bounds (Z.abs N) (Z.abs D) ltac:(lia) HE) as [Hq Hr].
  destruct (abs_bound n Hn) as [_ Bn']. destruct (abs_bound d Hd) as [Bd' _]. fold N in Bn'. fold D in Bd'.
  pose proof (halfB_ge _ (nonempty_len n Hne)). destruct (Bn_half _ (nonempty_len n Hne)) as [HM _]. word_facts.
  destruct (floor_qr N D (Z.abs D) (D <? 0) HE HD) as [Eq' Er']. cbv zeta in Eq', Er'.
  set (q0 := Z.abs N / Z.abs D) in *. set (r0 := Z.abs N mod Z.abs D) in *.
  set (m := negb (r0 =? 0) && xorb (N <? 0) (D <? 0)) in *.
  exists (if m then q0 + 1 else q0), (xorb (N <? 0) (D <? 0)). split; [destruct m; lia|]. split; [exact Eq'|].
  unfold checked_div_rem_floor_with. rewrite !int_abs_sign_spec by assumption.
  unfold ux_div_rem. rewrite !length_to_limbs, !eval_abs by assumption. fold N D q0 r0.
  rewrite cc_xor_bool.
  pose proof (floor_fixup (length n) q0 r0 (to_limbs (length d) (Z.abs D)) (xorb (N <? 0) (D <? 0))
                (nonempty_len n Hne) (wf_to_limbs _ _)) as Hfix. cbv zeta in Hfix.
  rewrite length_to_limbs, (to_limbs_small _ _ Bd') in Hfix. destruct Hfix as [Eq Er]; [lia..|].
  rewrite Eq, Er. fold m. rewrite neg_if_to_limbs by (destruct m; lia). rewrite Er'. reflexivity.
Qed.

Lemma int_checked_div_rem_floor_spec :
  int_checked_div_rem_floor n d =
    (if isp_fits (length n) (N / D) then Some (to_limbs_s (length n) (N / D)) else None,
     to_limbs_s (length d) (N mod D)).
Proof. apply quotient_via_option. apply (checked_div_rem_floor_with_spec int_new_from_abs_sign). Qed.

Lemma floor_rem_fits : - Bn (length d) <= 2 * (N mod D) < Bn (length d).
Proof.
  pose proof (seval_range d Hd) as Rd. fold D in Rd.
  destruct (Z_lt_ge_dec D 0).
  - pose proof (Z.mod_neg_bound N D ltac:(lia)). lia.
  - pose proof (Z.mod_pos_bound N D ltac:(lia)). lia.
Qed.
End Floor.

Lemma udiv_pos d : wf d -> eval d <> 0 -> 0 < eval d.
Proof. intros Hd Hnz. pose proof (eval_bounds d Hd). lia. Qed.

Section ByUint.
Variables n d : list Z.
Hypothesis Hn : wf n.
Hypothesis Hd : wf d.
Hypothesis Hne : n <> [].
Hypothesis Hnz : eval d <> 0.
Let N := seval n. Let D := eval d.

Let Dpos : 0 < D := udiv_pos d Hd Hnz.

Lemma int_div_rem_uint_spec :
  int_div_rem_uint n d = (to_limbs_s (length n) (Z.quot N D), to_limbs_s (length d) (Z.rem N D)).
Proof.
  unfold int_div_rem_uint. rewrite int_abs_sign_spec by assumption.
  unfold ux_div_rem. rewrite length_to_limbs, eval_abs by assumption. fold N D.
  destruct (mag_div_bounds (Z.abs N) D ltac:(lia) Dpos) as [Hq Hr].
  destruct (abs_bound n Hn) as [Bn' _]. fold N in Bn'. pose proof (eval_bounds d Hd) as Bd. fold D in Bd.
  rewrite !neg_if_to_limbs by lia.
  rewrite <- (quot_sign N D D false Dpos eq_refl), xorb_false_r, (rem_sign N D D false Dpos eq_refl).
  reflexivity.
Qed.

Lemma uquot_fits : - Bn (length n) <= 2 * Z.quot N D < Bn (length n).
Proof.
  destruct (mag_div_bounds (Z.abs N) D ltac:(lia) Dpos) as [Hq _]. pose proof (seval_range n Hn) as Rn. fold N in Rn.
  rewrite <- (quot_sign N D D false Dpos eq_refl), xorb_false_r. destruct (Z.ltb_spec N 0); lia.
Qed.

Lemma urem_fits : (length n <= length d)%nat -> - Bn (length d) <= 2 * Z.rem N D < Bn (length d).
Proof.
  intros Hle. pose proof Dpos. pose proof (seval_range n Hn) as Rn. fold N in Rn. pose proof (Bn_le _ _ Hle).
  assert (0 <= Z.abs N mod D <= Z.abs N) by (split; [apply Z.mod_pos_bound | apply Z.mod_le]; lia).
  rewrite <- (rem_sign N D D false Dpos eq_refl). destruct (Z.ltb_spec N 0); lia.
Qed.

Lemma int_div_rem_floor_uint_spec :
  int_div_rem_floor_uint n d = (to_limbs_s (length n) (N / D), to_limbs (length d) (N mod D)).
Proof.
  unfold int_div_rem_floor_uint. rewrite int_abs_sign_spec by assumption.
  unfold ux_div_rem. rewrite !length_to_limbs, eval_abs by assumption. fold N D.
  destruct (mag_div_bounds (Z.abs N) D ltac:(lia) Dpos) as [Hq Hr].
  destruct (abs_bound n Hn) as [_ Bn']. fold N in Bn'.
  pose proof (halfB_ge _ (nonempty_len n Hne)). destruct (Bn_half _ (nonempty_len n Hne)) as [HM _]. word_facts.
  set (q0 := Z.abs N / D) in *. set (r0 := Z.abs N mod D) in *.
  destruct (floor_fixup (length n) q0 r0 d (N <? 0) (nonempty_len n Hne) Hd) as [Eq Er]; [fold D; lia..|].
  fold D in Er. rewrite Eq, Er.
  set (m := negb (r0 =? 0) && (N <? 0)).
  rewrite neg_if_to_limbs by (destruct m; lia).
  destruct (floor_qr N D D false Dpos eq_refl) as [Eq' Er']. cbv zeta in Eq', Er'.
  rewrite xorb_false_r in Eq', Er'. fold q0 r0 m in Eq', Er'. rewrite Eq', Er'. reflexivity.
Qed.

Lemma ufloor_fits : - Bn (length n) <= 2 * (N / D) < Bn (length n).
Proof.
  pose proof Dpos as HD. pose proof (seval_range n Hn) as Rn. fold N in Rn.
  pose proof (Z.div_mod N D ltac:(lia)) as Hdm. pose proof (Z.mod_pos_bound N D HD) as Hmb.
  set (q := N / D) in *. set (r := N mod D) in *.
  destruct (Z_lt_ge_dec q 0).
  - assert (D * (q + 1) <= 1 * (q + 1)) by (apply Z.mul_le_mono_nonpos_r; lia). lia.
  - assert (1 * q <= D * q) by (apply Z.mul_le_mono_nonneg_r; lia). lia.
Qed.

End ByUint.

Lemma checked_div_zero n d : wf d -> eval d = 0 ->
  int_checked_div n d = None /\ int_checked_div_floor n d = None.
Proof.
  intros Hd Hz. unfold int_checked_div, int_checked_div_floor, nz_and_then.
  rewrite ux_is_zero_spec, choice_to_bool_choice, Hz by assumption. split; reflexivity.
Qed.

