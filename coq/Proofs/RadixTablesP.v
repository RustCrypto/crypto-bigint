(** C17 proofs, part 7: formatter for every radix, round trip, the refutation of the original `hi` test,
    and the table theorem  ops_radix_model = ops_radix_spec  on the documented domain. *)
From CB Require Import Model.Limbs Model.Div Model.Conv Model.Radix Proofs.WordP Proofs.LimbsP Proofs.ConvDigitsP Proofs.ConvBoxedP
  Proofs.RadixSpecP Proofs.RadixParseP Proofs.RadixParseApiP Proofs.RadixParamsP Proofs.RadixPow2P Proofs.RadixEncP.
From Coq Require Import ZArith Lia List Bool String.
Import ListNotations.
Open Scope Z_scope.
Open Scope list_scope.
Notation length := List.length.

(** every supported radix: the formatter returns the canonical numeral of the value *)
Theorem format_correct r limbs : 2 <= r <= 36 -> wf limbs -> limbs <> [] ->
  radix_encode_limbs_to_string true r limbs = Some (numeral r (eval limbs)).
Proof.
  intros Hr Hw Hne. destruct (is_power_of_two r) eqn:Ep.
  - apply format_pow2_correct; assumption.
  - apply format_generic_correct; assumption.
Qed.

Theorem format_unsupported_radix_panics fixed r limbs : r < 2 \/ 36 < r ->
  radix_encode_limbs_to_string fixed r limbs = None.
Proof.
  intros Hr. unfold radix_encode_limbs_to_string.
  destruct (Z.ltb_spec r 2); [reflexivity|]. destruct (Z.ltb_spec 36 r); [reflexivity | lia].
Qed.

(** the ORIGINAL test `limbs[limb_count - 1] << lshift < div_limb` (wrapping shift) is wrong: a 14-limb value whose
    radix-31 string is wrong (finding F30; [fixed = false] is the code before tools/fix_C17_1.diff) *)
Definition f30_witness : list Z :=
  to_limbs 14 (((787662783788549761 / 16) * 2 ^ 64 + 2 ^ 60) * 787662783788549761 ^ 13).
Theorem format_original_refuted :
  exists r limbs, 2 <= r <= 36 /\ wf limbs /\ limbs <> [] /\
    radix_encode_limbs_to_string false r limbs <> Some (numeral r (eval limbs)) /\
    radix_encode_limbs_to_string true r limbs = Some (numeral r (eval limbs)).
Proof.
  assert (Hne : f30_witness <> []).
  { intros E. apply (f_equal (@length Z)) in E. unfold f30_witness in E. rewrite length_to_limbs in E. discriminate. }
  exists 31, f30_witness. split; [lia|]. split; [apply wf_to_limbs|]. split; [exact Hne|].
  split; [|apply format_correct; [lia | apply wf_to_limbs | exact Hne]].
  (* the original code drops the leading digit *)
  assert (Horig : option_map (@length Z) (radix_encode_limbs_to_string false 31 f30_witness) = Some 180%nat).
  { unfold radix_encode_limbs_to_string. rewrite for_radix_generic, params_new_eq by (lia || reflexivity).
    vm_compute. reflexivity. }
  assert (Hnum : length (numeral 31 (eval f30_witness)) = 181%nat).
  { unfold f30_witness. rewrite to_limbs_small by (vm_compute; split; [discriminate | reflexivity]). vm_compute. reflexivity. }
  intros E. rewrite E in Horig. cbn [option_map] in Horig. rewrite Hnum in Horig. discriminate Horig.
Qed.

Lemma m_format_correct r ls : 2 <= r <= 36 -> wf ls -> ls <> [] -> m_format ls r = Val [numeral r (eval ls)].
Proof.
  intros Hr Hw Hne. unfold m_format. destruct ls as [|l t] eqn:E; [contradiction|]. rewrite <- E in *.
  rewrite format_correct by assumption. reflexivity.
Qed.

(** parse (format x) = x at the same width *)
Theorem uint_roundtrip r ls : 2 <= r <= 36 -> wf ls -> ls <> [] -> m_uint_roundtrip ls r = Val [ls].
Proof.
  intros Hr Hw Hne. unfold m_uint_roundtrip. rewrite m_format_correct by assumption.
  pose proof (eval_bounds ls Hw) as Hb.
  apply uint_parse_correct; [assumption|].
  rewrite spec_roundtrip by lia. split; [apply numeral_well_formed; lia|]. split; [lia|].
  symmetry. apply to_limbs_eval. assumption.
Qed.

Lemma sp_prec_limbs_whole (n : nat) : (1 <= n)%nat -> sp_prec_limbs (64 * Z.of_nat n) = n.
Proof. intros Hn. unfold sp_prec_limbs. rewrite <- limbs_for_precision_eq, limbs_for_whole. lia. Qed.

Theorem boxed_roundtrip r ls : 2 <= r <= 36 -> wf ls -> ls <> [] -> m_boxed_roundtrip ls r = Val [ls].
Proof.
  intros Hr Hw Hne. unfold m_boxed_roundtrip. rewrite m_format_correct by assumption.
  pose proof (eval_bounds ls Hw) as Hb.
  assert (Hn : (1 <= length ls)%nat) by (destruct ls; [contradiction | cbn [length]; lia]).
  apply boxed_prec_parse_correct; [assumption | unfold lenZ; lia|].
  rewrite spec_roundtrip by lia. split; [apply numeral_well_formed; lia|].
  unfold lenZ. rewrite sp_prec_limbs_whole by assumption.
  split; [rewrite Bn_pow2 in Hb; exact (proj2 Hb)|].
  symmetry. apply to_limbs_eval. assumption.
Qed.

Open Scope string_scope. Open Scope Z_scope.
Definition M17 (k : string) (dbg : bool) (a : list (list Z)) : outcome :=
  match lookup k ops_radix_model with Some f => f dbg a | None => Unsupported end.
Definition S17 (k : string) (dbg : bool) (a : list (list Z)) : outcome :=
  match lookup k ops_radix_spec with Some f => f dbg a | None => Unsupported end.
Definition radix_keys : list string :=
  ["uint.from_str_radix"; "boxed.from_str_radix"; "boxed.from_str_radix_prec"; "uint.to_string_radix";
   "boxed.to_string_radix"; "uint.radix_roundtrip"; "boxed.radix_roundtrip"].
(* the one class where the decoder deviates from the documented error (finding F31): a string that is no numeral
   and whose digits before the offending character already overflow the target *)
Definition f31_class (k : string) (dbg : bool) (a : list (list Z)) : Prop :=
  (k = "uint.from_str_radix" \/ k = "boxed.from_str_radix_prec") /\
  M17 k dbg a = ErrV E_InputSize /\ S17 k dbg a = ErrV E_InvalidDigit /\
  2 <= sarg 1 a <= 36 /\ sp_body (arg 0 a) <> [] /\ ~ well_formed (sarg 1 a) (arg 0 a).

Lemma sp_format_model r ls : sp_format r ls <> Unsupported -> m_format ls r = sp_format r ls.
Proof.
  unfold sp_format. destruct ls as [|l t] eqn:E; [intros H; contradiction|]. rewrite <- E in *.
  destruct (wfb ls) eqn:Ew; cbn [negb]; [|intros H; contradiction]. intros _.
  destruct (sp_radix_ok r) eqn:Er; cbn [negb].
  - apply radix_ok_range in Er. apply m_format_correct; [assumption | apply wfb_wf; assumption | rewrite E; discriminate].
  - unfold m_format. rewrite E. rewrite <- E. rewrite format_unsupported_radix_panics by (apply radix_not_ok, Er). reflexivity.
Qed.

Lemma sp_roundtrip_model (rt : list Z -> Z -> outcome) r ls :
  (forall r ls, 2 <= r <= 36 -> wf ls -> ls <> [] -> rt ls r = Val [ls]) ->
  (forall r ls, (r < 2 \/ 36 < r) -> ls <> [] -> rt ls r = PanicV) ->
  sp_roundtrip ls r <> Unsupported -> rt ls r = sp_roundtrip ls r.
Proof.
  intros Hok Hbad. unfold sp_roundtrip. destruct ls as [|l t] eqn:E; [intros H; contradiction|]. rewrite <- E in *.
  destruct (wfb ls) eqn:Ew; cbn [negb]; [|intros H; contradiction]. intros _.
  assert (Hne : ls <> []) by (rewrite E; discriminate).
  destruct (sp_radix_ok r) eqn:Er; cbn [negb].
  - apply radix_ok_range in Er. rewrite Hok by (try assumption; apply wfb_wf; assumption).
    rewrite to_limbs_eval by (apply wfb_wf; assumption). reflexivity.
  - apply Hbad; [apply radix_not_ok, Er | assumption].
Qed.

Lemma m_format_panics r ls : (r < 2 \/ 36 < r) -> ls <> [] -> m_format ls r = PanicV.
Proof.
  intros Hr Hne. unfold m_format. destruct ls as [|l t] eqn:E; [contradiction|]. rewrite <- E.
  rewrite format_unsupported_radix_panics by assumption. reflexivity.
Qed.

(** model = spec for every entry of the table, wherever the specification is defined, except the F31 class *)
Theorem tables_agree_radix dbg a k : In k radix_keys -> S17 k dbg a <> Unsupported ->
  M17 k dbg a = S17 k dbg a \/ f31_class k dbg a.
Proof.
  intros Hin. unfold radix_keys in Hin. cbn [In] in Hin.
  destruct Hin as [<-|[<-|[<-|[<-|[<-|[<-|[<-|[]]]]]]]]; unfold f31_class, M17, S17; cbn [lookup ops_radix_model ops_radix_spec String.eqb Ascii.eqb Bool.eqb]; cbv beta iota.
  - (* uint.from_str_radix *)
    intros Hs. set (n := rx_nat 2 a) in *. set (s := arg 0 a) in *. set (r := sarg 1 a) in *.
    destruct (bytes_ok s) eqn:Eb; [|exfalso; apply Hs; unfold sp_parse; rewrite Eb; reflexivity].
    destruct (uint_parse_table n r s Eb) as [H|(H1 & H2 & H3 & H4 & H5)]; [left; assumption|].
    right. split; [left; reflexivity|]. split; [assumption|]. split; [assumption|]. split; [assumption|]. split; assumption.
  - (* boxed.from_str_radix *)
    intros Hs. set (s := arg 0 a) in *. set (r := sarg 1 a) in *.
    destruct (bytes_ok s) eqn:Eb; [|exfalso; apply Hs; unfold sp_parse; rewrite Eb; reflexivity].
    left. apply boxed_parse_table. assumption.
  - (* boxed.from_str_radix_prec *)
    intros Hs. set (s := arg 0 a) in *. set (r := sarg 1 a) in *. set (p := sarg 2 a) in *.
    destruct ((p <? 0) || (2 ^ 32 <=? p)) eqn:Ep; [exfalso; apply Hs; reflexivity|].
    apply orb_false_iff in Ep. destruct Ep as [Ep1 Ep2]. apply Z.ltb_ge in Ep1.
    destruct (bytes_ok s) eqn:Eb; [|exfalso; apply Hs; unfold sp_parse; rewrite Eb; reflexivity].
    destruct (boxed_prec_parse_table r s p Eb Ep1) as [H|(H1 & H2 & H3 & H4 & H5)]; [left; assumption|].
    right. split; [right; reflexivity|]. split; [assumption|]. split; [assumption|]. split; [assumption|]. split; assumption.
  - intros Hs. left. apply sp_format_model. assumption.
  - intros Hs. left. apply sp_format_model. assumption.
  - intros Hs. left. apply (sp_roundtrip_model m_uint_roundtrip); [apply uint_roundtrip | | assumption].
    intros r ls Hr Hne. unfold m_uint_roundtrip. rewrite m_format_panics by assumption. reflexivity.
  - intros Hs. left. apply (sp_roundtrip_model m_boxed_roundtrip); [apply boxed_roundtrip | | assumption].
    intros r ls Hr Hne. unfold m_boxed_roundtrip. rewrite m_format_panics by assumption. reflexivity.
Qed.
