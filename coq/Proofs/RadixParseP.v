(** C17 proofs, part 2: the decoders.  radix_preprocess_str, radix_decode_str_digits (batches of
    ilog_radix(MAX) digits, multiply-accumulate, push_limb) and radix_decode_str_aligned_digits (radix 2/4/16)
    compute exactly the value of a numeral, report InputSize exactly when it does not fit, and never panic. *)
From CB Require Import Model.Limbs Model.Conv Model.Radix Proofs.WordP Proofs.WordPredP Proofs.LimbsP Proofs.ConvDigitsP
  Proofs.ConvBytesP Proofs.BitsP Proofs.DivShiftP Proofs.RadixSpecP.
From Coq Require Import ZArith Lia List Bool.
Import ListNotations.
Open Scope Z_scope.
Open Scope list_scope.

Definition okc (r c : Z) : bool := (c =? 95) || is_digit_of r c.
(* Horner over characters, continuing from [acc]; characters that are no digit are skipped *)
Definition hv (r acc : Z) (cs : list Z) : Z :=
  fold_left (fun a c => match sp_char_val c with Some d => a * r + d | None => a end) cs acc.

Lemma sp_char_val_nonneg c d : sp_char_val c = Some d -> 0 <= d < 36.
Proof.
  unfold sp_char_val.
  repeat match goal with |- context [?a <=? ?b] => destruct (Z.leb_spec a b) end; cbn [andb]; intros E; inversion E; lia.
Qed.
Lemma sp_char_val_us : sp_char_val 95 = None. Proof. reflexivity. Qed.
Lemma sp_char_val_zero c : sp_char_val c = Some 0 -> c = 48.
Proof.
  unfold sp_char_val.
  repeat match goal with |- context [?a <=? ?b] => destruct (Z.leb_spec a b) end; cbn [andb]; intros E; inversion E; lia.
Qed.

Lemma hv_fold r cs acc : fold_left (fun a d => a * r + d) (sp_digit_vals cs) acc = hv r acc cs.
Proof.
  revert acc. induction cs as [|c cs IH]; intros acc; [reflexivity|].
  unfold sp_digit_vals, hv in *. cbn [flat_map fold_left]. rewrite fold_left_app.
  destruct (sp_char_val c); cbn [fold_left]; apply IH.
Qed.
Lemma value_hv r s : value r s = hv r 0 (sp_body s).
Proof. unfold value, horner. apply hv_fold. Qed.
Lemma hv_cons r acc c cs : hv r acc (c :: cs) = hv r (match sp_char_val c with Some d => acc * r + d | None => acc end) cs.
Proof. reflexivity. Qed.
Lemma hv_mono r cs : 1 <= r -> forall acc, 0 <= acc -> acc <= hv r acc cs.
Proof.
  intros Hr. induction cs as [|c cs IH]; intros acc Ha; [cbn; lia|]. rewrite hv_cons.
  destruct (sp_char_val c) as [d|] eqn:E; [|apply IH; assumption].
  apply sp_char_val_nonneg in E. assert (acc <= acc * r + d) by nia.
  specialize (IH (acc * r + d) ltac:(lia)). lia.
Qed.

(* the decoder's character match against the specification's character value *)
Lemma char_digit_spec r c : 2 <= r <= 36 -> c <> 95 ->
  (is_digit_of r c = true -> sp_char_val c = Some (char_digit r c) /\ 0 <= char_digit r c < r) /\
  (is_digit_of r c = false -> r <= char_digit r c).
Proof.
  intros Hr Hc. unfold is_digit_of, sp_char_val, char_digit.
  repeat match goal with |- context [?a <=? ?b] => destruct (Z.leb_spec a b) end; cbn [andb];
  (split; [intros Hdg; first [discriminate | apply Z.ltb_lt in Hdg; split; [f_equal; lia | lia]]
          | intros Hdg; try (apply Z.ltb_ge in Hdg); lia]).
Qed.

Lemma okc_digit r c : c <> 95 -> okc r c = is_digit_of r c.
Proof. intros H. unfold okc. rewrite (proj2 (Z.eqb_neq c 95) H). reflexivity. Qed.
Lemma wfd_snoc r buf d : wfd r buf -> 0 <= d < r -> wfd r (buf ++ [d]).
Proof. intros Hb Hd. apply wfd_app. split; [assumption | apply wfd_cons; split; [assumption | apply wfd_nil]]. Qed.

Lemma mul_add_limbs_correct m : is_word m -> forall ls carry ls' c', wf ls -> is_word carry ->
  mul_add_limbs ls m carry = (ls', c') ->
  eval ls' + Bn (length ls) * c' = eval ls * m + carry /\ wf ls' /\ length ls' = length ls /\ is_word c'.
Proof.
  intros Hm. induction ls as [|l ls IH]; intros carry ls' c' Hw Hc E.
  - cbn in E. inv_pair E. cbn [eval length]. rewrite Bn_0. split; [lia|]. split; [apply wf_nil|]. split; [reflexivity | assumption].
  - cbn [mul_add_limbs] in E. apply wf_cons in Hw. destruct Hw as [Hl Hw].
    destruct (mac 0 l m carry) as [lo c] eqn:Em.
    destruct (mac_exact 0 l m carry lo c is_word_0' Hl Hm Hc Em) as (He & Hlo & Hcw).
    destruct (mul_add_limbs ls m c) as [t' c2] eqn:Er. inv_pair E.
    destruct (IH c t' c2 Hw Hcw Er) as (IHe & IHw & IHl & IHc).
    cbn [eval length]. rewrite Bn_S. split; [nia|]. split; [apply wf_cons; split; assumption|]. split; [lia | assumption].
Qed.

(* combining the digits of a buffer never wraps *)
Lemma fold_wrap_horner r : 1 <= r -> forall buf acc, wfd r buf -> 0 <= acc ->
  (acc + 1) * r ^ Z.of_nat (length buf) <= B ->
  fold_left (fun a c => wrap (a * r + c)) buf acc = fold_left (fun a c => a * r + c) buf acc.
Proof.
  intros Hr. induction buf as [|d buf IH]; intros acc Hw Ha Hb; [reflexivity|].
  apply wfd_cons in Hw. destruct Hw as [Hd Hw]. cbn [fold_left length] in *. rewrite pow_S_nat in Hb.
  pose proof (pow_pos_nat r (length buf) ltac:(lia)) as Hp.
  assert (Hs : (acc * r + d + 1) * r ^ Z.of_nat (length buf) <= (acc + 1) * (r * r ^ Z.of_nat (length buf))) by nia.
  assert (Hlt : acc * r + d < B) by nia.
  unfold wrap at 2. rewrite Z.mod_small by nia.
  apply IH; [assumption | nia | lia].
Qed.

Lemma horner_bound r buf : 1 <= r -> wfd r buf -> 0 <= horner r buf < r ^ Z.of_nat (length buf).
Proof.
  intros Hr Hw. rewrite horner_evalb. rewrite <- (rev_length buf). apply evalb_bounds; [lia | apply wfd_rev; assumption].
Qed.
Lemma horner_snoc r buf d : horner r (buf ++ [d]) = horner r buf * r + d.
Proof. unfold horner. rewrite fold_left_app. reflexivity. Qed.

Definition capfit (cap : option nat) (n : nat) : Prop := match cap with None => True | Some c => (n <= c)%nat end.
Definition minimal (o : list Z) : Prop := o <> [] -> Bn (length o - 1) <= eval o.

Lemma minimal_nil : minimal []. Proof. intros H; contradiction. Qed.
Lemma minimal_snoc o c : wf o -> 0 < c -> minimal (o ++ [c]).
Proof.
  intros Hw Hc _. rewrite app_length, eval_snoc. cbn [length]. replace (length o + 1 - 1)%nat with (length o) by lia.
  pose proof (eval_nonneg o Hw). pose proof (Bn_pos (length o)). nia.
Qed.

(* a multiply-accumulate pass followed by pushing the carry, if any, keeps the limbs minimal *)
Lemma mul_add_push out m c out' c' : wf out -> minimal out -> is_word m -> 1 <= m -> is_word c ->
  mul_add_limbs out m c = (out', c') ->
  let o := if c' =? 0 then out' else out' ++ [c'] in
  length out' = length out /\ wf o /\ minimal o /\ eval o = eval out * m + c.
Proof.
  intros Hw Hmin Hm Hm1 Hc E.
  destruct (mul_add_limbs_correct m Hm out c out' c' Hw Hc E) as (He & Hw' & Hl' & Hc').
  pose proof (eval_nonneg out Hw) as Hnn. split; [assumption|].
  destruct (Z.eqb_spec c' 0) as [->|Hnz].
  - rewrite Z.mul_0_r, Z.add_0_r in He. split; [assumption|]. split; [|assumption].
    intros Hne. rewrite Hl'. assert (Hne0 : out <> []) by (intros ->; destruct out'; [contradiction | discriminate]).
    specialize (Hmin Hne0). unfold is_word in Hc. nia.
  - unfold is_word in Hc'.
    split; [apply wf_app; split; [assumption | apply wf_cons; split; [assumption | apply wf_nil]]|].
    split; [apply minimal_snoc; [assumption | lia]|]. rewrite eval_snoc, Hl'. lia.
Qed.

Lemma push_limb_spec cap out limb : wf out -> is_word limb -> capfit cap (length out) ->
  match push_limb cap out limb with
  | Some o' => o' = out ++ [limb] /\ capfit cap (length o')
  | None => cap = Some (length out)
  end.
Proof.
  intros Hw Hl Hc. unfold push_limb. destruct cap as [c|]; cbn [capfit] in *.
  - destruct (Nat.ltb_spec (length out) c).
    + split; [reflexivity|]. rewrite app_length. cbn [length]. lia.
    + f_equal. lia.
  - split; [reflexivity | exact I].
Qed.

(* what both digit loops establish: [cs] are the characters read and [V] the value they denote if all of them are
   digits of the radix *)
Definition loop_result (r : Z) (cap : option nat) (cs : list Z) (V : Z) (res : dres) : Prop :=
  match res with
  | DOk o => forallb (okc r) cs = true /\ wf o /\ capfit cap (length o) /\ minimal o /\ eval o = V
  | DErr c => (c = E_InvalidDigit /\ forallb (okc r) cs = false) \/
              (c = E_InputSize /\ exists n, cap = Some n /\ (forallb (okc r) cs = true -> Bn n <= V))
  | DPanic => False
  end.
(* ... read as the outcome of the decoder, when [wfb] (the string is a numeral) is the test of the characters *)
Lemma loop_result_final r cap (wfb : bool) (body cs : list Z) V res :
  body <> [] -> wfb = forallb (okc r) cs -> loop_result r cap cs V res ->
  match res with
  | DOk o => wfb = true /\ wf o /\ capfit cap (length o) /\ minimal o /\ eval o = V
  | DErr c => (c = E_Empty /\ body = []) \/
              (c = E_InvalidDigit /\ body <> [] /\ ~ wfb = true) \/
              (c = E_InputSize /\ body <> [] /\ exists n, cap = Some n /\ (wfb = true -> Bn n <= V))
  | DPanic => False
  end.
Proof.
  intros Hb -> H. destruct res as [o|code|]; cbn [loop_result] in H; [exact H | | contradiction].
  destruct H as [[-> Ha]|[-> H]]; [right; left | right; right]; (split; [reflexivity|]; split; [assumption|]).
  - rewrite Ha. discriminate.
  - exact H.
Qed.

Section Generic.
Variable r : Z.
Variable cap : option nat.
Variable ld : nat.
Hypothesis Hr : 2 <= r <= 36.
Hypothesis Hld : (1 <= ld)%nat.
Hypothesis Hmax : r ^ Z.of_nat ld <= MAXW.

Lemma pow_le_ld (k : nat) : (k <= ld)%nat -> 0 < r ^ Z.of_nat k <= MAXW.
Proof.
  intros Hk. split; [apply pow_pos_nat; lia|].
  assert (r ^ Z.of_nat k <= r ^ Z.of_nat ld) by (apply pow_le_mono_nat; lia). lia.
Qed.

Lemma flush_spec buf out : wf out -> capfit cap (length out) -> minimal out -> wfd r buf -> (length buf <= ld)%nat ->
  let acc' := eval out * r ^ Z.of_nat (length buf) + horner r buf in
  match flush_digits r cap buf (r ^ Z.of_nat (length buf)) out with
  | Some o' => wf o' /\ capfit cap (length o') /\ minimal o' /\ eval o' = acc'
  | None => exists n, cap = Some n /\ Bn n <= acc'
  end.
Proof.
  intros Hw Hcap Hmin Hb Hlen acc'. unfold flush_digits.
  pose proof (pow_le_ld (length buf) Hlen) as [Hp0 Hp1]. rewrite MAXW_val in Hp1.
  pose proof (horner_bound r buf ltac:(lia) Hb) as Hh.
  rewrite fold_wrap_horner by (lia || assumption). fold (horner r buf).
  destruct (mul_add_limbs out (r ^ Z.of_nat (length buf)) (horner r buf)) as [out' c'] eqn:E.
  assert (Hlm : is_word (r ^ Z.of_nat (length buf))) by (unfold is_word; lia).
  assert (Hcw : is_word (horner r buf)) by (unfold is_word; lia).
  destruct (mul_add_push out _ _ out' c' Hw Hmin Hlm ltac:(lia) Hcw E) as (Hl' & Hw' & Hmin' & He). fold acc' in He.
  destruct (Z.eqb_spec c' 0) as [->|Hnz].
  - rewrite Hl'. repeat split; assumption.
  - destruct (proj1 (wf_app _ _) Hw') as [Hwo' Hwc']. apply wf_cons in Hwc'. destruct Hwc' as [Hwc' _].
    pose proof (push_limb_spec cap out' c' Hwo' Hwc' ltac:(rewrite Hl'; assumption)) as Hp.
    destruct (push_limb cap out' c') as [o'|].
    + destruct Hp as [-> Hcf]. repeat split; assumption.
    + exists (length out'). split; [assumption|]. rewrite <- He.
      specialize (Hmin' ltac:(destruct out'; discriminate)). rewrite app_length, Nat.add_sub in Hmin'. exact Hmin'.
Qed.

Lemma last_cons_ne (c : Z) t : t <> [] -> last (c :: t) 0 = last t 0.
Proof. destruct t; [contradiction | reflexivity]. Qed.

(* invariant: the digits read so far have the value [acc], held as the minimal limbs [out] (within the capacity) and
   the buffered digits [buf]; the loop returns the Horner continuation of [acc] over the remaining characters *)
Theorem dec_go_spec : forall ds buf out,
  ds <> [] -> last ds 0 <> 95 -> wf out -> capfit cap (length out) -> minimal out -> wfd r buf -> (length buf < ld)%nat ->
  forall acc, acc = eval out * r ^ Z.of_nat (length buf) + horner r buf ->
  loop_result r cap ds (hv r acc ds) (dec_go r cap ld (wrap (r ^ Z.of_nat ld)) ds buf out).
Proof.
  induction ds as [|c t IH]; intros buf out Hne Hlast Hw Hcap Hmin Hb Hlen acc Eacc; [contradiction|].
  unfold loop_result in *. cbn [dec_go forallb]. rewrite hv_cons.
  destruct (Z.eqb_spec c 95) as [->|Hc95].
  - (* underscore *)
    assert (Ht : t <> []) by (intros ->; cbn in Hlast; lia).
    rewrite last_cons_ne in Hlast by assumption.
    rewrite sp_char_val_us. assert (Hok : okc r 95 = true) by reflexivity. rewrite !Hok. cbn [andb].
    apply IH; assumption.
  - destruct (char_digit_spec r c Hr Hc95) as [Hyes Hno].
    rewrite !(okc_digit r c Hc95).
    destruct (is_digit_of r c) eqn:Hdig; cbn [andb].
    + destruct (Hyes eq_refl) as [Hval Hrange]. set (d := char_digit r c) in *.
      destruct (Z.leb_spec r d) as [Hbad|_]; [lia|]. rewrite Hval.
      pose proof (wfd_snoc r buf d Hb Hrange) as Hb'. pose proof (last_length buf d) as Hl'.
      assert (Hacc : eval out * r ^ Z.of_nat (length (buf ++ [d])) + horner r (buf ++ [d]) = acc * r + d).
      { rewrite Hl', pow_S_nat, horner_snoc, Eacc. ring. }
      set (fin := match t with [] => true | _ :: _ => false end).
      destruct (fin || Nat.eqb (length (buf ++ [d])) ld) eqn:Hflush.
      * (* flush *)
        assert (Hlm : (if Nat.ltb (length (buf ++ [d])) ld then wrap (r ^ Z.of_nat (length (buf ++ [d]))) else wrap (r ^ Z.of_nat ld))
                      = r ^ Z.of_nat (length (buf ++ [d]))).
        { destruct (Nat.ltb_spec (length (buf ++ [d])) ld); [|replace ld with (length (buf ++ [d])) by lia];
            unfold wrap; apply Z.mod_small; pose proof (pow_le_ld (length (buf ++ [d])) ltac:(lia)); rewrite MAXW_val in *; lia. }
        rewrite Hlm.
        pose proof (flush_spec (buf ++ [d]) out Hw Hcap Hmin Hb' ltac:(lia)) as Hf. cbv zeta in Hf. rewrite Hacc in Hf.
        destruct (flush_digits r cap (buf ++ [d]) (r ^ Z.of_nat (length (buf ++ [d]))) out) as [o'|].
        -- destruct Hf as (Hw' & Hcap' & Hmin' & He').
           destruct t as [|c2 t2] eqn:Et; cbn [fin].
           ++ cbn [forallb hv fold_left]. repeat split; assumption.
           ++ rewrite <- Et in *.
              assert (Ht : t <> []) by (rewrite Et; discriminate).
              rewrite last_cons_ne in Hlast by assumption.
              apply (IH [] o' Ht Hlast Hw' Hcap' Hmin' (wfd_nil r) ltac:(cbn [length]; lia)).
              rewrite He'. cbn. lia.
        -- destruct Hf as (n & Hn & Hge). right. split; [reflexivity|]. exists n. split; [assumption|].
           intros _. pose proof (hv_mono r t ltac:(lia) (acc * r + d) ltac:(pose proof (Bn_pos n); lia)). lia.
      * (* keep filling the buffer *)
        apply orb_false_iff in Hflush. destruct Hflush as [Hfin Hneq]. apply Nat.eqb_neq in Hneq.
        assert (Ht : t <> []) by (intros ->; cbn in Hfin; discriminate).
        rewrite last_cons_ne in Hlast by assumption.
        apply (IH (buf ++ [d]) out Ht Hlast Hw Hcap Hmin Hb' ltac:(lia)). symmetry. exact Hacc.
    + specialize (Hno eq_refl). destruct (Z.leb_spec r (char_digit r c)) as [_|Hbad]; [|lia].
      left. split; reflexivity.
Qed.

End Generic.

(* little-endian value of a reversed character string *)
Definition cvr (r : Z) (rds : list Z) : Z := evalb r (sp_digit_vals rds).
Lemma cvr_cons r c t : cvr r (c :: t) = match sp_char_val c with Some d => d + r * cvr r t | None => cvr r t end.
Proof. unfold cvr, sp_digit_vals. cbn [flat_map]. destruct (sp_char_val c); reflexivity. Qed.
Lemma cvr_nonneg r t : 1 <= r -> 0 <= cvr r t.
Proof.
  intros Hr. induction t as [|c t IH]; [cbn; lia|]. rewrite cvr_cons.
  destruct (sp_char_val c) as [d|] eqn:E; [|assumption]. apply sp_char_val_nonneg in E. nia.
Qed.
Lemma hv_cvr r cs : hv r 0 cs = cvr r (rev cs).
Proof.
  rewrite <- hv_fold. fold (horner r (sp_digit_vals cs)). rewrite horner_evalb. unfold cvr, sp_digit_vals.
  rewrite flat_map_rev. f_equal. apply flat_map_ext. intros c. destruct (sp_char_val c); reflexivity.
Qed.

Section Aligned.
Variable r shift : Z.
Variable cap : option nat.
Variable ld : nat.
Hypothesis Hr : 2 <= r <= 36.
Hypothesis Hsh : 1 <= shift < 64.
Hypothesis Hrs : r = 2 ^ shift.
Hypothesis Hld : Z.of_nat ld * shift = 64.

Lemma r_ld : r ^ Z.of_nat ld = B.
Proof. rewrite Hrs, <- Z.pow_mul_r by lia. rewrite B_val. f_equal. lia. Qed.
Lemma ld_pos : (1 <= ld)%nat.
Proof. destruct ld; [cbn in Hld; lia | lia]. Qed.

Lemma fold_lor_horner : forall l acc, wfd r l -> 0 <= acc ->
  (acc + 1) * r ^ Z.of_nat (length l) <= B ->
  fold_left (fun w c => Z.lor (wshl w shift) c) l acc = fold_left (fun a c => a * r + c) l acc.
Proof.
  induction l as [|d l IH]; intros acc Hw Ha Hb; [reflexivity|].
  apply wfd_cons in Hw. destruct Hw as [Hd Hw]. cbn [fold_left length] in *. rewrite pow_S_nat in Hb.
  pose proof (pow_pos_nat r (length l) ltac:(lia)) as Hp.
  assert (Hlt : acc * r + d < B) by nia.
  assert (E : Z.lor (wshl acc shift) d = acc * r + d).
  { unfold wshl, wrap. rewrite <- Hrs. rewrite Z.mod_small by nia. rewrite Hrs. apply lor_disjoint; [lia | rewrite <- Hrs; lia]. }
  rewrite E. apply IH; [assumption | nia | nia].
Qed.

Lemma limb_of_buf buf : wfd r buf -> (length buf <= ld)%nat ->
  fold_left (fun w c => Z.lor (wshl w shift) c) (rev buf) 0 = evalb r buf /\ is_word (evalb r buf).
Proof.
  intros Hw Hl. pose proof (evalb_bounds r buf ltac:(lia) Hw) as Hb.
  assert (r ^ Z.of_nat (length buf) <= B) by (rewrite <- r_ld; apply pow_le_mono_nat; lia).
  split; [|unfold is_word; lia].
  rewrite fold_lor_horner by (try apply wfd_rev; try rewrite rev_length; try assumption; lia).
  fold (horner r (rev buf)). rewrite horner_evalb, rev_involutive. reflexivity.
Qed.

Lemma cvr_pos t : t <> [] -> forallb (okc r) t = true -> last t 0 <> 95 -> sp_char_val (last t 0) <> Some 0 ->
  1 <= cvr r t.
Proof.
  induction t as [|c t IH]; intros Hne Hok Hl95 Hl0; [contradiction|].
  cbn [forallb] in Hok. apply andb_true_iff in Hok. destruct Hok as [Hc Hok].
  rewrite cvr_cons. destruct t as [|c2 t2].
  - cbn [last] in *. unfold okc in Hc. replace (c =? 95) with false in Hc by (symmetry; apply Z.eqb_neq; assumption).
    cbn [orb] in Hc. unfold is_digit_of in Hc. destruct (sp_char_val c) as [d|] eqn:E; [|discriminate].
    pose proof (sp_char_val_nonneg c d E). cbn. assert (d <> 0) by (intros ->; contradiction). lia.
  - rewrite last_cons_ne in Hl95, Hl0 by discriminate.
    specialize (IH ltac:(discriminate) Hok Hl95 Hl0).
    destruct (sp_char_val c) as [d|] eqn:E; [|assumption]. apply sp_char_val_nonneg in E. nia.
Qed.

(* the characters are read from the last to the first: [acc] is the value read so far and [np] the weight of the next
   digit; [out] holds the completed limbs, [buf] the digits of the limb in progress, least significant first *)
Theorem al_go_spec : forall rds buf out,
  rds <> [] -> last rds 0 <> 95 -> sp_char_val (last rds 0) <> Some 0 ->
  wf out -> capfit cap (length out) -> wfd r buf -> (length buf < ld)%nat ->
  forall acc np, acc = eval out + Bn (length out) * evalb r buf -> np = Bn (length out) * r ^ Z.of_nat (length buf) ->
  loop_result r cap rds (acc + np * cvr r rds) (al_go r shift cap ld rds buf out).
Proof.
  induction rds as [|c t IH]; intros buf out Hne Hlast Hnz Hw Hcap Hb Hlen acc np Eacc Enp; [contradiction|].
  unfold loop_result in *. cbn [al_go forallb]. rewrite cvr_cons.
  destruct (Z.eqb_spec c 95) as [->|Hc95].
  - assert (Ht : t <> []) by (intros ->; cbn in Hlast; lia).
    rewrite last_cons_ne in Hlast, Hnz by assumption.
    rewrite sp_char_val_us. assert (Hok : okc r 95 = true) by reflexivity. rewrite !Hok. cbn [andb].
    apply IH; assumption.
  - destruct (char_digit_spec r c Hr Hc95) as [Hyes Hno].
    rewrite !(okc_digit r c Hc95).
    destruct (is_digit_of r c) eqn:Hdig; cbn [andb].
    + destruct (Hyes eq_refl) as [Hval Hrange]. set (d := char_digit r c) in *.
      destruct (Z.leb_spec r d) as [Hbad|_]; [lia|]. rewrite Hval.
      pose proof (wfd_snoc r buf d Hb Hrange) as Hb'. pose proof (last_length buf d) as Hl'.
      assert (Hev : evalb r (buf ++ [d]) = evalb r buf + r ^ Z.of_nat (length buf) * d).
      { rewrite evalb_app. cbn [evalb]. ring. }
      pose proof (Bn_pos (length out)) as HBp. pose proof (pow_pos_nat r (length buf) ltac:(lia)) as Hrp.
      pose proof (eval_nonneg out Hw) as Hnn.
      pose proof (evalb_bounds r buf ltac:(lia) Hb) as Hbb.
      set (fin := match t with [] => true | _ :: _ => false end).
      destruct (fin || Nat.eqb (length (buf ++ [d])) ld) eqn:Hflush.
      * destruct (limb_of_buf (buf ++ [d]) Hb' ltac:(lia)) as [Ew Hww]. rewrite Ew.
        pose proof (push_limb_spec cap out (evalb r (buf ++ [d])) Hw Hww Hcap) as Hp.
        destruct (push_limb cap out (evalb r (buf ++ [d]))) as [o'|].
        -- destruct Hp as [-> Hcf].
           assert (Hwo : wf (out ++ [evalb r (buf ++ [d])])).
           { apply wf_app; split; [assumption | apply wf_cons; split; [assumption | apply wf_nil]]. }
           assert (Hfull0 : fin = false -> length (buf ++ [d]) = ld).
           { intros Hf. rewrite Hf in Hflush. cbn [orb] in Hflush. apply Nat.eqb_eq; assumption. }
           destruct t as [|c2 t2] eqn:Et; cbn [fin] in *.
           ++ cbn [forallb last] in *. rewrite Hval in Hnz. assert (d <> 0) by (intros E0; apply Hnz; rewrite E0; reflexivity).
              split; [reflexivity|]. split; [assumption|]. split; [assumption|].
              split; [apply minimal_snoc; [assumption | rewrite Hev; nia]|].
              rewrite eval_snoc, Hev, Eacc, Enp. unfold cvr. cbn [sp_digit_vals flat_map evalb]. ring.
           ++ rewrite <- Et in *. assert (Ht : t <> []) by (rewrite Et; discriminate).
              rewrite last_cons_ne in Hlast, Hnz by assumption.
              specialize (Hfull0 eq_refl). rename Hfull0 into Hfull.
              replace (acc + np * (d + r * cvr r t)) with ((acc + np * d) + np * r * cvr r t) by ring.
              apply (IH [] (out ++ [evalb r (buf ++ [d])]) Ht Hlast Hnz Hwo Hcf (wfd_nil r) ltac:(cbn [length]; pose proof ld_pos; lia)).
              ** rewrite eval_snoc, Hev, Eacc, Enp. cbn [evalb]. ring.
              ** rewrite app_length. cbn [length]. rewrite Nat.add_1_r, Bn_S, Enp, <- r_ld, <- Hfull, Hl', pow_S_nat.
                 change (Z.of_nat 0) with 0. ring.
        -- right. split; [reflexivity|]. exists (length out). split; [assumption|]. intros Hallok.
           pose proof (cvr_nonneg r t ltac:(lia)) as Hcn.
           assert (Hge : 1 <= d + r * cvr r t).
           { destruct t as [|c2 t2] eqn:Et.
             - cbn [last] in Hnz. rewrite Hval in Hnz. assert (d <> 0) by (intros E0; apply Hnz; rewrite E0; reflexivity).
               unfold cvr. cbn. lia.
             - rewrite <- Et in *. assert (Ht : t <> []) by (rewrite Et; discriminate).
               rewrite last_cons_ne in Hlast, Hnz by assumption.
               pose proof (cvr_pos t Ht Hallok Hlast Hnz). nia. }
           assert (H1 : 1 <= r ^ Z.of_nat (length buf) * (d + r * cvr r t)) by nia.
           assert (H2 : Bn (length out) * 1 <= Bn (length out) * (r ^ Z.of_nat (length buf) * (d + r * cvr r t))) by (apply Z.mul_le_mono_nonneg_l; lia).
           assert (H3 : 0 <= Bn (length out) * evalb r buf) by (apply Z.mul_nonneg_nonneg; lia).
           rewrite Eacc, Enp. lia.
      * apply orb_false_iff in Hflush. destruct Hflush as [Hfin Hneq]. apply Nat.eqb_neq in Hneq.
        assert (Ht : t <> []) by (intros ->; cbn in Hfin; discriminate).
        rewrite last_cons_ne in Hlast, Hnz by assumption.
        replace (acc + np * (d + r * cvr r t)) with ((acc + np * d) + np * r * cvr r t) by ring.
        apply (IH (buf ++ [d]) out Ht Hlast Hnz Hw Hcap Hb' ltac:(lia)).
        -- rewrite Hev, Eacc, Enp. ring.
        -- rewrite Hl', pow_S_nat, Enp. ring.
    + specialize (Hno eq_refl). destruct (Z.leb_spec r (char_digit r c)) as [_|Hbad]; [|lia].
      left. split; reflexivity.
Qed.

End Aligned.

(* Word::MAX.ilog(radix): the loop stops at the largest power that fits a word *)
Lemma ilog_go_spec r : 2 <= r -> forall fuel p k, p = r ^ Z.of_nat k -> p <= MAXW -> B <= p * r ^ Z.of_nat fuel ->
  (k <= ilog_go fuel r p k)%nat /\
  r ^ Z.of_nat (ilog_go fuel r p k) <= MAXW < r ^ Z.of_nat (S (ilog_go fuel r p k)).
Proof.
  intros Hr. induction fuel as [|f IH]; intros p k Hp Hle Hf.
  - change (Z.of_nat 0) with 0 in Hf. rewrite Z.pow_0_r, MAXW_val in *. lia.
  - cbn [ilog_go]. rewrite pow_S_nat, Z.mul_assoc in Hf. destruct (Z.leb_spec (p * r) MAXW) as [Hfit|Hover].
    + destruct (IH (p * r) (S k)) as [Hk Hb]; [rewrite pow_S_nat; lia | assumption | assumption |]. split; [lia | exact Hb].
    + split; [lia|]. rewrite pow_S_nat, <- Hp. lia.
Qed.
Lemma ilog_max_spec r : 2 <= r <= MAXW ->
  (1 <= ilog_max r)%nat /\ r ^ Z.of_nat (ilog_max r) <= MAXW < r ^ Z.of_nat (S (ilog_max r)).
Proof.
  intros Hr. unfold ilog_max.
  assert (Hf : B <= 1 * r ^ Z.of_nat 64).
  { rewrite B_val, Z.mul_1_l. apply Z.pow_le_mono_l. lia. }
  destruct (ilog_go_spec r ltac:(lia) 64 1 0 eq_refl ltac:(lia) Hf) as [_ Hb]. split; [|exact Hb].
  destruct (ilog_go 64 r 1 0); [cbn in Hb; lia | lia].
Qed.

Definition aligned_radix (r : Z) : bool := (r =? 2) || (r =? 4) || (r =? 16).
Lemma aligned_radix_facts r : aligned_radix r = true ->
  let sh := trailing_zeros r in 1 <= sh < 64 /\ r = 2 ^ sh /\ Z.of_nat (Z.to_nat (64 / sh)) * sh = 64.
Proof.
  unfold aligned_radix. rewrite !orb_true_iff, !Z.eqb_eq. intros [[->| ->]| ->]; cbv; repeat split; discriminate.
Qed.

Lemma preprocess_eq s : radix_preprocess_str s =
  match sp_body s with
  | [] => PreErr E_Empty
  | c0 :: _ => if (c0 =? 95) || (last (sp_body s) 0 =? 95) then PreErr E_InvalidDigit else PreOk (strip_lead (sp_body s))
  end.
Proof. reflexivity. Qed.

Lemma hv_strip r b : hv r 0 (strip_lead b) = hv r 0 b.
Proof.
  induction b as [|c b IH]; [reflexivity|]. cbn [strip_lead].
  destruct (Z.eqb_spec c 48) as [->|H48]; cbn [orb].
  - rewrite IH. reflexivity.
  - destruct (Z.eqb_spec c 95) as [->|H95]; [|reflexivity]. rewrite IH. reflexivity.
Qed.
Lemma okc_48 r : 1 <= r -> okc r 48 = true.
Proof. intros Hr. unfold okc, is_digit_of. cbn. apply Z.ltb_lt. lia. Qed.
Lemma allok_strip r b : 1 <= r -> forallb (okc r) (strip_lead b) = forallb (okc r) b.
Proof.
  intros Hr. induction b as [|c b IH]; [reflexivity|]. cbn [strip_lead].
  destruct (Z.eqb_spec c 48) as [->|H48]; cbn [orb].
  - cbn [forallb]. rewrite okc_48 by assumption. exact IH.
  - destruct (Z.eqb_spec c 95) as [->|H95]; [|reflexivity]. cbn [forallb]. exact IH.
Qed.
Lemma strip_props b c t : strip_lead b = c :: t -> c <> 48 /\ c <> 95 /\ last (c :: t) 0 = last b 0.
Proof.
  induction b as [|c' b IH]; intros E; [discriminate|]. cbn [strip_lead] in E.
  destruct (Z.eqb_spec c' 48) as [->|H48]; cbn [orb] in E.
  - destruct (IH E) as (H1 & H2 & H3). repeat split; try assumption. rewrite H3.
    destruct b; [discriminate | reflexivity].
  - destruct (Z.eqb_spec c' 95) as [->|H95].
    + destruct (IH E) as (H1 & H2 & H3). repeat split; try assumption. rewrite H3. destruct b; [discriminate | reflexivity].
    + inversion E; subst. repeat split; assumption.
Qed.

Lemma well_formedb_iff r s : well_formedb r s = true <->
  exists c0 b', sp_body s = c0 :: b' /\ c0 <> 95 /\ last (sp_body s) 0 <> 95 /\ forallb (okc r) (sp_body s) = true.
Proof.
  unfold well_formedb. destruct (sp_body s) as [|c0 b'] eqn:E.
  - split; [discriminate | intros (c & b & H & _); discriminate].
  - rewrite !andb_true_iff, !negb_true_iff, !Z.eqb_neq. split.
    + intros [[H1 H2] H3]. exists c0, b'. repeat split; assumption.
    + intros (c & b & H & H1 & H2 & H3). inversion H; subst. repeat split; assumption.
Qed.

Lemma forallb_rev {A} (f : A -> bool) l : forallb f (rev l) = forallb f l.
Proof.
  induction l as [|x l IH]; [reflexivity|]. cbn [rev forallb]. rewrite forallb_app, IH. cbn [forallb].
  rewrite andb_true_r. apply andb_comm.
Qed.

(** the decoder, on every string and every supported radix *)
Theorem radix_decode_str_spec r s cap : 2 <= r <= 36 ->
  match radix_decode_str s r cap with
  | DOk o => well_formed r s /\ wf o /\ capfit cap (length o) /\ minimal o /\ eval o = value r s
  | DErr c => (c = E_Empty /\ sp_body s = []) \/
              (c = E_InvalidDigit /\ sp_body s <> [] /\ ~ well_formed r s) \/
              (c = E_InputSize /\ sp_body s <> [] /\ exists n, cap = Some n /\ (well_formed r s -> Bn n <= value r s))
  | DPanic => False
  end.
Proof.
  intros Hr. unfold radix_decode_str.
  destruct (Z.ltb_spec r 2); [lia|]. destruct (Z.ltb_spec 36 r); [lia|]. cbn [orb].
  rewrite preprocess_eq. unfold well_formed. rewrite value_hv.
  destruct (sp_body s) as [|c0 b'] eqn:Eb; [left; split; reflexivity|].
  destruct ((c0 =? 95) || (last (c0 :: b') 0 =? 95)) eqn:Ebad.
  { right; left. split; [reflexivity|]. split; [discriminate|]. intros Hwf. apply well_formedb_iff in Hwf.
    destruct Hwf as (c & b & Hq & Hq1 & Hq2 & _). rewrite Eb in *. inversion Hq; subst.
    apply orb_true_iff in Ebad. destruct Ebad as [E|E]; apply Z.eqb_eq in E; contradiction. }
  apply orb_false_iff in Ebad. destruct Ebad as [E1 E2]. apply Z.eqb_neq in E1, E2.
  assert (Hwfb : well_formedb r s = forallb (okc r) (c0 :: b')).
  { unfold well_formedb. rewrite Eb, (proj2 (Z.eqb_neq _ _) E1), (proj2 (Z.eqb_neq _ _) E2). reflexivity. }
  pose proof (hv_strip r (c0 :: b')) as Hhv. pose proof (allok_strip r (c0 :: b') ltac:(lia)) as Hall.
  destruct (strip_lead (c0 :: b')) as [|c t] eqn:Es.
  - split; [rewrite Hwfb, <- Hall; reflexivity|]. split; [apply wf_nil|].
    split; [destruct cap; cbn; [lia | exact I]|]. split; [apply minimal_nil|]. rewrite <- Hhv. reflexivity.
  - destruct (strip_props _ _ _ Es) as (Hc48 & Hc95 & Hlast).
    fold (aligned_radix r). destruct (aligned_radix r) eqn:Eal.
    + (* radix 2 / 4 / 16 *)
      destruct (aligned_radix_facts r Eal) as (H12 & H3 & H4).
      assert (Hrev : rev (c :: t) <> []).
      { intros E. apply (f_equal (@length Z)) in E. rewrite rev_length in E. discriminate. }
      assert (Hl : last (rev (c :: t)) 0 = c) by (cbn [rev]; apply last_last).
      pose proof (al_go_spec r (trailing_zeros r) cap (Z.to_nat (64 / trailing_zeros r)) Hr H12 H3 H4
                    (rev (c :: t)) [] [] Hrev ltac:(rewrite Hl; assumption)
                    ltac:(rewrite Hl; intros E; apply sp_char_val_zero in E; contradiction)
                    wf_nil ltac:(destruct cap; cbn; [lia | exact I]) (wfd_nil r)
                    ltac:(cbn [length]; pose proof (ld_pos (trailing_zeros r) (Z.to_nat (64 / trailing_zeros r)) H4); lia)
                    0 1 eq_refl eq_refl) as Hsp.
      unfold loop_result in Hsp. rewrite Z.add_0_l, Z.mul_1_l, forallb_rev, <- hv_cvr, Hall, Hhv in Hsp.
      apply (loop_result_final r cap _ _ (c0 :: b')); [discriminate | exact Hwfb | exact Hsp].
    + (* generic radix *)
      destruct (ilog_max_spec r ltac:(rewrite MAXW_val, B_val; lia)) as (H1 & H2 & _).
      pose proof (dec_go_spec r cap (ilog_max r) Hr H1 H2 (c :: t) [] [] ltac:(discriminate)
                    ltac:(rewrite Hlast; assumption) wf_nil ltac:(destruct cap; cbn; [lia | exact I])
                    minimal_nil (wfd_nil r) ltac:(cbn [length]; lia) 0 eq_refl) as Hsp.
      unfold loop_result in Hsp. rewrite Hall, Hhv in Hsp.
      apply (loop_result_final r cap _ _ (c0 :: b')); [discriminate | exact Hwfb | exact Hsp].
Qed.

Lemma radix_decode_unsupported r s cap : r < 2 \/ 36 < r -> radix_decode_str s r cap = DPanic.
Proof.
  intros Hr. unfold radix_decode_str.
  destruct (Z.ltb_spec r 2); [reflexivity|]. destruct (Z.ltb_spec 36 r); [reflexivity | lia].
Qed.
