(** C03 proofs, part 2: schoolbook squaring (half grid, doubling by shl1_go, diagonal). *)
From CB Require Import Model.Limbs Model.AddSub Model.Mul Proofs.WordP Proofs.LimbsP Proofs.AddSubP
  Proofs.BitsP Proofs.MulBaseP.
From Coq Require Import ZArith Lia List.
Open Scope Z_scope.

(** sum of the diagonal terms x_j^2 * B^(2j) *)
Fixpoint diag (l : list Z) : Z :=
  match l with [] => 0 | x :: r => x * x + B * B * diag r end.

Lemma diag_app a b : diag (a ++ b) = diag a + Bn (length a) * Bn (length a) * diag b.
Proof.
  induction a as [|x a IH]; cbn [app diag length].
  - rewrite Bn_0. ring.
  - rewrite IH, Bn_S. ring.
Qed.

Lemma zeros_app a b : zeros (a + b) = zeros a ++ zeros b.
Proof. unfold zeros. apply repeat_app. Qed.
Lemma zeros_S n : zeros (S n) = 0 :: zeros n.
Proof. reflexivity. Qed.

Lemma sq_rows_correct rest : forall done acc i,
  wf acc -> wf done -> wf rest -> length done = i -> (1 <= i)%nat -> length acc = (2 * i - 1)%nat ->
  2 * eval acc + diag done = eval done * eval done ->
  exists acc', sq_rows (acc ++ zeros (2 * length rest + 1)) i rest (done ++ rest) = acc' ++ [0] /\
    wf acc' /\ length acc' = (2 * (i + length rest) - 1)%nat /\
    2 * eval acc' + diag (done ++ rest) = eval (done ++ rest) * eval (done ++ rest).
Proof.
  induction rest as [|xi rest IH]; intros done acc i Ha Hd Hr Hld Hi Hla Hinv.
  - exists acc. cbn [sq_rows length Nat.mul Nat.add zeros repeat]. rewrite app_nil_r, Nat.add_0_r.
    auto.
  - apply wf_cons in Hr. destruct Hr as [Hxi Hr].
    cbn [sq_rows].
    replace (2 * length (xi :: rest) + 1)%nat with (S (S (2 * length rest + 1))) by (cbn [length]; lia).
    rewrite !zeros_S, snoc_app, firstn_exact' by (symmetry; exact Hld).
    (* row i adds xi * (x_0 .. x_{i-1}) at offset i of the 2i limbs acc ++ [0]; its carry lands on limb 2i *)
    destruct (mac_row_top (acc ++ [0]) (0 :: zeros (2 * length rest + 1)) i xi done
                (wf_snoc _ _ Ha is_word_0) Hd Hxi ltac:(rewrite app_length; cbn [length]; lia))
      as (acc1 & c & -> & Hw1 & Hl1 & Hc & Hev).
    rewrite app_length in Hl1, Hev. cbn [length] in Hl1, Hev.
    rewrite upd_mid', snoc_app, (snoc_app done) by lia.
    destruct (IH (done ++ [xi]) (acc1 ++ [c]) (S i) (wf_snoc _ _ Hw1 Hc) (wf_snoc _ _ Hd Hxi) Hr)
      as (acc' & E' & Hwa' & Hla' & Hinv').
    + rewrite app_length. cbn [length]. lia.
    + lia.
    + rewrite app_length. cbn [length]. lia.
    + rewrite diag_app, !eval_app, Hl1, Hld. cbn [diag eval]. rewrite eval_app in Hev. cbn [eval] in Hev.
      replace (length acc + 1)%nat with (i + i)%nat in * by lia. rewrite Bn_add in *.
      apply Z.add_move_r in Hev. rewrite Hev.
      assert (diag done = eval done * eval done - 2 * eval acc) as -> by lia. ring.
    + exists acc'. split; [exact E'|]. split; [assumption|]. split; [|assumption].
      rewrite Hla'. cbn [length]. lia.
Qed.

Lemma shl1_go_correct l : forall carry r c, wf l -> 0 <= carry <= 1 -> shl1_go l carry = (r, c) ->
  eval r + Bn (length l) * c = 2 * eval l + carry /\ wf r /\ length r = length l /\ 0 <= c <= 1.
Proof.
  induction l as [|wd l IH]; intros carry r c Hl Hc E.
  - cbn [shl1_go] in E. inv_pair E. cbn [eval length]. rewrite Bn_0.
    split; [lia|]. split; [apply wf_nil|]. split; [reflexivity | lia].
  - apply wf_cons in Hl. destruct Hl as [Hwd Hl]. cbn [shl1_go] in E.
    destruct (shl1_go l (wd / 2 ^ 63)) as [r' c'] eqn:E'. inv_pair E.
    destruct (wshl_split wd 1 Hwd ltac:(lia)) as (Hs & Hq & k & Hk & Hk0).
    change (64 - 1) with 63 in *. change (2 ^ 1) with 2 in *.
    destruct (IH (wd / 2 ^ 63) r' c' Hl ltac:(lia) E') as (IH1 & IH2 & IH3 & IH4).
    assert (Hw : is_word (wshl wd 1)) by (unfold wshl, wrap; apply is_word_mod).
    assert (Hlor : Z.lor (wshl wd 1) carry = wshl wd 1 + carry).
    { rewrite Hk. apply (lor_disjoint k carry 1); [lia | change (2 ^ 1) with 2; lia]. }
    rewrite Hlor. cbn [eval length]. rewrite Bn_S.
    split; [|split; [|split]]; auto.
    + assert (eval r' = 2 * eval l + wd / 2 ^ 63 - Bn (length l) * c') as -> by lia.
      assert (wshl wd 1 = wd * 2 - wd / 2 ^ 63 * B) as -> by lia. ring.
    + apply wf_cons. split; [|assumption]. unfold is_word in *. pose proof B_half. lia.
Qed.

Lemma sq_diag_correct xs : forall pre rest i carry,
  wf rest -> wf xs -> length pre = (2 * i)%nat -> length rest = (2 * length xs)%nat -> 0 <= carry <= 1 ->
  exists r' c', sq_diag (pre ++ rest) i xs carry = pre ++ r' /\ wf r' /\ length r' = length rest /\
    0 <= c' <= 1 /\ eval r' + Bn (length rest) * c' = eval rest + diag xs + carry.
Proof.
  induction xs as [|xi xs IH]; intros pre rest i carry Hr Hx Hlp Hlr Hc.
  - destruct rest; [|discriminate]. exists [], carry. cbn [sq_diag length eval diag]. rewrite Bn_0.
    split; [reflexivity|]. split; [apply wf_nil|]. split; [reflexivity|]. split; lia.
  - destruct rest as [|a [|b rest]]; try (simpl in Hlr; lia).
    apply wf_cons in Hx. destruct Hx as [Hxi Hx].
    apply wf_cons in Hr. destruct Hr as [Ha Hr]. apply wf_cons in Hr. destruct Hr as [Hb Hr].
    cbn [sq_diag].
    rewrite nthz_mid' by lia.
    destruct (mac a xi xi carry) as [v c] eqn:Em.
    pose proof (mac_exact _ _ _ _ _ _ Ha Hxi Hxi (is_word_01 _ Hc) Em) as (Hm & Hv & Hcw).
    rewrite upd_mid', snoc_app by lia.
    rewrite nthz_mid' by (rewrite app_length; simpl; lia).
    unfold overflowing_add.
    rewrite upd_mid', snoc_app by (rewrite app_length; simpl; lia).
    pose proof B_gt1 as HB.
    pose proof (Z.div_mod (b + c) B ltac:(lia)) as Hdm.
    pose proof (Z.mod_pos_bound (b + c) B ltac:(lia)) as Hmb.
    assert (Hc2 : 0 <= (b + c) / B <= 1).
    { unfold is_word in *. split; [apply Z.div_pos; lia | apply Z.lt_succ_r; apply Z.div_lt_upper_bound; lia]. }
    destruct (IH ((pre ++ [v]) ++ [(b + c) mod B]) rest (S i) ((b + c) / B) Hr Hx) as (r'' & c' & E & Hw & Hl & Hc' & He).
    + rewrite !app_length. simpl. lia.
    + simpl in Hlr. lia.
    + assumption.
    + exists (v :: (b + c) mod B :: r''), c'. rewrite E.
      split; [rewrite <- !app_assoc; reflexivity|].
      split; [apply wf_cons; split; [assumption|]; apply wf_cons; split; [apply is_word_mod | assumption]|].
      split; [simpl; lia|]. split; [assumption|].
      cbn [eval length diag]. rewrite !Bn_S.
      assert (eval r'' = eval rest + diag xs + (b + c) / B - Bn (length rest) * c') as -> by lia.
      assert (v = a + xi * xi + carry - B * c) as -> by lia.
      assert ((b + c) mod B = b + c - B * ((b + c) / B)) as -> by lia. ring.
Qed.

Lemma Bn_double n : Bn (2 * n) = Bn n * Bn n.
Proof. replace (2 * n)%nat with (n + n)%nat by lia. apply Bn_add. Qed.

Theorem schoolbook_sq_correct xs : wf xs ->
  eval (schoolbook_sq xs) = eval xs * eval xs /\ wf (schoolbook_sq xs) /\
  length (schoolbook_sq xs) = (2 * length xs)%nat.
Proof.
  intros Hx. destruct xs as [|x0 tl].
  - cbn. split; [reflexivity|]. split; [apply wf_nil | reflexivity].
  - unfold schoolbook_sq. cbv zeta.
    set (xs := x0 :: tl) in *.
    assert (Hn : length xs = S (length tl)) by reflexivity.
    pose proof Hx as Hx'. apply wf_cons in Hx'. destruct Hx' as [Hx0 Htl].
    replace (zeros (2 * length xs)) with ([0] ++ zeros (2 * length tl + 1)).
    2:{ change [0] with (zeros 1). rewrite <- zeros_app. f_equal. lia. }
    destruct (sq_rows_correct tl [x0] [0] 1) as (acc & E & Hwa & Hla & Hinv); auto.
    { apply wf_one, is_word_0. }
    { apply wf_one. assumption. }
    { cbn [eval diag]. ring. }
    change ([x0] ++ tl) with xs in *. rewrite E.
    rewrite firstn_exact' by lia.
    destruct (shl1_go acc 0) as [dbl c] eqn:Es.
    destruct (shl1_go_correct acc 0 dbl c Hwa ltac:(lia) Es) as (Hd & Hwd & Hld & Hc).
    assert (Hwr : wf (dbl ++ [c])) by (apply wf_snoc; [assumption | apply is_word_01; assumption]).
    assert (Hlr : length (dbl ++ [c]) = (2 * length xs)%nat) by (rewrite app_length; simpl; lia).
    destruct (sq_diag_correct xs [] (dbl ++ [c]) 0 0 Hwr Hx eq_refl Hlr ltac:(lia))
      as (r' & c' & Ed & Hwr' & Hlr' & Hc' & He).
    cbn [app] in Ed. rewrite Ed.
    rewrite eval_app in He. cbn [eval] in He. rewrite Hlr, Bn_double in He.
    pose proof (eval_bounds _ Hwr') as Hb. rewrite Hlr', Hlr, Bn_double in Hb.
    pose proof (eval_bounds _ Hx) as Hbx. pose proof (Bn_pos (length xs)) as Hp.
    assert (Hsq : eval xs * eval xs < Bn (length xs) * Bn (length xs)).
    { apply Z.mul_lt_mono_nonneg; lia. }
    rewrite Hld in He.
    assert (c' = 0 \/ c' = 1) as [-> | ->] by lia; [|exfalso; lia].
    split; [lia|]. split; [assumption|]. lia.
Qed.
