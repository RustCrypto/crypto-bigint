(** C07 proofs: modular add / sub / neg / double, the special-modulus variants (p = 2^BITS - c),
    mac_by_limb and the HAC 14.47 reduction of mul_mod_special.  All statements for every limb count. *)
From CB Require Import Model.Limbs Model.AddSub Model.Mul Model.Div Model.ModArith
  Proofs.WordP Proofs.WordPredP Proofs.LimbsP Proofs.AddSubP Proofs.DivP.
From Coq Require Import ZArith Lia List Bool.
Open Scope Z_scope.

Lemma mod_once a p : 0 < p -> p <= a < 2 * p -> a mod p = a - p.
Proof. intros Hp Ha. symmetry. apply (Z.mod_unique_pos a p 1); lia. Qed.

Lemma mod_neg_once a p : 0 < p -> - p <= a < 0 -> a mod p = a + p.
Proof. intros Hp Ha. symmetry. apply (Z.mod_unique_pos a p (-1)); lia. Qed.

(** the limb list of a result is determined by its value, well-formedness and length: how a concrete run is read off
    a correctness theorem of the shape [eval r = v /\ wf r /\ length r = n] *)
Lemma limbs_of_spec r s v n : eval r = v /\ wf r /\ length r = n -> wf s -> length s = n -> eval s = v -> r = s.
Proof. intros (E & W & L) Ws Ls Es. apply eval_inj; congruence. Qed.

(** the same for a result stated as the limbs of a residue; x, p are given up to a provable equality so that
    neither residue has to be computed *)
Lemma to_limbs_of_spec r x p y q n : eval r = x mod p /\ wf r /\ length r = n -> x = y -> p = q -> 0 < q <= Bn n ->
  r = to_limbs n (y mod q).
Proof.
  intros (E & W & L) <- <- Hp. apply to_limbs_unique; try assumption.
  pose proof (Z.mod_pos_bound x p ltac:(lia)). rewrite E. symmetry. apply Z.mod_small. lia.
Qed.

Lemma is_word_1 : is_word 1. Proof. exact WordPredP.is_word_1. Qed.
Lemma is_word_MAXW : is_word MAXW. Proof. exact WordPredP.is_word_MAXW. Qed.
Lemma is_word_01 c : 0 <= c <= 1 -> is_word c.
Proof. unfold is_word. pose proof B_gt1. lia. Qed.
Lemma wand_MAXW_l x : is_word x -> wand MAXW x = x.
Proof. intros H. unfold wand. apply land_MAXW. assumption. Qed.
Lemma wand_0_l x : wand 0 x = 0.
Proof. unfold wand. apply Z.land_0_l. Qed.

Lemma wsub_1_1 : wsub 1 1 = 0. Proof. reflexivity. Qed.
Lemma wsub_0_1 : wsub 0 1 = MAXW. Proof. reflexivity. Qed.

(** the mask of the special-modulus forms: c is subtracted again iff there was no carry *)
Lemma wand_not_carry k c : is_word c -> k = 0 \/ k = 1 ->
  is_word (wand (wsub k 1) c) /\ wand (wsub k 1) c = if k =? 0 then c else 0.
Proof.
  intros Hc [-> | ->].
  - rewrite wsub_0_1, wand_MAXW_l by assumption. split; [assumption | reflexivity].
  - rewrite wsub_1_1, wand_0_l. split; [apply is_word_0 | reflexivity].
Qed.

Lemma bitand_limb_0 p : bitand_limb p 0 = zeros (length p).
Proof.
  unfold bitand_limb, zeros. induction p as [|x p IH]; [reflexivity|].
  cbn [map length repeat]. rewrite wand_0_r, IH. reflexivity.
Qed.
Lemma bitand_limb_MAXW p : wf p -> bitand_limb p MAXW = p.
Proof.
  unfold bitand_limb. induction p as [|x p IH]; intros H; [reflexivity|].
  apply wf_cons in H. destruct H as [Hx Hp]. cbn [map]. rewrite wand_MAXW_r, IH by assumption. reflexivity.
Qed.

(** masking with a borrow word (0 or MAX) keeps or clears the operand *)
Lemma bitand_limb_borrow p m : wf p -> is_borrow m ->
  eval (bitand_limb p m) = eval p * bout m /\ wf (bitand_limb p m) /\ length (bitand_limb p m) = length p.
Proof.
  intros Hp [-> | ->].
  - rewrite bitand_limb_0, eval_zeros, length_zeros, bout_0. repeat split; [lia | apply wf_zeros].
  - rewrite bitand_limb_MAXW, bout_MAXW by assumption. repeat split; [lia | assumption].
Qed.

(** the mask of add_mod / double_mod: sbb(carry, 0, borrow).1 is set iff carry = 0 and borrow is set *)
Lemma carry_borrow_mask carry borrow r mask :
  0 <= carry <= 1 -> is_borrow borrow -> sbb carry 0 borrow = (r, mask) ->
  is_borrow mask /\ bout mask = (if carry =? 0 then bout borrow else 0).
Proof.
  intros Hc Hb E.
  pose proof (sbb_exact carry 0 borrow r mask (is_word_01 _ Hc) is_word_0 (is_borrow_word _ Hb) E) as (Hr & Hcase).
  rewrite (bin_bout _ Hb) in Hcase. unfold is_word in Hr. pose proof B_gt1.
  destruct Hb as [-> | ->]; rewrite ?bout_0, ?bout_MAXW in *.
  - destruct Hcase as [[-> Hv]|[-> Hv]]; [|lia]. split; [left; reflexivity|]. rewrite bout_0. destruct (carry =? 0); reflexivity.
  - assert (carry = 0 \/ carry = 1) as [-> | ->] by lia.
    + destruct Hcase as [[-> Hv]|[-> Hv]]; [lia|]. split; [right; reflexivity|]. rewrite bout_MAXW. reflexivity.
    + destruct Hcase as [[-> Hv]|[-> Hv]]; [|lia]. split; [left; reflexivity|]. rewrite bout_0. reflexivity.
Qed.

(** common tail: the (n+1)-limb value V = eval w + 2^BITS * carry, V < 2p, is reduced to V mod p *)
Lemma add_mod_tail_correct w carry p :
  wf w -> wf p -> length w = length p -> 0 <= carry <= 1 ->
  0 <= eval w + Bn (length w) * carry < 2 * eval p ->
  eval (add_mod_tail w carry p) = (eval w + Bn (length w) * carry) mod eval p
  /\ wf (add_mod_tail w carry p) /\ length (add_mod_tail w carry p) = length w.
Proof.
  intros Hw Hp Hl Hc HV. unfold add_mod_tail.
  destruct (sbb_limbs w p 0) as [w1 borrow] eqn:E1.
  destruct (sbb carry 0 borrow) as [r mask] eqn:E2.
  pose proof (sbb_limbs_correct w p 0 w1 borrow Hw Hp Hl is_word_0 E1) as (Hw1 & Hl1 & [(Hz & _)|(Hnz & Hib & He)]).
  - destruct w; [|discriminate]. destruct p; [|discriminate]. simpl in HV. rewrite Bn_0 in HV. lia.
  - rewrite bin_0 in He.
    pose proof (carry_borrow_mask carry borrow r mask Hc Hib E2) as (Him & Hbm).
    pose proof (bitand_limb_borrow p mask Hp Him) as (Hpe & Hpw & Hpl).
    pose proof (wrapping_add_spec w1 (bitand_limb p mask) Hw1 Hpw ltac:(lia)) as (Hre & Hrw & Hrl).
    split; [|split; [assumption | lia]].
    rewrite Hre, Hpe, Hbm, Hl1.
    pose proof (eval_bounds w Hw) as Bw. pose proof (eval_bounds p Hp) as Bp. pose proof (eval_bounds w1 Hw1) as Bw1.
    rewrite Hl1 in Bw1. rewrite <- Hl in Bp. set (N := Bn (length w)) in *.
    assert (carry = 0 \/ carry = 1) as [-> | ->] by lia.
    + change (0 =? 0) with true. cbv iota.
      destruct Hib as [-> | ->]; rewrite ?bout_0, ?bout_MAXW in *.
      * (* w >= p *) replace (eval w + N * 0) with (eval w) by lia.
        rewrite (mod_once (eval w)) by lia. rewrite Z.mod_small by lia. lia.
      * (* w < p : add p back *) replace (eval w + N * 0) with (eval w) by lia.
        rewrite (Z.mod_small (eval w)) by lia.
        symmetry. apply (Z.mod_unique_pos _ N 1); lia.
    + change (1 =? 0) with false. cbv iota.
      destruct Hib as [-> | ->]; rewrite ?bout_0, ?bout_MAXW in *.
      * (* impossible: w >= p and w + N < 2p *) lia.
      * rewrite (mod_once (eval w + N * 1)) by lia. rewrite Z.mod_small by lia. lia.
Qed.

Theorem add_mod_correct a b p :
  wf a -> wf b -> wf p -> length a = length b -> length a = length p ->
  eval a < eval p -> eval b < eval p ->
  eval (add_mod a b p) = (eval a + eval b) mod eval p
  /\ wf (add_mod a b p) /\ length (add_mod a b p) = length a.
Proof.
  intros Ha Hb Hp Hlb Hlp Hap Hbp. unfold add_mod.
  destruct (adc_limbs a b 0) as [w carry] eqn:E.
  pose proof (adc_limbs_correct a b 0 w carry Ha Hb Hlb is_word_0 E) as (He & Hw & Hlw & Hco & Hsm).
  unfold is_word in Hco. specialize (Hsm ltac:(lia)).
  pose proof (eval_nonneg a Ha). pose proof (eval_nonneg b Hb).
  pose proof (add_mod_tail_correct w carry p Hw Hp ltac:(lia) ltac:(lia)) as H1.
  rewrite Hlw in H1. specialize (H1 ltac:(lia)). destruct H1 as (H1 & H2 & H3).
  rewrite H1. split; [f_equal; lia | split; assumption].
Qed.

Lemma shl1_val_correct a w carry : wf a -> shl1_val a = (w, carry) ->
  eval w + Bn (length a) * carry = 2 * eval a /\ wf w /\ length w = length a /\ 0 <= carry <= 1.
Proof.
  intros Ha E. unfold shl1_val in E. inv_pair E.
  pose proof (eval_bounds a Ha) as Ba. pose proof (Bn_pos (length a)) as HN. set (N := Bn (length a)) in *.
  rewrite eval_to_limbs, Z.mod_mod by lia. fold N.
  pose proof (Z.div_mod (2 * eval a) N ltac:(lia)). pose proof (Z.mod_pos_bound (2 * eval a) N ltac:(lia)).
  repeat split; try lia.
  - apply wf_to_limbs.
  - apply length_to_limbs.
  - apply Z.div_pos; lia.
  - apply Z.lt_succ_r. apply Z.div_lt_upper_bound; lia.
Qed.

Theorem double_mod_correct a p :
  wf a -> wf p -> length a = length p -> eval a < eval p ->
  eval (double_mod a p) = (2 * eval a) mod eval p
  /\ wf (double_mod a p) /\ length (double_mod a p) = length a.
Proof.
  intros Ha Hp Hlp Hap. unfold double_mod.
  destruct (shl1_val a) as [w carry] eqn:E.
  pose proof (shl1_val_correct a w carry Ha E) as (He & Hw & Hlw & Hc).
  pose proof (eval_nonneg a Ha).
  pose proof (add_mod_tail_correct w carry p Hw Hp ltac:(lia) Hc) as H1.
  rewrite Hlw in H1. specialize (H1 ltac:(lia)). destruct H1 as (H1 & H2 & H3).
  rewrite H1. split; [f_equal; lia | split; assumption].
Qed.

Theorem sub_mod_correct a b p :
  wf a -> wf b -> wf p -> length a = length b -> length a = length p ->
  eval a < eval p -> eval b < eval p ->
  eval (sub_mod a b p) = (eval a - eval b) mod eval p
  /\ wf (sub_mod a b p) /\ length (sub_mod a b p) = length a.
Proof.
  intros Ha Hb Hp Hlb Hlp Hap Hbp. unfold sub_mod.
  destruct (sbb_limbs a b 0) as [out mask] eqn:E.
  pose proof (eval_bounds a Ha) as Ba. pose proof (eval_bounds b Hb) as Bb. pose proof (eval_bounds p Hp) as Bp.
  pose proof (sbb_limbs_correct a b 0 out mask Ha Hb Hlb is_word_0 E) as (Hwo & Hlo & [(Hz & _)|(Hnz & Him & He)]).
  - destruct a; [|discriminate]. destruct p; [|discriminate]. simpl in Hap. lia.
  - rewrite bin_0 in He.
    pose proof (bitand_limb_borrow p mask Hp Him) as (Hpe & Hpw & Hpl).
    pose proof (wrapping_add_spec out (bitand_limb p mask) Hwo Hpw ltac:(lia)) as (Hre & Hrw & Hrl).
    split; [|split; [assumption | lia]].
    rewrite Hre, Hpe, Hlo. pose proof (eval_bounds out Hwo) as Bo. rewrite Hlo in Bo.
    rewrite <- Hlp in Bp. rewrite <- Hlb in Bb. set (N := Bn (length a)) in *.
    destruct Him as [-> | ->]; rewrite ?bout_0, ?bout_MAXW in *.
    + rewrite (Z.mod_small (eval a - eval b)) by lia. rewrite Z.mod_small by lia. lia.
    + rewrite (mod_neg_once (eval a - eval b)) by lia. symmetry. apply (Z.mod_unique_pos _ N 1); lia.
Qed.

Lemma forallb_zero_eval a : wf a -> forallb (fun x => x =? 0) a = (eval a =? 0).
Proof.
  induction a as [|x a IH]; intros H; [reflexivity|].
  apply wf_cons in H. destruct H as [Hx Ha]. cbn [forallb eval]. rewrite (IH Ha).
  pose proof (eval_nonneg a Ha). unfold is_word in Hx. pose proof B_gt1.
  destruct (x =? 0) eqn:Ex; destruct (eval a =? 0) eqn:Ea; cbn [andb]; symmetry;
    rewrite ?Z.eqb_eq, ?Z.eqb_neq in *; nia.
Qed.

Lemma map_if_true_0 l : map (fun x => if_true_word 0 x) l = zeros (length l).
Proof. unfold if_true_word. apply (bitand_limb_0 l). Qed.
Lemma map_if_true_MAXW l : wf l -> map (fun x => if_true_word MAXW x) l = l.
Proof. unfold if_true_word. apply (bitand_limb_MAXW l). Qed.

Theorem neg_mod_correct a p :
  wf a -> wf p -> length a = length p -> eval a < eval p ->
  eval (neg_mod a p) = (- eval a) mod eval p
  /\ wf (neg_mod a p) /\ length (neg_mod a p) = length a.
Proof.
  intros Ha Hp Hlp Hap. unfold neg_mod.
  destruct (sbb_limbs p a 0) as [out bo] eqn:E. cbn [fst].
  pose proof (eval_bounds a Ha) as Ba. pose proof (eval_bounds p Hp) as Bp.
  pose proof (sbb_limbs_correct p a 0 out bo Hp Ha ltac:(lia) is_word_0 E) as (Hwo & Hlo & [(Hz & _)|(Hnz & Hib & He)]).
  - destruct p; [|discriminate]. destruct a; [|discriminate]. simpl in Hap. lia.
  - rewrite bin_0 in He. pose proof (eval_bounds out Hwo) as Bo. rewrite Hlo in Bo.
    rewrite forallb_zero_eval by assumption.
    destruct (eval a =? 0) eqn:Ez.
    + apply Z.eqb_eq in Ez. rewrite map_if_true_0, eval_zeros, length_zeros, Ez.
      split; [rewrite Z.mod_0_l by lia; reflexivity | split; [apply wf_zeros | lia]].
    + apply Z.eqb_neq in Ez. rewrite map_if_true_MAXW by assumption.
      split; [|split; [assumption | lia]].
      destruct Hib as [-> | ->]; rewrite ?bout_0, ?bout_MAXW in *; [|lia].
      rewrite mod_neg_once by lia. lia.
Qed.

Lemma eval_from_word_n n l : is_word l -> n <> 0%nat ->
  eval (from_word_n n l) = l /\ wf (from_word_n n l) /\ length (from_word_n n l) = n.
Proof.
  intros Hl Hn. unfold from_word_n.
  assert (Hw : wf [l]) by (apply wf_cons; split; [assumption | apply wf_nil]).
  split; [|split; [apply wf_resize; assumption | apply length_resize]].
  rewrite eval_resize_ge by (auto; simpl; lia). simpl. lia.
Qed.

Lemma psp_pos_nonzero n c : 1 <= c -> 0 < psp n c -> n <> 0%nat.
Proof. unfold psp. intros Hc Hp ->. rewrite Bn_0 in Hp. lia. Qed.

Theorem add_mod_special_correct a b c :
  wf a -> wf b -> length a = length b -> 1 <= c < B -> 0 < psp (length a) c ->
  eval a < psp (length a) c -> eval b < psp (length a) c ->
  eval (add_mod_special a b c) = (eval a + eval b) mod psp (length a) c
  /\ wf (add_mod_special a b c) /\ length (add_mod_special a b c) = length a.
Proof.
  intros Ha Hb Hlb Hc Hp0 Hap Hbp. unfold add_mod_special.
  destruct (adc_limbs a b c) as [out carry] eqn:E.
  assert (Hcw : is_word c) by (unfold is_word; lia).
  pose proof (adc_limbs_correct a b c out carry Ha Hb Hlb Hcw E) as (He & Hwo & Hlo & Hco & _).
  pose proof (psp_pos_nonzero (length a) c ltac:(lia) Hp0) as Hn.
  pose proof (eval_nonneg a Ha). pose proof (eval_nonneg b Hb).
  pose proof (eval_bounds out Hwo) as Bo. rewrite Hlo in Bo.
  unfold psp in *. pose proof (Bn_pos (length a)) as HN. set (N := Bn (length a)) in *.
  unfold is_word in Hco.
  assert (Hc01 : carry = 0 \/ carry = 1).
  { destruct (Z_lt_ge_dec carry 2) as [|Hge]; [lia|].
    assert (N * 2 <= N * carry) by (apply Z.mul_le_mono_nonneg_l; lia). lia. }
  destruct (wand_not_carry carry c Hcw Hc01) as [Hlw Hlv]. set (l := wand (wsub carry 1) c) in *.
  pose proof (eval_from_word_n (length a) l Hlw Hn) as (Hfe & Hfw & Hfl).
  pose proof (wrapping_sub_spec out (from_word_n (length a) l) Hwo Hfw ltac:(lia)) as (Hre & Hrw & Hrl).
  split; [|split; [assumption | lia]].
  rewrite Hre, Hfe, Hlo, Hlv. fold N.
  destruct Hc01 as [-> | ->].
  - change (0 =? 0) with true. cbv iota.
    rewrite (Z.mod_small (eval a + eval b)) by lia. rewrite Z.mod_small by lia. lia.
  - change (1 =? 0) with false. cbv iota.
    rewrite (mod_once (eval a + eval b)) by lia. rewrite Z.mod_small by lia. lia.
Qed.

Theorem sub_mod_special_correct a b c :
  wf a -> wf b -> length a = length b -> 1 <= c < B -> 0 < psp (length a) c ->
  eval a < psp (length a) c -> eval b < psp (length a) c ->
  eval (sub_mod_special a b c) = (eval a - eval b) mod psp (length a) c
  /\ wf (sub_mod_special a b c) /\ length (sub_mod_special a b c) = length a.
Proof.
  intros Ha Hb Hlb Hc Hp0 Hap Hbp. unfold sub_mod_special.
  destruct (sbb_limbs a b 0) as [out borrow] eqn:E.
  assert (Hcw : is_word c) by (unfold is_word; lia).
  pose proof (psp_pos_nonzero (length a) c ltac:(lia) Hp0) as Hn.
  pose proof (sbb_limbs_correct a b 0 out borrow Ha Hb Hlb is_word_0 E) as (Hwo & Hlo & [(Hz & _)|(_ & Hib & He)]);
    [contradiction|].
  rewrite bin_0 in He.
  pose proof (eval_nonneg a Ha). pose proof (eval_nonneg b Hb).
  pose proof (eval_bounds out Hwo) as Bo. rewrite Hlo in Bo.
  unfold psp in *. pose proof (Bn_pos (length a)) as HN. set (N := Bn (length a)) in *.
  set (l := wand borrow c).
  assert (Hl : is_word l /\ l = c * bout borrow).
  { unfold l. destruct Hib as [-> | ->].
    - rewrite wand_0_l, bout_0. split; [apply is_word_0 | lia].
    - rewrite wand_MAXW_l, bout_MAXW by assumption. split; [assumption | lia]. }
  destruct Hl as [Hlw Hlv].
  pose proof (eval_from_word_n (length a) l Hlw Hn) as (Hfe & Hfw & Hfl).
  pose proof (wrapping_sub_spec out (from_word_n (length a) l) Hwo Hfw ltac:(lia)) as (Hre & Hrw & Hrl).
  split; [|split; [assumption | lia]].
  rewrite Hre, Hfe, Hlo, Hlv. fold N.
  destruct Hib as [-> | ->]; rewrite ?bout_0, ?bout_MAXW in *.
  - rewrite (Z.mod_small (eval a - eval b)) by lia. rewrite Z.mod_small by lia. lia.
  - rewrite (mod_neg_once (eval a - eval b)) by lia. rewrite Z.mod_small by lia. lia.
Qed.

Theorem neg_mod_special_correct a c :
  wf a -> 1 <= c < B -> 0 < psp (length a) c -> eval a < psp (length a) c ->
  eval (neg_mod_special a c) = (- eval a) mod psp (length a) c
  /\ wf (neg_mod_special a c) /\ length (neg_mod_special a c) = length a.
Proof.
  intros Ha Hc Hp0 Hap. unfold neg_mod_special.
  pose proof (sub_mod_special_correct (zeros (length a)) a c (wf_zeros _) Ha (length_zeros _) Hc) as H.
  rewrite length_zeros, eval_zeros in H. specialize (H Hp0 ltac:(lia) Hap).
  replace (- eval a) with (0 - eval a) by lia. exact H.
Qed.

Theorem mac_by_limb_correct a : forall b c carry r co,
  wf a -> wf b -> length a = length b -> is_word c -> is_word carry ->
  mac_by_limb a b c carry = (r, co) ->
  eval r + Bn (length a) * co = eval a + eval b * c + carry /\ wf r /\ length r = length a /\ is_word co.
Proof.
  induction a as [|x a IH]; intros b c carry r co Ha Hb Hl Hc Hk E.
  - destruct b; [|discriminate]. simpl in E. inv_pair E. simpl. rewrite Bn_0.
    repeat split; try lia; [apply wf_nil | apply Hk | apply Hk].
  - destruct b as [|y b]; [discriminate|]. simpl in Hl.
    apply wf_cons in Ha. destruct Ha as [Hx Ha]. apply wf_cons in Hb. destruct Hb as [Hy Hb].
    cbn [mac_by_limb] in E.
    destruct (mac x y c carry) as [v cy] eqn:E1.
    destruct (mac_by_limb a b c cy) as [r' cf] eqn:E2.
    inv_pair E.
    pose proof (mac_exact _ _ _ _ _ _ Hx Hy Hc Hk E1) as (H1 & Hv & Hcy).
    specialize (IH b c cy r' cf Ha Hb ltac:(lia) Hc Hcy E2). destruct IH as (H2 & Hwr & Hlr & Hcf).
    cbn [eval length]. rewrite Bn_S.
    repeat split; try (simpl; lia); try apply Hcf.
    apply wf_cons. split; assumption.
Qed.

(** * mul_mod_special: HAC 14.47 for p = N - c, N = 2^BITS >= B^2 *)

(** the reduction on integers.  x = lo + N*hi is ANY double-width value (no bound by p^2 is needed):
    one multiply-accumulate by c, one addition of (k1+1)*c and one conditional subtraction of c give x mod p *)
Lemma hac1447 N c lo hi lo1 k1 lo2 k2 :
  B * B <= N -> 1 <= c < B ->
  0 <= lo < N -> 0 <= hi < N ->
  0 <= lo1 < N -> 0 <= k1 -> lo1 + N * k1 = lo + hi * c ->
  0 <= lo2 < N -> 0 <= k2 <= 1 -> lo2 + N * k2 = lo1 + (k1 + 1) * c ->
  (lo2 - (if k2 =? 0 then c else 0)) mod N = (lo + N * hi) mod (N - c).
Proof.
  intros HN Hc Hlo Hhi Hlo1 Hk1 E1 Hlo2 Hk2 E2. pose proof B_gt1.
  assert (Hhc : 0 <= hi * c <= (N - 1) * c).
  { split; [apply Z.mul_nonneg_nonneg; lia | apply Z.mul_le_mono_nonneg_r; lia]. }
  assert (Hk1c : k1 <= c).
  { destruct (Z_lt_ge_dec c k1) as [Hlt|]; [|lia].
    assert (N * (c + 1) <= N * k1) by (apply Z.mul_le_mono_nonneg_l; lia). lia. }
  assert (Hcc : c * c <= (B - 1) * (B - 1)) by (apply Z.mul_le_mono_nonneg; lia).
  assert (Hkc : 0 <= k1 * c) by (apply Z.mul_nonneg_nonneg; lia).
  (* y = lo1 + k1*c is congruent to x and below N - 1 - c + c^2 < 2p *)
  assert (Hy : lo1 + k1 * c <= N - 1 - c + c * c).
  { destruct (Z.eq_dec k1 c) as [->|Hne].
    - lia.
    - assert (k1 * c <= (c - 1) * c) by (apply Z.mul_le_mono_nonneg_r; lia). lia. }
  assert (k2 = 0 \/ k2 = 1) as [-> | ->] by lia.
  - change (0 =? 0) with true. cbv iota.
    rewrite Z.mod_small by lia.
    apply (Z.mod_unique_pos _ _ (k1 + hi)); lia.
  - change (1 =? 0) with false. cbv iota.
    rewrite Z.mod_small by lia.
    apply (Z.mod_unique_pos _ _ (k1 + hi + 1)); lia.
Qed.

Lemma Bn_ge_BB n : (2 <= n)%nat -> B * B <= Bn n.
Proof. intros H. pose proof (Bn_le 2 n H) as H2. rewrite (Bn_S 1), Bn_1 in H2. exact H2. Qed.

Lemma eval_from_wide_word_n n x : (2 <= n)%nat -> 0 <= x < B * B ->
  eval (from_wide_word_n n x) = x /\ wf (from_wide_word_n n x) /\ length (from_wide_word_n n x) = n.
Proof.
  intros Hn Hx. unfold from_wide_word_n. pose proof B_gt1.
  pose proof (Z.div_mod x B ltac:(lia)). pose proof (Z.mod_pos_bound x B ltac:(lia)).
  assert (Hq : 0 <= x / B < B).
  { split; [apply Z.div_pos; lia | apply Z.div_lt_upper_bound; lia]. }
  assert (Hw : wf [x mod B; x / B]).
  { apply wf_cons. split; [apply is_word_mod|]. apply wf_cons. split; [exact Hq | apply wf_nil]. }
  split; [|split; [apply wf_resize; assumption | apply length_resize]].
  rewrite eval_resize_ge by (auto; simpl; lia). simpl. lia.
Qed.

(** Multi-limb branch (n >= 2).  The only fact used about the multiplication is that (lo, hi) is the
    double-width product; a, b need not be reduced. *)
Theorem mul_mod_special_wide_correct dbg mulf a b c lo hi :
  (2 <= length a)%nat -> 1 <= c < B ->
  mulf a b = (lo, hi) -> wf lo -> wf hi -> length lo = length a -> length hi = length a ->
  exists r, mul_mod_special dbg mulf a b c = Some r
    /\ eval r = (eval lo + Bn (length a) * eval hi) mod psp (length a) c
    /\ wf r /\ length r = length a.
Proof.
  intros Hn Hc Em Hwlo Hwhi Hllo Hlhi. unfold mul_mod_special.
  assert ((length a =? 1)%nat = false) as -> by (apply Nat.eqb_neq; lia).
  rewrite Em.
  assert (Hcw : is_word c) by (unfold is_word; lia).
  destruct (mac_by_limb lo hi c 0) as [lo1 k1] eqn:E1.
  pose proof (mac_by_limb_correct lo hi c 0 lo1 k1 Hwlo Hwhi ltac:(lia) Hcw is_word_0 E1) as (He1 & Hw1 & Hl1 & Hk1).
  rewrite Hllo in *. pose proof (Bn_ge_BB _ Hn) as HNB. set (N := Bn (length a)) in *.
  unfold is_word in Hk1. pose proof B_gt1.
  assert (Hrhs : 0 <= (k1 + 1) * c < B * B).
  { split; [apply Z.mul_nonneg_nonneg; lia|].
    assert ((k1 + 1) * c <= B * c) by (apply Z.mul_le_mono_nonneg_r; lia).
    assert (B * c <= B * (B - 1)) by (apply Z.mul_le_mono_nonneg_l; lia). lia. }
  pose proof (eval_from_wide_word_n (length a) _ Hn Hrhs) as (Hfe & Hfw & Hfl).
  destruct (adc_limbs lo1 (from_wide_word_n (length a) ((k1 + 1) * c)) 0) as [lo2 k2] eqn:E2.
  pose proof (adc_limbs_correct lo1 _ 0 lo2 k2 Hw1 Hfw ltac:(lia) is_word_0 E2) as (He2 & Hw2 & Hl2 & Hk2 & Hk2s).
  specialize (Hk2s ltac:(lia)). unfold is_word in Hk2. rewrite Hl1, Hfe in He2. fold N in He2.
  destruct (wand_not_carry k2 c Hcw ltac:(lia)) as [Hlw Hlv]. set (l := wand (wsub k2 1) c) in *.
  pose proof (eval_from_word_n (length a) l Hlw ltac:(lia)) as (Hge & Hgw & Hgl).
  pose proof (wrapping_sub_spec lo2 (from_word_n (length a) l) Hw2 Hgw ltac:(lia)) as (Hre & Hrw & Hrl).
  unfold uint_wrapping_sub in *.
  eexists. split; [reflexivity|]. split; [|split; [assumption | lia]].
  rewrite Hre, Hge, Hlv, Hl2, Hl1. fold N. unfold psp. fold N.
  pose proof (eval_bounds lo Hwlo) as Blo. pose proof (eval_bounds hi Hwhi) as Bhi.
  pose proof (eval_bounds lo1 Hw1) as Blo1. pose proof (eval_bounds lo2 Hw2) as Blo2.
  rewrite ?Hllo, ?Hlhi, ?Hl1, ?Hl2 in *. fold N in Blo, Bhi, Blo1, Blo2.
  apply (hac1447 N c (eval lo) (eval hi) (eval lo1) k1 (eval lo2) k2); try lia.
Qed.

Theorem mul_mod_special_correct dbg mulf a b c lo hi :
  wf a -> wf b -> length a = length b -> (2 <= length a)%nat -> 1 <= c < B ->
  eval a < psp (length a) c -> eval b < psp (length a) c ->
  mulf a b = (lo, hi) -> wf lo -> wf hi -> length lo = length a -> length hi = length a ->
  eval lo + Bn (length a) * eval hi = eval a * eval b ->
  exists r, mul_mod_special dbg mulf a b c = Some r
    /\ eval r = (eval a * eval b) mod psp (length a) c
    /\ wf r /\ length r = length a.
Proof.
  intros Ha Hb Hlab Hn Hc _ _ Em Hwlo Hwhi Hllo Hlhi Hprod.
  destruct (mul_mod_special_wide_correct dbg mulf a b c lo hi Hn Hc Em Hwlo Hwhi Hllo Hlhi) as (r & Hr & He & Hw & Hl).
  exists r. rewrite <- Hprod. auto.
Qed.

(** mul_rem (the model of src/uint/div_limb.rs): the product of two words reduced through the reciprocal of d; needs the
    64-bit Newton reciprocal to be exact for this divisor ([recip_ok], C02) *)
Lemma mul_rem_exact x y d : is_word x -> is_word y -> 0 < d < B ->
  recip_ok (r_d (recip_new d)) (reciprocal (r_d (recip_new d))) ->
  (let '(hi, lo) := mulhilo x y in rem_limb_with_reciprocal [lo; hi] (recip_new d)) = (x * y) mod d.
Proof.
  intros Hx Hy Hd Hrec. unfold mulhilo, rem_limb_with_reciprocal. unfold is_word in Hx, Hy. pose proof B_gt1.
  assert (Hxy : 0 <= x * y <= (B - 1) * (B - 1)).
  { split; [apply Z.mul_nonneg_nonneg; lia | apply Z.mul_le_mono_nonneg; lia]. }
  pose proof (Z.div_mod (x * y) B ltac:(lia)). pose proof (Z.mod_pos_bound (x * y) B ltac:(lia)).
  assert (Hq : 0 <= x * y / B < B).
  { split; [apply Z.div_pos; lia | apply Z.div_lt_upper_bound; lia]. }
  assert (Hw : wf [(x * y) mod B; x * y / B]).
  { apply wf_cons. split; [apply is_word_mod|]. apply wf_cons. split; [exact Hq | apply wf_nil]. }
  pose proof (div_rem_limb_correct [(x * y) mod B; x * y / B] d (recip_new d) Hw ltac:(lia) (recip_new_for d Hd Hrec)) as Hdiv.
  destruct (div_rem_limb_with_reciprocal [(x * y) mod B; x * y / B] (recip_new d)) as [q r].
  destruct Hdiv as (He & Hr & _). cbn [snd]. cbn [eval] in He. apply (Z.mod_unique_pos _ _ (eval q)); lia.
Qed.

(** One-limb branch of mul_mod_special: mul_rem by d = 2^64 - c *)
Theorem mul_mod_special_one_limb_given_recip dbg mulf a b c :
  wf a -> wf b -> length a = 1%nat -> length b = 1%nat -> 1 <= c < B ->
  recip_ok (r_d (recip_new (B - c))) (reciprocal (r_d (recip_new (B - c)))) ->
  exists r, mul_mod_special dbg mulf a b c = Some r
    /\ eval r = (eval a * eval b) mod psp (length a) c /\ wf r /\ length r = length a.
Proof.
  intros Ha Hb Hla Hlb.
  destruct a as [|x [|? ?]]; try discriminate Hla. destruct b as [|y [|? ?]]; try discriminate Hlb.
  intros Hc Hrec.
  apply wf_cons in Ha. destruct Ha as [Hx _]. apply wf_cons in Hb. destruct Hb as [Hy _].
  unfold mul_mod_special. cbn [length Nat.eqb nthz nth].
  pose proof B_gt1.
  assert (Hd : wsub 0 c = B - c).
  { unfold wsub, wrap. replace (0 - c) with (- c) by lia. rewrite mod_neg_once by lia. lia. }
  rewrite Hd. assert (B - c =? 0 = false) as -> by (apply Z.eqb_neq; lia).
  pose proof (mul_rem_exact x y (B - c) Hx Hy ltac:(lia) Hrec) as Hm.
  destruct (mulhilo x y) as [hi lo]. rewrite Hm.
  eexists. split; [reflexivity|]. cbn [eval length]. unfold psp. rewrite Bn_1.
  replace ((x + B * 0) * (y + B * 0)) with (x * y) by lia.
  pose proof (Z.mod_pos_bound (x * y) (B - c) ltac:(lia)).
  split; [lia|]. split; [|reflexivity]. apply wf_cons. split; [unfold is_word; lia | apply wf_nil].
Qed.

(** what is assumed of the multiplication routine plugged into mul_mod_special *)
Definition split_mul_ok (mulf : list Z -> list Z -> list Z * list Z) (a b : list Z) : Prop :=
  forall lo hi, mulf a b = (lo, hi) ->
    wf lo /\ wf hi /\ length lo = length a /\ length hi = length a
    /\ eval lo + Bn (length a) * eval hi = eval a * eval b.

Theorem mul_mod_special_all_widths_given_mul_recip dbg mulf a b c :
  wf a -> wf b -> length a = length b -> 1 <= c < B -> 0 < psp (length a) c ->
  split_mul_ok mulf a b ->
  recip_ok (r_d (recip_new (B - c))) (reciprocal (r_d (recip_new (B - c)))) ->
  exists r, mul_mod_special dbg mulf a b c = Some r
    /\ eval r = (eval a * eval b) mod psp (length a) c /\ wf r /\ length r = length a.
Proof.
  intros Ha Hb Hl Hc Hp Hmul Hrec.
  pose proof (psp_pos_nonzero (length a) c ltac:(lia) Hp) as Hn.
  destruct (Nat.eq_dec (length a) 1) as [H1|H1].
  - apply mul_mod_special_one_limb_given_recip; auto; lia.
  - destruct (mulf a b) as [lo hi] eqn:Em.
    destruct (Hmul lo hi Em) as (Hwlo & Hwhi & Hllo & Hlhi & Hprod).
    destruct (mul_mod_special_wide_correct dbg mulf a b c lo hi ltac:(lia) Hc Em Hwlo Hwhi Hllo Hlhi) as (r & Hr & He & Hw & Hlr).
    exists r. rewrite <- Hprod. auto.
Qed.

(** * Why `carry + 1` must be computed in the wide word
    The variant below computes `carry + 1` in a 64-bit word (wrapping), as the code did before the fix
    "mul_mod_special overflowed computing (carry + 1) for c = Word::MAX".  It is NOT correct: the first
    carry reaches MAX for c = MAX and in-range operands a = b = 2^192 - 2^65. *)
Definition mul_mod_special_wrapping (mulf : list Z -> list Z -> list Z * list Z) (a b : list Z) (c : Z) : list Z :=
  let n := length a in
  let '(lo, hi) := mulf a b in
  let '(lo, carry) := mac_by_limb lo hi c 0 in
  let rhs := wadd carry 1 * c in
  let '(lo, carry) := adc_limbs lo (from_wide_word_n n rhs) 0 in
  let rhs2 := wand (wsub carry 1) c in
  fst (sbb_limbs lo (from_word_n n rhs2) 0).
