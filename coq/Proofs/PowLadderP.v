(** C09 proofs, part 2: the 4-bit fixed-window ladder of src/modular/pow.rs.
    Everything is proved for an ABSTRACT Montgomery multiplication / squaring characterised by hypotheses
    (Section Ladder), for every number of limbs of modulus, bases and exponents and every number of bases. *)
From CB Require Import Model.Limbs Model.AddSub Model.ModArith Model.Cmp Model.Pow
  Proofs.WordP Proofs.LimbsP Proofs.AddSubP Proofs.WordPredP Proofs.CmpWordP Proofs.CmpP Proofs.PowMathP.
From Coq Require Import ZArith Lia List Bool.
Open Scope Z_scope.
Notation length := List.length.

Definition table_wf (n : nat) (t : list (list Z)) : Prop := Forall (fun p => wf p /\ length p = n) t.

(** the scan keeps [power] until position j = idx, takes that entry, and keeps it to the end *)
Lemma lookup_loop_spec n rest : forall j idx power,
  table_wf n rest -> wf power -> length power = n -> 0 <= j -> j + Z.of_nat (length rest) <= B -> 0 <= idx < B ->
  lookup_loop rest j idx power = if idx <? j then power else nth (Z.to_nat (idx - j)) rest power.
Proof.
  induction rest as [|p r IH]; intros j idx power Ht Hw Hl Hj Hb Hi.
  - cbn [lookup_loop]. destruct (idx <? j); [reflexivity | destruct (Z.to_nat (idx - j)); reflexivity].
  - cbn [lookup_loop]. inversion Ht as [|p' r' [Hp Hlp] Hr]; subst.
    cbn [length] in Hb. rewrite Nat2Z.inj_succ in Hb.
    rewrite from_word_eq_spec by (unfold is_word; lia).
    rewrite select_limbs_choice by (try assumption; lia).
    rewrite IH by (first [assumption | lia | destruct (j =? idx); first [assumption | reflexivity]]).
    destruct (Z.eqb_spec j idx) as [->|Hne].
    + rewrite (proj2 (Z.ltb_lt idx (idx + 1))), (proj2 (Z.ltb_ge idx idx)), Z.sub_diag by lia. reflexivity.
    + destruct (Z.ltb_spec idx j) as [H1|H1].
      * rewrite (proj2 (Z.ltb_lt idx (j + 1))) by lia. reflexivity.
      * rewrite (proj2 (Z.ltb_ge idx (j + 1))) by lia.
        replace (Z.to_nat (idx - j)) with (S (Z.to_nat (idx - (j + 1)))) by lia. reflexivity.
Qed.

Lemma ct_lookup_spec n powers idx : table_wf n powers -> Z.of_nat (length powers) <= B ->
  0 <= idx < Z.of_nat (length powers) -> ct_lookup powers idx = nth (Z.to_nat idx) powers [].
Proof.
  intros Ht Hb Hi. destruct powers as [|p0 r]; [cbn [length] in Hi; lia|].
  inversion Ht as [|p' r' [Hp Hlp] Hr]; subst. cbn [length] in *. rewrite Nat2Z.inj_succ in *.
  unfold ct_lookup. rewrite (lookup_loop_spec (length p0)) by (try assumption; try reflexivity; lia).
  destruct (Z.ltb_spec idx 1) as [H1|H1].
  - replace (Z.to_nat idx) with 0%nat by lia. reflexivity.
  - replace (Z.to_nat idx) with (S (Z.to_nat (idx - 1))) by lia. cbn [nth]. apply nth_indep. lia.
Qed.

(** the boxed scan (subtle ct_eq / ct_assign) makes the same selections *)
Lemma blookup_loop_eq n rest : forall j idx power,
  table_wf n rest -> wf power -> length power = n -> 0 <= j -> j + Z.of_nat (length rest) <= B -> 0 <= idx < B ->
  blookup_loop rest j idx power = lookup_loop rest j idx power.
Proof.
  induction rest as [|p r IH]; intros j idx power Ht Hw Hl Hj Hb Hi; [reflexivity|].
  cbn [blookup_loop lookup_loop]. inversion Ht as [|p' r' [Hp Hlp] Hr]; subst.
  cbn [length] in Hb. rewrite Nat2Z.inj_succ in Hb.
  rewrite st_ct_eq_spec, from_word_eq_spec by (unfold is_word; lia).
  rewrite ct_select_limbs_spec, select_limbs_choice by (try assumption; lia). unfold spec_select.
  apply IH; first [assumption | lia | destruct (j =? idx); first [assumption | reflexivity]].
Qed.

Lemma boxed_lookup_spec n powers idx : table_wf n powers -> Z.of_nat (length powers) <= B ->
  0 <= idx < Z.of_nat (length powers) -> boxed_lookup powers idx = nth (Z.to_nat idx) powers [].
Proof.
  intros Ht Hb Hi. rewrite <- (ct_lookup_spec n) by assumption.
  destruct powers as [|p0 r]; [reflexivity|]. inversion Ht as [|p' r' [Hp Hlp] Hr]; subst.
  cbn [length] in *. apply (blookup_loop_eq (length p0)); try assumption; try reflexivity; lia.
Qed.

Section Start.
Variable k : Z.
Hypothesis Hk : 1 <= k.
Let sl := start_limb k.
Let sw := start_window k.
Let s := start_bit k mod 4.

Lemma start_decomp : k - 1 = 64 * Z.of_nat sl + 4 * Z.of_nat sw + s /\ 0 <= s < 4 /\ (sw < 16)%nat.
Proof.
  unfold sl, sw, s, start_limb, start_window, start_bit.
  pose proof (Z.div_mod (k - 1) 64 ltac:(lia)) as H1. pose proof (Z.mod_pos_bound (k - 1) 64 ltac:(lia)) as H2.
  set (b := (k - 1) mod 64) in *.
  pose proof (Z.div_mod b 4 ltac:(lia)) as H3. pose proof (Z.mod_pos_bound b 4 ltac:(lia)) as H4.
  assert (0 <= (k - 1) / 64) by (apply Z.div_pos; lia).
  assert (0 <= b / 4 < 16) by (split; [apply Z.div_pos; lia | apply Z.div_lt_upper_bound; lia]).
  rewrite !Z2Nat.id by lia. repeat split; try lia.
Qed.

Lemma start_mask_val : start_mask k = 2 ^ (s + 1) - 1.
Proof.
  pose proof start_decomp as (_ & Hs & _). unfold start_mask, wshl, wrap. fold s.
  rewrite Z.mul_1_l. rewrite Z.mod_small; [reflexivity|].
  rewrite B_val. split; [apply Z.pow_nonneg; lia | apply Z.pow_lt_mono_r; lia].
Qed.
End Start.

Lemma window_idx_val w wn : is_word w -> (wn < 16)%nat ->
  window_idx w wn = (w / 2 ^ (Z.of_nat wn * 4)) mod 16.
Proof.
  intros Hw Hn. unfold window_idx, wand, wshr.
  apply land_15.
Qed.

Lemma exp_window e ln wn : wf e -> (wn < 16)%nat ->
  window_idx (nthz e ln) wn = (eval e / 2 ^ (64 * Z.of_nat ln + 4 * Z.of_nat wn)) mod 16.
Proof.
  intros He Hn. pose proof (eval_nonneg e He).
  rewrite window_idx_val; [|rewrite nthz_eval by assumption; apply is_word_mod | assumption].
  rewrite nthz_eval by assumption. apply word_window; assumption.
Qed.

Section Ladder.
Variables (n : nat) (m rinv : Z).
Hypothesis Hm : 0 < m.
Variable mmul : list Z -> list Z -> list Z.
Variable msq : list Z -> list Z.
Variables Good Good' TGood : list Z -> Prop.

Definition V (z : list Z) : Z := (eval z * rinv) mod m.

Hypothesis HGG : forall z, Good' z -> Good z.
Hypothesis HT : forall p, TGood p -> wf p /\ length p = n.
Hypothesis Hmul : forall z p, Good z -> TGood p -> Good' (mmul z p) /\ V (mmul z p) = (V z * V p) mod m.
Hypothesis Hsq : forall z, Good z -> Good (msq z) /\ V (msq z) = (V z * V z) mod m.

Definition table_ok (t : list (list Z)) : Prop :=
  length t = 16%nat /\
  forall i, (i < 16)%nat -> TGood (nth i t []) /\ V (nth i t []) = (V (nth 1 t []) ^ Z.of_nat i) mod m.
Definition pe_ok (pe : list (list Z) * list Z) : Prop := table_ok (fst pe) /\ wf (snd pe).

Lemma table_ok_wf t : table_ok t -> table_wf n t.
Proof.
  intros [Hl Ht]. unfold table_wf. apply Forall_forall. intros p Hp.
  destruct (In_nth t p [] Hp) as (i & Hi & <-). apply HT. apply Ht. lia.
Qed.

Lemma sq_pow a e v : 0 <= e -> v = (a ^ e) mod m -> (v * v) mod m = (a ^ (2 * e)) mod m.
Proof.
  intros He ->. rewrite mulmod_both. f_equal. replace (2 * e) with (e + e) by lia. rewrite Z.pow_add_r by lia. reflexivity.
Qed.

Lemma V_mod z : V z mod m = V z.
Proof. unfold V. apply Z.mod_mod. lia. Qed.

Lemma sq4_spec z : Good z ->
  Good (msq (msq (msq (msq z)))) /\ V (msq (msq (msq (msq z)))) = (V z ^ 16) mod m.
Proof.
  intros G0.
  destruct (Hsq z G0) as [G1 E1]. destruct (Hsq _ G1) as [G2 E2].
  destruct (Hsq _ G2) as [G3 E3]. destruct (Hsq _ G3) as [G4 E4].
  split; [assumption|].
  assert (P1 : V (msq z) = (V z ^ 1 * V z ^ 1) mod m) by (rewrite E1, Z.pow_1_r; reflexivity).
  rewrite <- Z.pow_add_r in P1 by lia.
  rewrite (sq_pow (V z) (1 + 1) _ ltac:(lia) P1) in E2.
  rewrite (sq_pow (V z) (2 * (1 + 1)) _ ltac:(lia) E2) in E3.
  rewrite (sq_pow (V z) (2 * (2 * (1 + 1))) _ ltac:(lia) E3) in E4.
  rewrite E4. reflexivity.
Qed.

Variable k : Z.
Hypothesis Hk : 1 <= k.
Let sl := start_limb k.
Let sw := start_window k.
Let smask := start_mask k.
Let Gtop := 64 * Z.of_nat sl + 4 * Z.of_nat sw.

Definition vbase (pe : list (list Z) * list Z) : Z := V (nth 1 (fst pe) []).
Definition ebits (pe : list (list Z) * list Z) : Z := eval (snd pe) mod 2 ^ k.
Fixpoint Pw (pes : list (list (list Z) * list Z)) (G : Z) : Z :=
  match pes with [] => 1 | pe :: r => vbase pe ^ (ebits pe / 2 ^ G) * Pw r G end.
Fixpoint Dw (pes : list (list (list Z) * list Z)) (G : Z) : Z :=
  match pes with [] => 1 | pe :: r => vbase pe ^ ((ebits pe / 2 ^ G) mod 16) * Dw r G end.

Lemma ebits_range pe : 0 <= ebits pe < 2 ^ k.
Proof. unfold ebits. apply Z.mod_pos_bound. apply Z.pow_pos_nonneg; lia. Qed.

Lemma Pw_step pes G : 0 <= G -> Pw pes G = Pw pes (G + 4) ^ 16 * Dw pes G.
Proof.
  intros HG. induction pes as [|pe r IH]; [reflexivity|].
  cbn [Pw Dw]. rewrite IH. pose proof (ebits_range pe) as He.
  set (e := ebits pe) in *. set (v := vbase pe).
  assert (H2 : 0 < 2 ^ G) by (apply Z.pow_pos_nonneg; lia).
  assert (Hd : e / 2 ^ (G + 4) = e / 2 ^ G / 16).
  { rewrite Z.pow_add_r by lia. change (2 ^ 4) with 16. rewrite Z.div_div by lia. reflexivity. }
  assert (Hq : 0 <= e / 2 ^ G) by (apply Z.div_pos; lia).
  pose proof (Z.div_mod (e / 2 ^ G) 16 ltac:(lia)) as Hdm.
  pose proof (Z.mod_pos_bound (e / 2 ^ G) 16 ltac:(lia)) as Hmb.
  assert (Hq2 : 0 <= e / 2 ^ G / 16) by (apply Z.div_pos; lia).
  rewrite Hd. rewrite Hdm at 1.
  rewrite Z.pow_add_r by lia. rewrite Z.mul_comm with (n := 16). rewrite Z.pow_mul_r by lia.
  rewrite Z.pow_mul_l. ring.
Qed.

Lemma Pw_high pes G : k <= G -> Pw pes G = 1.
Proof.
  intros HG. induction pes as [|pe r IH]; [reflexivity|]. cbn [Pw]. rewrite IH.
  pose proof (ebits_range pe). rewrite Z.div_small; [reflexivity|].
  split; [lia|]. apply Z.lt_le_trans with (2 ^ k); [lia | apply Z.pow_le_mono_r; lia].
Qed.

Lemma Gtop_k : k = Gtop + start_bit k mod 4 + 1 /\ 0 <= start_bit k mod 4 < 4 /\ (sw < 16)%nat.
Proof. pose proof (start_decomp k Hk) as (H1 & H2 & H3). unfold Gtop, sl, sw. repeat split; lia. Qed.

Lemma idx_top e : wf e ->
  wand (window_idx (nthz e sl) sw) smask = ((eval e mod 2 ^ k) / 2 ^ Gtop) mod 16.
Proof.
  intros He. pose proof Gtop_k as (Hk1 & Hs & Hsw). set (s := start_bit k mod 4) in *.
  rewrite exp_window by assumption. fold Gtop.
  unfold smask. rewrite (start_mask_val k Hk). fold s. unfold wand.
  pose proof (eval_nonneg e He) as Hn.
  assert (HG : 0 <= Gtop) by (unfold Gtop; lia).
  assert (H2 : 0 < 2 ^ Gtop) by (apply Z.pow_pos_nonneg; lia).
  rewrite land_mask by lia.
  rewrite mod_div_pow2 by lia. replace (k - Gtop) with (s + 1) by lia.
  set (y := eval e / 2 ^ Gtop).
  assert (Hy : (y mod 16) mod 2 ^ (s + 1) = y mod 2 ^ (s + 1)).
  { replace 16 with (2 ^ (s + 1) * 2 ^ (3 - s)) by (rewrite <- Z.pow_add_r by lia; replace (s + 1 + (3 - s)) with 4 by lia; reflexivity).
    assert (0 < 2 ^ (s + 1)) by (apply Z.pow_pos_nonneg; lia). assert (0 < 2 ^ (3 - s)) by (apply Z.pow_pos_nonneg; lia).
    rewrite Z.rem_mul_r by lia.
    replace (y mod 2 ^ (s + 1) + 2 ^ (s + 1) * ((y / 2 ^ (s + 1)) mod 2 ^ (3 - s)))
      with (y mod 2 ^ (s + 1) + (y / 2 ^ (s + 1)) mod 2 ^ (3 - s) * 2 ^ (s + 1)) by ring.
    rewrite Z.mod_add by lia. apply Z.mod_mod. lia. }
  rewrite Hy. symmetry. apply Z.mod_small.
  assert (0 < 2 ^ (s + 1)) by (apply Z.pow_pos_nonneg; lia).
  pose proof (Z.mod_pos_bound y (2 ^ (s + 1)) ltac:(lia)).
  assert (2 ^ (s + 1) <= 2 ^ 4) by (apply Z.pow_le_mono_r; lia). change (2 ^ 4) with 16 in *. lia.
Qed.

Lemma idx_low e ln wn : wf e -> (wn < 16)%nat -> 64 * Z.of_nat ln + 4 * Z.of_nat wn + 4 <= k ->
  window_idx (nthz e ln) wn = ((eval e mod 2 ^ k) / 2 ^ (64 * Z.of_nat ln + 4 * Z.of_nat wn)) mod 16.
Proof.
  intros He Hn HG. rewrite exp_window by assumption. apply window_below; lia.
Qed.

Lemma bases_loop_spec ln wn (top : bool) G pes : forall z,
  Forall pe_ok pes -> Good z ->
  (forall e, wf e -> (if top then wand (window_idx (nthz e ln) wn) smask else window_idx (nthz e ln) wn)
                     = ((eval e mod 2 ^ k) / 2 ^ G) mod 16) ->
  let r := bases_loop mmul pes ln wn top smask z in
  Good r /\ (pes <> [] -> Good' r) /\ V r = (V z * Dw pes G) mod m.
Proof.
  induction pes as [|[powers e] rest IH]; intros z Hok Gz Hidx.
  - cbn [bases_loop Dw]. split; [assumption|]. split; [intros H; contradiction H; reflexivity|].
    rewrite Z.mul_1_r. symmetry. apply V_mod.
  - inversion Hok as [|pe' r' [Htab Hwe] Hrest]; subst. cbn [fst snd] in *.
    cbn [bases_loop]. cbv zeta.
    set (idx := if top then wand (window_idx (nthz e ln) wn) smask else window_idx (nthz e ln) wn).
    assert (Hi : idx = ((eval e mod 2 ^ k) / 2 ^ G) mod 16) by (apply Hidx; assumption).
    pose proof (Z.mod_pos_bound ((eval e mod 2 ^ k) / 2 ^ G) 16 ltac:(lia)) as Hr. rewrite <- Hi in Hr.
    destruct Htab as [Hlen Hent].
    assert (Hlk : ct_lookup powers idx = nth (Z.to_nat idx) powers []).
    { apply (ct_lookup_spec n); [apply table_ok_wf; split; assumption | rewrite Hlen; rewrite B_val; simpl; lia | rewrite Hlen; simpl; lia]. }
    replace (if top then wand (window_idx (nthz e ln) wn) smask else window_idx (nthz e ln) wn) with idx by reflexivity.
    rewrite Hlk.
    destruct (Hent (Z.to_nat idx) ltac:(lia)) as [Tp Vp]. rewrite Z2Nat.id in Vp by lia.
    destruct (Hmul z _ Gz Tp) as [G1 V1].
    destruct (IH (mmul z (nth (Z.to_nat idx) powers [])) Hrest (HGG _ G1) Hidx) as (G2 & G2' & V2).
    split; [exact G2|]. split.
    + intros _. destruct rest as [|pe2 rest2]; [exact G1 | apply G2'; discriminate].
    + rewrite V2, V1, Vp. cbn [Dw]. unfold vbase, ebits. cbn [fst snd]. rewrite <- Hi.
      rewrite mulmod_l.
      replace (V z * (V (nth 1 powers []) ^ idx mod m) * Dw rest G) with (V (nth 1 powers []) ^ idx mod m * (V z * Dw rest G)) by ring.
      rewrite mulmod_l. f_equal. ring.
Qed.

Variable pes : list (list (list Z) * list Z).
Hypothesis Hpes : Forall pe_ok pes.
Hypothesis Hne : pes <> [] \/ forall z, Good z -> Good' z.

Lemma window_loop_spec ln : forall wn z, (ln <= sl)%nat ->
  (if (ln =? sl)%nat then (wn <= S sw)%nat else (wn <= 16)%nat) ->
  Good' z -> V z = Pw pes (64 * Z.of_nat ln + 4 * Z.of_nat wn) mod m ->
  let r := window_loop mmul msq pes ln sl sw smask wn z in
  Good' r /\ V r = Pw pes (64 * Z.of_nat ln) mod m.
Proof.
  pose proof Gtop_k as (Hk1 & Hs & Hsw).
  induction wn as [|w IH]; intros z Hln Hwn Gz Vz.
  - cbn [window_loop]. split; [assumption|]. rewrite Vz. f_equal. f_equal. lia.
  - cbn [window_loop]. cbv zeta.
    set (G := 64 * Z.of_nat ln + 4 * Z.of_nat w).
    assert (HG4 : 64 * Z.of_nat ln + 4 * Z.of_nat (S w) = G + 4) by (unfold G; lia). rewrite HG4 in Vz.
    assert (Hw16 : (w < 16)%nat) by (destruct (ln =? sl)%nat; lia).
    set (top := ((ln =? sl)%nat && (w =? sw)%nat)%bool).
    set (z1 := if top then z else msq (msq (msq (msq z)))).
    (* the top window (no squarings, masked index) is where G = Gtop; every other window lies wholly below k *)
    assert (Htop : if top then G = Gtop /\ ln = sl /\ w = sw else G + 4 <= k).
    { unfold top. destruct (Nat.eqb_spec ln sl) as [->|Hl]; [destruct (Nat.eqb_spec w sw) as [->|Hw]|]; cbn [andb];
        unfold G, Gtop in *; lia. }
    assert (H1 : Good z1 /\ V z1 = (Pw pes (G + 4) ^ 16) mod m).
    { unfold z1. destruct top.
      - split; [apply HGG; assumption|]. rewrite Vz, !Pw_high by lia. reflexivity.
      - destruct (sq4_spec z (HGG _ Gz)) as [G4 V4]. split; [assumption|]. rewrite V4, Vz. apply powmod_mod. lia. }
    destruct H1 as [Gz1 Vz1].
    assert (Hidx : forall e, wf e ->
       (if top then wand (window_idx (nthz e ln) w) smask else window_idx (nthz e ln) w)
       = ((eval e mod 2 ^ k) / 2 ^ G) mod 16).
    { intros e He. destruct top.
      - destruct Htop as (-> & -> & ->). apply idx_top. assumption.
      - apply idx_low; assumption. }
    destruct (bases_loop_spec ln w top G pes z1 Hpes Gz1 Hidx) as (G2 & G2' & V2).
    assert (G2'' : Good' (bases_loop mmul pes ln w top smask z1)).
    { destruct Hne as [Hn|Hn]; [apply G2'; assumption | apply Hn; assumption]. }
    apply IH; try assumption.
    + destruct (ln =? sl)%nat; lia.
    + rewrite V2, Vz1. rewrite mulmod_l. fold G. rewrite (Pw_step pes G) by (unfold G; lia). reflexivity.
Qed.

Lemma limb_loop_spec : forall ln z, (ln <= S sl)%nat ->
  Good' z -> V z = Pw pes (64 * Z.of_nat ln) mod m ->
  let r := limb_loop mmul msq pes sl sw smask ln z in
  Good' r /\ V r = Pw pes 0 mod m.
Proof.
  pose proof Gtop_k as (Hk1 & Hs & Hsw).
  induction ln as [|l IH]; intros z Hln Gz Vz.
  - cbn [limb_loop]. split; [assumption|]. rewrite Vz. reflexivity.
  - cbn [limb_loop]. cbv zeta.
    set (wn := if (l =? sl)%nat then S sw else 16%nat).
    assert (Hstart : V z = Pw pes (64 * Z.of_nat l + 4 * Z.of_nat wn) mod m).
    { rewrite Vz. unfold wn. destruct (l =? sl)%nat eqn:E.
      - apply Nat.eqb_eq in E. subst l. rewrite !Pw_high by (unfold Gtop in *; lia). reflexivity.
      - f_equal. f_equal. lia. }
    destruct (window_loop_spec l wn z ltac:(lia)) as [G1 V1]; try assumption.
    { unfold wn. destruct (l =? sl)%nat; lia. }
    apply IH; try assumption. lia.
Qed.

Theorem multi_exp_internal_spec one : Good' one -> V one = 1 mod m ->
  let r := multi_exp_internal mmul msq one pes k in
  Good' r /\ V r = Pw pes 0 mod m.
Proof.
  intros G1 V1. unfold multi_exp_internal. apply limb_loop_spec; try assumption; [fold sl; lia|].
  pose proof Gtop_k as (Hk1 & Hs & Hsw). fold sl.
  rewrite V1, Pw_high by (unfold Gtop in *; lia). reflexivity.
Qed.
End Ladder.
