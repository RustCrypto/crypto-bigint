(** C05 proofs, part 1: the variable-time limb shifts (Uint, BoxedUint) equal multiplication / floor
    division by 2^s on the represented integer. *)
From CB Require Import Model.Limbs Model.AddSub Model.Bits Proofs.WordP Proofs.LimbsP Proofs.AddSubP Proofs.BitsWordP.
From Coq Require Import ZArith Lia List Bool.
Open Scope Z_scope.

Lemma mod_cons K h Y M : 0 <= h < K -> 0 < M -> (h + K * Y) mod (K * M) = h + K * (Y mod M).
Proof.
  intros Hh HM. assert (0 < K) by lia.
  rewrite Z.rem_mul_r by lia.
  assert (Hq : (h + K * Y) / K = Y /\ (h + K * Y) mod K = h) by (apply div_mod_unique_pos; lia).
  destruct Hq as [-> ->]. reflexivity.
Qed.

Lemma eval_repeat_zeros_app n X : eval (zeros n ++ X) = Bn n * eval X.
Proof. rewrite eval_app, eval_zeros, length_zeros. lia. Qed.

Lemma eval_app_zeros X n : eval (X ++ zeros n) = eval X.
Proof. rewrite eval_app, eval_zeros. lia. Qed.

Lemma eval_skipn n ls : wf ls -> (n <= length ls)%nat -> eval (skipn n ls) = eval ls / Bn n.
Proof.
  intros Hw Hn. pose proof (eval_firstn_skipn n ls) as E. rewrite firstn_length_le in E by assumption.
  pose proof (eval_bounds _ (wf_firstn n ls Hw)) as Hb. rewrite firstn_length_le in Hb by assumption.
  pose proof (Bn_pos n).
  assert (Hq : eval ls / Bn n = eval (skipn n ls) /\ eval ls mod Bn n = eval (firstn n ls)).
  { apply div_mod_unique_pos; lia. }
  symmetry. tauto.
Qed.

Lemma Bn_split n k : (k <= n)%nat -> Bn n = Bn k * Bn (n - k).
Proof. intros. rewrite <- Bn_add. f_equal. lia. Qed.

(** shift amount s = 64 * sn + rem *)
Lemma shift_decomp s : 0 <= s ->
  let sn := Z.to_nat (s / 64) in let rem := s mod 64 in
  s = 64 * Z.of_nat sn + rem /\ 0 <= rem < 64 /\ 2 ^ s = Bn sn * 2 ^ rem.
Proof.
  intros Hs. cbn zeta.
  pose proof (Z.div_mod s 64 ltac:(lia)). pose proof (Z.mod_pos_bound s 64 ltac:(lia)).
  assert (0 <= s / 64) by (apply Z.div_pos; lia).
  rewrite Z2Nat.id by lia. repeat split; try lia.
  rewrite Bn_pow2, Z2Nat.id by lia. rewrite <- pow2_split by lia. f_equal. lia.
Qed.

Lemma shl_carry_correct rem : 0 < rem < 64 -> forall ls c, wf ls -> 0 <= c < 2 ^ rem ->
  wf (shl_carry ls rem c) /\ length (shl_carry ls rem c) = length ls /\
  eval (shl_carry ls rem c) = (eval ls * 2 ^ rem + c) mod Bn (length ls).
Proof.
  intros Hrem. induction ls as [|x ls IH]; intros c Hw Hc.
  - simpl. rewrite Bn_0, Z.mod_1_r. auto using wf_nil.
  - apply wf_cons in Hw. destruct Hw as [Hx Hl]. unfold is_word in Hx. cbn [shl_carry].
    pose proof (wshr_bound x (64 - rem) Hx ltac:(lia)) as Hcb. replace (64 - (64 - rem)) with rem in Hcb by lia.
    destruct (IH (wshr x (64 - rem)) Hl Hcb) as (IHw & IHl & IHe).
    (* the head limb: what stays of x << rem, with the carry below it *)
    destruct (shl_window 64 rem x c ltac:(lia) ltac:(lia) Hc) as [Ew Hh].
    unfold wor, wshl, wrap, wshr in *. rewrite B_val in *. rewrite (Z.lor_comm _ c).
    split; [apply wf_cons; split; [exact Hh | exact IHw]|].
    split; [cbn [length]; rewrite IHl; reflexivity|].
    cbn [eval length]. rewrite IHe, Bn_S, B_val.
    rewrite <- (mod_cons (2 ^ 64)) by (auto using Bn_pos). f_equal. lia.
Qed.

Definition bitsZ' (a : list Z) : Z := 64 * Z.of_nat (length a).

Lemma shl_vartime_correct a s : wf a -> 0 <= s ->
  let r := uint_overflowing_shl_vartime a s in
  snd r = choice_of_bool (s <? bitsZ' a) /\ wf (fst r) /\ length (fst r) = length a /\
  eval (fst r) = if s <? bitsZ' a then (eval a * 2 ^ s) mod Bn (length a) else 0.
Proof.
  intros Hw Hs. cbn zeta. unfold uint_overflowing_shl_vartime, bitsZ'.
  set (n := length a).
  destruct (Z.leb_spec (64 * Z.of_nat n) s) as [Hov|Hin].
  - destruct (Z.ltb_spec s (64 * Z.of_nat n)); [lia|]. cbn [fst snd ct_none].
    rewrite eval_zeros, length_zeros. auto using wf_zeros.
  - destruct (Z.ltb_spec s (64 * Z.of_nat n)); [|lia].
    pose proof (shift_decomp s Hs) as (Hd & Hr & Hp). cbn zeta in Hd, Hr, Hp.
    set (sn := Z.to_nat (s / 64)) in *. set (rem := s mod 64) in *.
    assert (Hsn : (sn < n)%nat) by lia.
    set (moved := firstn (n - sn) a).
    assert (Hmw : wf moved) by (apply wf_firstn; assumption).
    assert (Hml : length moved = (n - sn)%nat) by (unfold moved; rewrite firstn_length_le; unfold n; lia).
    assert (Hme : eval moved = eval a mod Bn (n - sn)) by (apply eval_firstn; [assumption | unfold n; lia]).
    pose proof (Bn_split n sn ltac:(lia)) as HBn. pose proof (Bn_pos sn). pose proof (Bn_pos (n - sn)%nat).
    destruct (Z.eqb_spec rem 0) as [Hz|Hnz]; cbn [fst snd ct_some].
    + split; [reflexivity|]. split; [apply wf_app; split; [apply wf_zeros|assumption]|].
      split; [rewrite app_length, length_zeros; lia|].
      rewrite eval_repeat_zeros_app, Hme, Hp, Hz, Z.pow_0_r, Z.mul_1_r, HBn.
      rewrite (Z.mul_comm (eval a)). symmetry. apply Z.mul_mod_distr_l; lia.
    + pose proof (shl_carry_correct rem ltac:(lia) moved 0 Hmw ltac:(pose proof (pow2_pos rem); lia)) as (Cw & Cl & Ce).
      split; [reflexivity|]. split; [apply wf_app; split; [apply wf_zeros|assumption]|].
      split; [rewrite app_length, length_zeros; lia|].
      rewrite eval_repeat_zeros_app, Ce, Hml, Hme, Z.add_0_r, Hp, HBn.
      rewrite Z.mul_mod_idemp_l by lia.
      replace (eval a * (Bn sn * 2 ^ rem)) with (Bn sn * (eval a * 2 ^ rem)) by ring.
      symmetry. apply Z.mul_mod_distr_l; lia.
Qed.

Lemma shr_carry_correct rem : 0 < rem < 64 -> forall ls t, wf ls -> 0 <= t < 2 ^ rem ->
  let c0 := t * 2 ^ (64 - rem) in
  let V := eval ls + Bn (length ls) * t in
  wf (fst (shr_carry ls rem c0)) /\ length (fst (shr_carry ls rem c0)) = length ls /\
  eval (fst (shr_carry ls rem c0)) = V / 2 ^ rem /\
  snd (shr_carry ls rem c0) = (V mod 2 ^ rem) * 2 ^ (64 - rem).
Proof.
  intros Hrem. induction ls as [|x ls IH]; intros t Hw Ht; cbn zeta.
  - simpl. rewrite Bn_0, Z.mul_1_l. rewrite Z.div_small, Z.mod_small by lia. auto using wf_nil.
  - apply wf_cons in Hw. destruct Hw as [Hx Hl]. unfold is_word in Hx.
    specialize (IH t Hl Ht). cbn zeta in IH. destruct IH as (IHw & IHl & IHe & IHc).
    cbn [shr_carry]. destruct (shr_carry ls rem (t * 2 ^ (64 - rem))) as [r' c] eqn:E.
    cbn [fst snd] in *.
    set (V := eval ls + Bn (length ls) * t) in *.
    pose proof (pow2_pos rem ltac:(lia)). pose proof (pow2_pos (64 - rem) ltac:(lia)).
    pose proof (B_split rem ltac:(lia)) as HB.
    pose proof (Z.mod_pos_bound V (2 ^ rem) ltac:(lia)) as Hvm.
    pose proof (Z.div_mod V (2 ^ rem) ltac:(lia)) as Hvd.
    pose proof (wshr_bound x rem Hx ltac:(lia)) as Hsb.
    assert (Hh : wor (wshr x rem) c = c + wshr x rem).
    { unfold wor. rewrite IHc, Z.lor_comm. apply lor_disjoint; lia. }
    assert (Hcb : 0 <= c <= (2 ^ rem - 1) * 2 ^ (64 - rem)).
    { rewrite IHc. split; [apply Z.mul_nonneg_nonneg; lia | apply Z.mul_le_mono_nonneg_r; lia]. }
    split; [apply wf_cons; split; [unfold is_word; rewrite Hh; lia | exact IHw]|].
    split; [cbn [length]; rewrite IHl; reflexivity|].
    cbn [eval length]. rewrite Bn_S.
    pose proof (wshl_low x (64 - rem) ltac:(lia) ltac:(lia)) as Hs3.
    replace (64 - (64 - rem)) with rem in Hs3 by lia.
    replace (x + B * eval ls + B * Bn (length ls) * t) with (x + B * V) by (unfold V; ring).
    split.
    + rewrite Hh, IHc, IHe. unfold wshr.
      rewrite HB at 2. replace (x + 2 ^ rem * 2 ^ (64 - rem) * V) with (x + (2 ^ (64 - rem) * V) * 2 ^ rem) by ring.
      rewrite Z.div_add by lia. rewrite HB.
      set (q := V / 2 ^ rem) in *. set (m := V mod 2 ^ rem) in *. rewrite Hvd. ring.
    + rewrite Hs3. f_equal. rewrite HB.
      replace (x + 2 ^ rem * 2 ^ (64 - rem) * V) with (x + (2 ^ (64 - rem) * V) * 2 ^ rem) by ring.
      symmetry. apply Z.mod_add. lia.
Qed.

Lemma shr_carry_zero rem ls : 0 < rem < 64 -> wf ls ->
  wf (fst (shr_carry ls rem 0)) /\ length (fst (shr_carry ls rem 0)) = length ls /\
  eval (fst (shr_carry ls rem 0)) = eval ls / 2 ^ rem.
Proof.
  intros Hrem Hw. pose proof (shr_carry_correct rem Hrem ls 0 Hw ltac:(pose proof (pow2_pos rem); lia)) as H.
  cbn zeta in H. rewrite Z.mul_0_l, Z.mul_0_r, Z.add_0_r in H. tauto.
Qed.

Lemma shr_vartime_correct a s : wf a -> 0 <= s ->
  let r := uint_overflowing_shr_vartime a s in
  snd r = choice_of_bool (s <? bitsZ' a) /\ wf (fst r) /\ length (fst r) = length a /\
  eval (fst r) = if s <? bitsZ' a then eval a / 2 ^ s else 0.
Proof.
  intros Hw Hs. cbn zeta. unfold uint_overflowing_shr_vartime, bitsZ'.
  set (n := length a).
  destruct (Z.leb_spec (64 * Z.of_nat n) s) as [Hov|Hin].
  - destruct (Z.ltb_spec s (64 * Z.of_nat n)); [lia|]. cbn [fst snd ct_none].
    rewrite eval_zeros, length_zeros. auto using wf_zeros.
  - destruct (Z.ltb_spec s (64 * Z.of_nat n)); [|lia].
    pose proof (shift_decomp s Hs) as (Hd & Hr & Hp). cbn zeta in Hd, Hr, Hp.
    set (sn := Z.to_nat (s / 64)) in *. set (rem := s mod 64) in *.
    assert (Hsn : (sn < n)%nat) by lia.
    set (moved := skipn sn a).
    assert (Hmw : wf moved) by (apply wf_skipn; assumption).
    assert (Hml : length moved = (n - sn)%nat) by (unfold moved; rewrite skipn_length; reflexivity).
    assert (Hme : eval moved = eval a / Bn sn) by (apply eval_skipn; [assumption | unfold n in *; lia]).
    pose proof (Bn_pos sn). pose proof (pow2_pos rem ltac:(lia)).
    destruct (Z.eqb_spec rem 0) as [Hz|Hnz]; cbn [fst snd ct_some].
    + split; [reflexivity|]. split; [apply wf_app; split; [assumption|apply wf_zeros]|].
      split; [rewrite app_length, length_zeros; lia|].
      rewrite eval_app_zeros, Hme, Hp, Hz, Z.pow_0_r, Z.mul_1_r. reflexivity.
    + pose proof (shr_carry_zero rem moved ltac:(lia) Hmw) as (Cw & Cl & Ce).
      split; [reflexivity|]. split; [apply wf_app; split; [assumption|apply wf_zeros]|].
      split; [rewrite app_length, length_zeros; lia|].
      rewrite eval_app_zeros, Ce, Hme, Hp. apply Z.div_div; lia.
Qed.

Lemma shr_carry_snd_cons x ls rem c0 : snd (shr_carry (x :: ls) rem c0) = wshl x (64 - rem).
Proof. cbn [shr_carry]. destruct (shr_carry ls rem c0). reflexivity. Qed.

Lemma shr_pairs_carry rem ls : shr_pairs ls rem = fst (shr_carry ls rem 0).
Proof.
  induction ls as [|x ls IH]; [reflexivity|].
  cbn [shr_pairs shr_carry]. destruct ls as [|y ls'].
  - simpl. unfold wor. rewrite Z.lor_0_r. reflexivity.
  - rewrite IH. pose proof (shr_carry_snd_cons y ls' rem 0) as Hs.
    destruct (shr_carry (y :: ls') rem 0) as [r' c]. cbn [fst snd] in *. rewrite Hs. reflexivity.
Qed.

Lemma boxed_shr_vartime_into_eq a s : boxed_shr_vartime_into a s = uint_overflowing_shr_vartime a s.
Proof.
  unfold boxed_shr_vartime_into, uint_overflowing_shr_vartime. rewrite shr_pairs_carry. reflexivity.
Qed.
