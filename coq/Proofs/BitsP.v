(** Bit-level facts: disjoint lor is addition, shifts as multiplication/division. *)
From CB Require Import Model.Word Proofs.WordP.
From Coq Require Import ZArith Lia.
Open Scope Z_scope.

Lemma testbit_small lo s n : 0 <= lo < 2 ^ s -> s <= n -> Z.testbit lo n = false.
Proof.
  intros Hlo Hn. destruct (Z.eq_dec lo 0) as [->|Hnz]; [apply Z.testbit_0_l|].
  apply Z.bits_above_log2; [lia|]. assert (Z.log2 lo < s) by (apply Z.log2_lt_pow2; lia). lia.
Qed.

Lemma land_disjoint hi lo s : 0 <= s -> 0 <= lo < 2 ^ s -> Z.land (hi * 2 ^ s) lo = 0.
Proof.
  intros Hs Hlo. apply Z.bits_inj'. intros n Hn. rewrite Z.land_spec, Z.bits_0.
  destruct (Z_lt_ge_dec n s) as [Hlt|Hge].
  - rewrite Z.mul_pow2_bits_low by lia. reflexivity.
  - rewrite (testbit_small lo s n) by lia. apply andb_false_r.
Qed.

Lemma lor_disjoint hi lo s : 0 <= s -> 0 <= lo < 2 ^ s -> Z.lor (hi * 2 ^ s) lo = hi * 2 ^ s + lo.
Proof.
  intros Hs Hlo. pose proof (land_disjoint hi lo s Hs Hlo) as Hl.
  rewrite <- Z.lxor_lor by assumption. symmetry. apply Z.add_nocarry_lxor. assumption.
Qed.

Lemma pow2_pos n : 0 <= n -> 0 < 2 ^ n.
Proof. intros. apply Z.pow_pos_nonneg; lia. Qed.
Lemma pow2_le a b : 0 <= a <= b -> 2 ^ a <= 2 ^ b.
Proof. intros. apply Z.pow_le_mono_r; lia. Qed.
Lemma pow2_split a b : 0 <= a -> 0 <= b -> 2 ^ (a + b) = 2 ^ a * 2 ^ b.
Proof. intros. apply Z.pow_add_r; lia. Qed.

(** x << s on a 64-bit word, together with the bits shifted out:  x * 2^s = (x >> (64-s)) * B + (x << s) *)
Lemma wshl_split x s : is_word x -> 0 < s < 64 ->
  x * 2 ^ s = (x / 2 ^ (64 - s)) * B + wshl x s /\ 0 <= x / 2 ^ (64 - s) < 2 ^ s /\
  exists k, wshl x s = k * 2 ^ s /\ 0 <= k.
Proof.
  intros Hx Hs. unfold is_word in Hx. unfold wshl, wrap. rewrite B_val in *.
  assert (Hp : 2 ^ 64 = 2 ^ (64 - s) * 2 ^ s) by (rewrite <- pow2_split by lia; f_equal; lia).
  assert (0 < 2 ^ s) by (apply Z.pow_pos_nonneg; lia).
  assert (0 < 2 ^ (64 - s)) by (apply Z.pow_pos_nonneg; lia).
  pose proof (Z.div_mod x (2 ^ (64 - s)) ltac:(lia)) as Hdm.
  pose proof (Z.mod_pos_bound x (2 ^ (64 - s)) ltac:(lia)) as Hmb.
  set (h := x / 2 ^ (64 - s)) in *. set (l := x mod 2 ^ (64 - s)) in *.
  assert (Hh : 0 <= h < 2 ^ s).
  { split; [apply Z.div_pos; lia | apply Z.div_lt_upper_bound; lia]. }
  assert (Hl2 : 0 <= l * 2 ^ s < 2 ^ 64) by nia.
  assert (Hm : (x * 2 ^ s) mod 2 ^ 64 = l * 2 ^ s).
  { symmetry. apply (Z.mod_unique_pos _ _ h); [lia|]. rewrite Hdm, Hp. ring. }
  rewrite Hm. split; [rewrite Hdm at 1; rewrite Hp; ring|]. split; [assumption|].
  exists l. split; [reflexivity | lia].
Qed.
