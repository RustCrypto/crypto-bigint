(** C06, table level: for EVERY key of the area `cmp` (Model/Cmp.v, 88 keys) the entry of [ops_cmp_model] (limb-level
    model of the Rust code, including the glue of the entry: argument decoding, Choice / ConstChoice / CtOption
    plumbing, debug assertions, panics) equals the entry of [ops_cmp_spec] (plain order / equality on the represented
    integers) on all well-formed, well-typed arguments.
    [run_tab t k dbg args] (Proofs/TotalityP.v) looks the key up exactly as Model/Api.v does.
    Typing side conditions ([cmp_tbl_ty], boolean, one predicate per key class) are only what Rust's types enforce:
    a Limb argument is one word, two Uint<N> / Int<N> operands have one limb count, Int<N> (and Uint::is_one, whose
    constant ONE does not exist for N = 0) has at least one limb.  BoxedUint::ct_select / ct_swap are proved under
    the documented equal-precision condition; for unequal precisions the release-profile model entry differs from
    the spec entry (open finding F16, [C06_tables_boxed_select_refuted] / [C06_tables_boxed_swap_refuted] of Props/C06b.v). *)
From CB Require Import Model.Limbs Model.AddSub Model.Cmp Proofs.WordP Proofs.WordPredP Proofs.LimbsP Proofs.AddSubP
  Proofs.CmpWordP Proofs.CmpP Proofs.CmpIntP Proofs.CmpBoxedP Proofs.CmpAllP Proofs.TotalityP.
From CB Require Proofs.IntArithP.
From Coq Require Import ZArith Lia List String Bool.
Open Scope Z_scope.
Notation length := List.length.

(* ------------------------------------------------------------------ typing side conditions (boolean) *)
Definition tyb := list (list Z) -> bool.
Definition limb_1 : tyb := fun a => (ln 0 a =? 1)%nat.                                  (* one Limb *)
Definition limb_2 : tyb := fun a => (ln 0 a =? 1)%nat && (ln 1 a =? 1)%nat.             (* two Limbs *)
Definition same_n : tyb := fun a => (ln 0 a =? ln 1 a)%nat.                             (* two Uint<N>, one N *)
Definition nonempty : tyb := fun a => negb (ln 0 a =? 0)%nat.                           (* N >= 1 *)
Definition int_2 : tyb := fun a => nonempty a && same_n a.                              (* two Int<N>, N >= 1 *)
Definition int_def : tyb := fun a => nonempty a && (ln 0 a =? ln 2 a)%nat.              (* Uint<N>, flag, Int<N> *)

Open Scope string_scope.
Definition cmp_tbl_ty : list (string * tyb) :=
  [("limb.ct_eq", limb_2); ("limb.ct_ne", limb_2); ("limb.eq_vartime", limb_2); ("limb.ct_lt", limb_2);
   ("limb.ct_gt", limb_2); ("limb.cmp", limb_2); ("limb.lt", limb_2); ("limb.le", limb_2); ("limb.gt", limb_2);
   ("limb.ge", limb_2); ("limb.cmp_vartime", limb_2); ("limb.select", limb_2); ("limb.swap", limb_2);
   ("limb.hash", limb_2);
   ("limb.is_zero", limb_1); ("limb.is_one", limb_1); ("limb.is_odd", limb_1); ("limb.to_nz", limb_1);
   ("limb.nz_new_unwrap", limb_1); ("limb.conditional_negate", limb_1);
   ("uint.ct_eq", same_n); ("uint.ct_lt", same_n); ("uint.ct_gt", same_n); ("uint.cmp", same_n);
   ("uint.lt", same_n); ("uint.le", same_n); ("uint.gt", same_n); ("uint.ge", same_n);
   ("uint.cmp_vartime", same_n); ("uint.select", same_n); ("uint.swap", same_n); ("uint.hash", same_n);
   ("uint.ctopt", same_n); ("uint.is_one", nonempty);
   ("int.ct_eq", int_2); ("int.ct_lt", int_2); ("int.ct_gt", int_2); ("int.cmp", int_2); ("int.lt", int_2);
   ("int.le", int_2); ("int.gt", int_2); ("int.ge", int_2); ("int.cmp_vartime", int_2); ("int.hash", int_2);
   ("int.select", same_n); ("int.swap", same_n);
   ("int.is_one", nonempty); ("int.is_min", nonempty); ("int.is_max", nonempty); ("int.to_odd", nonempty);
   ("int.abs_sign", nonempty); ("int.new_from_abs_sign", int_def); ("int.new_from_abs_sign_expect", nonempty);
   ("boxed.select", same_n); ("boxed.swap", same_n)].
Open Scope Z_scope.

Definition cmp_typed (k : string) (a : list (list Z)) : bool :=
  match lookup k cmp_tbl_ty with Some P => P a | None => true end.

(* trap: these two are not local, so a file that imports this one loses [S] as the successor of nat *)
Notation M := (run_tab ops_cmp_model).
Notation S := (run_tab ops_cmp_spec).

(* one key *)
Definition tbl_ok (k : string) : Prop :=
  forall dbg a, wf_args a -> cmp_typed k a = true -> M k dbg a = S k dbg a.

Ltac start :=
  let dbg := fresh "dbg" in let a := fresh "a" in let Hwf := fresh "Hwf" in let Hty := fresh "Hty" in
  intros dbg a Hwf Hty; unfold cmp_typed in Hty;
  lazy beta iota delta [lookup cmp_tbl_ty String.eqb Ascii.eqb Bool.eqb] in Hty;
  open_tabs ops_cmp_model ops_cmp_spec.

(* ------------------------------------------------------------------ small facts *)
Lemma limb_1_iff a : limb_1 a = true -> ln 0 a = 1%nat.
Proof. unfold limb_1. apply Nat.eqb_eq. Qed.
Lemma limb_2_iff a : limb_2 a = true -> ln 0 a = 1%nat /\ ln 1 a = 1%nat.
Proof. unfold limb_2. intros H. apply andb_prop in H. rewrite !Nat.eqb_eq in H. exact H. Qed.
Lemma same_n_iff a : same_n a = true -> length (arg 0 a) = length (arg 1 a).
Proof. unfold same_n, ln. apply Nat.eqb_eq. Qed.
Lemma nonempty_iff a : nonempty a = true -> arg 0 a <> [].
Proof.
  unfold nonempty, ln. intros H E. rewrite E in H. discriminate.
Qed.
Lemma int_2_iff a : int_2 a = true -> arg 0 a <> [] /\ length (arg 0 a) = length (arg 1 a).
Proof. unfold int_2. intros H. apply andb_prop in H. destruct H. split; [apply nonempty_iff | apply same_n_iff]; assumption. Qed.
Lemma int_def_iff a : int_def a = true -> arg 0 a <> [] /\ length (arg 0 a) = length (arg 2 a).
Proof.
  unfold int_def. intros H. apply andb_prop in H. destruct H as [H1 H2]. split; [apply nonempty_iff; assumption|].
  apply Nat.eqb_eq in H2. exact H2.
Qed.

Lemma negb_b2z_eqb0 b : negb (b2z b =? 0) = b.
Proof. destruct b; reflexivity. Qed.
Lemma carg_b2z i a : carg i a = b2z (cbit i a).
Proof. reflexivity. Qed.
Lemma ccarg_choice i a : ccarg i a = choice_of_bool (cbit i a).
Proof. reflexivity. Qed.

Lemma is_lt_ordz x y : is_lt (ordz x y) = (x <? y).
Proof. unfold is_lt, ordz. destruct (Z.ltb_spec x y); [reflexivity|]. destruct (x =? y); reflexivity. Qed.
Lemma is_le_ordz x y : is_le (ordz x y) = (x <=? y).
Proof.
  unfold is_le, ordz. destruct (Z.ltb_spec x y), (Z.leb_spec x y), (Z.eqb_spec x y); try reflexivity; lia.
Qed.
Lemma is_gt_ordz x y : is_gt (ordz x y) = (y <? x).
Proof.
  unfold is_gt, ordz. destruct (Z.ltb_spec x y), (Z.ltb_spec y x), (Z.eqb_spec x y); try reflexivity; lia.
Qed.
Lemma is_ge_ordz x y : is_ge (ordz x y) = (y <=? x).
Proof.
  unfold is_ge, ordz. destruct (Z.ltb_spec x y), (Z.leb_spec y x), (Z.eqb_spec x y); try reflexivity; lia.
Qed.

(* Hash vs Eq: the model's coherence flag is constantly true when equal values feed equal data *)
Lemma vhash_in_ok (e : bool) ha hb : (e = true -> ha = hb) -> vhash_in e ha hb = Val [vbool e; [1]].
Proof.
  intros H. unfold vhash_in. destruct e; cbn [negb orb]; [|reflexivity].
  rewrite (H eq_refl), list_eqb_refl. reflexivity.
Qed.

(* ================================================================== Limb *)
Ltac limb2 :=
  start;
  let H0 := fresh "H0" in let H1 := fresh "H1" in let Wx := fresh "Wx" in let Wy := fresh "Wy" in
  match goal with Hwf : wf_args ?a, Hty : limb_2 ?a = true |- _ =>
    apply limb_2_iff in Hty; destruct Hty as [H0 H1];
    pose proof (sarg_word 0 a Hwf) as Wx; pose proof (sarg_word 1 a Hwf) as Wy;
    rewrite ?(ev_single 0 a H0), ?(ev_single 1 a H1)
  end.
Ltac limb1 :=
  start;
  let H0 := fresh "H0" in let Wx := fresh "Wx" in
  match goal with Hwf : wf_args ?a, Hty : limb_1 ?a = true |- _ =>
    apply limb_1_iff in Hty; rename Hty into H0;
    pose proof (sarg_word 0 a Hwf) as Wx; rewrite ?(ev_single 0 a H0)
  end.

Lemma tbl_limb_ct_eq : tbl_ok "limb.ct_eq".
Proof. limb2. rewrite limb_ct_eq_spec by assumption. reflexivity. Qed.
Lemma tbl_limb_ct_ne : tbl_ok "limb.ct_ne".
Proof. limb2. rewrite limb_ct_ne_spec by assumption. reflexivity. Qed.
Lemma tbl_limb_eq_vartime : tbl_ok "limb.eq_vartime".
Proof. limb2. reflexivity. Qed.
Lemma tbl_limb_ct_lt : tbl_ok "limb.ct_lt".
Proof. limb2. rewrite limb_ct_lt_spec by assumption. reflexivity. Qed.
Lemma tbl_limb_ct_gt : tbl_ok "limb.ct_gt".
Proof. limb2. rewrite limb_ct_gt_spec by assumption. reflexivity. Qed.
Lemma tbl_limb_cmp : tbl_ok "limb.cmp".
Proof. limb2. rewrite limb_cmp_spec by assumption. reflexivity. Qed.
Lemma tbl_limb_lt : tbl_ok "limb.lt".
Proof. limb2. rewrite limb_cmp_spec by assumption. unfold vrel. rewrite is_lt_ordz. reflexivity. Qed.
Lemma tbl_limb_le : tbl_ok "limb.le".
Proof. limb2. rewrite limb_cmp_spec by assumption. unfold vrel. rewrite is_le_ordz. reflexivity. Qed.
Lemma tbl_limb_gt : tbl_ok "limb.gt".
Proof. limb2. rewrite limb_cmp_spec by assumption. unfold vrel. rewrite is_gt_ordz. reflexivity. Qed.
Lemma tbl_limb_ge : tbl_ok "limb.ge".
Proof. limb2. rewrite limb_cmp_spec by assumption. unfold vrel. rewrite is_ge_ordz. reflexivity. Qed.
Lemma tbl_limb_cmp_vartime : tbl_ok "limb.cmp_vartime".
Proof. limb2. reflexivity. Qed.
Lemma tbl_limb_is_zero : tbl_ok "limb.is_zero".
Proof. limb1. rewrite limb_is_zero_spec by assumption. reflexivity. Qed.
Lemma tbl_limb_is_one : tbl_ok "limb.is_one".
Proof. limb1. rewrite limb_ct_eq_spec by (auto using is_word_1). reflexivity. Qed.
Lemma tbl_limb_is_odd : tbl_ok "limb.is_odd".
Proof. limb1. rewrite limb_is_odd_spec by assumption. reflexivity. Qed.
Lemma tbl_limb_to_nz : tbl_ok "limb.to_nz".
Proof.
  limb1. unfold limb_is_nonzero. rewrite from_word_nonzero_spec by assumption. rewrite cc_true_choice. reflexivity.
Qed.
Lemma tbl_limb_nz_new_unwrap : tbl_ok "limb.nz_new_unwrap".
Proof.
  limb1. unfold limb_is_nonzero. rewrite from_word_nonzero_spec by assumption. rewrite cc_true_choice.
  destruct (sarg 0 a =? 0); reflexivity.
Qed.
Lemma tbl_limb_select : tbl_ok "limb.select".
Proof.
  limb2. rewrite carg_b2z, st_select_spec by assumption. unfold sp_sel, spec_select.
  rewrite (arg_single 0 a H0), (arg_single 1 a H1). destruct (cbit 2 a); reflexivity.
Qed.
Lemma tbl_limb_swap : tbl_ok "limb.swap".
Proof.
  limb2. rewrite carg_b2z, ct_swap_limbs_spec by (auto using wf_arg; unfold ln in *; congruence). reflexivity.
Qed.
Lemma tbl_limb_conditional_negate : tbl_ok "limb.conditional_negate".
Proof.
  limb1. rewrite carg_b2z, st_select_spec by (auto using is_word_wneg).
  unfold sp_neg_if, sp_wrapping, sp_val. rewrite (ev_single 0 a H0), H0.
  set (x := sarg 0 a) in *. cbn [to_limbs]. rewrite Bn_S, Bn_0, Z.mul_1_r.
  pose proof B_pos. rewrite Z.mod_mod by lia.
  destruct (cbit 1 a).
  - reflexivity.
  - rewrite Z.mod_small by exact Wx. reflexivity.
Qed.
Lemma tbl_limb_hash : tbl_ok "limb.hash".
Proof.
  limb2. rewrite limb_ct_eq_spec, negb_b2z_eqb0 by assumption. unfold vhash.
  rewrite (arg_single 0 a H0), (arg_single 1 a H1). apply vhash_in_ok.
  intros E. apply Z.eqb_eq in E. rewrite E. reflexivity.
Qed.

(* ================================================================== Uint<N> *)
(* two operands of one width *)
Ltac bin2 :=
  start;
  let Hl := fresh "Hl" in let W0 := fresh "W0" in let W1 := fresh "W1" in
  match goal with Hwf : wf_args ?a, Hty : same_n ?a = true |- _ =>
    apply same_n_iff in Hty; rename Hty into Hl;
    pose proof (wf_arg 0 a Hwf) as W0; pose proof (wf_arg 1 a Hwf) as W1; unfold ev
  end.
(* one operand *)
Ltac un1 :=
  start;
  let W0 := fresh "W0" in
  match goal with Hwf : wf_args ?a |- _ => pose proof (wf_arg 0 a Hwf) as W0; unfold ev end.

Lemma tbl_uint_ct_eq : tbl_ok "uint.ct_eq".
Proof. bin2. rewrite uint_ct_eq_spec by assumption. reflexivity. Qed.
Lemma tbl_uint_ct_lt : tbl_ok "uint.ct_lt".
Proof. bin2. rewrite uint_lt_spec, to_choice_choice by assumption. reflexivity. Qed.
Lemma tbl_uint_ct_gt : tbl_ok "uint.ct_gt".
Proof. bin2. rewrite uint_gt_spec, to_choice_choice by assumption. reflexivity. Qed.
Lemma tbl_uint_cmp : tbl_ok "uint.cmp".
Proof. bin2. rewrite uint_cmp_spec by assumption. reflexivity. Qed.
Lemma tbl_uint_lt : tbl_ok "uint.lt".
Proof. bin2. rewrite uint_cmp_spec, is_lt_ordz by assumption. reflexivity. Qed.
Lemma tbl_uint_le : tbl_ok "uint.le".
Proof. bin2. rewrite uint_cmp_spec, is_le_ordz by assumption. reflexivity. Qed.
Lemma tbl_uint_gt : tbl_ok "uint.gt".
Proof. bin2. rewrite uint_cmp_spec, is_gt_ordz by assumption. reflexivity. Qed.
Lemma tbl_uint_ge : tbl_ok "uint.ge".
Proof. bin2. rewrite uint_cmp_spec, is_ge_ordz by assumption. reflexivity. Qed.
Lemma tbl_uint_cmp_vartime : tbl_ok "uint.cmp_vartime".
Proof. bin2. rewrite uint_cmp_vartime_spec by assumption. reflexivity. Qed.
Lemma tbl_uint_is_zero : tbl_ok "uint.is_zero".
Proof. un1. rewrite uint_is_zero_spec by assumption. reflexivity. Qed.
Lemma tbl_uint_is_one : tbl_ok "uint.is_one".
Proof. un1. apply nonempty_iff in Hty. rewrite uint_is_one_spec by assumption. reflexivity. Qed.
Lemma tbl_uint_is_odd : tbl_ok "uint.is_odd".
Proof. un1. rewrite integer_is_odd_spec by assumption. reflexivity. Qed.
Lemma tbl_uint_is_even : tbl_ok "uint.is_even".
Proof. un1. rewrite integer_is_odd_spec, ch_not_b2z, Z.negb_odd by assumption. reflexivity. Qed.
Lemma tbl_uint_to_nz : tbl_ok "uint.to_nz".
Proof. un1. rewrite uint_is_nonzero_spec, cc_true_choice by assumption. reflexivity. Qed.
Lemma tbl_uint_to_odd : tbl_ok "uint.to_odd".
Proof. un1. rewrite uint_is_odd_spec, cc_true_choice by assumption. reflexivity. Qed.
Lemma tbl_uint_nz_new : tbl_ok "uint.nz_new".
Proof. un1. rewrite uint_is_zero_spec, ch_not_b2z, negb_b2z_eqb0 by assumption. reflexivity. Qed.
Lemma tbl_uint_odd_new : tbl_ok "uint.odd_new".
Proof. un1. rewrite integer_is_odd_spec, negb_b2z_eqb0 by assumption. reflexivity. Qed.
Lemma tbl_uint_select : tbl_ok "uint.select".
Proof. bin2. rewrite carg_b2z, ct_select_limbs_spec by assumption. reflexivity. Qed.
Lemma tbl_uint_swap : tbl_ok "uint.swap".
Proof. bin2. rewrite carg_b2z, ct_swap_limbs_spec by assumption. reflexivity. Qed.

(* wrapping negation selected by a flag: the spec value as limbs *)
Lemma neg_if_limbs r a0 (c : bool) : wf r -> length r = length a0 ->
  eval r = (if c then - eval a0 else eval a0) mod Bn (length a0) ->
  Val [r] = sp_wrapping (length a0) (if c then - eval a0 else eval a0).
Proof.
  intros Hw Hl He. unfold sp_wrapping, sp_val. f_equal. f_equal. apply limbs_of_mod; assumption.
Qed.
Lemma tbl_uint_neg_if : tbl_ok "uint.neg_if".
Proof.
  un1. rewrite ccarg_choice. destruct (uint_neg_if_spec (arg 0 a) (cbit 1 a) W0) as (E & W & L).
  unfold sp_neg_if, ln, ev. apply neg_if_limbs; assumption.
Qed.
Lemma tbl_uint_conditional_negate : tbl_ok "uint.conditional_negate".
Proof.
  un1. rewrite carg_b2z. destruct (conditional_negate_spec (arg 0 a) (cbit 1 a) W0) as (E & W & L).
  unfold sp_neg_if, ln, ev. apply neg_if_limbs; assumption.
Qed.
Lemma tbl_uint_hash : tbl_ok "uint.hash".
Proof.
  bin2. rewrite uint_ct_eq_spec, negb_b2z_eqb0 by assumption. unfold vhash. apply vhash_in_ok.
  intros E. apply Z.eqb_eq in E. rewrite (eval_inj _ _ W0 W1 Hl E). reflexivity.
Qed.
Lemma tbl_uint_ctopt : tbl_ok "uint.ctopt".
Proof.
  bin2. rewrite ccarg_choice. unfold ln. destruct (cbit 2 a); cbn [negb].
  - rewrite uint_select_spec by (auto; congruence). reflexivity.
  - rewrite uint_select_spec by (auto using wf_zeros; rewrite length_zeros; congruence). reflexivity.
Qed.
Lemma tbl_uint_ctopt_expect : tbl_ok "uint.ctopt_expect".
Proof. un1. rewrite ccarg_choice, cc_true_choice. reflexivity. Qed.

(* ================================================================== Int<N> *)
Ltac int2 :=
  start;
  let Hl := fresh "Hl" in let Hne := fresh "Hne" in let W0 := fresh "W0" in let W1 := fresh "W1" in
  match goal with Hwf : wf_args ?a, Hty : int_2 ?a = true |- _ =>
    apply int_2_iff in Hty; destruct Hty as [Hne Hl];
    pose proof (wf_arg 0 a Hwf) as W0; pose proof (wf_arg 1 a Hwf) as W1; unfold sev
  end.
Ltac int1 :=
  start;
  let Hne := fresh "Hne" in let W0 := fresh "W0" in
  match goal with Hwf : wf_args ?a, Hty : nonempty ?a = true |- _ =>
    apply nonempty_iff in Hty; rename Hty into Hne;
    pose proof (wf_arg 0 a Hwf) as W0; unfold sev
  end.
Ltac int_order a :=
  destruct (int_order_spec (arg 0 a) (arg 1 a)) as (Eeq & Elt & Egt & Ecmp & Ecv); try assumption.

Lemma tbl_int_ct_eq : tbl_ok "int.ct_eq".
Proof. int2. int_order a. rewrite Eeq, to_choice_choice. reflexivity. Qed.
Lemma tbl_int_ct_lt : tbl_ok "int.ct_lt".
Proof. int2. int_order a. rewrite Elt, to_choice_choice. reflexivity. Qed.
Lemma tbl_int_ct_gt : tbl_ok "int.ct_gt".
Proof. int2. int_order a. rewrite Egt, to_choice_choice. reflexivity. Qed.
Lemma tbl_int_cmp : tbl_ok "int.cmp".
Proof. int2. int_order a. rewrite Ecmp. reflexivity. Qed.
Lemma tbl_int_lt : tbl_ok "int.lt".
Proof. int2. int_order a. rewrite Ecmp, is_lt_ordz. reflexivity. Qed.
Lemma tbl_int_le : tbl_ok "int.le".
Proof. int2. int_order a. rewrite Ecmp, is_le_ordz. reflexivity. Qed.
Lemma tbl_int_gt : tbl_ok "int.gt".
Proof. int2. int_order a. rewrite Ecmp, is_gt_ordz. reflexivity. Qed.
Lemma tbl_int_ge : tbl_ok "int.ge".
Proof. int2. int_order a. rewrite Ecmp, is_ge_ordz. reflexivity. Qed.
Lemma tbl_int_cmp_vartime : tbl_ok "int.cmp_vartime".
Proof. int2. int_order a. rewrite Ecv. reflexivity. Qed.

Lemma seval_eqb_zero a : wf a -> (seval a =? 0) = (eval a =? 0).
Proof.
  intros Ha. pose proof (seval_zero_iff a Ha) as H.
  destruct (Z.eqb_spec (seval a) 0), (Z.eqb_spec (eval a) 0); try reflexivity; tauto.
Qed.
Lemma half_big (a : list Z) : a <> [] -> 2 ^ 63 <= half (length a).
Proof.
  destruct a as [|x a]; [congruence|]. intros _. cbn [List.length]. rewrite half_S.
  pose proof (Bn_pos (length a)). word_facts.
  assert (2 ^ 63 * 1 <= 2 ^ 63 * Bn (length a)) by (apply Z.mul_le_mono_nonneg_l; lia). lia.
Qed.
Lemma seval_eqb_one a : wf a -> a <> [] -> (seval a =? 1) = (eval a =? 1).
Proof.
  intros Ha Hn. pose proof (eval_bounds a Ha). pose proof (half_big a Hn). pose proof (Bn_half a Hn). word_facts.
  apply eq_true_iff_eq. rewrite !Z.eqb_eq. destruct (IntArithP.seval_cases a Ha) as [[? ->]|[? ->]]; lia.
Qed.
Lemma seval_cases2 a : seval a = eval a \/ seval a = eval a - Bn (length a).
Proof. unfold seval. cbv zeta. destruct (_ <? _); [left | right]; reflexivity. Qed.
Lemma seval_mod a (c : bool) :
  (if c then - seval a else seval a) mod Bn (length a) = (if c then - eval a else eval a) mod Bn (length a).
Proof.
  destruct (seval_cases2 a) as [-> | ->]; [reflexivity|]. destruct c.
  - replace (- (eval a - Bn (length a))) with (- eval a + 1 * Bn (length a)) by ring. apply Z_mod_plus_full.
  - replace (eval a - Bn (length a)) with (eval a + (-1) * Bn (length a)) by ring. apply Z_mod_plus_full.
Qed.

Lemma tbl_int_is_zero : tbl_ok "int.is_zero".
Proof. un1. unfold sev. rewrite uint_is_zero_spec, seval_eqb_zero by assumption. reflexivity. Qed.
Lemma tbl_int_is_one : tbl_ok "int.is_one".
Proof. int1. rewrite uint_is_one_spec, seval_eqb_one by assumption. reflexivity. Qed.
Lemma tbl_int_is_negative : tbl_ok "int.is_negative".
Proof. un1. unfold sev, vcc. rewrite int_is_negative_spec, cc_true_choice by assumption. reflexivity. Qed.
Lemma tbl_int_is_positive : tbl_ok "int.is_positive".
Proof. un1. unfold sev, vcc. rewrite int_is_positive_spec, cc_true_choice by assumption. reflexivity. Qed.
Lemma tbl_int_is_min : tbl_ok "int.is_min".
Proof. int1. unfold vcc. rewrite int_is_min_spec, cc_true_choice by assumption. reflexivity. Qed.
Lemma tbl_int_is_max : tbl_ok "int.is_max".
Proof. int1. unfold vcc. rewrite int_is_max_spec, cc_true_choice by assumption. reflexivity. Qed.
Lemma tbl_int_to_nz : tbl_ok "int.to_nz".
Proof. un1. unfold sev. rewrite int_to_nz_spec, cc_true_choice by assumption. reflexivity. Qed.
Lemma tbl_int_to_odd : tbl_ok "int.to_odd".
Proof. int1. rewrite int_to_odd_spec, cc_true_choice by assumption. reflexivity. Qed.
Lemma tbl_int_select : tbl_ok "int.select".
Proof. bin2. rewrite carg_b2z, ct_select_limbs_spec by assumption. reflexivity. Qed.
Lemma tbl_int_swap : tbl_ok "int.swap".
Proof. bin2. rewrite carg_b2z, ct_swap_limbs_spec by assumption. reflexivity. Qed.
Lemma tbl_int_neg_if : tbl_ok "int.neg_if".
Proof.
  un1. rewrite ccarg_choice. destruct (uint_neg_if_spec (arg 0 a) (cbit 1 a) W0) as (E & W & L).
  unfold sp_val, sev, ln. rewrite seval_mod. f_equal. f_equal. apply limbs_of_mod; assumption.
Qed.
Lemma tbl_int_hash : tbl_ok "int.hash".
Proof.
  int2. int_order a. unfold uint_ct_eq. rewrite Eeq, to_choice_choice, negb_b2z_eqb0. unfold vhash.
  apply vhash_in_ok. intros E.
  rewrite uint_eq_spec in Eeq by assumption. apply (f_equal cc_true) in Eeq. rewrite !cc_true_choice in Eeq.
  rewrite <- Eeq in E. apply Z.eqb_eq in E. rewrite (eval_inj _ _ W0 W1 Hl E). reflexivity.
Qed.
Lemma tbl_int_abs_sign : tbl_ok "int.abs_sign".
Proof.
  int1. destruct (int_abs_sign (arg 0 a)) as [m sg] eqn:E.
  destruct (int_abs_sign_spec _ _ _ W0 Hne E) as (-> & Em & Wm & Lm). rewrite cc_true_choice. unfold ln.
  f_equal. f_equal. apply to_limbs_unique; auto. rewrite Em. symmetry. apply Z.mod_small.
  pose proof (eval_bounds m Wm) as Hb. rewrite Em, Lm in Hb. exact Hb.
Qed.
Lemma tbl_int_new_from_abs_sign : tbl_ok "int.new_from_abs_sign".
Proof.
  start. apply int_def_iff in Hty. destruct Hty as [Hne Hl].
  pose proof (wf_arg 0 a Hwf) as W0. pose proof (wf_arg 2 a Hwf) as W2. rewrite ccarg_choice. unfold ev, ln.
  destruct (int_new_from_abs_sign (arg 0 a) (choice_of_bool (cbit 1 a))) as [v fits] eqn:E.
  destruct (int_new_from_abs_sign_spec _ _ _ _ W0 Hne E) as (-> & Wv & Lv & Ev & _). cbv zeta.
  set (s := if cbit 1 a then - eval (arg 0 a) else eval (arg 0 a)) in *.
  rewrite cc_not_choice, !cc_true_choice, uint_select_spec by (auto; congruence).
  rewrite <- (limbs_of_mod v (length (arg 0 a)) s Wv Lv Ev).
  unfold spec_select. destruct (_ && _)%bool; reflexivity.
Qed.
Lemma tbl_int_new_from_abs_sign_expect : tbl_ok "int.new_from_abs_sign_expect".
Proof.
  int1. rewrite ccarg_choice. unfold ev, ln.
  destruct (int_new_from_abs_sign (arg 0 a) (choice_of_bool (cbit 1 a))) as [v fits] eqn:E.
  destruct (int_new_from_abs_sign_spec _ _ _ _ W0 Hne E) as (-> & Wv & Lv & Ev & _). cbv zeta.
  set (s := if cbit 1 a then - eval (arg 0 a) else eval (arg 0 a)) in *.
  rewrite cc_true_choice. rewrite <- (limbs_of_mod v (length (arg 0 a)) s Wv Lv Ev).
  destruct (_ && _)%bool; reflexivity.
Qed.

(* ================================================================== BoxedUint (any two precisions) *)
Ltac box2 :=
  start;
  let W0 := fresh "W0" in let W1 := fresh "W1" in
  match goal with Hwf : wf_args ?a |- _ =>
    pose proof (wf_arg 0 a Hwf) as W0; pose proof (wf_arg 1 a Hwf) as W1; unfold ev
  end.

Lemma tbl_boxed_ct_eq : tbl_ok "boxed.ct_eq".
Proof. box2. rewrite boxed_ct_eq_spec by assumption. reflexivity. Qed.
Lemma tbl_boxed_ct_lt : tbl_ok "boxed.ct_lt".
Proof. box2. rewrite boxed_ct_lt_spec by assumption. reflexivity. Qed.
Lemma tbl_boxed_ct_gt : tbl_ok "boxed.ct_gt".
Proof. box2. rewrite boxed_ct_gt_spec by assumption. reflexivity. Qed.
Lemma tbl_boxed_cmp : tbl_ok "boxed.cmp".
Proof. box2. rewrite boxed_cmp_spec by assumption. reflexivity. Qed.
Lemma tbl_boxed_lt : tbl_ok "boxed.lt".
Proof. box2. rewrite boxed_cmp_spec by assumption. unfold vrel. rewrite is_lt_ordz. reflexivity. Qed.
Lemma tbl_boxed_le : tbl_ok "boxed.le".
Proof. box2. rewrite boxed_cmp_spec by assumption. unfold vrel. rewrite is_le_ordz. reflexivity. Qed.
Lemma tbl_boxed_gt : tbl_ok "boxed.gt".
Proof. box2. rewrite boxed_cmp_spec by assumption. unfold vrel. rewrite is_gt_ordz. reflexivity. Qed.
Lemma tbl_boxed_ge : tbl_ok "boxed.ge".
Proof. box2. rewrite boxed_cmp_spec by assumption. unfold vrel. rewrite is_ge_ordz. reflexivity. Qed.
Lemma tbl_boxed_cmp_vartime : tbl_ok "boxed.cmp_vartime".
Proof. box2. rewrite boxed_cmp_vartime_spec by assumption. reflexivity. Qed.
Lemma tbl_boxed_is_zero : tbl_ok "boxed.is_zero".
Proof. un1. rewrite boxed_is_zero_spec by assumption. reflexivity. Qed.
Lemma tbl_boxed_is_nonzero : tbl_ok "boxed.is_nonzero".
Proof. un1. rewrite boxed_is_nonzero_spec by assumption. reflexivity. Qed.
Lemma tbl_boxed_is_one : tbl_ok "boxed.is_one".
Proof. un1. rewrite boxed_is_one_spec by assumption. reflexivity. Qed.
Lemma tbl_boxed_is_odd : tbl_ok "boxed.is_odd".
Proof. un1. rewrite integer_is_odd_spec by assumption. reflexivity. Qed.
Lemma tbl_boxed_is_even : tbl_ok "boxed.is_even".
Proof. un1. rewrite integer_is_odd_spec, ch_not_b2z, Z.negb_odd by assumption. reflexivity. Qed.
Lemma tbl_boxed_to_odd : tbl_ok "boxed.to_odd".
Proof. un1. rewrite integer_is_odd_spec, negb_b2z_eqb0 by assumption. reflexivity. Qed.
Lemma tbl_boxed_nz_new : tbl_ok "boxed.nz_new".
Proof. un1. rewrite boxed_is_zero_spec, ch_not_b2z, negb_b2z_eqb0 by assumption. reflexivity. Qed.
(* ct_select / ct_assign / ct_swap: under the documented equal-precision condition (both profiles) *)
Lemma tbl_boxed_select : tbl_ok "boxed.select".
Proof. bin2. rewrite carg_b2z, boxed_ct_select_partial by assumption. reflexivity. Qed.
Lemma tbl_boxed_swap : tbl_ok "boxed.swap".
Proof. bin2. rewrite carg_b2z, boxed_ct_swap_partial by assumption. reflexivity. Qed.
Lemma tbl_boxed_conditional_negate : tbl_ok "boxed.conditional_negate".
Proof.
  un1. rewrite carg_b2z. destruct (boxed_conditional_negate_spec (arg 0 a) (cbit 1 a) W0) as (E & W & L).
  unfold sp_neg_if, ln, ev. apply neg_if_limbs; assumption.
Qed.
Lemma tbl_boxed_hash : tbl_ok "boxed.hash".
Proof.
  box2. pose proof (boxed_eq_iff_hash _ _ W0 W1) as [H _]. rewrite boxed_ct_eq_spec in * by assumption.
  rewrite negb_b2z_eqb0. apply vhash_in_ok. intros E. apply H. rewrite E. reflexivity.
Qed.

(* ================================================================== the area theorem *)
(* [cmp_keys] (Proofs/TotalityP.v) is the WHOLE key set of the two tables *)
Lemma cmp_keys_whole : forall k, In k cmp_keys <-> In k (map fst ops_cmp_model).
Proof.
  assert (H1 : sublist cmp_keys (map fst ops_cmp_model) = true) by (vm_compute; reflexivity).
  assert (H2 : sublist (map fst ops_cmp_model) cmp_keys = true) by (vm_compute; reflexivity).
  intros k. split; [apply (sublist_In _ _ H1) | apply (sublist_In _ _ H2)].
Qed.
Fixpoint nodupb (l : list string) : bool :=
  match l with [] => true | x :: r => negb (mem_str x r) && nodupb r end.
Lemma nodupb_NoDup l : nodupb l = true -> NoDup l.
Proof.
  induction l as [|x r IH]; intros H; [constructor|]. cbn [nodupb] in H. apply andb_prop in H. destruct H as [H1 H2].
  constructor; [|apply IH; exact H2]. intros Hin. apply negb_true_iff in H1.
  assert (E : mem_str x r = true); [|congruence].
  unfold mem_str. apply existsb_exists. exists x. split; [exact Hin | apply String.eqb_refl].
Qed.
Lemma cmp_keys_same_tables : map fst ops_cmp_model = map fst ops_cmp_spec /\ List.length cmp_keys = 88%nat /\
  NoDup cmp_keys.
Proof.
  split; [reflexivity|]. split; [reflexivity|]. apply nodupb_NoDup. vm_compute. reflexivity.
Qed.

(* the lemmas of all keys, in the order of [cmp_keys] *)
Lemma cmp_all_keys_ok : forall k, In k cmp_keys -> tbl_ok k.
Proof.
  exact (all_of_sigs tbl_ok
    [exist _ _ tbl_limb_ct_eq; exist _ _ tbl_limb_ct_ne; exist _ _ tbl_limb_eq_vartime; exist _ _ tbl_limb_ct_lt;
     exist _ _ tbl_limb_ct_gt; exist _ _ tbl_limb_cmp_vartime; exist _ _ tbl_limb_is_zero;
     exist _ _ tbl_limb_is_one; exist _ _ tbl_limb_is_odd; exist _ _ tbl_limb_to_nz; exist _ _ tbl_limb_select;
     exist _ _ tbl_limb_swap; exist _ _ tbl_limb_conditional_negate; exist _ _ tbl_limb_hash;
     exist _ _ tbl_uint_ct_eq; exist _ _ tbl_uint_ct_lt; exist _ _ tbl_uint_ct_gt; exist _ _ tbl_uint_cmp;
     exist _ _ tbl_uint_lt; exist _ _ tbl_uint_le; exist _ _ tbl_uint_gt; exist _ _ tbl_uint_ge;
     exist _ _ tbl_uint_cmp_vartime; exist _ _ tbl_uint_is_zero; exist _ _ tbl_uint_is_one;
     exist _ _ tbl_uint_is_odd; exist _ _ tbl_uint_is_even; exist _ _ tbl_uint_to_nz; exist _ _ tbl_uint_to_odd;
     exist _ _ tbl_uint_nz_new; exist _ _ tbl_uint_odd_new; exist _ _ tbl_uint_select; exist _ _ tbl_uint_swap;
     exist _ _ tbl_uint_neg_if; exist _ _ tbl_uint_conditional_negate; exist _ _ tbl_uint_hash;
     exist _ _ tbl_uint_ctopt; exist _ _ tbl_int_ct_eq; exist _ _ tbl_int_ct_lt; exist _ _ tbl_int_ct_gt;
     exist _ _ tbl_int_cmp; exist _ _ tbl_int_lt; exist _ _ tbl_int_le; exist _ _ tbl_int_gt; exist _ _ tbl_int_ge;
     exist _ _ tbl_int_cmp_vartime; exist _ _ tbl_int_is_zero; exist _ _ tbl_int_is_one;
     exist _ _ tbl_int_is_negative; exist _ _ tbl_int_is_positive; exist _ _ tbl_int_is_min;
     exist _ _ tbl_int_is_max; exist _ _ tbl_int_to_nz; exist _ _ tbl_int_to_odd; exist _ _ tbl_int_select;
     exist _ _ tbl_int_swap; exist _ _ tbl_int_neg_if; exist _ _ tbl_int_hash; exist _ _ tbl_int_abs_sign;
     exist _ _ tbl_int_new_from_abs_sign; exist _ _ tbl_boxed_ct_eq; exist _ _ tbl_boxed_ct_lt;
     exist _ _ tbl_boxed_ct_gt; exist _ _ tbl_boxed_cmp_vartime; exist _ _ tbl_boxed_is_zero;
     exist _ _ tbl_boxed_is_nonzero; exist _ _ tbl_boxed_is_one; exist _ _ tbl_boxed_is_odd;
     exist _ _ tbl_boxed_is_even; exist _ _ tbl_boxed_to_odd; exist _ _ tbl_boxed_nz_new;
     exist _ _ tbl_boxed_conditional_negate; exist _ _ tbl_boxed_hash; exist _ _ tbl_limb_cmp;
     exist _ _ tbl_limb_lt; exist _ _ tbl_limb_le; exist _ _ tbl_limb_gt; exist _ _ tbl_limb_ge;
     exist _ _ tbl_limb_nz_new_unwrap; exist _ _ tbl_uint_ctopt_expect; exist _ _ tbl_int_new_from_abs_sign_expect;
     exist _ _ tbl_boxed_cmp; exist _ _ tbl_boxed_lt; exist _ _ tbl_boxed_le; exist _ _ tbl_boxed_gt;
     exist _ _ tbl_boxed_ge; exist _ _ tbl_boxed_select; exist _ _ tbl_boxed_swap]).
Qed.


(* the spec table is defined on every argument list: no input of this area is outside the documented domain *)

(* the typing side conditions speak about limb counts only: two argument lists with the same shape (the same list
   of limb counts) are typed alike, so no condition on a VALUE is hidden in [cmp_typed] *)
Definition shape (a : list (list Z)) : list nat := map (@List.length Z) a.
Lemma ln_shape i a b : shape a = shape b -> ln i a = ln i b.
Proof.
  intros H. unfold ln, arg. change (List.length (nth i a [])) with (@List.length Z (nth i a [])).
  rewrite <- !(map_nth (@List.length Z)). fold (shape a) (shape b). rewrite H. reflexivity.
Qed.
