(** C10 proofs: the outcomes of the public entry points in the form the op tables use: odd-modulus inverters
    (adjuster 1 or arbitrary), general modulus, Int wrappers (|a| and sign fix-up), Montgomery-form inverters
    (adjuster R^2, value level for the conversions), gcd wrappers.  Everything under the reported convergence flag. *)
From CB Require Import Model.Limbs Model.AddSub Model.SafeGcd Proofs.WordP Proofs.LimbsP Proofs.BitsP
  Proofs.SafeGcdArithP Proofs.SafeGcdJumpP Proofs.SafeGcdUnsatP Proofs.SafeGcdStepP Proofs.SafeGcdDivstepsP
  Proofs.SafeGcdCoreP Proofs.InvMod2kP Proofs.LimbConvertP Proofs.SafeGcdInvP Proofs.SafeGcdConvP Proofs.SafeGcdUintP.
From Coq Require Import ZArith Lia List Bool Znumtheory Zdiv Setoid Morphisms.
Open Scope Z_scope.

(** the operands of an entry point: two numbers of n >= 1 limbs, n within the u32 bit lengths of the Rust types *)
Definition sized (n : nat) (x y : list Z) : Prop :=
  wf x /\ wf y /\ length x = n /\ length y = n /\ (0 < n)%nat /\ Z.of_nat n <= 2 ^ 32.
Lemma sized_swap n x y : sized n x y -> sized n y x.
Proof. intros (Wx & Wy & Lx & Ly & Hn & Hn32). repeat split; assumption. Qed.

Lemma modinv_adj av mv A : 0 < mv -> Z.gcd av mv = 1 -> (av * ((modinv av mv * A) mod mv)) mod mv = A mod mv.
Proof.
  intros Hm G. destruct (modinv_spec av mv Hm) as (_ & C). rewrite G in C.
  assert (C1 : cg mv (av * modinv av mv) 1) by (apply cg_iff; assumption).
  apply cg_iff. rewrite cg_mod. transitivity ((av * modinv av mv) * A); [apply cg_of_eq; ring|]. rewrite C1. apply cg_of_eq. ring.
Qed.

Lemma out_sg_spec_inv_shape r n av mv : out_sg r = spec_inv n av mv ->
  exists v some, r = SgOk v some /\ (some = true <-> Z.gcd av mv = 1) /\ (some = true -> v = to_limbs n (modinv av mv)).
Proof.
  unfold out_sg, spec_inv. destruct r as [| |v [|]]; destruct (Z.eqb_spec (Z.gcd av mv) 1) as [G|G]; intros H; try discriminate.
  - exists v, true. split; [reflexivity|]. split; [tauto|]. intros _. inversion H. reflexivity.
  - exists v, false. split; [reflexivity|]. split; [split; [discriminate | intros; contradiction] | discriminate].
Qed.
Lemma out_sg_of_shape v some n av mv : (some = true <-> Z.gcd av mv = 1) -> (some = true -> v = to_limbs n (modinv av mv)) ->
  out_sg (SgOk v some) = spec_inv n av mv.
Proof.
  intros Hs Hv. unfold out_sg, spec_inv. destruct some.
  - rewrite (proj1 Hs eq_refl). cbn [Z.eqb Pos.eqb]. rewrite (Hv eq_refl). reflexivity.
  - destruct (Z.eqb_spec (Z.gcd av mv) 1) as [G|G]; [apply Hs in G; discriminate | reflexivity].
Qed.
Lemma out_some_shape r b : out_some r = Val [vbool b] -> exists v, r = SgOk v b.
Proof.
  unfold out_some. destruct r as [| |v s]; intros H; try discriminate. exists v. f_equal.
  inversion H as [H1]. destruct s, b; try reflexivity; discriminate.
Qed.

Lemma eqb1_of_iff (b : bool) x : (b = true <-> x = 1) -> b = (x =? 1).
Proof.
  intros H. destruct (Z.eqb_spec x 1) as [E|E]; [apply H; exact E|].
  destruct b; [|reflexivity]. contradiction E. apply H. reflexivity.
Qed.

Section OddInv.
  Context (m a adj : list Z) (n : nat).
  Context (Wm : wf m) (Wa : wf a) (Wadj : wf adj) (Lm : length m = n) (La : length a = n) (Ladj : length adj = n)
          (Hn : (0 < n)%nat) (Hn32 : Z.of_nat n <= 2 ^ 32) (Om : Z.odd (eval m) = true).

  Lemma out_sg_inv_adj dbg vartime boxed : eval adj < eval m -> conv_inv boxed m a = true ->
    out_sg (sg_inv dbg vartime boxed adj m a) = spec_inv_adj n (eval a) (eval m) (eval adj).
  Proof.
    intros HA Hc. unfold conv_inv in Hc. rewrite Lm in Hc.
    pose proof (eval_bounds adj Wadj) as BA.
    destruct (sg_inv_partial m a adj n (eval m - 1) Wm Wa Wadj Lm La Ladj Hn Hn32 Om ltac:(lia) ltac:(lia) dbg vartime boxed
                (sg_converged_conv boxed m a (unsat_nlimbs n) vartime _ _ Hc)) as (x & some & E & Wx & Lx & Rx & Hs & Hv).
    rewrite E. unfold out_sg, spec_inv_adj. destruct some.
    - assert (G : Z.gcd (eval a) (eval m) = 1) by (apply Hs; reflexivity). rewrite G. cbn [Z.eqb Pos.eqb].
      do 2 f_equal. apply limbs_of_val; try assumption.
      assert (Hm : 0 < eval m) by lia.
      specialize (Hv eq_refl).
      apply (inv_unique (eval m) (eval a) (eval adj)); try assumption; try lia.
      + apply modinv_adj; assumption.
      + apply Z.mod_pos_bound. assumption.
    - destruct (Z.eqb_spec (Z.gcd (eval a) (eval m)) 1) as [G|G]; [|reflexivity].
      apply Hs in G. discriminate.
  Qed.

  Lemma out_some_sg_inv dbg vartime boxed : eval adj <= eval m -> conv_inv boxed m a = true ->
    out_some (sg_inv dbg vartime boxed adj m a) = Val [vbool (Z.gcd (eval a) (eval m) =? 1)].
  Proof.
    intros HA Hc. unfold conv_inv in Hc. rewrite Lm in Hc.
    destruct (sg_inv_partial m a adj n (eval m) Wm Wa Wadj Lm La Ladj Hn Hn32 Om ltac:(lia) ltac:(lia) dbg vartime boxed
                (sg_converged_conv boxed m a (unsat_nlimbs n) vartime _ _ Hc)) as (x & some & E & Wx & Lx & Rx & Hs & Hv).
    rewrite E. unfold out_some. do 3 f_equal. apply eqb1_of_iff. exact Hs.
  Qed.
End OddInv.

Lemma eval_ones n : (0 < n)%nat -> eval (ones_limbs n) = 1.
Proof.
  intros Hn. apply to_limbs_small.
  destruct n; [lia|]. rewrite Bn_S. pose proof (Bn_pos n). pose proof B_gt1. nia.
Qed.
Lemma spec_inv_adj_one n av mv : 1 < mv -> spec_inv_adj n av mv 1 = spec_inv n av mv.
Proof.
  intros Hm. unfold spec_inv_adj, spec_inv. destruct (Z.gcd av mv =? 1); [|reflexivity].
  rewrite Z.mul_1_r. destruct (modinv_spec av mv ltac:(lia)) as (R & _). rewrite Z.mod_small by assumption. reflexivity.
Qed.

(** Uint::inv_odd_mod, Inverter::invert, BoxedUint::inv_odd_mod ... : modulus odd and >= 3 *)
Lemma out_sg_inv_one dbg vartime boxed m a n : sized n m a ->
  Z.odd (eval m) = true -> 1 < eval m -> conv_inv boxed m a = true ->
  out_sg (sg_inv dbg vartime boxed (ones_limbs n) m a) = spec_inv n (eval a) (eval m).
Proof.
  intros (Wm & Wa & Lm & La & Hn & Hn32) Om Hm Hc.
  rewrite (out_sg_inv_adj m a (ones_limbs n) n Wm Wa (wf_to_limbs n 1) Lm La (length_to_limbs n 1) Hn Hn32 Om dbg vartime boxed)
    by (try rewrite eval_ones; assumption).
  rewrite eval_ones by assumption. apply spec_inv_adj_one. assumption.
Qed.
Lemma out_some_sg_inv_one dbg vartime boxed m a n : sized n m a ->
  Z.odd (eval m) = true -> conv_inv boxed m a = true ->
  out_some (sg_inv dbg vartime boxed (ones_limbs n) m a) = Val [vbool (Z.gcd (eval a) (eval m) =? 1)].
Proof.
  intros (Wm & Wa & Lm & La & Hn & Hn32) Om Hc.
  apply (out_some_sg_inv m a (ones_limbs n) n Wm Wa (wf_to_limbs n 1) Lm La (length_to_limbs n 1) Hn Hn32 Om); [|assumption].
  rewrite eval_ones by assumption. destruct (Z.eq_dec (eval m) 0) as [E|E]; [rewrite E in Om; discriminate|].
  pose proof (eval_bounds m Wm). lia.
Qed.

Lemma odd_part_eq m n : length m = n -> odd_part m = to_limbs n (vshr n (eval m) (vtz n (eval m))).
Proof. intros <-. reflexivity. Qed.

Lemma out_sg_inv_mod dbg boxed a m n : sized n a m ->
  1 < eval m -> conv_inv boxed (odd_part m) a = true ->
  out_sg (uint_inv_mod dbg boxed a m) = spec_inv n (eval a) (eval m).
Proof.
  intros (Wa & Wm & La & Lm & Hn & Hn32) Hm Hc. unfold conv_inv in Hc. rewrite (odd_part_eq m n Lm), length_to_limbs in Hc.
  destruct (uint_inv_mod_partial a m n Wa Wm La Lm Hn Hn32 ltac:(lia) dbg boxed Hc) as (X & some & E & Hs & Hv).
  rewrite E. apply out_sg_of_shape; [exact Hs|]. intros S. rewrite (Hv S ltac:(lia)). reflexivity.
Qed.
Lemma out_some_inv_mod dbg boxed a m n : sized n a m ->
  0 < eval m -> conv_inv boxed (odd_part m) a = true ->
  out_some (uint_inv_mod dbg boxed a m) = Val [vbool (Z.gcd (eval a) (eval m) =? 1)].
Proof.
  intros (Wa & Wm & La & Lm & Hn & Hn32) Hm Hc. unfold conv_inv in Hc. rewrite (odd_part_eq m n Lm), length_to_limbs in Hc.
  destruct (uint_inv_mod_partial a m n Wa Wm La Lm Hn Hn32 Hm dbg boxed Hc) as (X & some & E & Hs & Hv).
  rewrite E. unfold out_some. do 3 f_equal. apply eqb1_of_iff. exact Hs.
Qed.

Lemma seval_abs_bound a : wf a -> (0 < length a)%nat -> 0 <= Z.abs (seval a) < Bn (length a).
Proof.
  intros W HL. pose proof (eval_bounds a W) as Ba. unfold seval. cbv zeta.
  destruct (Z.ltb_spec (2 * eval a) (Bn (length a))); lia.
Qed.
Lemma int_abs_spec a n : wf a -> length a = n -> (0 < n)%nat ->
  wf (int_abs a) /\ length (int_abs a) = n /\ eval (int_abs a) = Z.abs (seval a).
Proof.
  intros W L Hn. unfold int_abs. rewrite L. split; [apply wf_to_limbs|]. split; [apply length_to_limbs|].
  apply to_limbs_small. rewrite <- L. apply seval_abs_bound; [assumption | lia].
Qed.

Lemma sized_abs_l n x y : sized n x y -> sized n (int_abs x) y.
Proof. intros (Wx & Wy & Lx & Ly & Hn & Hn32). destruct (int_abs_spec x n Wx Lx Hn) as (W & L & _). repeat split; assumption. Qed.

Lemma int_fix_value mv sa n : 2 <= mv < Bn n -> Z.gcd (Z.abs sa) mv = 1 ->
  (if sa <? 0 then (mv - modinv (Z.abs sa) mv) mod Bn n else modinv (Z.abs sa) mv) = modinv sa mv.
Proof.
  intros Hm G. destruct (modinv_spec (Z.abs sa) mv ltac:(lia)) as (R & C). rewrite G in C.
  destruct (modinv_spec sa mv ltac:(lia)) as (R2 & C2).
  assert (G2 : Z.gcd sa mv = 1) by (rewrite <- Z.gcd_abs_l; assumption). rewrite G2 in C2.
  set (x := modinv (Z.abs sa) mv) in *.
  destruct (Z.ltb_spec sa 0) as [Hneg|Hpos].
  - assert (Hx0 : x <> 0).
    { intros Z0. rewrite Z0, Z.mul_0_r, Z.mod_0_l, Z.mod_small in C by lia. lia. }
    rewrite Z.mod_small by lia.
    apply (inv_unique mv sa 1); try assumption; try lia.
    apply cg_iff. apply cg_iff in C. rewrite <- C. apply cg_divide; [lia|]. exists sa. rewrite (Z.abs_neq sa) by lia. ring.
  - unfold x. rewrite Z.abs_eq by lia. reflexivity.
Qed.

Lemma out_int_fix r m n sa : wf m -> length m = n -> 2 <= eval m ->
  out_sg r = spec_inv n (Z.abs sa) (eval m) ->
  out_sg (int_fix_sign (sa <? 0) m r) = spec_inv n sa (eval m).
Proof.
  intros Wm Lm Hm H. pose proof (eval_bounds m Wm) as Bm. rewrite Lm in Bm.
  destruct (out_sg_spec_inv_shape r n _ _ H) as (v & some & -> & Hs & Hv).
  unfold int_fix_sign. apply out_sg_of_shape.
  - rewrite <- Z.gcd_abs_l. assumption.
  - intros S. specialize (Hv S). rewrite Lm. rewrite <- (int_fix_value (eval m) sa n) by (try apply Hs; assumption || lia).
    destruct (sa <? 0); [|assumption]. rewrite Hv, eval_to_limbs.
    destruct (modinv_spec (Z.abs sa) (eval m) ltac:(lia)) as (R & _). rewrite (Z.mod_small (modinv _ _)) by lia.
    reflexivity.
Qed.
Lemma out_some_int_fix r neg m sa mv : out_some r = Val [vbool (Z.gcd (Z.abs sa) mv =? 1)] ->
  out_some (int_fix_sign neg m r) = Val [vbool (Z.gcd sa mv =? 1)].
Proof.
  intros H. destruct (out_some_shape _ _ H) as (v & ->). unfold int_fix_sign, out_some. rewrite Z.gcd_abs_l. reflexivity.
Qed.
Lemma int_neg_eq a : int_neg a = (seval a <? 0). Proof. reflexivity. Qed.

Lemma out_uint_gcd dbg boxed a b n : sized n a b ->
  uint_gcd_converged boxed a b = true -> out_sg (uint_gcd dbg boxed a b) = sp_gcd n (eval a) (eval b).
Proof. intros (Wa & Wb & La & Lb & Hn & Hn32) Hc. rewrite (uint_gcd_partial a b n Wa Wb La Lb Hn Hn32 dbg boxed Hc). reflexivity. Qed.
Lemma out_uint_gcd_vt dbg boxed a b n : sized n a b ->
  conv_gcd_vt boxed a b = true -> out_sg (uint_gcd_vartime dbg boxed a b) = sp_gcd n (eval a) (eval b).
Proof.
  intros (Wa & Wb & La & Lb & Hn & Hn32) Hc. unfold conv_gcd_vt in Hc. rewrite La in Hc.
  rewrite (uint_gcd_vartime_partial a b n dbg boxed Wa Wb La Lb Hn Hn32 Hc). reflexivity.
Qed.
Lemma out_sg_gcd dbg vartime boxed a b n : sized n a b ->
  Z.odd (eval a) = true -> sg_converged boxed a b (unsat_nlimbs n) = true ->
  out_sg (sg_gcd dbg vartime boxed a b) = sp_gcd n (eval a) (eval b).
Proof.
  intros (Wa & Wb & La & Lb & Hn & Hn32) Oa Hc.
  rewrite (sg_gcd_partial a b n Wa Wb La Lb Hn Hn32 ltac:(left; assumption) dbg vartime boxed (sg_converged_conv boxed a b _ vartime _ _ Hc)).
  reflexivity.
Qed.

(** Montgomery form: adjuster R^2, conversion in and out at value level *)
Lemma gcd_Bn_odd n mv : Z.odd mv = true -> Z.gcd (Bn n) mv = 1.
Proof.
  intros Om. rewrite Z.gcd_comm, Bn_pow2. apply Z.eqb_eq. rewrite gcd_pow2 by lia. rewrite Om. apply orb_true_r.
Qed.

Lemma out_monty_inv dbg vartime boxed a m n : wf a -> wf m -> length m = n -> (0 < n)%nat -> Z.of_nat n <= 2 ^ 32 ->
  Z.odd (eval m) = true -> 1 < eval m -> conv_inv boxed m (monty_arg a m) = true ->
  out_sg (monty_inv dbg vartime boxed a m) = spec_inv n (eval a) (eval m).
Proof.
  intros Wa Wm Lm Hn Hn32 Om Hm Hc. unfold monty_arg in Hc. rewrite Lm in Hc.
  pose proof (eval_bounds m Wm) as Bm. rewrite Lm in Bm.
  set (mv := eval m) in *. set (av := eval a) in *. set (R := Bn n) in *.
  assert (Emf : eval (to_limbs n ((av * R) mod mv)) = (av * R) mod mv).
  { apply to_limbs_small. pose proof (Z.mod_pos_bound (av * R) mv ltac:(lia)). lia. }
  assert (Er2 : eval (to_limbs n ((R * R) mod mv)) = (R * R) mod mv).
  { apply to_limbs_small. pose proof (Z.mod_pos_bound (R * R) mv ltac:(lia)). lia. }
  pose proof (out_sg_inv_adj m (to_limbs n ((av * R) mod mv)) (to_limbs n ((R * R) mod mv)) n Wm (wf_to_limbs _ _) (wf_to_limbs _ _)
                Lm (length_to_limbs _ _) (length_to_limbs _ _) Hn Hn32 Om dbg vartime boxed) as H.
  rewrite Er2, Emf in H. fold mv in H. specialize (H ltac:(apply Z.mod_pos_bound; lia) Hc).
  unfold monty_inv. rewrite Lm. fold mv av R.
  assert (GR : Z.gcd R mv = 1) by (apply gcd_Bn_odd; assumption).
  assert (GG : Z.gcd ((av * R) mod mv) mv = 1 <-> Z.gcd av mv = 1).
  { rewrite Z.gcd_mod by lia. rewrite (Z.gcd_comm mv). rewrite (Z.gcd_comm (av * R)), (Z.gcd_comm av).
    rewrite gcd1_mul_split. rewrite (Z.gcd_comm mv R). tauto. }
  destruct (sg_inv dbg vartime boxed (to_limbs n ((R * R) mod mv)) m (to_limbs n ((av * R) mod mv))) as [| |x some];
    unfold out_sg, spec_inv_adj in H; try (destruct (Z.gcd ((av * R) mod mv) mv =? 1); discriminate).
  apply out_sg_of_shape.
  - destruct some; destruct (Z.eqb_spec (Z.gcd ((av * R) mod mv) mv) 1) as [G|G]; try discriminate; split; intros X; try discriminate; try tauto.
  - intros ->. destruct (Z.eqb_spec (Z.gcd ((av * R) mod mv) mv) 1) as [G|G]; [|discriminate].
    inversion H as [Hx]. clear H. rewrite eval_to_limbs.
    set (xv := (modinv ((av * R) mod mv) mv * ((R * R) mod mv)) mod mv).
    assert (Rx : 0 <= xv < mv) by (apply Z.mod_pos_bound; lia).
    rewrite (Z.mod_small xv) by lia.
    f_equal.
    assert (Ga : Z.gcd av mv = 1) by (apply GG; assumption).
    destruct (modinv_spec R mv ltac:(lia)) as (RRi & CRi). rewrite GR in CRi.
    destruct (modinv_spec av mv ltac:(lia)) as (Rai & Cai). rewrite Ga in Cai.
    set (Ri := modinv R mv) in *.
    assert (C1 : cg mv (R * Ri) 1) by (apply cg_iff; assumption).
    assert (C2 : cg mv (av * R * xv) (R * R)).
    { pose proof (modinv_adj ((av * R) mod mv) mv ((R * R) mod mv) ltac:(lia) G) as C. fold xv in C.
      apply cg_iff in C. rewrite !cg_mod in C. exact C. }
    apply (inv_unique mv av 1); try assumption; try lia; [| apply Z.mod_pos_bound; lia].
    apply cg_iff. rewrite cg_mod.
    transitivity (av * xv * Ri * 1); [apply cg_of_eq; ring|]. rewrite <- C1 at 1.
    transitivity ((av * R * xv) * (Ri * Ri)); [apply cg_of_eq; ring|]. rewrite C2.
    transitivity ((R * Ri) * (R * Ri)); [apply cg_of_eq; ring|]. rewrite C1. apply cg_of_eq. ring.
Qed.
