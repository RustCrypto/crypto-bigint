(** C03 proofs, part 5: the API level. Every entry of the model op table equals the specification entry
    (plain arithmetic on the represented integers) on all well-formed inputs. *)
From CB Require Import Model.Limbs Model.AddSub Model.Mul Proofs.WordP Proofs.LimbsP Proofs.AddSubP
  Proofs.MulBaseP Proofs.MulSqP Proofs.MulKaraP Proofs.MulBoxedP.
From Coq Require Import ZArith Lia String List.
Open Scope Z_scope.

Definition op_of (t : list (string * opfn)) (name : string) : opfn :=
  match lookup name t with Some f => f | None => fun _ _ => Unsupported end.

(** the pair (lo, hi) of n and m limbs represents P *)
Definition wide (lo hi : list Z) (n m : nat) (P : Z) : Prop :=
  wf lo /\ wf hi /\ length lo = n /\ length hi = m /\ eval lo + Bn n * eval hi = P.

Lemma all_zero_iff l : wf l -> (all_zero l = true <-> eval l = 0).
Proof.
  induction l as [|x l IH]; intros Hl.
  - cbn. tauto.
  - apply wf_cons in Hl. destruct Hl as [Hx Hl]. specialize (IH Hl).
    pose proof (eval_nonneg l Hl) as Hn. unfold is_word in Hx. pose proof B_gt1 as HB.
    unfold all_zero in *. cbn [forallb eval]. rewrite andb_true_iff, Z.eqb_eq, IH.
    split.
    + intros [-> ->]. lia.
    + intros H. assert (0 <= B * eval l) by (apply Z.mul_nonneg_nonneg; lia).
      assert (eval l = 0) by nia. split; lia.
Qed.

Lemma wide_divmod {lo hi n m P} : wide lo hi n m P ->
  eval lo = P mod Bn n /\ eval hi = P / Bn n /\ 0 <= P < Bn (n + m) /\ 0 <= eval hi < Bn m.
Proof.
  intros (Hl & Hh & Ln & Lm & E).
  pose proof (eval_bounds lo Hl) as Bl. pose proof (eval_bounds hi Hh) as Bh. rewrite Ln in Bl. rewrite Lm in Bh.
  destruct (div_mod_unique_pos (Bn n) (eval hi) (eval lo) P Bl ltac:(lia)) as [Q R].
  pose proof (Bn_pos n). pose proof (Bn_pos m).
  split; [auto|]. split; [auto|]. split; [|assumption]. rewrite Bn_add.
  assert (0 <= Bn n * eval hi <= Bn n * (Bn m - 1))
    by (split; [apply Z.mul_nonneg_nonneg; lia | apply Z.mul_le_mono_nonneg_l; lia]). lia.
Qed.

Lemma wide_lo_limbs {lo hi n m P} : wide lo hi n m P -> lo = to_limbs n (P mod Bn n).
Proof.
  intros W. destruct (wide_divmod W) as (A & _). destruct W as (Hl & _ & Ln & _).
  apply to_limbs_unique; auto. pose proof (Bn_pos n). rewrite Z.mod_mod by lia. assumption.
Qed.

Lemma wide_hi_limbs {lo hi n m P} : wide lo hi n m P -> hi = to_limbs m (P / Bn n).
Proof.
  intros W. destruct (wide_divmod W) as (_ & A & _ & C). destruct W as (_ & Hh & _ & Lm & _).
  apply to_limbs_unique; auto. rewrite <- A. symmetry. apply Z.mod_small. assumption.
Qed.

Lemma wide_app {lo hi n m P} : wide lo hi n m P -> lo ++ hi = to_limbs (n + m) P.
Proof.
  intros W. destruct (wide_divmod W) as (_ & _ & C & _). destruct W as (Hl & Hh & Ln & Lm & E).
  apply to_limbs_unique.
  - apply wf_app; auto.
  - rewrite app_length; lia.
  - rewrite eval_app, Ln, E. symmetry. apply Z.mod_small. assumption.
Qed.

Lemma wide_fits {lo hi n m P} : wide lo hi n m P -> all_zero hi = sp_fits n P.
Proof.
  intros W. destruct (wide_divmod W) as (A & A' & C & D). destruct W as (Hl & Hh & Ln & Lm & E).
  pose proof (eval_bounds lo Hl) as Bl. rewrite Ln in Bl. pose proof (Bn_pos n).
  unfold sp_fits. destruct (all_zero hi) eqn:Ez.
  - apply all_zero_iff in Ez; auto. symmetry. apply andb_true_iff. split; [apply Z.leb_le | apply Z.ltb_lt]; lia.
  - symmetry. apply andb_false_iff. right. apply Z.ltb_ge.
    destruct (Z.eq_dec (eval hi) 0) as [Hz|Hz].
    + apply all_zero_iff in Hz; auto. congruence.
    + assert (Bn n * 1 <= Bn n * eval hi) by (apply Z.mul_le_mono_nonneg_l; lia). lia.
Qed.

Lemma wide_lo_fit {lo hi n m P} : wide lo hi n m P -> sp_fits n P = true -> lo = to_limbs n P.
Proof.
  intros W F. rewrite (wide_lo_limbs W). f_equal.
  unfold sp_fits in F. apply andb_true_iff in F. destruct F as [F1 F2].
  apply Z.leb_le in F1. apply Z.ltb_lt in F2. apply Z.mod_small. lia.
Qed.

Lemma wide_wrapping {lo hi n m P} : wide lo hi n m P -> Val [lo] = sp_wrapping n P.
Proof. intros W. unfold sp_wrapping, sp_val. rewrite (wide_lo_limbs W). reflexivity. Qed.

Lemma wide_checked {lo hi n m P} : wide lo hi n m P ->
  (if all_zero hi then Val [lo] else NoneV) = sp_checked n P.
Proof.
  intros W. unfold sp_checked. rewrite (wide_fits W).
  destruct (sp_fits n P) eqn:F; [|reflexivity]. unfold sp_val. rewrite (wide_lo_fit W F). reflexivity.
Qed.

Lemma wide_panicking {lo hi n m P} : wide lo hi n m P ->
  (if all_zero hi then Val [lo] else PanicV) = sp_panicking n P.
Proof.
  intros W. unfold sp_panicking. rewrite (wide_fits W).
  destruct (sp_fits n P) eqn:F; [|reflexivity]. unfold sp_val. rewrite (wide_lo_fit W F). reflexivity.
Qed.

Lemma wide_saturating {lo hi n m P} : wide lo hi n m P ->
  Val [if all_zero hi then lo else maxs (length lo)] = sp_saturating n P.
Proof.
  intros W. unfold sp_saturating, sp_val. rewrite (wide_fits W).
  destruct (wide_divmod W) as (_ & _ & C & _).
  destruct (sp_fits n P) eqn:F.
  - rewrite (wide_lo_fit W F). unfold sp_fits in F. apply andb_true_iff in F. destruct F as [F1 F2].
    apply Z.leb_le in F1. rewrite F2. destruct (P <? 0) eqn:Hn; [apply Z.ltb_lt in Hn; lia | reflexivity].
  - unfold sp_fits in F. apply andb_false_iff in F. destruct F as [F|F].
    + apply Z.leb_gt in F. lia.
    + rewrite F. destruct (P <? 0) eqn:Hn; [apply Z.ltb_lt in Hn; lia|].
      destruct W as (_ & _ & -> & _). rewrite maxs_to_limbs. reflexivity.
Qed.

Lemma wide_split {lo hi n m P} : wide lo hi n m P ->
  Val [lo; hi] = Val [to_limbs n (P mod Bn n); to_limbs m (P / Bn n)].
Proof. intros W. rewrite <- (wide_lo_limbs W), <- (wide_hi_limbs W). reflexivity. Qed.

Lemma wide_widening {lo hi n m P} : wide lo hi n m P -> Val [lo ++ hi] = sp_val (n + m) P.
Proof. intros W. unfold sp_val. rewrite (wide_app W). reflexivity. Qed.

Lemma klevel_mul_some n l : klevel_mul n = Some l -> n = (2 ^ l * 8)%nat.
Proof.
  unfold klevel_mul. destruct (Nat.eqb_spec n 16); [intros [= <-]; assumption|].
  destruct (Nat.eqb_spec n 32); [intros [= <-]; assumption|].
  destruct (Nat.eqb_spec n 64); [intros [= <-]; assumption|].
  destruct (Nat.eqb_spec n 128); [intros [= <-]; assumption | discriminate].
Qed.

Theorem uint_split_mul_correct x y lo hi : wf x -> wf y -> uint_split_mul x y = (lo, hi) ->
  wide lo hi (length x) (length y) (eval x * eval y).
Proof.
  intros Hx Hy E. unfold uint_split_mul in E.
  destruct (Nat.eqb_spec (length x) (length y)) as [El|_]; [destruct (klevel_mul (length x)) as [l|] eqn:Ek|].
  - destruct (kmul_correct l x y lo hi 8 Hx Hy (klevel_mul_some _ _ Ek) (eq_sym El) E) as (A & C & D & F & G).
    unfold wide. rewrite <- El. auto.
  - destruct (schoolbook_split_correct x y lo hi Hx Hy E) as (A & C & D & F & G). unfold wide. auto.
  - destruct (schoolbook_split_correct x y lo hi Hx Hy E) as (A & C & D & F & G). unfold wide. auto.
Qed.

Theorem uint_split_mul_eval x y lo hi : wf x -> wf y -> uint_split_mul x y = (lo, hi) ->
  eval lo + Bn (length x) * eval hi = eval x * eval y /\ wf lo /\ wf hi /\
  length lo = length x /\ length hi = length y.
Proof. intros Hx Hy E. destruct (uint_split_mul_correct x y lo hi Hx Hy E) as (A & C & D & F & G). auto. Qed.

(** the keys of the two tables by the shape of their arguments; "boxed.square" stands alone *)
Definition limb_mul_keys := ["limb.wrapping_mul"; "limb.saturating_mul"; "limb.checked_mul"; "limb.mul"]%string.
Definition uint_mul_keys := ["uint.split_mul"; "uint.widening_mul"; "uint.wrapping_mul"; "uint.checked_mul";
                             "uint.saturating_mul"; "uint.mul"]%string.
Definition uint_square_keys := ["uint.square_wide"; "uint.widening_square"; "uint.wrapping_square";
                                "uint.checked_square"; "uint.saturating_square"]%string.
Definition boxed_mul_keys := ["boxed.mul"; "boxed.wrapping_mul"; "boxed.checked_mul"; "boxed.mul_panicking"]%string.

(** look the key up in both tables; the argument list stays abstract: an entry reads it through [arg] / [sarg] *)
Ltac open_tables :=
  unfold op_of, ops_mul_model, ops_mul_spec; cbn [lookup String.eqb Ascii.eqb Bool.eqb]; unfold sp_prod, ev, ln.

Lemma to_limbs_1 x : to_limbs 1 x = [x mod B]. Proof. exact (LimbsP.to_limbs_1 x). Qed.

Lemma limb_prod_bounds a b : is_word a -> is_word b -> 0 <= a * b < B * B.
Proof. unfold is_word. intros. apply prod_lt; assumption. Qed.

Lemma limb_wide a b : is_word a -> is_word b -> wide [(a * b) mod B] [(a * b) / B] 1 1 (eval [a] * eval [b]).
Proof.
  intros Ha Hb. pose proof (limb_prod_bounds a b Ha Hb) as Hp. pose proof B_gt1 as HB.
  pose proof (Z.div_mod (a * b) B ltac:(lia)) as Hdm.
  unfold wide. rewrite !eval_one, Bn_1.
  split; [apply wf_one, is_word_mod|].
  split.
  { apply wf_one. unfold is_word. split; [apply Z.div_pos; lia|].
    apply Z.div_lt_upper_bound; lia. }
  split; [reflexivity|]. split; [reflexivity|]. lia.
Qed.

Lemma all_zero_1 v : all_zero [v] = (v =? 0).
Proof. unfold all_zero. cbn [forallb]. apply andb_true_r. Qed.

(** The theorems below hold for ANY argument list [args]: an entry decodes it with [arg i] / [sarg i], a missing
    argument reads as the empty limb list, surplus arguments are ignored. *)
Theorem limb_ops_args name dbg args a b : arg 0 args = [a] -> arg 1 args = [b] -> is_word a -> is_word b ->
  In name limb_mul_keys ->
  op_of ops_mul_model name dbg args = op_of ops_mul_spec name dbg args.
Proof.
  intros E0 E1 Ha Hb Hin. pose proof (limb_wide a b Ha Hb) as W.
  assert (S0 : sarg 0 args = a) by (change (nth 0 (arg 0 args) 0 = a); rewrite E0; reflexivity).
  assert (S1 : sarg 1 args = b) by (change (nth 0 (arg 1 args) 0 = b); rewrite E1; reflexivity).
  cbn [In limb_mul_keys] in Hin. destruct Hin as [<-|[<-|[<-|[<-|[]]]]]; open_tables;
    rewrite S0, S1, E0, E1; cbn [length]; unfold mulhilo.
  - unfold wmul, wrap. apply (wide_wrapping W).
  - rewrite <- all_zero_1. rewrite <- (wide_saturating W). destruct (all_zero _); reflexivity.
  - rewrite <- all_zero_1. apply (wide_checked W).
  - rewrite <- all_zero_1. apply (wide_panicking W).
Qed.

Theorem limb_ops_correct name dbg a b : is_word a -> is_word b -> In name limb_mul_keys ->
  op_of ops_mul_model name dbg [[a]; [b]] = op_of ops_mul_spec name dbg [[a]; [b]].
Proof. exact (limb_ops_args name dbg [[a]; [b]] a b eq_refl eq_refl). Qed.

Theorem uint_mul_ops_args name dbg args : wf (arg 0 args) -> wf (arg 1 args) -> In name uint_mul_keys ->
  op_of ops_mul_model name dbg args = op_of ops_mul_spec name dbg args.
Proof.
  intros Hx Hy Hin. destruct (uint_split_mul (arg 0 args) (arg 1 args)) as [lo hi] eqn:E.
  pose proof (uint_split_mul_correct _ _ lo hi Hx Hy E) as W.
  cbn [In uint_mul_keys] in Hin. destruct Hin as [<-|[<-|[<-|[<-|[<-|[<-|[]]]]]]]; open_tables; rewrite E.
  - unfold vsplit. cbn [fst snd]. apply (wide_split W).
  - apply (wide_widening W).
  - cbn [fst]. apply (wide_wrapping W).
  - apply (wide_checked W).
  - apply (wide_saturating W).
  - apply (wide_panicking W).
Qed.

Theorem uint_mul_ops_correct name dbg x y : wf x -> wf y -> In name uint_mul_keys ->
  op_of ops_mul_model name dbg [x; y] = op_of ops_mul_spec name dbg [x; y].
Proof. exact (uint_mul_ops_args name dbg [x; y]). Qed.

Theorem uint_square_wide_correct x lo hi : wf x -> uint_square_wide x = (lo, hi) ->
  wide lo hi (length x) (length x) (eval x * eval x).
Proof.
  intros Hx E. unfold uint_square_wide in E.
  destruct (Nat.eqb_spec (length x) 64) as [E64|_]; [|destruct (Nat.eqb_spec (length x) 128) as [E128|_]].
  - destruct (ksq_correct 1 x lo hi 32 Hx E64 E) as (A & C & D & F & G). unfold wide. auto.
  - destruct (ksq_correct 2 x lo hi 32 Hx E128 E) as (A & C & D & F & G). unfold wide. auto.
  - destruct (schoolbook_sq_correct x Hx) as (A & C & D).
    destruct (split_at_eval (length x) (schoolbook_sq x) lo hi C ltac:(lia) E) as (A' & C' & D' & F' & G').
    unfold wide. repeat split; auto; lia.
Qed.

Theorem uint_square_wide_eval x lo hi : wf x -> uint_square_wide x = (lo, hi) ->
  eval lo + Bn (length x) * eval hi = eval x * eval x /\ wf lo /\ wf hi /\
  length lo = length x /\ length hi = length x.
Proof. intros Hx E. destruct (uint_square_wide_correct x lo hi Hx E) as (A & C & D & F & G). auto. Qed.

Theorem uint_square_ops_args name dbg args : wf (arg 0 args) -> In name uint_square_keys ->
  op_of ops_mul_model name dbg args = op_of ops_mul_spec name dbg args.
Proof.
  intros Hx Hin. destruct (uint_square_wide (arg 0 args)) as [lo hi] eqn:E.
  pose proof (uint_square_wide_correct _ lo hi Hx E) as W.
  cbn [In uint_square_keys] in Hin. destruct Hin as [<-|[<-|[<-|[<-|[<-|[]]]]]]; open_tables; rewrite E.
  - unfold vsplit. cbn [fst snd]. apply (wide_split W).
  - replace (2 * length (arg 0 args))%nat with (length (arg 0 args) + length (arg 0 args))%nat by lia.
    apply (wide_widening W).
  - cbn [fst]. apply (wide_wrapping W).
  - apply (wide_checked W).
  - apply (wide_saturating W).
Qed.

Lemma boxed_mul_wide x y : wf x -> wf y ->
  wide (firstn (length x) (boxed_mul x y)) (skipn (length x) (boxed_mul x y)) (length x) (length y) (eval x * eval y).
Proof.
  intros Hx Hy. destruct (boxed_mul_correct x y Hx Hy) as (A & C & D).
  destruct (split_at_eval (length x) (boxed_mul x y) _ _ C ltac:(lia) eq_refl) as (A' & C' & D' & F' & G').
  unfold wide. repeat split; auto; lia.
Qed.

Theorem boxed_ops_args name dbg args : wf (arg 0 args) -> wf (arg 1 args) -> In name boxed_mul_keys ->
  op_of ops_mul_model name dbg args = op_of ops_mul_spec name dbg args.
Proof.
  intros Hx Hy Hin. pose proof (boxed_mul_wide _ _ Hx Hy) as W.
  destruct (boxed_mul_correct _ _ Hx Hy) as (A & C & D).
  cbn [In boxed_mul_keys] in Hin. destruct Hin as [<-|[<-|[<-|[<-|[]]]]]; open_tables.
  - unfold sp_val. f_equal. f_equal. apply limbs_of_val; assumption.
  - apply (wide_wrapping W).
  - apply (wide_checked W).
  - apply (wide_panicking W).
Qed.

Theorem boxed_ops_correct name dbg x y : wf x -> wf y -> In name boxed_mul_keys ->
  op_of ops_mul_model name dbg [x; y] = op_of ops_mul_spec name dbg [x; y].
Proof. exact (boxed_ops_args name dbg [x; y]). Qed.

Theorem boxed_square_op_args dbg args : wf (arg 0 args) ->
  op_of ops_mul_model "boxed.square" dbg args = op_of ops_mul_spec "boxed.square" dbg args.
Proof.
  intros Hx. destruct (boxed_square_correct _ Hx) as (A & C & D). open_tables.
  unfold sp_val. f_equal. f_equal. apply limbs_of_val; assumption.
Qed.

(** every entry of the C03 model table has a specification entry and conversely *)
Lemma tables_same_keys : map fst ops_mul_model = map fst ops_mul_spec.
Proof. reflexivity. Qed.
