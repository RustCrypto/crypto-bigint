(** C02: the division theorems with the reciprocal hypothesis discharged by [reciprocal_correct]. *)
From CB Require Import Model.Limbs Model.Div Proofs.WordP Proofs.LimbsP Proofs.BitsP Proofs.DivP Proofs.Rem2kP
  Proofs.Div3by2P Proofs.KnuthStepP Proofs.DivShiftP Proofs.DivVtP Proofs.DivBoxedP Proofs.RemWideP Proofs.DivCtP
  Proofs.RecipP.
From Coq Require Import ZArith Lia List.
Open Scope Z_scope.

Lemma normalized_range d : normalized d <-> 2 ^ 63 <= d < 2 ^ 64.
Proof. unfold normalized. pose proof B_half. pose proof B_val. lia. Qed.

Lemma recip_ok_normalized d : normalized d -> recip_ok d (reciprocal d).
Proof. intros H. apply reciprocal_correct. apply normalized_range. assumption. Qed.

Lemma recip_ok_top64 v : 0 < v -> recip_ok (top64 v) (reciprocal (top64 v)).
Proof. intros H. apply recip_ok_normalized. apply top64_normalized. assumption. Qed.

(** Reciprocal::new is correct for every non-zero limb *)
Theorem recip_new_correct d : 0 < d < B -> recip_for d (recip_new d).
Proof.
  intros Hd. apply recip_new_for; [assumption|]. rewrite recip_new_top64 by assumption. apply recip_ok_top64. lia.
Qed.

Theorem div_rem_limb_total u d : wf u -> 0 < d < B ->
  let '(q, r) := div_rem_limb_with_reciprocal u (recip_new d) in
  eval u = eval q * d + r /\ 0 <= r < d /\ wf q /\ length q = length u.
Proof. intros Hw Hd. apply div_rem_limb_correct; [assumption | lia | apply recip_new_correct; assumption]. Qed.

Theorem div_rem_vartime_total x0 y0 q r :
  wf x0 -> wf y0 -> eval y0 <> 0 -> div_rem_vartime x0 y0 = (q, r) ->
  eval x0 = eval q * eval y0 + eval r /\ 0 <= eval r < eval y0 /\
  length q = length x0 /\ length r = length y0 /\ wf q /\ wf r.
Proof.
  intros Hx Hy Hnz. apply div_rem_vartime_correct; auto. apply recip_ok_top64. pose proof (eval_nonneg y0 Hy). lia.
Qed.

(** quotient and remainder as Z.div / Z.modulo *)
Corollary div_rem_vartime_divmod x0 y0 q r :
  wf x0 -> wf y0 -> eval y0 <> 0 -> div_rem_vartime x0 y0 = (q, r) ->
  eval q = eval x0 / eval y0 /\ eval r = eval x0 mod eval y0.
Proof.
  intros Hx Hy Hnz E. destruct (div_rem_vartime_total x0 y0 q r Hx Hy Hnz E) as (He & Hr & _).
  assert (H : eval x0 / eval y0 = eval q /\ eval x0 mod eval y0 = eval r) by (apply div_mod_unique_pos; lia).
  destruct H; split; congruence.
Qed.

Theorem boxed_div_rem_vartime_total x0 y0 :
  wf x0 -> wf y0 -> eval y0 <> 0 ->
  exists q r, boxed_div_rem_vartime x0 y0 = Some (q, r) /\
  eval x0 = eval q * eval y0 + eval r /\ 0 <= eval r < eval y0 /\
  length q = length x0 /\ length r = length y0 /\ wf q /\ wf r.
Proof.
  intros Hx Hy Hnz. apply boxed_div_rem_vartime_correct; auto. apply recip_ok_top64. pose proof (eval_nonneg y0 Hy). lia.
Qed.

Theorem boxed_rem_vartime_total x0 y0 :
  wf x0 -> wf y0 -> eval y0 <> 0 ->
  exists r, boxed_rem_vartime x0 y0 = Some r /\
  eval r = eval x0 mod eval y0 /\ length r = length y0 /\ wf r.
Proof.
  intros Hx Hy Hnz. apply boxed_rem_vartime_correct; auto. apply recip_ok_top64. pose proof (eval_nonneg y0 Hy). lia.
Qed.

Theorem uint_div_rem_total x0 y0 :
  wf x0 -> wf y0 -> length y0 = length x0 -> eval y0 <> 0 ->
  exists q r, uint_div_rem x0 y0 = Some (q, r) /\
  eval x0 = eval q * eval y0 + eval r /\ 0 <= eval r < eval y0 /\
  length q = length x0 /\ length r = length x0 /\ wf q /\ wf r.
Proof.
  intros Hx Hy Hl Hnz. apply uint_div_rem_correct; auto. apply recip_ok_top64. pose proof (eval_nonneg y0 Hy). lia.
Qed.

(** the boxed constant-time division is the same routine behind an equal-precision check *)
Theorem boxed_div_rem_total x0 y0 :
  wf x0 -> wf y0 -> length y0 = length x0 -> eval y0 <> 0 ->
  exists q r, boxed_div_rem x0 y0 = Some (q, r) /\
  eval x0 = eval q * eval y0 + eval r /\ 0 <= eval r < eval y0 /\
  length q = length x0 /\ length r = length x0 /\ wf q /\ wf r.
Proof.
  intros Hx Hy Hl Hnz. unfold boxed_div_rem. rewrite Hl, Nat.eqb_refl. cbn [negb].
  apply uint_div_rem_total; assumption.
Qed.

Theorem rem_wide_vartime_total lo hi y0 :
  wf lo -> wf hi -> wf y0 -> length hi = length lo -> length y0 = length lo -> eval y0 <> 0 ->
  let r := rem_wide_vartime lo hi y0 in
  eval r = (eval lo + Bn (length lo) * eval hi) mod eval y0 /\ length r = length lo /\ wf r.
Proof.
  intros Hlo Hhi Hy Hl1 Hl2 Hnz. pose proof (eval_nonneg y0 Hy).
  apply rem_wide_vartime_correct; auto.
  - rewrite <- Hl2. apply nlimbs_le_length; [assumption | lia].
  - apply recip_ok_top64. lia.
Qed.
