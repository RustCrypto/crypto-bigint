(** C06 proofs, part 3: BoxedUint — comparison of operands of equal or different precision, zero / one tests,
    select / assign / swap on operands of one precision, Hash vs Eq for any two precisions. *)
From CB Require Import Model.Limbs Model.AddSub Model.Cmp Proofs.WordP Proofs.LimbsP Proofs.AddSubP
  Proofs.CmpWordP Proofs.CmpP.
From Coq Require Import ZArith Lia List Bool.
Open Scope Z_scope.

Lemma fold_cteq a : forall b (p : bool), wf a -> wf b -> length a = length b ->
  fold_left (fun r q => ch_and r (limb_ct_eq (fst q) (snd q))) (combine a b) (b2z p) = b2z (p && list_eqb a b).
Proof.
  induction a as [|x a IH]; intros [|y b] p Ha Hb Hl; try discriminate.
  - simpl. rewrite andb_true_r. reflexivity.
  - apply wf_cons in Ha. destruct Ha as [Hx Ha]. apply wf_cons in Hb. destruct Hb as [Hy Hb].
    simpl in Hl. cbn [combine fold_left fst snd list_eqb].
    rewrite limb_ct_eq_spec, ch_and_b2z by assumption. rewrite IH by (auto; lia).
    rewrite andb_assoc. reflexivity.
Qed.

(** ct_eq / == on BoxedUint: equality of the represented integers, whatever the two precisions *)
Lemma boxed_ct_eq_spec a b : wf a -> wf b -> boxed_ct_eq a b = b2z (eval a =? eval b).
Proof.
  intros Ha Hb. destruct (resize_max a b Ha Hb) as (Wa & Wb & L & Ea & Eb). unfold boxed_ct_eq.
  change 1 with (b2z true). rewrite fold_cteq, <- eqb_eval_list, Ea, Eb by assumption. reflexivity.
Qed.

Lemma boxed_ct_lt_spec a b : wf a -> wf b -> boxed_ct_lt a b = b2z (eval a <? eval b).
Proof.
  intros Ha Hb. destruct (resize_max a b Ha Hb) as (Wa & Wb & L & Ea & Eb). unfold boxed_ct_lt, boxed_sbb.
  destruct (sbb_limbs _ _ 0) as [r bo] eqn:E. cbn [snd].
  destruct (sbb_limbs_borrow _ _ r bo Wa Wb L E) as (-> & _). rewrite Ea, Eb. apply to_choice_choice.
Qed.
Lemma boxed_ct_gt_spec a b : wf a -> wf b -> boxed_ct_gt a b = b2z (eval b <? eval a).
Proof. intros. unfold boxed_ct_gt. fold (boxed_ct_lt b a). apply boxed_ct_lt_spec; assumption. Qed.

(** Ord::cmp on BoxedUint: the mathematical order for any two precisions; the debug assertion never fires *)
Lemma boxed_cmp_spec dbg a b : wf a -> wf b -> boxed_cmp dbg a b = Some (ordz (eval a) (eval b)).
Proof.
  intros Ha Hb. unfold boxed_cmp. rewrite boxed_ct_gt_spec, boxed_ct_lt_spec, boxed_ct_eq_spec by assumption.
  unfold ord_assign, ordz.
  destruct (Z.ltb_spec (eval b) (eval a)), (Z.ltb_spec (eval a) (eval b)), (Z.eqb_spec (eval a) (eval b));
    try lia; cbn; rewrite ?andb_false_r; reflexivity.
Qed.

(** cmp_vartime (zero-padding both operands): the mathematical order for any two precisions *)
Lemma boxed_cmp_vartime_spec a b : wf a -> wf b -> boxed_cmp_vartime a b = ordz (eval a) (eval b).
Proof.
  intros Ha Hb. destruct (resize_max a b Ha Hb) as (Wa & Wb & L & Ea & Eb). unfold boxed_cmp_vartime.
  set (n := Nat.max (length a) (length b)) in *. fold (uint_cmp_vartime (resize n a) (resize n b)).
  rewrite uint_cmp_vartime_spec, Ea, Eb by assumption. reflexivity.
Qed.

Lemma eval_cons_zero x a : is_word x -> wf a -> (eval (x :: a) =? 0) = (x =? 0) && (eval a =? 0).
Proof.
  intros Hx Ha. cbn [eval]. pose proof (eval_nonneg a Ha). unfold is_word in Hx. pose proof B_pos.
  destruct (Z.eqb_spec x 0), (Z.eqb_spec (eval a) 0); simpl; try (apply Z.eqb_eq; subst; lia); apply Z.eqb_neq; timeout 20 nia.
Qed.

Lemma fold_is_zero a : forall (p : bool), wf a ->
  fold_left (fun acc x => ch_and acc (limb_is_zero x)) a (b2z p) = b2z (p && (eval a =? 0)).
Proof.
  induction a as [|x a IH]; intros p Ha.
  - simpl. rewrite andb_true_r. reflexivity.
  - apply wf_cons in Ha. destruct Ha as [Hx Ha]. cbn [fold_left].
    rewrite limb_is_zero_spec, ch_and_b2z by assumption. rewrite IH by assumption.
    rewrite eval_cons_zero by assumption. rewrite andb_assoc. reflexivity.
Qed.

Lemma boxed_is_zero_spec a : wf a -> boxed_is_zero a = b2z (eval a =? 0).
Proof. intros Ha. unfold boxed_is_zero. change 1 with (b2z true). rewrite fold_is_zero by assumption. reflexivity. Qed.
Lemma boxed_is_nonzero_spec a : wf a -> boxed_is_nonzero a = b2z (negb (eval a =? 0)).
Proof. intros Ha. unfold boxed_is_nonzero. rewrite boxed_is_zero_spec by assumption. apply ch_not_b2z. Qed.

Lemma boxed_is_one_spec a : wf a -> boxed_is_one a = b2z (eval a =? 1).
Proof.
  intros Ha. destruct a as [|x a]; [reflexivity|].
  apply wf_cons in Ha. destruct Ha as [Hx Ha]. cbn [boxed_is_one].
  rewrite limb_ct_eq_spec by (auto using is_word_1). rewrite fold_is_zero by assumption. f_equal.
  cbn [eval]. pose proof (eval_nonneg a Ha). unfold is_word in Hx. pose proof B_gt1.
  destruct (Z.eqb_spec x 1), (Z.eqb_spec (eval a) 0); simpl; symmetry; try (apply Z.eqb_eq; subst; lia); apply Z.eqb_neq; timeout 20 nia.
Qed.

Lemma boxed_guard_same {A} dbg a b (k : A) : length a = length b -> boxed_guard dbg a b k = Some k.
Proof.
  intros Hl. unfold boxed_guard. rewrite Hl, Nat.eqb_refl, Nat.ltb_irrefl, andb_false_r. reflexivity.
Qed.

(** ct_select / ct_assign: exactly the chosen operand, for both choice values (operands of equal precision) *)
Lemma boxed_ct_select_partial dbg a b (c : bool) : wf a -> wf b -> length a = length b ->
  boxed_ct_select dbg a b (b2z c) = Some (spec_select c a b).
Proof.
  intros Ha Hb Hl. unfold boxed_ct_select. rewrite boxed_guard_same by assumption.
  rewrite ct_select_limbs_spec by assumption. reflexivity.
Qed.

Lemma boxed_ct_swap_partial dbg a b (c : bool) : wf a -> wf b -> length a = length b ->
  boxed_ct_swap dbg a b (b2z c) = Some (spec_select c a b, spec_select c b a).
Proof.
  intros Ha Hb Hl. unfold boxed_ct_swap. rewrite boxed_guard_same by assumption.
  rewrite Hl, firstn_all, skipn_all. rewrite ct_swap_limbs_spec by assumption.
  rewrite app_nil_r. reflexivity.
Qed.

Lemma boxed_conditional_negate_spec a (c : bool) : wf a ->
  let r := boxed_conditional_negate a (b2z c) in
  eval r = (if c then - eval a else eval a) mod Bn (length a) /\ wf r /\ length r = length a.
Proof. intros Ha. apply conditional_negate_spec. assumption. Qed.

(** the manual Hash feeds the limbs below the most significant non-zero one: a canonical form of the value *)
Definition canon (l : list Z) : Prop := match l with [] => True | x :: _ => x <> 0 end.

Lemma canon_drop_zeros ra : canon (drop_zeros ra).
Proof.
  induction ra as [|x r IH]; [exact I|]. cbn [drop_zeros].
  destruct (Z.eqb_spec x 0) as [->|Hx]; [exact IH | exact Hx].
Qed.
Lemma wf_drop_zeros ra : wf ra -> wf (drop_zeros ra).
Proof.
  induction ra as [|x r IH]; intros H; [exact H|]. cbn [drop_zeros].
  destruct (x =? 0); [|exact H]. apply wf_cons in H. apply IH. tauto.
Qed.
Lemma eval_rev_drop_zeros ra : eval (rev (drop_zeros ra)) = eval (rev ra).
Proof.
  induction ra as [|x r IH]; [reflexivity|]. cbn [drop_zeros].
  destruct (Z.eqb_spec x 0) as [->|]; [|reflexivity].
  rewrite IH. cbn [rev]. rewrite eval_app. cbn [eval]. lia.
Qed.

Lemma canon_bounds x r : wf (x :: r) -> x <> 0 ->
  Bn (length r) <= eval (rev (x :: r)) < Bn (S (length r)).
Proof.
  intros H Hx. pose proof (eval_bounds _ (wf_rev _ H)) as Hb. rewrite rev_length in Hb. cbn [length] in Hb.
  split; [|apply Hb]. apply wf_cons in H. destruct H as [Hw Hr].
  cbn [rev]. rewrite eval_app, rev_length. cbn [eval].
  pose proof (eval_nonneg _ (wf_rev _ Hr)). pose proof (Bn_pos (length r)). unfold is_word in Hw.
  assert (Bn (length r) * 1 <= Bn (length r) * x) by (apply Z.mul_le_mono_nonneg_l; lia). lia.
Qed.

Lemma canon_length l1 l2 : wf l1 -> wf l2 -> canon l1 -> canon l2 ->
  eval (rev l1) = eval (rev l2) -> (length l1 <= length l2)%nat.
Proof.
  intros H1 H2 C1 C2 E. destruct l1 as [|x1 r1]; [simpl; lia|]. destruct l2 as [|x2 r2].
  - pose proof (canon_bounds x1 r1 H1 C1). pose proof (Bn_pos (length r1)). cbn [rev eval] in E. cbn [rev] in H. lia.
  - cbn [length]. destruct (le_lt_dec (length r1) (length r2)) as [|Hlt]; [lia|exfalso].
    pose proof (canon_bounds x1 r1 H1 C1). pose proof (canon_bounds x2 r2 H2 C2).
    assert (Bn (S (length r2)) <= Bn (length r1)) by (apply Bn_le; lia). lia.
Qed.

Lemma canon_inj l1 l2 : wf l1 -> wf l2 -> canon l1 -> canon l2 -> eval (rev l1) = eval (rev l2) -> l1 = l2.
Proof.
  intros H1 H2 C1 C2 E.
  assert (Hl : length l1 = length l2).
  { apply Nat.le_antisymm; [apply canon_length | apply canon_length]; auto. }
  assert (R : rev l1 = rev l2) by (apply eval_inj; auto using wf_rev; rewrite !rev_length; assumption).
  rewrite <- (rev_involutive l1), <- (rev_involutive l2), R. reflexivity.
Qed.

Lemma eval_boxed_hash_limbs a : eval (boxed_hash_limbs a) = eval a.
Proof. unfold boxed_hash_limbs. rewrite eval_rev_drop_zeros, rev_involutive. reflexivity. Qed.

(** Hash vs Eq for ANY two precisions: values compare equal exactly when the hasher is fed identical data *)
Lemma boxed_eq_iff_hash a b : wf a -> wf b ->
  (boxed_ct_eq a b = 1 <-> boxed_hash_input a = boxed_hash_input b).
Proof.
  intros Ha Hb. rewrite boxed_ct_eq_spec by assumption. split.
  - intros E. destruct (Z.eqb_spec (eval a) (eval b)) as [Ev|]; [|discriminate].
    unfold boxed_hash_input, boxed_hash_limbs. f_equal. f_equal.
    apply canon_inj; auto using wf_drop_zeros, wf_rev, canon_drop_zeros.
    fold (boxed_hash_limbs a). fold (boxed_hash_limbs b). rewrite !eval_boxed_hash_limbs. assumption.
  - intros E. unfold boxed_hash_input, hash_input in E. injection E as _ El.
    assert (Ev : eval a = eval b) by (rewrite <- (eval_boxed_hash_limbs a), <- (eval_boxed_hash_limbs b), El; reflexivity).
    rewrite Ev, Z.eqb_refl. reflexivity.
Qed.
