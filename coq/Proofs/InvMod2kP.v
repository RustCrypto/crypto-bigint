(** C10 proofs: the bit-serial inverse modulo 2^k (src/uint/inv_mod.rs:14-123 and the boxed twin).
    All three variants return the same pair; it is exact for every limb count n >= 1 and every k in 0..=BITS. *)
From CB Require Import Model.Limbs Model.AddSub Model.SafeGcd Proofs.WordP Proofs.LimbsP Proofs.BitsP Proofs.SafeGcdArithP.
From Coq Require Import ZArith Lia List Bool Znumtheory Zdiv Setoid Morphisms.
Open Scope Z_scope.

Lemma Bn_even n : (0 < n)%nat -> exists h, Bn n = 2 * h /\ 0 < h.
Proof.
  intros Hn. exists (2 ^ (64 * Z.of_nat n - 1)). rewrite Bn_pow2. split.
  - replace (64 * Z.of_nat n) with (1 + (64 * Z.of_nat n - 1)) at 1 by lia. rewrite Z.pow_add_r by lia. reflexivity.
  - apply pow2_pos. lia.
Qed.

Lemma mod2_cases b : b mod 2 = 0 \/ b mod 2 = 1.
Proof. pose proof (Z.mod_pos_bound b 2 ltac:(lia)). lia. Qed.
Lemma odd_mod2 a : Z.odd a = true -> a mod 2 = 1.
Proof. intros H. rewrite Zmod_odd, H. reflexivity. Qed.

(* one step: b' = ((b - a x_i) mod W) / 2 is exact *)
Lemma inv2k_step n a b : (0 < n)%nat -> Z.odd a = true -> 0 <= b < Bn n ->
  let xi := b mod 2 in
  let b' := (if xi =? 0 then b else (b - a) mod Bn n) / 2 in
  0 <= b' < Bn n /\ cg (Bn n) (2 * b') (b - a * xi).
Proof.
  intros Hn Ha Hb xi b'.
  destruct (Bn_even n Hn) as (h & Eh & Hh).
  pose proof (Bn_pos n) as HW.
  destruct (mod2_cases b) as [E|E]; unfold b', xi; rewrite E; cbn [Z.eqb].
  - pose proof (Z.div_mod b 2 ltac:(lia)) as D. rewrite E in D.
    split; [lia|]. replace (2 * (b / 2)) with b by lia. rewrite Z.mul_0_r, Z.sub_0_r. reflexivity.
  - set (c := (b - a) mod Bn n).
    assert (Hc : 0 <= c < Bn n) by (apply Z.mod_pos_bound; lia).
    assert (Ec : c mod 2 = 0).
    { assert (Ec0 : c = (b - a) + (- (h * ((b - a) / Bn n))) * 2).
      { unfold c. rewrite (Z.mod_eq (b - a) (Bn n)) by lia. rewrite Eh at 1. ring. }
      rewrite Ec0, Z_mod_plus_full, Zminus_mod, E, (odd_mod2 a Ha). reflexivity. }
    pose proof (Z.div_mod c 2 ltac:(lia)) as D. rewrite Ec in D.
    split; [lia|]. replace (2 * (c / 2)) with c by lia. unfold c. rewrite cg_mod, Z.mul_1_r. reflexivity.
Qed.

Lemma lor_bit x i xi : 0 <= i -> 0 <= x < 2 ^ i -> 0 <= xi <= 1 -> Z.lor x (xi * 2 ^ i) = x + xi * 2 ^ i.
Proof. intros Hi Hx Hxi. rewrite Z.lor_comm, lor_disjoint by assumption. lia. Qed.

Lemma inv2k_loop_inv cnt : forall n a i x b, (0 < n)%nat -> Z.odd a = true -> 0 <= i ->
  0 <= b < Bn n -> 0 <= x < 2 ^ i -> cg (Bn n) (a * x + 2 ^ i * b) 1 ->
  let r := inv2k_loop cnt n a i x b in
  0 <= r < 2 ^ (i + Z.of_nat cnt) /\ exists b', cg (Bn n) (a * r + 2 ^ (i + Z.of_nat cnt) * b') 1.
Proof.
  induction cnt as [|cnt IH]; intros n a i x b Hn Ha Hi Hb Hx C; cbn [inv2k_loop].
  - rewrite Z.add_0_r. split; [assumption|]. exists b. assumption.
  - cbv zeta.
    destruct (inv2k_step n a b Hn Ha Hb) as (Hb' & Cb). cbv zeta in Hb', Cb.
    set (xi := b mod 2) in *.
    set (b' := (if xi =? 0 then b else (b - a) mod Bn n) / 2) in *.
    assert (Hxi : 0 <= xi <= 1) by (unfold xi; pose proof (Z.mod_pos_bound b 2 ltac:(lia)); lia).
    rewrite lor_bit by assumption.
    assert (P : 0 < 2 ^ i) by (apply pow2_pos; assumption).
    assert (Hx' : 0 <= x + xi * 2 ^ i < 2 ^ (i + 1)).
    { rewrite Z.pow_add_r by lia. change (2 ^ 1) with 2. nia. }
    assert (C' : cg (Bn n) (a * (x + xi * 2 ^ i) + 2 ^ (i + 1) * b') 1).
    { etransitivity; [|exact C]. rewrite Z.pow_add_r by lia. change (2 ^ 1) with 2.
      replace (a * (x + xi * 2 ^ i) + 2 ^ i * 2 * b') with (a * x + a * xi * 2 ^ i + 2 ^ i * (2 * b')) by ring.
      rewrite Cb. apply eq_subrelation; [typeclasses eauto | ring]. }
    specialize (IH n a (i + 1) (x + xi * 2 ^ i) b' Hn Ha ltac:(lia) Hb' Hx' C').
    cbv zeta in IH. replace (i + Z.of_nat (S cnt)) with (i + 1 + Z.of_nat cnt) by lia. exact IH.
Qed.

Lemma inv2k_loop_correct n a k : (0 < n)%nat -> Z.odd a = true -> 0 <= k <= 64 * Z.of_nat n ->
  let r := inv2k_loop (Z.to_nat k) n a 0 0 1 in
  0 <= r < 2 ^ k /\ (a * r) mod 2 ^ k = 1 mod 2 ^ k.
Proof.
  intros Hn Ha Hk r.
  destruct (Bn_even n Hn) as (h & Eh & Hh).
  assert (C : cg (Bn n) (a * 0 + 2 ^ 0 * 1) 1) by (apply eq_subrelation; [typeclasses eauto | ring]).
  destruct (inv2k_loop_inv (Z.to_nat k) n a 0 0 1 Hn Ha ltac:(lia) ltac:(lia) ltac:(cbn; lia) C) as (R & b' & Cb).
  fold r in R, Cb. rewrite Z2Nat.id, Z.add_0_l in R, Cb by lia.
  split; [assumption|].
  assert (P : 0 < 2 ^ k) by (apply pow2_pos; lia).
  apply (cg_weaken (Bn n) (2 ^ k)) in Cb; [| pose proof (Bn_pos n); lia | lia | rewrite Bn_pow2; apply pow2_divide; lia].
  apply cg_iff. rewrite <- Cb.
  apply cg_divide; [lia|]. exists (- b'). ring.
Qed.

(* the constant-time loop: BITS iterations, bits stored only while i < k *)
Lemma inv2k_ct_past cnt : forall n a k i x b, k <= i -> inv2k_ct_loop cnt n a k i x b = x.
Proof.
  induction cnt as [|cnt IH]; intros n a k i x b H; cbn [inv2k_ct_loop]; [reflexivity|].
  cbv zeta. destruct (Z.ltb_spec i k); [lia|]. cbn [andb]. apply IH. lia.
Qed.
Lemma inv2k_ct_eq cnt : forall n a k i x b, 0 <= i <= k -> k - i <= Z.of_nat cnt -> 0 <= x < 2 ^ i ->
  inv2k_ct_loop cnt n a k i x b = inv2k_loop (Z.to_nat (k - i)) n a i x b.
Proof.
  induction cnt as [|cnt IH]; intros n a k i x b Hi Hc Hx.
  - replace (k - i) with 0 by lia. reflexivity.
  - destruct (Z.eq_dec i k) as [->|Hne].
    + rewrite Z.sub_diag. cbn [Z.to_nat inv2k_loop]. apply inv2k_ct_past. lia.
    + replace (Z.to_nat (k - i)) with (S (Z.to_nat (k - (i + 1)))) by lia.
      cbn [inv2k_ct_loop inv2k_loop]. cbv zeta.
      destruct (Z.ltb_spec i k); [|lia]. cbn [andb].
      assert (P : 0 < 2 ^ i) by (apply pow2_pos; lia).
      assert (Hx' : forall xi, 0 <= xi <= 1 -> 0 <= x + xi * 2 ^ i < 2 ^ (i + 1)).
      { intros xi Hxi. rewrite Z.pow_add_r by lia. change (2 ^ 1) with 2. nia. }
      destruct (mod2_cases b) as [E|E]; rewrite E; cbn [Z.eqb].
      * rewrite Z.mul_0_l, Z.lor_0_r. apply IH; [lia | lia |]. specialize (Hx' 0). lia.
      * rewrite Z.mul_1_l. rewrite <- (Z.mul_1_l (2 ^ i)) at 1 2. rewrite lor_bit by lia.
        apply IH; [lia | lia |]. apply (Hx' 1). lia.
Qed.

Lemma gcd_pow2 a k : 0 <= k -> (Z.gcd a (2 ^ k) =? 1) = ((k =? 0) || Z.odd a).
Proof.
  intros Hk. destruct (Z.eqb_spec k 0) as [->|Hk0]; cbn [orb].
  - rewrite Z.pow_0_r, Z.gcd_1_r. reflexivity.
  - destruct (Z.odd a) eqn:O.
    + apply Z.eqb_eq. apply Zgcd_1_rel_prime. apply rel_prime_odd_pow2; assumption.
    + apply Z.eqb_neq. intros G.
      assert (D : (2 | Z.gcd a (2 ^ k))).
      { apply Z.gcd_greatest.
        - exists (a / 2). rewrite Z.mul_comm. apply even_div2. assumption.
        - exists (2 ^ (k - 1)). replace k with ((k - 1) + 1) at 1 by lia. rewrite Z.pow_add_r by lia. reflexivity. }
      rewrite G in D. destruct D as [c Hc]. lia.
Qed.

(** inv_mod2k, inv_mod2k_vartime and inv_mod2k_full_vartime agree, decide invertibility exactly and return the
    canonical inverse: for every limb count n >= 1, every a >= 0 and every k in 0..=BITS. No hypothesis. *)
Theorem inv_mod2k_correct n a k : (0 < n)%nat -> 0 <= a -> 0 <= k <= 64 * Z.of_nat n ->
  inv_mod2k_ct n a k = inv_mod2k_vartime n a k /\
  inv_mod2k_full_vartime n a k = (if snd (inv_mod2k_vartime n a k) then Some (fst (inv_mod2k_vartime n a k)) else None) /\
  (snd (inv_mod2k_vartime n a k) = true <-> Z.gcd a (2 ^ k) = 1) /\
  (snd (inv_mod2k_vartime n a k) = true ->
     let x := fst (inv_mod2k_vartime n a k) in
     0 <= x < 2 ^ k /\ (a * x) mod 2 ^ k = 1 mod 2 ^ k /\ x = modinv a (2 ^ k)).
Proof.
  intros Hn Ha Hk. unfold inv_mod2k_ct, inv_mod2k_vartime, inv_mod2k_full_vartime, inv2k_is_some. cbn [fst snd].
  assert (P : 0 < 2 ^ k) by (apply pow2_pos; lia).
  split; [|split; [|split]].
  - f_equal. unfold bitsn. rewrite (inv2k_ct_eq _ n a k 0 0 1); [rewrite Z.sub_0_r; reflexivity | lia | lia | change (2 ^ 0) with 1; lia].
  - destruct (Z.eqb_spec k 0) as [->|Hk0]; cbn [negb andb orb]; [reflexivity|].
    rewrite <- Z.negb_odd. destruct (Z.odd a); reflexivity.
  - rewrite <- (gcd_pow2 a k) by lia. rewrite Z.eqb_eq. reflexivity.
  - intros S. cbv zeta.
    assert (X : 0 <= inv2k_loop (Z.to_nat k) n a 0 0 1 < 2 ^ k /\ (a * inv2k_loop (Z.to_nat k) n a 0 0 1) mod 2 ^ k = 1 mod 2 ^ k).
    { destruct (Z.eqb_spec k 0) as [->|Hk0].
      - cbn [Z.to_nat inv2k_loop]. change (2 ^ 0) with 1. rewrite !Z.mod_1_r. split; [lia | reflexivity].
      - cbn [orb] in S. apply (inv2k_loop_correct n a k Hn S Hk). }
    destruct X as (R & E). split; [assumption|]. split; [assumption|].
    assert (G : Z.gcd a (2 ^ k) = 1) by (apply Z.eqb_eq; rewrite gcd_pow2 by lia; exact S).
    destruct (modinv_spec a (2 ^ k) P) as (R2 & E2). rewrite G in E2.
    apply (inv_unique (2 ^ k) a 1); assumption.
Qed.
