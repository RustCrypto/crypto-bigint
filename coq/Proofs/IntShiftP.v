(** C05 proofs, part 4: the arithmetic (sign-filling) right shift of Int equals floor division of the
    signed value by 2^s. *)
From CB Require Import Proofs.IntArithP.
From CB Require Import Model.Limbs Model.AddSub Model.Bits Proofs.WordP Proofs.LimbsP Proofs.AddSubP
  Proofs.BitsWordP Proofs.ShiftP Proofs.LadderP Proofs.BitQueryP.
From Coq Require Import ZArith Lia List Bool.
Open Scope Z_scope.

Definition is_neg (a : list Z) : bool := Bn (length a) <=? 2 * eval a.

Lemma seval_is_neg a : seval a = if is_neg a then eval a - Bn (length a) else eval a.
Proof. unfold seval, is_neg. cbn zeta. rewrite Z.leb_antisym. destruct (2 * eval a <? Bn (length a)); reflexivity. Qed.

Lemma is_neg_seval a : wf a -> is_neg a = (seval a <? 0).
Proof. intros Hw. symmetry. apply seval_neg. assumption. Qed.

(* [int_is_negative] of Model/Bits.v is that of Model/IntArith.v *)
Lemma int_is_negative_seval a : wf a -> a <> [] -> int_is_negative a = choice_of_bool (seval a <? 0).
Proof. intros Hw _. exact (int_is_negative_spec a Hw). Qed.

Lemma int_is_negative_correct a : wf a -> a <> [] -> int_is_negative a = choice_of_bool (is_neg a).
Proof. intros Hw Hne. rewrite is_neg_seval by assumption. apply int_is_negative_seval; assumption. Qed.

Lemma int_sign_fill_correct a : wf a -> a <> [] ->
  int_sign_fill a = if is_neg a then maxs (length a) else zeros (length a).
Proof.
  intros Hw Hne. unfold int_sign_fill. rewrite int_is_negative_correct by assumption.
  apply select_limbs_choice; auto using wf_zeros, wf_maxs. rewrite length_zeros, length_maxs. reflexivity.
Qed.

(** floor division by a power of two that exceeds the magnitude: the sign fill *)
Lemma div_pow2_sign x s : 0 <= s -> - 2 ^ s <= x < 2 ^ s -> x / 2 ^ s = if x <? 0 then -1 else 0.
Proof.
  intros Hs Hx. pose proof (pow2_pos s Hs).
  destruct (Z.ltb_spec x 0).
  - assert (Hq : x / 2 ^ s = -1 /\ x mod 2 ^ s = x + 2 ^ s) by (apply div_mod_unique_pos; lia). tauto.
  - apply Z.div_small. lia.
Qed.

(** the sign-extended unsigned computation is the floor division of the signed value *)
Lemma sar_signed M H v s neg : M = 2 * H -> 0 < H -> 0 <= v < M -> 0 <= s ->
  neg = (M <=? 2 * v) ->
  let sv := if neg then v - M else v in
  let r := if neg then (v + M * (2 ^ s - 1)) / 2 ^ s else v / 2 ^ s in
  0 <= r < M /\ (if M <=? 2 * r then r - M else r) = sv / 2 ^ s.
Proof.
  intros HM HH Hv Hs Hneg. cbn zeta. pose proof (pow2_pos s Hs) as Hp. subst neg.
  destruct (Z.leb_spec M (2 * v)) as [Hn|Hn].
  - replace (v + M * (2 ^ s - 1)) with ((v - M) + M * 2 ^ s) by ring.
    rewrite Z.div_add by lia.
    set (q := (v - M) / 2 ^ s).
    assert (Hq1 : q < 0) by (apply Z.div_lt_upper_bound; lia).
    assert (Hq2 : - H <= q).
    { apply Z.div_le_lower_bound; [lia|].
      assert (H * 1 <= H * 2 ^ s) by (apply Z.mul_le_mono_nonneg_l; lia). lia. }
    split; [lia|]. destruct (Z.leb_spec M (2 * (q + M))); lia.
  - assert (0 <= v / 2 ^ s) by (apply Z.div_pos; lia).
    assert (v / 2 ^ s <= v).
    { apply Z.div_le_upper_bound; [lia|]. assert (1 * v <= 2 ^ s * v) by (apply Z.mul_le_mono_nonneg_r; lia). lia. }
    split; [lia|]. destruct (Z.leb_spec M (2 * (v / 2 ^ s))); lia.
Qed.

Lemma sar_unsigned_split v K N R : 0 < K -> 0 < R ->
  (v + K * N * (K * R - 1)) / (K * R) = (v / K + N * (R - 1)) / R + N * (K - 1).
Proof.
  intros HK HR. rewrite <- Z.div_div by lia.
  replace (v + K * N * (K * R - 1)) with (v + (N * (K * R - 1)) * K) by ring.
  rewrite Z.div_add by lia.
  replace (v / K + N * (K * R - 1)) with (v / K + N * (R - 1) + (N * (K - 1)) * R) by ring.
  rewrite Z.div_add by lia. reflexivity.
Qed.

Lemma sign_carry_all :
  forallb (fun r => wxor MAXW (wshr MAXW r) =? (2 ^ r - 1) * 2 ^ (64 - r)) (map Z.of_nat (seq 1 63)) = true.
Proof. vm_compute. reflexivity. Qed.

Lemma sign_carry rem : 0 < rem < 64 -> wxor MAXW (wshr MAXW rem) = (2 ^ rem - 1) * 2 ^ (64 - rem).
Proof.
  intros Hr. pose proof sign_carry_all as H. rewrite forallb_forall in H.
  apply Z.eqb_eq. apply H. apply in_map_iff. exists (Z.to_nat rem). split; [lia|]. apply in_seq. lia.
Qed.

Lemma eval_repeat_MAXW n : eval (repeat MAXW n) = Bn n - 1.
Proof. exact (eval_maxs n). Qed.

(* With s = 64 sn + rem: the result is the limbs above sn shifted right by rem, the bits shifted in being those of the
   sign fill ([sign_carry]), followed by sn limbs of fill.  Its unsigned value is eval a / 2^s for a >= 0, and for a < 0
   that of the value extended by ones above the width ([sar_unsigned_split]). *)
(** The unsigned reading of the result: a negative input is shifted as if limbs of ones stood above it. They enter
    as the [repeat base sn] appended after the limb move and as the carry (2^rem - 1) * 2^(64 - rem) at the top of the
    sub-limb shift; [sar_signed] turns this value into the floor of the signed one. *)
Lemma int_shr_vartime_unsigned a s : wf a -> a <> [] -> 0 <= s ->
  let r := int_overflowing_shr_vartime a s in
  let M := Bn (length a) in
  snd r = choice_of_bool (s <? bitsZ' a) /\ wf (fst r) /\ length (fst r) = length a /\
  eval (fst r) = if s <? bitsZ' a
                 then (if is_neg a then (eval a + M * (2 ^ s - 1)) / 2 ^ s else eval a / 2 ^ s)
                 else (if is_neg a then M - 1 else 0).
Proof.
  intros Hw Hne Hs. cbn zeta. unfold int_overflowing_shr_vartime, bitsZ'.
  rewrite int_is_negative_correct, int_sign_fill_correct by assumption.
  set (n := length a). set (neg := is_neg a).
  destruct (Z.leb_spec (64 * Z.of_nat n) s) as [Hov|Hin].
  - destruct (Z.ltb_spec s (64 * Z.of_nat n)); [lia|]. cbn [fst snd ct_none].
    destruct neg.
    + rewrite eval_maxs, length_maxs. auto using wf_maxs.
    + rewrite eval_zeros, length_zeros. auto using wf_zeros.
  - destruct (Z.ltb_spec s (64 * Z.of_nat n)); [|lia].
    pose proof (shift_decomp s Hs) as (Hd & Hr & Hp). cbn zeta in Hd, Hr, Hp.
    set (sn := Z.to_nat (s / 64)) in *. set (rem := s mod 64) in *.
    assert (Hsn : (sn < n)%nat) by lia.
    set (moved := skipn sn a).
    assert (Hmw : wf moved) by (apply wf_skipn; assumption).
    assert (Hml : length moved = (n - sn)%nat) by (unfold moved; rewrite skipn_length; reflexivity).
    assert (Hme : eval moved = eval a / Bn sn) by (apply eval_skipn; [assumption | unfold n in *; lia]).
    pose proof (Bn_pos sn) as HK. pose proof (pow2_pos rem ltac:(lia)) as HR.
    pose proof (Bn_split n sn ltac:(lia)) as HBn. pose proof (Bn_pos (n - sn)%nat) as HN.
    rewrite select_word_choice by (auto using is_word_0', is_word_MAXW).
    set (base := if neg then MAXW else 0).
    assert (Hbw : wf (repeat base sn)) by (apply wf_repeat; unfold base; destruct neg; auto using is_word_0', is_word_MAXW).
    assert (Hbe : eval (repeat base sn) = if neg then Bn sn - 1 else 0).
    { unfold base. destruct neg; [apply eval_maxs | apply eval_zeros]. }
    destruct (Z.eqb_spec rem 0) as [Hz|Hnz]; cbn [fst snd ct_some].
    + split; [reflexivity|]. split; [apply wf_app; split; assumption|].
      split; [rewrite app_length, repeat_length; lia|].
      rewrite eval_app, Hml, Hme, Hbe, Hp, Hz, Z.pow_0_r, Z.mul_1_r, HBn.
      destruct neg; [|lia].
      replace (eval a + Bn sn * Bn (n - sn) * (Bn sn - 1)) with (eval a + (Bn (n - sn) * (Bn sn - 1)) * Bn sn) by ring.
      rewrite Z.div_add by lia. reflexivity.
    + set (t := if neg then 2 ^ rem - 1 else 0).
      assert (Hc : wxor base (wshr base rem) = t * 2 ^ (64 - rem)).
      { unfold base, t. destruct neg; [apply sign_carry; lia|]. unfold wxor, wshr.
        rewrite Z.div_0_l by lia. reflexivity. }
      rewrite Hc.
      pose proof (shr_carry_correct rem ltac:(lia) moved t Hmw ltac:(unfold t; destruct neg; lia)) as HC.
      cbn zeta in HC. destruct HC as (Cw & Cl & Ce & _).
      split; [reflexivity|]. split; [apply wf_app; split; assumption|].
      split; [rewrite app_length, repeat_length; lia|].
      rewrite eval_app, Cl, Hml, Ce, Hml, Hme, Hbe, Hp, HBn. unfold t.
      destruct neg.
      * rewrite sar_unsigned_split by lia. ring.
      * rewrite Z.mul_0_r, !Z.add_0_r. apply Z.div_div; lia.
Qed.

(** Int::overflowing_shr_vartime: floor division of the signed value; the sign fill beyond the width *)
Theorem int_shr_vartime_correct a s : wf a -> a <> [] -> 0 <= s ->
  let r := int_overflowing_shr_vartime a s in
  snd r = choice_of_bool (s <? bitsZ' a) /\ wf (fst r) /\ length (fst r) = length a /\
  seval (fst r) = seval a / 2 ^ s.
Proof.
  intros Hw Hne Hs. cbn zeta.
  pose proof (int_shr_vartime_unsigned a s Hw Hne Hs) as H. cbn zeta in H.
  destruct H as (Hc & Wr & Lr & Er).
  split; [exact Hc|]. split; [exact Wr|]. split; [exact Lr|].
  destruct (Bn_half (length a) ltac:(destruct a; [congruence | discriminate])) as (HM & HH).
  pose proof (eval_bounds a Hw) as Hb.
  rewrite (seval_is_neg a).
  unfold seval at 1. cbn zeta. rewrite Lr.
  replace (2 * eval (fst (int_overflowing_shr_vartime a s)) <? Bn (length a))
    with (negb (Bn (length a) <=? 2 * eval (fst (int_overflowing_shr_vartime a s))))
    by (rewrite Z.leb_antisym, negb_involutive; reflexivity).
  destruct (Z.ltb_spec s (bitsZ' a)) as [Hin|Hout].
  - pose proof (sar_signed (Bn (length a)) (halfB (length a)) (eval a) s (is_neg a) HM HH Hb Hs eq_refl) as S.
    cbn zeta in S. rewrite <- Er in S. destruct S as (_ & S). rewrite <- S.
    destruct (Bn (length a) <=? 2 * eval (fst (int_overflowing_shr_vartime a s))); reflexivity.
  - (* beyond the width: -1 or 0, which is again the floor division *)
    assert (Hp : Bn (length a) <= 2 ^ s).
    { rewrite Bn_pow2. apply pow2_le. unfold bitsZ' in Hout. lia. }
    rewrite Er. unfold is_neg.
    destruct (Z.leb_spec (Bn (length a)) (2 * eval a)).
    + rewrite div_pow2_sign by lia. destruct (Z.ltb_spec (eval a - Bn (length a)) 0); [|lia].
      destruct (Z.leb_spec (Bn (length a)) (2 * (Bn (length a) - 1))); cbn [negb]; lia.
    + rewrite div_pow2_sign by lia. destruct (Z.ltb_spec (eval a) 0); [lia|].
      destruct (Z.leb_spec (Bn (length a)) (2 * 0)); cbn [negb]; lia.
Qed.

Definition P_sar (a : list Z) (acc : Z) (r : list Z) : Prop :=
  wf r /\ length r = length a /\ seval r = seval a / 2 ^ acc.

Lemma P_sar_step a acc r d : a <> [] -> P_sar a acc r -> 0 <= acc -> 0 <= d < bitsZ' a ->
  exists v, ct_expect (int_overflowing_shr_vartime r d) = Some v /\ P_sar a (acc + d) v.
Proof.
  intros Hne (Wr & Lr & Er) Hacc Hd.
  assert (Hrne : r <> []) by (destruct r, a; simpl in *; congruence).
  pose proof (int_shr_vartime_correct r d Wr Hrne ltac:(lia)) as H. cbn zeta in H.
  unfold bitsZ' in *. rewrite Lr in H.
  destruct (Z.ltb_spec d (64 * Z.of_nat (length a))); [|lia].
  destruct H as (Hc & Wv & Lv & Ev).
  destruct (int_overflowing_shr_vartime r d) as [v c]. cbn [fst snd] in *. subst c.
  exists v. split; [apply ct_expect_some|].
  split; [exact Wv|]. split; [lia|].
  rewrite Ev, Er. rewrite pow2_split by lia.
  pose proof (pow2_pos acc Hacc). pose proof (pow2_pos d ltac:(lia)). apply Z.div_div; lia.
Qed.

Lemma P_sar_0 a : wf a -> P_sar a 0 a.
Proof. intros Hw. split; [exact Hw|]. split; [reflexivity|]. rewrite Z.pow_0_r, Z.div_1_r. reflexivity. Qed.

Theorem int_overflowing_shr_correct a s :
  wf a -> a <> [] -> bitsZ' a < U32 -> 0 <= s < U32 ->
  exists v, int_overflowing_shr a s = Some (v, choice_of_bool (s <? bitsZ' a)) /\
            wf v /\ length v = length a /\
            (s < bitsZ' a -> seval v = seval a / 2 ^ s).
Proof.
  intros Hw Hne Hbits Hs. pose proof (bits_ge_64 a Hne) as H64.
  unfold int_overflowing_shr. unfold lenZ. fold (bitsZ' a).
  unfold choice_not. rewrite from_u32_lt_bool, wnot_choice by lia.
  pose proof (Z.mod_pos_bound s (bitsZ' a) ltac:(lia)) as Hsh.
  destruct (ladder_full int_overflowing_shr_vartime (length a) (bitsZ' a) (P_sar a)
              ltac:(intros ? ? (? & ? & ?); auto) (fun acc r d => P_sar_step a acc r d Hne)
              a (s mod bitsZ' a) H64 (P_sar_0 a Hw) Hsh)
    as (r' & Er & (Wr & Lr & Ee)).
  rewrite Er, wnot_choice, negb_involutive.
  eexists. split; [reflexivity|]. split; [exact Wr|]. split; [exact Lr|].
  intros Hin. rewrite (Z.mod_small s) in Ee by lia. exact Ee.
Qed.

(** wrapping_shr / wrapping_shr_vartime of Int: floor(x / 2^s) for EVERY shift amount (the sign fill
    returned for s >= BITS is that floor) *)
Lemma sign_fill_seval a s : wf a -> a <> [] -> bitsZ' a <= s ->
  wf (int_sign_fill a) /\ length (int_sign_fill a) = length a /\ seval (int_sign_fill a) = seval a / 2 ^ s.
Proof.
  intros Hw Hne Hs.
  pose proof (int_shr_vartime_correct a s Hw Hne ltac:(unfold bitsZ' in *; lia)) as H. cbn zeta in H.
  unfold int_overflowing_shr_vartime in H. fold (bitsZ' a) in H. unfold bitsZ' in *.
  destruct (Z.leb_spec (64 * Z.of_nat (length a)) s); [|lia]. cbn [fst snd ct_none] in H. tauto.
Qed.

(* what [wrapping_shr] returns from the ConstCtOption of [overflowing_shr]: the shifted value inside the
   width, the sign fill beyond it *)
Lemma unwrap_or_sign_fill a s v : wf a -> a <> [] -> wf v -> length v = length a ->
  (s < bitsZ' a -> seval v = seval a / 2 ^ s) ->
  let r := ct_unwrap_or (v, choice_of_bool (s <? bitsZ' a)) (int_sign_fill a) in
  wf r /\ length r = length a /\ seval r = seval a / 2 ^ s.
Proof.
  intros Hw Hne Wv Lv Ev. cbn zeta.
  destruct (Z.ltb_spec s (bitsZ' a)) as [Hin|Hout].
  - destruct (sign_fill_seval a (bitsZ' a) Hw Hne ltac:(lia)) as (W & L & _).
    rewrite ct_unwrap_or_choice by (auto; lia). auto.
  - destruct (sign_fill_seval a s Hw Hne Hout) as (W & L & E).
    rewrite ct_unwrap_or_choice by (auto; lia). auto.
Qed.

Theorem int_wrapping_shr_vartime_correct a s : wf a -> a <> [] -> 0 <= s ->
  let r := ct_unwrap_or (int_overflowing_shr_vartime a s) (int_sign_fill a) in
  wf r /\ length r = length a /\ seval r = seval a / 2 ^ s.
Proof.
  intros Hw Hne Hs.
  pose proof (int_shr_vartime_correct a s Hw Hne Hs) as H. cbn zeta in H. destruct H as (Hc & Wr & Lr & Er).
  destruct (int_overflowing_shr_vartime a s) as [v c]. cbn [fst snd] in *. subst c.
  apply unwrap_or_sign_fill; auto.
Qed.

Theorem int_wrapping_shr_correct a s : wf a -> a <> [] -> bitsZ' a < U32 -> 0 <= s < U32 ->
  exists v, int_overflowing_shr a s = Some v /\
    let r := ct_unwrap_or v (int_sign_fill a) in
    wf r /\ length r = length a /\ seval r = seval a / 2 ^ s.
Proof.
  intros Hw Hne Hb Hs.
  destruct (int_overflowing_shr_correct a s Hw Hne Hb Hs) as (v & E & Wv & Lv & Ev).
  eexists. split; [exact E|]. apply unwrap_or_sign_fill; auto.
Qed.
