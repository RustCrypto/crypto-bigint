(** C11 (totality): shared definitions, tactics and the key lists of the eleven areas the property covers (addsub,
    mul, div, bits, cmp, modarith, intarith, intdiv, conv, rand, sqrt).

    What is stated per area (an "area" = one Model/<Area>.v with its two tables [ops_<area>_model] and
    [ops_<area>_spec]; the spec table says [PanicV] exactly where the documentation says the call panics and
    [Unsupported] outside the documented domain):

      C11_<area>_panics_iff_documented  : panics_iff_documented  ops_<area>_model ops_<area>_spec <area>_keys <area>_ty
      C11_<area>_total_forms_never_panic: total_forms_never_panic ops_<area>_model <area>_total_keys <area>_total_ty

    RECIPE: adding a further area X (Model/X.v with ops_x_model / ops_x_spec) takes
      1. one section at the end of THIS file (it needs Model.Limbs only; no import of Model/X.v):
           [x_quiet_keys]  keys whose model entry and spec entry never return PanicV for ANY argument list (provable
                           by the syntactic tactic [quiet_tac]: unfold the head, destruct the tests, no arithmetic),
           [x_panic_keys]  keys one of whose entries has a PanicV branch (each needs a bridging lemma),
           [x_keys := x_quiet_keys ++ x_panic_keys],
           [x_ty : typing] the typing side condition of a key for the first statement (what Rust's types enforce: two
                           Uint<N> have one limb count, a Limb is one word, BITS and a u32 shift are < 2^32 ...); a key
                           without an entry has none,
           [x_total_keys], [x_total_ty] the option / result / flag returning forms and their (typing-only) side conditions.
         To find the partition run [Ltac part] of tools/c11_partition.v on [map fst ops_x_model]
         (a key on which [split; open_tabs M S; np] fails goes to x_panic_keys).
      2. one file Proofs/TotalityXP.v (imports Model/X.v, this file, and the table file Proofs/XTablesP.v if the area has one):
           [x_cover : covers x_keys ops_x_model = true]                      by [vm_compute. reflexivity.]
             -- if a key resists, leave it out of the lists, prove [covers_except x_keys [the keys] ops_x_model = true]
                instead and SAY which keys are missing in tools/claims_C11.json,
           [x_quiet : quiet_keys_ok ops_x_model ops_x_spec x_quiet_keys]     by [unfold x_quiet_keys. quiet_tac M S.]
           one lemma [key_<k> : key_ok M S x_ty "the.key"] per panicking key.  Where XTablesP.v proves
             [tbl_<k>] (model entry = spec entry on the spec's domain) under a boolean typing that [x_ty] implies:
             [apply key_of_eq. intros dbg a Hwf Hty. exact (tbl_<k> dbg a Hwf (<the boolean side condition from Hty>)).]
             (areas addsub, bits, cmp, conv, rand; the Prop-to-boolean lemmas [..._b] stand in TotalityXP.v).
             Otherwise -- no table file, or a table theorem that assumes more than [x_ty] gives (the Ord keys of Limb in cmp,
             the two from_prim keys with a width tag in conv) -- [start_key M S x_ty] opens the two entries
             (hypotheses Hwf : wf_args a, Hty : the side condition, Hdom : spec entry <> Unsupported); destruct the test
             the model panics on and bridge it to the spec's test with the correctness lemma of the owning property
             (never [apply] an iff between the two tables: unification unfolds both tables; use proj1 / rewrite),
           [#[export] Hint Resolve key_... : c11keys.]
      3. in Props/C11.v the two Theorem / Print Assumptions pairs
           [C11_x_panics_iff_documented]   by [apply panics_from_parts; [exact x_quiet | unfold x_panic_keys; by_keys].]
           [C11_x_total_forms_never_panic] by [quiet_total] for keys inside x_quiet_keys, [total_via] or, key by key,
                                           [total_forms_Forall] for the others
         (as a theorem of TotalityXP.v instead, if another proof needs it), one line in C11_key_lists_cover_tables and a
         non-vacuity line. *)
From CB Require Import Model.Limbs.
From Coq Require Import ZArith List String Bool Lia.
Open Scope Z_scope.
Notation length := List.length.

(* ------------------------------------------------------------------ outcome classes *)
Inductive ocls := CVal | CNone | CErr | CPanic | CUnsup.
Definition cls (o : outcome) : ocls :=
  match o with Val _ => CVal | NoneV => CNone | ErrV _ => CErr | PanicV => CPanic | Unsupported => CUnsup end.
Lemma cls_panic o : cls o = CPanic <-> o = PanicV.
Proof. destruct o; cbn; split; intros H; try discriminate; reflexivity. Qed.
Lemma cls_unsup o : cls o = CUnsup <-> o = Unsupported.
Proof. destruct o; cbn; split; intros H; try discriminate; reflexivity. Qed.

(* table lookup, as in Model/Api.v (run_model / run_spec restricted to one table) *)
Definition run_tab (t : list (string * opfn)) (k : string) (dbg : bool) (a : list (list Z)) : outcome :=
  match lookup k t with Some f => f dbg a | None => Unsupported end.

Definition wf_args (a : list (list Z)) : Prop := Forall wf a.

(* typing side conditions, per key *)
Definition typing := list (string * (list (list Z) -> Prop)).
Definition typed (t : typing) (k : string) (a : list (list Z)) : Prop :=
  match lookup k t with Some P => P a | None => True end.

(* ------------------------------------------------------------------ the two statements *)
Definition panics_iff_documented (M S : list (string * opfn)) (keys : list string) (ty : typing) : Prop :=
  forall k dbg a, In k keys -> wf_args a -> typed ty k a -> run_tab S k dbg a <> Unsupported ->
    (run_tab M k dbg a = PanicV <-> run_tab S k dbg a = PanicV).
Definition total_forms_never_panic (M : list (string * opfn)) (keys : list string) (ty : typing) : Prop :=
  forall k dbg a, In k keys -> typed ty k a -> run_tab M k dbg a <> PanicV.

(* one key of the first statement *)
Definition key_ok (M S : list (string * opfn)) (ty : typing) (k : string) : Prop :=
  forall dbg a, wf_args a -> typed ty k a -> run_tab S k dbg a <> Unsupported ->
    (run_tab M k dbg a = PanicV <-> run_tab S k dbg a = PanicV).
(* keys that never panic in either table, whatever the arguments *)
Definition quiet_keys_ok (M S : list (string * opfn)) (keys : list string) : Prop :=
  forall k dbg a, In k keys -> run_tab M k dbg a <> PanicV /\ run_tab S k dbg a <> PanicV.

Lemma quiet_key_ok M S ty keys k : quiet_keys_ok M S keys -> In k keys -> key_ok M S ty k.
Proof.
  intros Q Hin dbg a _ _ _. destruct (Q k dbg a Hin) as [H1 H2]. split; intros H; contradiction.
Qed.
Lemma quiet_total M S keys tot ty : quiet_keys_ok M S keys -> (forall k, In k tot -> In k keys) ->
  total_forms_never_panic M tot ty.
Proof. intros Q Hsub k dbg a Hin _. exact (proj1 (Q k dbg a (Hsub k Hin))). Qed.

(* coverage: every key of the table is in the list (boolean, closed by vm_compute) *)
Definition mem_str (k : string) (l : list string) : bool := existsb (String.eqb k) l.
Definition covers (keys : list string) (t : list (string * opfn)) : bool :=
  forallb (fun k => mem_str k keys) (map fst t).
Definition covers_except (keys missing : list string) (t : list (string * opfn)) : bool :=
  forallb (fun k => mem_str k keys || mem_str k missing) (map fst t) &&
  forallb (fun k => negb (mem_str k keys)) missing.
Definition sublist (l1 l2 : list string) : bool := forallb (fun k => mem_str k l2) l1.
Lemma mem_str_In k l : mem_str k l = true -> In k l.
Proof.
  unfold mem_str. rewrite existsb_exists. intros (x & Hx & E). apply String.eqb_eq in E. subst. assumption.
Qed.
Lemma sublist_In l1 l2 : sublist l1 l2 = true -> forall k, In k l1 -> In k l2.
Proof.
  unfold sublist. rewrite forallb_forall. intros H k Hk. apply mem_str_In. apply H. assumption.
Qed.

(* ------------------------------------------------------------------ argument access *)
Lemma wf_nil' : wf [].
Proof. constructor. Qed.
Lemma wf_arg i a : wf_args a -> wf (arg i a).
Proof.
  unfold wf_args, arg. intros H. revert i. induction H as [|x l Hx Hl IH]; intros i.
  - destruct i; apply wf_nil'.
  - destruct i; [exact Hx | apply IH].
Qed.
Lemma sarg_word i a : wf_args a -> 0 <= sarg i a < B.
Proof.
  intros H. pose proof (wf_arg i a H) as Hw. unfold sarg, arg in *.
  destruct (nth i a []) as [|x l]; cbn [nth].
  - unfold B. split; [lia | reflexivity].
  - inversion Hw as [|? ? Hx _]. exact Hx.
Qed.

Lemma arg_single i a : length (arg i a) = 1%nat -> arg i a = [sarg i a].
Proof. unfold sarg, arg. destruct (nth i a []) as [|x [|y l]]; cbn; intros H; try discriminate; reflexivity. Qed.

(* ------------------------------------------------------------------ tactics *)
(* open [run_tab T "key"] to the entry of the table *)
Ltac open_tabs M S :=
  unfold run_tab;
  lazy beta iota delta [lookup M S String.eqb Ascii.eqb Bool.eqb].
Ltac open_typed ty H :=
  unfold typed in H;
  lazy beta iota delta [lookup ty String.eqb Ascii.eqb Bool.eqb] in H.
(* start the proof of one [key_ok M S ty "key"] *)
Ltac start_key M S ty :=
  let dbg := fresh "dbg" in let a := fresh "a" in
  let Hwf := fresh "Hwf" in let Hty := fresh "Hty" in let Hdom := fresh "Hdom" in
  intros dbg a Hwf Hty Hdom; open_typed ty Hty; revert Hdom; open_tabs M S; intros Hdom.
(* [forall k, In k [k1; ...; kn] -> key_ok M S ty k], key by key, from the hint database c11keys *)
Ltac by_keys :=
  apply Forall_forall; repeat (apply Forall_cons; [solve [eauto with nocore c11keys] |]); apply Forall_nil.
Create HintDb c11keys.

(* [np]: the goal [X <> PanicV] holds by the shape of X alone: unfold the head, destruct the tests *)
Ltac head_of t := lazymatch t with ?f _ => head_of f | _ => t end.
Ltac np :=
  lazymatch goal with
  | |- Val _ <> PanicV => discriminate
  | |- NoneV <> PanicV => discriminate
  | |- ErrV _ <> PanicV => discriminate
  | |- Unsupported <> PanicV => discriminate
  | |- PanicV <> PanicV => fail "reaches PanicV"
  | |- (if ?c then _ else _) <> PanicV => destruct c; np
  | |- (let x := ?e in @?b x) <> PanicV => change (b e <> PanicV); cbv beta; np
  | |- (match ?x with _ => _ end) <> PanicV => destruct x; np
  | |- ?X <> PanicV => let h := head_of X in unfold h; cbv beta; np
  end.

(* [nu]: the same for [X <> Unsupported] *)
Ltac nu :=
  lazymatch goal with
  | |- Val _ <> Unsupported => discriminate
  | |- NoneV <> Unsupported => discriminate
  | |- ErrV _ <> Unsupported => discriminate
  | |- PanicV <> Unsupported => discriminate
  | |- Unsupported <> Unsupported => fail "reaches Unsupported"
  | |- (if ?c then _ else _) <> Unsupported => destruct c; nu
  | |- (let x := ?e in @?b x) <> Unsupported => change (b e <> Unsupported); cbv beta; nu
  | |- (match ?x with _ => _ end) <> Unsupported => destruct x; nu
  | |- ?X <> Unsupported => let h := head_of X in unfold h; cbv beta; nu
  end.

(* a quiet list, key by key *)
Lemma quiet_keys_Forall M S keys :
  Forall (fun k => forall dbg a, run_tab M k dbg a <> PanicV /\ run_tab S k dbg a <> PanicV) keys ->
  quiet_keys_ok M S keys.
Proof. intros H k dbg a Hin. rewrite Forall_forall in H. exact (H k Hin dbg a). Qed.
Ltac quiet_tac M S :=
  apply quiet_keys_Forall; repeat (apply Forall_cons; [intros ? ?; split; open_tabs M S; np |]); apply Forall_nil.

(* the first statement from the quiet keys and the per-key lemmas: [In k (quiet ++ panic)] *)
Lemma panics_from_parts M S quiet pk ty :
  quiet_keys_ok M S quiet -> (forall k, In k pk -> key_ok M S ty k) ->
  panics_iff_documented M S (quiet ++ pk) ty.
Proof.
  intros Q P k dbg a Hin. apply in_app_or in Hin. destruct Hin as [Hin | Hin].
  - apply (quiet_key_ok M S ty quiet k Q Hin).
  - apply (P k Hin).
Qed.

(* a total form that is not syntactically quiet: from the first statement, when the spec entry is defined and quiet *)
Lemma total_via M S keys ty k dbg a : panics_iff_documented M S keys ty -> In k keys -> wf_args a -> typed ty k a ->
  run_tab S k dbg a <> Unsupported -> run_tab S k dbg a <> PanicV -> run_tab M k dbg a <> PanicV.
Proof. intros P Hk Hwf Hty Hd Hs HP. apply Hs. exact (proj1 (P k dbg a Hk Hwf Hty Hd) HP). Qed.

(* the first statement in terms of outcome classes (what the two-profile run of tools/vlib/c11.py compares) *)
Lemma panics_iff_cls M S keys ty : panics_iff_documented M S keys ty ->
  forall k dbg a, In k keys -> wf_args a -> typed ty k a -> cls (run_tab S k dbg a) <> CUnsup ->
    (cls (run_tab M k dbg a) = CPanic <-> cls (run_tab S k dbg a) = CPanic).
Proof.
  intros P k dbg a Hk Hwf Hty Hd. rewrite !cls_panic. apply (P k dbg a Hk Hwf Hty).
  intros E. apply Hd. apply cls_unsup. exact E.
Qed.

(* ------------------------------------------------------------------ recurring shapes of one key's statement *)
(* neither side ever panics *)
Lemma never_iff (x y : outcome) : x <> PanicV -> y <> PanicV -> (x = PanicV <-> y = PanicV).
Proof. intros Hx Hy. split; intros H; contradiction. Qed.
(* `expect` / `unwrap` of an option: the panic is exactly the [None] *)
Lemma expect_iff {A} (o : option A) (f : A -> outcome) : (forall v, f v <> PanicV) ->
  (match o with Some v => f v | None => PanicV end = PanicV <-> o = None).
Proof. intros Hf. destruct o as [v|]; [|tauto]. split; [intros H; elim (Hf v H) | discriminate]. Qed.
(* an assertion: the panic is exactly the failed test *)
Lemma assert_iff (b : bool) (x : outcome) : x <> PanicV -> ((if b then x else PanicV) = PanicV <-> b = false).
Proof. intros Hx. destruct b; [|tauto]. split; [intros H; elim (Hx H) | discriminate]. Qed.
Lemma refute_iff (b : bool) (x : outcome) : x <> PanicV -> ((if b then PanicV else x) = PanicV <-> b = true).
Proof. intros Hx. destruct b; [tauto|]. split; [intros H; elim (Hx H) | discriminate]. Qed.

(* a key whose two entries agree on the spec's domain (the table theorem of the area) *)
Lemma key_of_eq M S ty k :
  (forall dbg a, wf_args a -> typed ty k a -> run_tab S k dbg a <> Unsupported -> run_tab M k dbg a = run_tab S k dbg a) ->
  key_ok M S ty k.
Proof. intros H dbg a Hwf Hty Hd. rewrite (H dbg a Hwf Hty Hd). tauto. Qed.

(* the second statement, key by key *)
Lemma total_forms_Forall M keys ty :
  Forall (fun k => forall dbg a, typed ty k a -> run_tab M k dbg a <> PanicV) keys -> total_forms_never_panic M keys ty.
Proof. intros H k dbg a Hin. rewrite Forall_forall in H. exact (H k Hin dbg a). Qed.

(* ================================================================== key lists, one section per area *)
Open Scope string_scope.
(* ---------------- addsub (Model/AddSub.v): 42 keys = 34 quiet + 8 with a panic branch ---------------- *)
Definition addsub_quiet_keys : list string :=
  ["limb.adc"; "limb.sbb"; "limb.overflowing_add"; "limb.mac"; "limb.wrapping_add"; "limb.wrapping_sub";
   "limb.wrapping_neg"; "limb.saturating_add"; "limb.saturating_sub"; "limb.checked_add"; "limb.checked_sub";
   "uint.adc"; "uint.sbb"; "uint.wrapping_add"; "uint.wrapping_sub"; "uint.saturating_add";
   "uint.saturating_sub"; "uint.checked_add"; "uint.checked_sub"; "uint.carrying_neg"; "uint.wrapping_neg";
   "uint.wrapping_neg_if"; "uint.checked_expr"; "boxed.adc"; "boxed.sbb"; "boxed.wrapping_add";
   "boxed.wrapping_sub"; "boxed.checked_add"; "boxed.checked_sub"; "boxed.adc_assign"; "boxed.sbb_assign";
   "boxed.wrapping_add_assign"; "boxed.wrapping_sub_assign"; "boxed.wrapping_neg"].
Definition addsub_panic_keys : list string :=
  ["limb.add"; "limb.sub"; "uint.add"; "uint.sub"; "boxed.add"; "boxed.sub"; "boxed.add_assign";
   "boxed.sub_assign"].
Definition addsub_keys : list string := addsub_quiet_keys ++ addsub_panic_keys.

(* ---------------- mul (Model/Mul.v): 20 keys = 17 quiet + 3 with a panic branch ---------------- *)
Definition mul_quiet_keys : list string :=
  ["limb.wrapping_mul"; "limb.saturating_mul"; "limb.checked_mul"; "uint.split_mul"; "uint.widening_mul";
   "uint.wrapping_mul"; "uint.checked_mul"; "uint.saturating_mul"; "uint.square_wide"; "uint.widening_square";
   "uint.wrapping_square"; "uint.checked_square"; "uint.saturating_square"; "boxed.mul"; "boxed.wrapping_mul";
   "boxed.checked_mul"; "boxed.square"].
Definition mul_panic_keys : list string :=
  ["limb.mul"; "uint.mul"; "boxed.mul_panicking"].
Definition mul_keys : list string := mul_quiet_keys ++ mul_panic_keys.

(* ---------------- div (Model/Div.v): 26 keys = 11 quiet + 15 with a panic branch ---------------- *)
Definition div_quiet_keys : list string :=
  ["recip.new"; "uint.div_rem_limb"; "uint.rem_limb"; "uint.div_limb"; "uint.div_rem_vartime";
   "uint.rem_vartime"; "uint.div_vartime"; "uint.rem_wide_vartime"; "uint.rem2k_vartime"; "boxed.div_rem_limb";
   "boxed.rem_limb"].
Definition div_panic_keys : list string :=
  ["uint.div_rem"; "uint.rem"; "uint.div"; "uint.div_plain"; "uint.rem_plain"; "uint.checked_div";
   "uint.checked_rem"; "uint.wrapping_rem_vartime"; "boxed.div_rem"; "boxed.rem"; "boxed.div";
   "boxed.checked_div"; "boxed.div_rem_vartime"; "boxed.rem_vartime"; "boxed.div_vartime"].
Definition div_keys : list string := div_quiet_keys ++ div_panic_keys.

(* ---------------- bits (Model/Bits.v): 65 keys = 38 quiet + 27 with a panic branch ---------------- *)
Definition bits_quiet_keys : list string :=
  ["limb.wrapping_shl"; "limb.wrapping_shr"; "limb.bits"; "limb.leading_zeros"; "limb.trailing_zeros";
   "limb.trailing_ones"; "limb.and"; "limb.or"; "limb.xor"; "limb.not"; "uint.overflowing_shl_vartime";
   "uint.wrapping_shl_vartime"; "uint.overflowing_shr_vartime"; "uint.wrapping_shr_vartime";
   "int.overflowing_shr_vartime"; "int.wrapping_shr_vartime"; "boxed.shl_vartime";
   "boxed.wrapping_shl_vartime"; "boxed.shr_vartime"; "boxed.wrapping_shr_vartime"; "bits.bit";
   "bits.bit_vartime"; "bits.bits"; "bits.leading_zeros"; "bits.trailing_zeros"; "bits.trailing_zeros_vartime";
   "bits.trailing_ones"; "bits.trailing_ones_vartime"; "bits.set_bit"; "uint.and"; "uint.or"; "uint.xor";
   "uint.not"; "uint.and_limb"; "boxed.and"; "boxed.or"; "boxed.xor"; "boxed.or_assign"].
Definition bits_panic_keys : list string :=
  ["limb.shl"; "limb.shr"; "uint.overflowing_shl"; "uint.shl"; "uint.shl_vartime"; "uint.wrapping_shl";
   "uint.overflowing_shr"; "uint.shr"; "uint.shr_vartime"; "uint.wrapping_shr"; "uint.shl_vartime_wide";
   "uint.shr_vartime_wide"; "int.overflowing_shr"; "int.shr"; "int.shr_vartime"; "int.wrapping_shr";
   "boxed.overflowing_shl"; "boxed.shl"; "boxed.wrapping_shl"; "boxed.overflowing_shl_opt";
   "boxed.overflowing_shr"; "boxed.shr"; "boxed.wrapping_shr"; "boxed.overflowing_shr_opt";
   "bits.bits_vartime"; "bits.leading_zeros_vartime"; "bits.set_bit_vartime"].
Definition bits_keys : list string := bits_quiet_keys ++ bits_panic_keys.

(* ---------------- cmp (Model/Cmp.v): 88 keys = 73 quiet + 15 with a panic branch ---------------- *)
Definition cmp_quiet_keys : list string :=
  ["limb.ct_eq"; "limb.ct_ne"; "limb.eq_vartime"; "limb.ct_lt"; "limb.ct_gt"; "limb.cmp_vartime";
   "limb.is_zero"; "limb.is_one"; "limb.is_odd"; "limb.to_nz"; "limb.select"; "limb.swap";
   "limb.conditional_negate"; "limb.hash"; "uint.ct_eq"; "uint.ct_lt"; "uint.ct_gt"; "uint.cmp"; "uint.lt";
   "uint.le"; "uint.gt"; "uint.ge"; "uint.cmp_vartime"; "uint.is_zero"; "uint.is_one"; "uint.is_odd";
   "uint.is_even"; "uint.to_nz"; "uint.to_odd"; "uint.nz_new"; "uint.odd_new"; "uint.select"; "uint.swap";
   "uint.neg_if"; "uint.conditional_negate"; "uint.hash"; "uint.ctopt"; "int.ct_eq"; "int.ct_lt"; "int.ct_gt";
   "int.cmp"; "int.lt"; "int.le"; "int.gt"; "int.ge"; "int.cmp_vartime"; "int.is_zero"; "int.is_one";
   "int.is_negative"; "int.is_positive"; "int.is_min"; "int.is_max"; "int.to_nz"; "int.to_odd"; "int.select";
   "int.swap"; "int.neg_if"; "int.hash"; "int.abs_sign"; "int.new_from_abs_sign"; "boxed.ct_eq"; "boxed.ct_lt";
   "boxed.ct_gt"; "boxed.cmp_vartime"; "boxed.is_zero"; "boxed.is_nonzero"; "boxed.is_one"; "boxed.is_odd";
   "boxed.is_even"; "boxed.to_odd"; "boxed.nz_new"; "boxed.conditional_negate"; "boxed.hash"].
Definition cmp_panic_keys : list string :=
  ["limb.cmp"; "limb.lt"; "limb.le"; "limb.gt"; "limb.ge"; "limb.nz_new_unwrap"; "uint.ctopt_expect";
   "int.new_from_abs_sign_expect"; "boxed.cmp"; "boxed.lt"; "boxed.le"; "boxed.gt"; "boxed.ge"; "boxed.select";
   "boxed.swap"].
Definition cmp_keys : list string := cmp_quiet_keys ++ cmp_panic_keys.

(* ---------------- modarith (Model/ModArith.v): 19 keys = 14 quiet + 5 with a panic branch ---------------- *)
Definition modarith_quiet_keys : list string :=
  ["uint.add_mod"; "uint.double_mod"; "uint.add_mod_special"; "uint.sub_mod"; "uint.sub_mod_special";
   "uint.neg_mod"; "uint.neg_mod_special"; "uint.mul_mod_vartime"; "boxed.add_mod"; "boxed.double_mod";
   "boxed.sub_mod"; "boxed.sub_mod_special"; "boxed.neg_mod"; "boxed.neg_mod_special"].
Definition modarith_panic_keys : list string :=
  ["uint.mul_mod_special"; "uint.mul_mod_trait"; "uint.mul_mod"; "boxed.mul_mod_special"; "boxed.mul_mod"].
Definition modarith_keys : list string := modarith_quiet_keys ++ modarith_panic_keys.

(* ---------------- intarith (Model/IntArith.v): 42 keys = 32 quiet + 10 with a panic branch ---------------- *)
Definition intarith_quiet_keys : list string :=
  ["sint.checked_add"; "sint.overflowing_add"; "sint.wrapping_add"; "sint.checked_sub"; "sint.wrapping_sub";
   "sint.overflowing_neg"; "sint.wrapping_neg"; "sint.checked_neg"; "sint.wrapping_neg_if"; "sint.split_mul";
   "sint.split_mul_uint"; "sint.split_mul_uint_right"; "sint.widening_mul"; "sint.widening_mul_uint";
   "sint.checked_mul"; "sint.checked_mul_uint"; "sint.checked_mul_uint_right"; "sint.widening_square";
   "sint.checked_square"; "sint.wrapping_square"; "sint.saturating_square"; "sint.new_from_abs_sign";
   "sint.abs_sign"; "sint.abs"; "sint.is_negative"; "sint.is_positive"; "sint.is_min"; "sint.is_max";
   "sint.resize"; "sint.to_prim"; "sint.consts"; "sint.checked_expr"].
Definition intarith_panic_keys : list string :=
  ["sint.add"; "sint.sub"; "sint.mul"; "sint.mul_uint"; "sint.from_i8"; "sint.from_i16"; "sint.from_i32";
   "sint.from_i64"; "sint.from_i128"; "sint.from_i128_trait"].
Definition intarith_keys : list string := intarith_quiet_keys ++ intarith_panic_keys.

(* ---------------- intdiv (Model/IntDiv.v): 12 keys = 11 quiet + 1 with a panic branch ---------------- *)
Definition intdiv_quiet_keys : list string :=
  ["sdiv.checked_div_rem"; "sdiv.checked_div"; "sdiv.rem"; "sdiv.checked_div_rem_floor";
   "sdiv.checked_div_floor"; "sdiv.div_rem_uint"; "sdiv.div_uint"; "sdiv.rem_uint"; "sdiv.div_rem_floor_uint";
   "sdiv.div_floor_uint"; "sdiv.normalized_rem"].
Definition intdiv_panic_keys : list string :=
  ["sdiv.div_expect"].
Definition intdiv_keys : list string := intdiv_quiet_keys ++ intdiv_panic_keys.

(* ---------------- conv (Model/Conv.v): 37 keys = 21 quiet + 16 with a panic branch ---------------- *)
Definition conv_quiet_keys : list string :=
  ["limb.to_be_bytes"; "limb.to_le_bytes"; "limb.from_be_bytes"; "limb.from_le_bytes"; "limb.fmt";
   "limb.from_prim"; "uint.to_be_bytes"; "uint.to_le_bytes"; "uint.fmt"; "int.fmt"; "boxed.fmt";
   "uint.words_id"; "boxed.from_vec"; "uint.to_prim"; "uint.concat"; "uint.split"; "uint.resize"; "int.resize";
   "boxed.from_be_slice"; "boxed.from_le_slice"; "uint.serde_ser"].
Definition conv_panic_keys : list string :=
  ["uint.from_be_slice"; "uint.from_le_slice"; "uint.from_be_hex"; "uint.from_le_hex"; "uint.from_prim";
   "int.from_prim"; "boxed.from_prim"; "boxed.widen"; "boxed.shorten"; "boxed.from_be_hex"; "uint.serde_de";
   "nonzero.from_be_bytes"; "nonzero.from_le_bytes"; "nonzero.from_le_byte_array"; "odd.from_be_hex";
   "odd.from_le_hex"].
Definition conv_keys : list string := conv_quiet_keys ++ conv_panic_keys.

(* ---------------- rand (Model/Rand.v): 11 keys = 0 quiet + 11 with a panic branch ---------------- *)
Definition rand_quiet_keys : list string :=
  [].
Definition rand_panic_keys : list string :=
  ["limb.random"; "uint.random"; "uint.random_bits"; "boxed.random_bits"; "uint.random_mod";
   "boxed.random_mod"; "limb.random_mod"; "nonzero_uint.random"; "nonzero_monty.random"; "odd_uint.random";
   "odd_boxed.random"].
Definition rand_keys : list string := rand_quiet_keys ++ rand_panic_keys.

(* ---------------- sqrt (Model/Sqrt.v): 8 keys = 0 quiet + 8 with a panic branch ---------------- *)
Definition sqrt_quiet_keys : list string :=
  [].
Definition sqrt_panic_keys : list string :=
  ["uint.sqrt"; "uint.sqrt_vartime"; "uint.checked_sqrt"; "uint.checked_sqrt_vartime"; "boxed.sqrt";
   "boxed.sqrt_vartime"; "boxed.checked_sqrt"; "boxed.checked_sqrt_vartime"].
Definition sqrt_keys : list string := sqrt_quiet_keys ++ sqrt_panic_keys.

(* ---- typing side conditions and total forms, area by area ---- *)
Definition limb2 (a : list (list Z)) : Prop := ln 0 a = 1%nat /\ ln 1 a = 1%nat.         (* two Limb arguments *)
Definition same_len (a : list (list Z)) : Prop := ln 0 a = ln 1 a.                        (* two Uint<N>, same N *)

(* addsub: Limb + Limb; Uint<N> + Uint<N>; the boxed forms accept any pair of precisions *)
Definition addsub_ty : typing :=
  [("limb.add", limb2); ("limb.sub", limb2); ("uint.add", same_len); ("uint.sub", same_len)].
(* all option / flag / carry returning forms: no side condition at all *)
Definition addsub_total_keys : list string :=
  ["limb.adc"; "limb.sbb"; "limb.overflowing_add"; "limb.mac"; "limb.wrapping_add"; "limb.wrapping_sub";
   "limb.wrapping_neg"; "limb.saturating_add"; "limb.saturating_sub"; "limb.checked_add"; "limb.checked_sub";
   "uint.adc"; "uint.sbb"; "uint.wrapping_add"; "uint.wrapping_sub"; "uint.saturating_add";
   "uint.saturating_sub"; "uint.checked_add"; "uint.checked_sub"; "uint.carrying_neg"; "uint.wrapping_neg";
   "uint.wrapping_neg_if"; "uint.checked_expr"; "boxed.adc"; "boxed.sbb"; "boxed.wrapping_add";
   "boxed.wrapping_sub"; "boxed.checked_add"; "boxed.checked_sub"; "boxed.adc_assign"; "boxed.sbb_assign";
   "boxed.wrapping_add_assign"; "boxed.wrapping_sub_assign"; "boxed.wrapping_neg"].
Definition addsub_total_ty : typing := [].

(* mul: Limb * Limb; Uint<N> * Uint<M> and the boxed forms accept any pair of widths *)
Definition mul_ty : typing := [("limb.mul", limb2)].
Definition mul_total_keys : list string :=
  ["limb.wrapping_mul"; "limb.saturating_mul"; "limb.checked_mul"; "uint.split_mul"; "uint.widening_mul";
   "uint.wrapping_mul"; "uint.checked_mul"; "uint.saturating_mul"; "uint.square_wide"; "uint.widening_square";
   "uint.wrapping_square"; "uint.checked_square"; "uint.saturating_square"; "boxed.mul"; "boxed.wrapping_mul";
   "boxed.checked_mul"; "boxed.square"].
Definition mul_total_ty : typing := [].

(* div: the constant-time forms divide two values of one width (Uint<N> by NonZero<Uint<N>>; the boxed constant-time
   forms document equal precisions and panic otherwise, which is in the table); the vartime forms accept any widths *)
Definition div_ty : typing :=
  [("uint.div_rem", same_len); ("uint.rem", same_len); ("uint.div", same_len); ("uint.div_plain", same_len);
   ("uint.rem_plain", same_len); ("uint.checked_div", same_len); ("uint.checked_rem", same_len)].
(* option-returning forms: limbs are words, and the two operands have one width *)
Definition div_total_keys : list string := ["uint.checked_div"; "uint.checked_rem"; "boxed.checked_div"].
Definition wf1_same_len (a : list (list Z)) : Prop := wf (arg 1 a) /\ ln 0 a = ln 1 a.
Definition div_total_ty : typing :=
  [("uint.checked_div", wf1_same_len); ("uint.checked_rem", wf1_same_len); ("boxed.checked_div", wf1_same_len)].

(* modarith: no typing side condition is needed (the specification's domain test already contains the width
   equalities); the quiet keys (add / sub / neg / double mod, the special-modulus forms) return a value for ANY arguments *)
Definition modarith_ty : typing := [].
Definition modarith_total_keys : list string := modarith_quiet_keys.
Definition modarith_total_ty : typing := [].

(* cmp: a Limb is one word; Int<N> has at least one limb; BoxedUint::ct_select / ct_swap (subtle's
   ConditionallySelectable) are documented for operands of one precision *)
Definition limb1 (a : list (list Z)) : Prop := ln 0 a = 1%nat.
Definition nonempty0 (a : list (list Z)) : Prop := arg 0 a <> [].
Definition cmp_ty : typing :=
  [("limb.nz_new_unwrap", limb1); ("int.new_from_abs_sign_expect", nonempty0);
   ("boxed.select", same_len); ("boxed.swap", same_len)].
(* CtOption / ConstCtOption returning constructors and the option combinators *)
Definition cmp_total_keys : list string :=
  ["limb.to_nz"; "uint.to_nz"; "uint.to_odd"; "uint.nz_new"; "uint.odd_new"; "uint.ctopt"; "int.to_nz"; "int.to_odd";
   "int.new_from_abs_sign"; "boxed.to_odd"; "boxed.nz_new"].
Definition cmp_total_ty : typing := [].

(* intarith (Int<N>): + and - on two Int<N> of one width; From<i8..i64>: the scalar is a bit pattern of that width *)
Definition prim_bits (bits : Z) (a : list (list Z)) : Prop := 0 <= sarg 0 a < 2 ^ bits.
Definition intarith_ty : typing :=
  [("sint.add", same_len); ("sint.sub", same_len);
   ("sint.from_i8", prim_bits 8); ("sint.from_i16", prim_bits 16); ("sint.from_i32", prim_bits 32);
   ("sint.from_i64", prim_bits 64)].
Definition intarith_total_keys : list string :=
  ["sint.checked_add"; "sint.overflowing_add"; "sint.wrapping_add"; "sint.checked_sub"; "sint.wrapping_sub";
   "sint.overflowing_neg"; "sint.wrapping_neg"; "sint.checked_neg"; "sint.wrapping_neg_if";
   "sint.checked_mul"; "sint.checked_mul_uint"; "sint.checked_mul_uint_right"; "sint.checked_square";
   "sint.wrapping_square"; "sint.saturating_square"; "sint.new_from_abs_sign"; "sint.checked_expr"].
Definition intarith_total_ty : typing := [].

(* intdiv (Int<N> division): no side condition *)
Definition intdiv_ty : typing := [].
Definition intdiv_total_keys : list string :=
  ["sdiv.checked_div_rem"; "sdiv.checked_div"; "sdiv.checked_div_rem_floor"; "sdiv.checked_div_floor"].
Definition intdiv_total_ty : typing := [].

(* sqrt: no side condition for the first statement; the checked forms never panic on any word-limbed value *)
Definition wf0 (a : list (list Z)) : Prop := wf (arg 0 a).
Definition sqrt_ty : typing := [].
Definition sqrt_total_keys : list string :=
  ["uint.checked_sqrt"; "uint.checked_sqrt_vartime"; "boxed.checked_sqrt"; "boxed.checked_sqrt_vartime"].
Definition sqrt_total_ty : typing :=
  [("uint.checked_sqrt", wf0); ("uint.checked_sqrt_vartime", wf0); ("boxed.checked_sqrt", wf0);
   ("boxed.checked_sqrt_vartime", wf0)].

(* bits (shifts and bit queries): BITS is a u32 (64 * LIMBS < 2^32); a shift amount passed as u32 is below 2^32 (the
   operator forms << >> take any integer type and convert it, which is in the table); the two halves of a wide value
   have one width *)
Definition bits_u32 (a : list (list Z)) : Prop := 64 * Z.of_nat (ln 0 a) < 2 ^ 32.
Definition shift_u32 (a : list (list Z)) : Prop := 64 * Z.of_nat (ln 0 a) < 2 ^ 32 /\ sarg 1 a < 2 ^ 32.
Definition wide_halves (a : list (list Z)) : Prop := ln 1 a = ln 0 a.
Definition bits_ty : typing :=
  [("uint.overflowing_shl", shift_u32); ("uint.shl", bits_u32); ("uint.shl_vartime", shift_u32);
   ("uint.wrapping_shl", shift_u32);
   ("uint.overflowing_shr", shift_u32); ("uint.shr", bits_u32); ("uint.shr_vartime", shift_u32);
   ("uint.wrapping_shr", shift_u32);
   ("uint.shl_vartime_wide", wide_halves); ("uint.shr_vartime_wide", wide_halves);
   ("int.overflowing_shr", shift_u32); ("int.shr", bits_u32); ("int.wrapping_shr", shift_u32);
   ("boxed.shl", bits_u32); ("boxed.shr", bits_u32)].
(* option / flag returning shifts. The variable-time ones and Limb::wrapping_* need no hypothesis at all; the
   constant-time ladder forms are stated for word limbs, at least one limb and the u32 typing above *)
Definition bits_total_keys : list string :=
  ["limb.wrapping_shl"; "limb.wrapping_shr";
   "uint.overflowing_shl_vartime"; "uint.wrapping_shl_vartime"; "uint.overflowing_shr_vartime";
   "uint.wrapping_shr_vartime"; "int.overflowing_shr_vartime"; "int.wrapping_shr_vartime";
   "boxed.shl_vartime"; "boxed.wrapping_shl_vartime"; "boxed.shr_vartime"; "boxed.wrapping_shr_vartime";
   "uint.overflowing_shl"; "uint.wrapping_shl"; "uint.overflowing_shr"; "uint.wrapping_shr";
   "uint.shl_vartime_wide"; "uint.shr_vartime_wide"; "int.overflowing_shr"; "int.wrapping_shr";
   "boxed.overflowing_shl"; "boxed.wrapping_shl"; "boxed.overflowing_shl_opt";
   "boxed.overflowing_shr"; "boxed.wrapping_shr"; "boxed.overflowing_shr_opt"].
Definition ladder_ty (a : list (list Z)) : Prop := wf_args a /\ arg 0 a <> [] /\ shift_u32 a.
Definition boxed_ladder_ty (a : list (list Z)) : Prop := wf_args a /\ arg 0 a <> [].
Definition wide_ty (a : list (list Z)) : Prop := wf_args a /\ arg 0 a <> [] /\ wide_halves a.
Definition bits_total_ty : typing :=
  [("uint.overflowing_shl", ladder_ty); ("uint.wrapping_shl", ladder_ty); ("uint.overflowing_shr", ladder_ty);
   ("uint.wrapping_shr", ladder_ty); ("uint.shl_vartime_wide", wide_ty); ("uint.shr_vartime_wide", wide_ty);
   ("int.overflowing_shr", ladder_ty); ("int.wrapping_shr", ladder_ty);
   ("boxed.overflowing_shl", boxed_ladder_ty); ("boxed.wrapping_shl", boxed_ladder_ty);
   ("boxed.overflowing_shl_opt", boxed_ladder_ty); ("boxed.overflowing_shr", boxed_ladder_ty);
   ("boxed.wrapping_shr", boxed_ladder_ty); ("boxed.overflowing_shr_opt", boxed_ladder_ty)].

(* conv (encodings and conversions): no typing side condition (the specification's domain tests contain them) *)
Definition conv_ty : typing := [].
(* decoders that report failure through a Result / option *)
Definition conv_total_keys : list string :=
  ["boxed.from_be_slice"; "boxed.from_le_slice"; "uint.serde_de"].
Definition conv_total_ty : typing := [].

(* rand (sampling from a finite replay stream): no side condition for the first statement.  The try_* forms (RNG
   error returned: the last scalar, "fallible", is not 0; for random_bits the mode scalar is not 1) never panic *)
Definition rand_ty : typing := [].
Definition fallible_at (i : nat) (a : list (list Z)) : Prop := sarg i a <> 0.
Definition mode_at (i : nat) (a : list (list Z)) : Prop := sarg i a <> 1.
Definition rand_total_keys : list string :=
  ["limb.random"; "uint.random"; "uint.random_bits"; "boxed.random_bits"; "uint.random_mod"; "boxed.random_mod";
   "limb.random_mod"; "nonzero_uint.random"; "nonzero_monty.random"; "odd_uint.random"].
Definition rand_total_ty : typing :=
  [("limb.random", fallible_at 1); ("uint.random", fallible_at 2); ("uint.random_bits", mode_at 4);
   ("boxed.random_bits", mode_at 3); ("uint.random_mod", fallible_at 2); ("boxed.random_mod", fallible_at 2);
   ("limb.random_mod", fallible_at 2); ("nonzero_uint.random", fallible_at 2);
   ("nonzero_monty.random", fallible_at 2); ("odd_uint.random", fallible_at 2)].
