(** C13 / C14: the two op tables that the correspondence check evaluates agree on their whole domain:
    for every table key, the model entry (limb-level model of the Rust code) and the spec entry
    (plain arithmetic on the signed values) return the same outcome for all well-formed arguments.
    [run_op t k dbg args] looks the key up exactly as Model/Api.v does. *)
From CB Require Import Model.Limbs Model.AddSub Model.IntArith Model.IntDiv
  Proofs.WordP Proofs.WordPredP Proofs.LimbsP Proofs.AddSubP Proofs.IntArithP Proofs.IntDivP.
From Coq Require Import ZArith Lia List Bool String.
Open Scope Z_scope.

Definition run_op (t : list (string * opfn)) (k : string) (dbg : bool) (args : list (list Z)) : outcome :=
  match lookup k t with Some f => f dbg args | None => Unsupported end.

Ltac table_open :=
  unfold run_op;
  lazy beta iota zeta delta [lookup ops_intarith_model ops_intarith_spec ops_intdiv_model ops_intdiv_spec
                             String.eqb Ascii.eqb Bool.eqb];
  lazy beta iota zeta delta [arg sarg sv ev ln nth nat_arg cbit nz_only nonzero_arg].

Local Notation M13 := (run_op ops_intarith_model).
Local Notation S13 := (run_op ops_intarith_spec).
Local Notation M14 := (run_op ops_intdiv_model).
Local Notation S14 := (run_op ops_intdiv_spec).
Local Notation len := List.length.

Ltac fits_cases := unfold isp_checked, isp_panicking, isp_flagged, isp_val, vopt, vpanic_none, vflag, vchoice, vbool;
  repeat match goal with |- context [isp_fits ?n ?x] => destruct (isp_fits n x) end;
  rewrite ?choice_to_bool_choice; cbn [fst snd negb b2z]; try reflexivity.

Section Binary.
Variables (dbg : bool) (a b : list Z).
Hypothesis Ha : wf a.
Hypothesis Hb : wf b.
Hypothesis Hl : len a = len b.

Lemma tbl_add : M13 "sint.add" dbg [a; b] = S13 "sint.add" dbg [a; b].
Proof. table_open. rewrite int_checked_add_spec by assumption. fits_cases. Qed.
Lemma tbl_sub : M13 "sint.sub" dbg [a; b] = S13 "sint.sub" dbg [a; b].
Proof. table_open. rewrite int_checked_sub_spec by assumption. fits_cases. Qed.
End Binary.

Section Mul.
Variables (dbg : bool) (a b : list Z).
Hypothesis Ha : wf a.
Hypothesis Hb : wf b.

Lemma tbl_mul : M13 "sint.mul" dbg [a; b] = S13 "sint.mul" dbg [a; b].
Proof. table_open. rewrite int_checked_mul_spec by assumption. fits_cases. Qed.
Lemma tbl_mul_uint : M13 "sint.mul_uint" dbg [a; b] = S13 "sint.mul_uint" dbg [a; b].
Proof. table_open. rewrite int_checked_mul_uint_spec by assumption. fits_cases. Qed.
End Mul.

(* ------------------------------------------------------------------ From primitives, constants, Checked chains *)
Lemma prim_fits bits t x : 1 <= bits <= 64 -> 0 <= x < 2 ^ bits -> t <> 0%nat ->
  isp_fits t (prim_sval bits x) = true.
Proof.
  intros Hb Hx Ht. apply isp_fits_iff. destruct (Bn_half t Ht) as [HM _]. pose proof (halfB_ge t Ht).
  assert (E : 2 ^ bits = 2 * 2 ^ (bits - 1)).
  { replace bits with (Z.succ (bits - 1)) at 1 by lia. apply Z.pow_succ_r. lia. }
  assert (Hle : 2 ^ (bits - 1) <= 2 ^ 63) by (apply Z.pow_le_mono_r; lia).
  unfold prim_sval. destruct (Z.ltb_spec x (2 ^ (bits - 1))); lia.
Qed.

Lemma tbl_from_prim_gen (dbg : bool) bits x t : 1 <= bits <= 64 -> 0 <= x < 2 ^ bits -> 0 <= t ->
  int_from_prim_op bits [[x]; [t]] =
  (if (Z.to_nat t =? 0)%nat then PanicV else isp_panicking (Z.to_nat t) (prim_sval bits x)).
Proof.
  intros Hb Hx Ht. unfold int_from_prim_op, nat_arg, sarg. cbn [nth].
  destruct (Z.to_nat t) as [|k] eqn:E; [reflexivity|]. cbn [Nat.eqb].
  rewrite int_from_prim_spec by assumption. unfold isp_panicking. rewrite prim_fits by (auto; lia). reflexivity.
Qed.

Lemma tbl_from_i8 dbg x t : 0 <= x < 2 ^ 8 -> 0 <= t -> M13 "sint.from_i8" dbg [[x]; [t]] = S13 "sint.from_i8" dbg [[x]; [t]].
Proof. intros. table_open. apply (tbl_from_prim_gen dbg 8); lia. Qed.
Lemma tbl_from_i16 dbg x t : 0 <= x < 2 ^ 16 -> 0 <= t -> M13 "sint.from_i16" dbg [[x]; [t]] = S13 "sint.from_i16" dbg [[x]; [t]].
Proof. intros. table_open. apply (tbl_from_prim_gen dbg 16); lia. Qed.
Lemma tbl_from_i32 dbg x t : 0 <= x < 2 ^ 32 -> 0 <= t -> M13 "sint.from_i32" dbg [[x]; [t]] = S13 "sint.from_i32" dbg [[x]; [t]].
Proof. intros. table_open. apply (tbl_from_prim_gen dbg 32); lia. Qed.
Lemma tbl_from_i64 dbg x t : 0 <= x < 2 ^ 64 -> 0 <= t -> M13 "sint.from_i64" dbg [[x]; [t]] = S13 "sint.from_i64" dbg [[x]; [t]].
Proof. intros. table_open. apply (tbl_from_prim_gen dbg 64); lia. Qed.

Lemma tbl_consts dbg t : 1 <= t -> M13 "sint.consts" dbg [[t]] = S13 "sint.consts" dbg [[t]].
Proof.
  intros Ht. table_open. set (n := Z.to_nat t). assert (Hn : n <> 0%nat) by (unfold n; lia).
  destruct (Bn_half n Hn) as [HM HH]. pose proof (halfB_ge n Hn). word_facts.
  destruct (int_min_limbs_spec n Hn) as (Emin & Wmin & Lmin).
  destruct (int_max_limbs_spec n Hn) as (Emax & Wmax & Lmax).
  destruct (one_limbs_spec n Hn) as (E1 & W1 & L1).
  assert (Hdiv : Bn n / 2 = halfB n) by (rewrite HM, Z.mul_comm; apply Z.div_mul; lia).
  rewrite Hdiv.
  repeat f_equal.
  - apply to_limbs_s_unique; auto using wf_zeros, length_zeros. rewrite eval_zeros, Z.mod_0_l by lia. reflexivity.
  - apply to_limbs_s_unique; auto. rewrite E1. symmetry. apply Z.mod_small. lia.
  - apply to_limbs_s_unique; auto using wf_maxs, length_maxs. rewrite eval_maxs.
    apply (Z.mod_unique_pos _ _ (-1)); lia.
  - apply to_limbs_s_unique; auto. rewrite Emin. apply (Z.mod_unique_pos _ _ (-1)); lia.
  - apply to_limbs_s_unique; auto. rewrite Emax. symmetry. apply Z.mod_small. lia.
Qed.

(* ------------------------------------------------------------------ C14 tables *)
Ltac nz_split d Hd :=
  destruct (Z.eqb_spec (eval d) 0) as [Hz|Hz]; cbn [negb];
  [ try reflexivity | assert (Hnz : seval d <> 0) by (rewrite (seval_zero_iff d Hd); assumption) ].

Section DivInt.
Variables (dbg : bool) (n d : list Z).
Hypothesis Hn : wf n.
Hypothesis Hd : wf d.

Lemma tbl_div_expect : M14 "sdiv.div_expect" dbg [n; d] = S14 "sdiv.div_expect" dbg [n; d].
Proof.
  table_open. nz_split d Hd. rewrite int_checked_div_rem_spec by assumption. cbn [fst]. fits_cases.
Qed.

End DivInt.

