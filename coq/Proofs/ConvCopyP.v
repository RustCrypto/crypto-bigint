(** C16 proofs, part 5: copy loops (resize, Int::resize, concat, split) and primitive conversions. *)
From CB Require Import Model.Limbs Model.AddSub Model.Conv Proofs.WordP Proofs.WordPredP Proofs.BitsP Proofs.LimbsP Proofs.AddSubP Proofs.ConvDigitsP.
From Coq Require Import ZArith Lia List Bool.
Import ListNotations.
Open Scope Z_scope.
Open Scope list_scope.

Lemma map_nth_seq a : forall m, (m <= length a)%nat -> map (nthz a) (seq 0 m) = firstn m a.
Proof.
  induction a as [|x a IH]; intros m Hm.
  - destruct m; [reflexivity | cbn in Hm; lia].
  - destruct m; [reflexivity|]. cbn [length] in Hm. cbn [seq map firstn]. f_equal.
    rewrite <- seq_shift, map_map. rewrite <- IH by lia. apply map_ext. intros i. reflexivity.
Qed.

Lemma seq_add_map len : forall s L, map (fun j => (j + L)%nat) (seq s len) = seq (s + L) len.
Proof. induction len; intros s L; cbn [seq map]; [reflexivity|]. f_equal. apply (IHlen (S s) L). Qed.

Lemma nth_skipn_add L : forall (a : list Z) j, nth (j + L) a 0 = nth j (skipn L a) 0.
Proof.
  induction L as [|L IH]; intros a j.
  - rewrite Nat.add_0_r. reflexivity.
  - destruct a as [|x a]; [destruct j; reflexivity|]. rewrite Nat.add_succ_r. cbn [nth skipn]. apply IH.
Qed.

Lemma map_nth_seq_shift a L k : (L + k <= length a)%nat ->
  map (fun j => nthz a (j + L)) (seq 0 k) = firstn k (skipn L a).
Proof.
  intros H. rewrite <- map_nth_seq by (rewrite skipn_length; lia).
  apply map_ext. intros j. unfold nthz. apply nth_skipn_add.
Qed.

Lemma wf_repeat x k : is_word x -> wf (repeat x k).
Proof. intros H. unfold wf. apply Forall_forall. intros y Hy. apply repeat_spec in Hy. subst. assumption. Qed.

Lemma uint_resize_spec a t : wf a ->
  wf (uint_resize a t) /\ length (uint_resize a t) = t /\ eval (uint_resize a t) = eval a mod Bn t.
Proof.
  intros Hw. unfold uint_resize, tabulate_fill. rewrite map_nth_seq by lia.
  fold (zeros (t - Nat.min t (length a))).
  split; [apply wf_app; split; [apply wf_firstn; assumption | apply wf_zeros]|].
  split; [rewrite app_length, firstn_length, length_zeros; lia|].
  rewrite eval_app, eval_zeros, Z.mul_0_r, Z.add_0_r.
  destruct (Nat.le_gt_cases t (length a)) as [Hle|Hgt].
  - rewrite Nat.min_l by assumption. apply eval_firstn; assumption.
  - rewrite Nat.min_r by lia. rewrite firstn_all. symmetry. apply Z.mod_small.
    pose proof (eval_bounds a Hw). pose proof (Bn_le (length a) t ltac:(lia)). lia.
Qed.

Lemma int_is_negative_spec a : wf a -> (1 <= length a)%nat ->
  int_is_negative a = choice_of_bool (Bn (length a) <=? 2 * eval a).
Proof.
  intros Hw Hn. destruct (exists_last (l := a)) as (init & top & ->); [intros ->; cbn in Hn; lia|].
  apply wf_app in Hw. destruct Hw as [Hwi Hwt]. apply wf_cons in Hwt. destruct Hwt as [Ht _].
  unfold int_is_negative. rewrite last_last. rewrite eval_app, app_length. cbn [eval length].
  rewrite Z.mul_0_r, Z.add_0_r, Nat.add_1_r, Bn_S.
  pose proof (eval_bounds init Hwi) as Hb. pose proof (Bn_pos (length init)) as Hp.
  unfold is_word in Ht. word_facts.
  unfold from_word_msb.
  assert (Hd : top / 2 ^ 63 = if 2 ^ 63 <=? top then 1 else 0).
  { destruct (Z.leb_spec (2 ^ 63) top).
    - apply (proj1 (div_mod_unique_pos (2 ^ 63) 1 (top - 2 ^ 63) top ltac:(lia) ltac:(lia))).
    - apply Z.div_small. lia. }
  rewrite Hd. rewrite (from_word_lsb_bool (2 ^ 63 <=? top)). f_equal.
  destruct (Z.leb_spec (2 ^ 63) top) as [Hge|Hlt].
  - assert (Bn (length init) * 2 ^ 63 <= Bn (length init) * top) by (apply Z.mul_le_mono_nonneg_l; lia).
    destruct (Z.leb_spec (B * Bn (length init)) (2 * (eval init + Bn (length init) * top))); [reflexivity | nia].
  - assert (Bn (length init) * top <= Bn (length init) * (2 ^ 63 - 1)) by (apply Z.mul_le_mono_nonneg_l; lia).
    destruct (Z.leb_spec (B * Bn (length init)) (2 * (eval init + Bn (length init) * top))); [nia | reflexivity].
Qed.

(** Int::resize: the result is the signed value modulo 2^(64 t): sign extension when widening (the value
    is preserved), truncation of the two's complement pattern when narrowing *)
Lemma int_resize_spec a t : wf a -> (1 <= length a)%nat ->
  wf (int_resize a t) /\ length (int_resize a t) = t /\ eval (int_resize a t) = seval a mod Bn t.
Proof.
  intros Hw Hn. unfold int_resize, tabulate_fill. rewrite map_nth_seq by lia.
  rewrite int_is_negative_spec by assumption.
  rewrite select_word_choice by (apply is_word_0' || apply is_word_MAXW).
  set (neg := Bn (length a) <=? 2 * eval a).
  set (fill := if neg then MAXW else 0).
  assert (Hf : is_word fill) by (unfold fill; destruct neg; [apply is_word_MAXW | apply is_word_0']).
  split; [apply wf_app; split; [apply wf_firstn; assumption | apply wf_repeat; assumption]|].
  split; [rewrite app_length, firstn_length, repeat_length; lia|].
  pose proof (eval_bounds a Hw) as Hb.
  assert (Hs : seval a = if neg then eval a - Bn (length a) else eval a).
  { unfold seval, neg. destruct (Z.ltb_spec (2 * eval a) (Bn (length a))); destruct (Z.leb_spec (Bn (length a)) (2 * eval a)); (reflexivity || lia). }
  rewrite eval_app, Hs.
  destruct (Nat.le_gt_cases t (length a)) as [Hle|Hgt].
  - rewrite Nat.min_l, Nat.sub_diag by assumption. cbn [repeat eval]. rewrite Z.mul_0_r, Z.add_0_r.
    rewrite eval_firstn by assumption. destruct neg; [|reflexivity].
    assert (Hn' : Bn (length a) = Bn t * Bn (length a - t)) by (rewrite <- Bn_add; f_equal; lia).
    rewrite Hn'.
    replace (eval a - Bn t * Bn (length a - t)) with (eval a + (- Bn (length a - t)) * Bn t) by ring.
    rewrite Z_mod_plus_full. reflexivity.
  - rewrite Nat.min_r by lia. rewrite firstn_all.
    pose proof (Bn_le (length a) t ltac:(lia)) as Hle.
    assert (Ht : Bn t = Bn (length a) * Bn (t - length a)).
    { rewrite <- Bn_add. f_equal. lia. }
    unfold fill. destruct neg.
    + change (repeat MAXW (t - length a)) with (maxs (t - length a)). rewrite eval_maxs.
      apply (Z.mod_unique_pos _ _ (-1) (eval a + Bn (length a) * (Bn (t - length a) - 1))); [nia|]. rewrite Ht. ring.
    + fold (zeros (t - length a)). rewrite eval_zeros, Z.mul_0_r, Z.add_0_r. symmetry. apply Z.mod_small. lia.
Qed.

Lemma uint_concat_mixed_app lo hi : uint_concat_mixed lo hi (length lo + length hi) = lo ++ hi.
Proof.
  unfold uint_concat_mixed, tabulate_fill. rewrite Nat.min_id, Nat.sub_diag. cbn [repeat]. rewrite app_nil_r.
  rewrite seq_app, map_app. f_equal.
  - transitivity (firstn (length lo) lo); [|apply firstn_all]. rewrite <- map_nth_seq by lia. apply map_ext_in. intros i Hi.
    apply in_seq in Hi. destruct (Nat.ltb_spec i (length lo)); [reflexivity | lia].
  - rewrite <- (seq_add_map (length hi) 0 (length lo)), map_map.
    transitivity (firstn (length hi) hi); [|apply firstn_all]. rewrite <- map_nth_seq by lia. apply map_ext. intros j.
    destruct (Nat.ltb_spec (j + length lo) (length lo)); [lia|]. f_equal. lia.
Qed.

Lemma uint_split_mixed_eq a l : (l <= length a)%nat ->
  uint_split_mixed a l (length a - l) = (firstn l a, skipn l a).
Proof.
  intros Hl. unfold uint_split_mixed, tabulate_fill.
  replace (Nat.min (l + (length a - l)) (length a)) with (length a) by lia.
  replace (Nat.min (length a) l) with l by lia. rewrite !Nat.sub_diag. cbn [repeat]. rewrite !app_nil_r.
  rewrite map_nth_seq by lia. rewrite map_nth_seq_shift by lia.
  f_equal. apply firstn_all2. rewrite skipn_length. lia.
Qed.

Lemma firstn_skipn_eval a l : wf a -> (l <= length a)%nat ->
  eval (firstn l a) = eval a mod Bn l /\ eval (skipn l a) = eval a / Bn l.
Proof.
  intros Hw Hl. pose proof (eval_firstn_skipn l a) as E. rewrite firstn_length_le in E by assumption.
  pose proof (eval_bounds _ (wf_firstn l a Hw)) as Hb. rewrite firstn_length_le in Hb by assumption.
  destruct (div_mod_unique_pos (Bn l) (eval (skipn l a)) (eval (firstn l a)) (eval a) Hb ltac:(lia)) as [-> ->].
  split; reflexivity.
Qed.

Lemma MAXW_ones : MAXW = Z.ones 64.
Proof. rewrite MAXW_val, B_val. reflexivity. Qed.
Lemma land_MAXW_mod v : Z.land v MAXW = v mod B.
Proof. rewrite MAXW_ones, Z.land_ones by lia. rewrite B_val. reflexivity. Qed.

Lemma uint_from_small_spec n v r : is_word v -> uint_from_small n v = Some r ->
  (1 <= n)%nat /\ wf r /\ length r = n /\ eval r = v.
Proof.
  intros Hv. destruct n; [discriminate|]. cbn [uint_from_small]. intros E. injection E as <-.
  split; [lia|]. split; [apply wf_cons; split; [assumption | apply wf_zeros]|].
  split; [cbn [length]; rewrite length_zeros; reflexivity|]. cbn [eval]. rewrite eval_zeros. lia.
Qed.

Lemma uint_from_u128_spec n v r : 0 <= v < B * B -> uint_from_u128 n v = Some r ->
  (2 <= n)%nat /\ wf r /\ length r = n /\ eval r = v.
Proof.
  intros Hv. unfold uint_from_u128. destruct (Nat.ltb_spec n 2); [discriminate|]. intros E. injection E as <-.
  pose proof B_pos. rewrite land_MAXW_mod.
  pose proof (Z.div_mod v B ltac:(lia)). pose proof (Z.mod_pos_bound v B ltac:(lia)).
  assert (0 <= v / B < B) by (split; [apply Z.div_pos; lia | apply Z.div_lt_upper_bound; lia]).
  split; [assumption|]. split; [apply wf_cons; split; [assumption | apply wf_cons; split; [assumption | apply wf_zeros]]|].
  split; [cbn [length]; rewrite length_zeros; lia|]. cbn [eval]. rewrite eval_zeros. lia.
Qed.
Lemma uint_from_u128_panics n v : uint_from_u128 n v = None <-> (n < 2)%nat.
Proof. unfold uint_from_u128. destruct (Nat.ltb_spec n 2); split; intros; (reflexivity || discriminate || lia). Qed.

Lemma lor_shift_add hi lo k : 0 <= k -> 0 <= lo < 2 ^ k -> Z.lor (hi * 2 ^ k) lo = hi * 2 ^ k + lo.
Proof. apply lor_disjoint. Qed.

(** From<U128> for u128: the limbs are reassembled to lo + 2^64 hi *)
Lemma u128_of_limbs_spec lo hi : is_word lo -> is_word hi -> u128_of_limbs [lo; hi] = lo + B * hi.
Proof.
  unfold is_word, u128_of_limbs, nthz. cbn [nth]. intros Hlo Hhi. rewrite BB_val.
  pose proof B_pos. rewrite Z.mod_small by nia. rewrite B_val in *. rewrite lor_disjoint by lia. ring.
Qed.

Lemma seval_word w sv : - 2 ^ 63 <= sv < 2 ^ 63 -> w = sv mod B -> seval [w] = sv.
Proof.
  intros Hs ->. word_facts. unfold seval. cbn [eval length]. rewrite Bn_1, Z.mul_0_r, Z.add_0_r.
  destruct (Z_lt_ge_dec sv 0).
  - assert (E : sv mod B = sv + B) by (symmetry; apply (Z.mod_unique_pos sv B (-1) (sv + B)); lia).
    rewrite E. destruct (Z.ltb_spec (2 * (sv + B)) B); lia.
  - rewrite Z.mod_small by lia. destruct (Z.ltb_spec (2 * sv) B); lia.
Qed.

Lemma sp_signed_range k v : 1 <= k -> 0 <= v < 2 ^ k -> - 2 ^ (k - 1) <= sp_signed k v < 2 ^ (k - 1).
Proof.
  intros Hk Hv.
  assert (E : 2 ^ k = 2 * 2 ^ (k - 1)).
  { replace k with (Z.succ (k - 1)) at 1 by lia. apply Z.pow_succ_r. lia. }
  unfold sp_signed. destruct (Z.ltb_spec v (2 ^ (k - 1))); lia.
Qed.

(** from_i8 .. from_i64: the signed value in two's complement at the target width *)
Lemma int_from_small_spec k n v r : 1 <= k <= 64 -> 0 <= v < 2 ^ k -> int_from_small k n v = Some r ->
  (1 <= n)%nat /\ wf r /\ length r = n /\ eval r = sp_signed k v mod Bn n.
Proof.
  intros Hk Hv. destruct n; [discriminate|]. cbn [int_from_small]. intros E. injection E as <-.
  pose proof (sp_signed_range k v ltac:(lia) Hv) as Hr.
  assert (Hp : 2 ^ (k - 1) <= 2 ^ 63) by (apply Z.pow_le_mono_r; lia).
  assert (Hw : wf [sext_word k v]).
  { apply wf_cons. split; [|apply wf_nil]. unfold sext_word. apply is_word_mod. }
  destruct (int_resize_spec [sext_word k v] (S n) Hw ltac:(cbn; lia)) as (H1 & H2 & H3).
  split; [lia|]. split; [assumption|]. split; [assumption|].
  rewrite H3. f_equal. apply seval_word; [lia|]. reflexivity.
Qed.

(** from_i128: asserts LIMBS >= 2; then the signed 128-bit value in two's complement at the target width *)
Lemma int_from_i128_spec n v r : 0 <= v < 2 ^ 128 -> int_from_i128 n v = Some r ->
  (2 <= n)%nat /\ wf r /\ length r = n /\ eval r = sp_signed 128 v mod Bn n.
Proof.
  intros Hv. unfold int_from_i128. destruct (Nat.ltb_spec n 2); [discriminate|]. intros E. injection E as <-.
  rewrite land_MAXW_mod.
  pose proof B_pos. pose proof B_val as HB.
  assert (HBB : B * B = 2 ^ 128) by (rewrite HB; reflexivity).
  pose proof (Z.div_mod v B ltac:(lia)). pose proof (Z.mod_pos_bound v B ltac:(lia)).
  assert (0 <= v / B < B) by (split; [apply Z.div_pos; lia | apply Z.div_lt_upper_bound; lia]).
  assert (Hw : wf [v mod B; v / B]).
  { apply wf_cons; split; [assumption | apply wf_cons; split; [assumption | apply wf_nil]]. }
  destruct (int_resize_spec [v mod B; v / B] n Hw ltac:(cbn; lia)) as (R1 & R2 & R3).
  split; [assumption|]. split; [assumption|]. split; [assumption|]. rewrite R3. f_equal.
  unfold seval, sp_signed. cbn [eval length]. rewrite Bn_S, Bn_1, Z.mul_0_r, Z.add_0_r, HBB.
  replace (v mod B + B * (v / B)) with v by lia.
  change (2 ^ (128 - 1)) with (2 ^ 127). change (2 ^ 128) with (2 * 2 ^ 127).
  destruct (Z.ltb_spec (2 * v) (2 * 2 ^ 127)); destruct (Z.ltb_spec v (2 ^ 127)); (reflexivity || lia).
Qed.

(** for a value that the target can hold, the signed value is preserved exactly *)
Lemma int_from_i128_value n v r : 0 <= v < 2 ^ 128 -> int_from_i128 n v = Some r -> seval r = sp_signed 128 v.
Proof.
  intros Hv E. destruct (int_from_i128_spec n v r Hv E) as (Hn & Hw & Hl & He).
  pose proof (sp_signed_range 128 v ltac:(lia) Hv) as Hr. change (128 - 1) with 127 in Hr.
  pose proof (Bn_le 2 n Hn) as Hle. rewrite Bn_S, Bn_1 in Hle. pose proof B_val as HB.
  assert (HBB : B * B = 2 * 2 ^ 127) by (rewrite HB; reflexivity).
  pose proof (Bn_pos n).
  unfold seval. rewrite Hl, He.
  destruct (Z_lt_ge_dec (sp_signed 128 v) 0).
  - assert (E' : sp_signed 128 v mod Bn n = sp_signed 128 v + Bn n)
      by (symmetry; apply (Z.mod_unique_pos _ _ (-1)); lia).
    rewrite E'. destruct (Z.ltb_spec (2 * (sp_signed 128 v + Bn n)) (Bn n)); lia.
  - rewrite Z.mod_small by lia. destruct (Z.ltb_spec (2 * sp_signed 128 v) (Bn n)); lia.
Qed.
