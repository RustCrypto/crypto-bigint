(** C13 proofs: signed integers.  The signed reading [seval] of a limb list and its encoding [to_limbs_s]
    ([seval_cases], [seval_mod], [to_limbs_s_unique], [seval_to_limbs_s]); then every operation of
    Model/IntArith.v as plain arithmetic on signed values.  Word-level facts and the Uint comparisons come
    from Proofs/WordPredP.v and Proofs/CmpP.v. *)
From CB Require Import Model.Limbs Model.AddSub Model.IntArith Proofs.WordP Proofs.WordPredP Proofs.LimbsP
  Proofs.AddSubP Proofs.CmpP.
From Coq Require Import ZArith Lia List Bool.
Open Scope Z_scope.

Lemma p63_lt_B : 2 ^ 63 < B. Proof. word_facts. lia. Qed.
Lemma MAXW_ones : MAXW = Z.ones 64.
Proof. rewrite MAXW_val, B_val. rewrite Z.ones_equiv. reflexivity. Qed.

Lemma word_log2 x : is_word x -> Z.log2 x < 64.
Proof.
  unfold is_word. rewrite B_val. intros H.
  destruct (Z.eq_dec x 0) as [->|Hn]; [reflexivity|]. apply Z.log2_lt_pow2; lia.
Qed.

Lemma wxor_MAXW x : is_word x -> wxor x MAXW = wnot x.
Proof.
  intros Hx. unfold wxor, wnot. rewrite MAXW_ones.
  pose proof (word_log2 x Hx). unfold is_word in Hx.
  rewrite <- Z.ldiff_ones_l_low by lia.
  symmetry. apply Z.sub_nocarry_ldiff. apply Z.ldiff_ones_r_low; lia.
Qed.

Lemma cc_not_bool b : cc_not (choice_of_bool b) = choice_of_bool (negb b).
Proof. exact (wnot_choice b). Qed.
Lemma cc_and_bool a b : cc_and (choice_of_bool a) (choice_of_bool b) = choice_of_bool (a && b).
Proof. destruct a, b; reflexivity. Qed.
Lemma cc_or_bool a b : cc_or (choice_of_bool a) (choice_of_bool b) = choice_of_bool (a || b).
Proof. destruct a, b; reflexivity. Qed.
Lemma cc_xor_bool a b : cc_xor (choice_of_bool a) (choice_of_bool b) = choice_of_bool (xorb a b).
Proof. destruct a, b; reflexivity. Qed.
Lemma cc_ne_bool a b : cc_ne (choice_of_bool a) (choice_of_bool b) = choice_of_bool (xorb a b).
Proof. apply cc_xor_bool. Qed.
Lemma cc_eq_bool a b : cc_eq (choice_of_bool a) (choice_of_bool b) = choice_of_bool (negb (xorb a b)).
Proof. destruct a, b; reflexivity. Qed.
Lemma ctopt_new_bool {A} (v : A) b : ctopt_new v (choice_of_bool b) = if b then Some v else None.
Proof. unfold ctopt_new. rewrite choice_to_bool_choice. reflexivity. Qed.
Lemma is_word_choice b : is_word (choice_of_bool b).
Proof. exact (WordPredP.is_word_choice b). Qed.

(* [ux_is_nonzero], [ux_eq], [ux_lte] are the functions of Model/Cmp.v under the names of this model *)
Lemma ux_is_nonzero_spec a : wf a -> ux_is_nonzero a = choice_of_bool (negb (eval a =? 0)).
Proof. exact (uint_is_nonzero_spec a). Qed.

Lemma ux_eq_spec a b : wf a -> wf b -> length a = length b ->
  ux_eq a b = choice_of_bool (eval a =? eval b).
Proof. exact (uint_eq_spec a b). Qed.

Lemma ux_lte_spec a b : wf a -> wf b -> length a = length b ->
  ux_lte a b = choice_of_bool (eval a <=? eval b).
Proof. exact (uint_lte_spec a b). Qed.

Lemma ux_is_zero_spec a : wf a -> ux_is_zero a = choice_of_bool (eval a =? 0).
Proof.
  intros Ha. unfold ux_is_zero. rewrite ux_eq_spec; auto using wf_zeros.
  - rewrite eval_zeros. reflexivity.
  - rewrite length_zeros. reflexivity.
Qed.

Lemma eval_map_wnot a : wf a -> eval (map wnot a) = Bn (length a) - 1 - eval a /\ wf (map wnot a).
Proof.
  induction a as [|x a IH]; intros H; simpl.
  - rewrite Bn_0. split; [lia | apply wf_nil].
  - apply wf_cons in H. destruct H as [Hx Ha]. destruct (IH Ha) as [IHe IHw].
    rewrite IHe, Bn_S. unfold wnot at 1. pose proof MAXW_val. split; [lia|].
    apply wf_cons. split; [apply is_word_wnot; assumption | assumption].
Qed.

Lemma ux_xor_max_spec a : wf a -> ux_xor_max a = map wnot a.
Proof.
  intros H. unfold ux_xor_max. apply map_ext_in. intros x Hx.
  apply wxor_MAXW. unfold wf in H. rewrite Forall_forall in H. auto.
Qed.

Lemma one_limbs_spec n : n <> 0%nat -> eval (one_limbs n) = 1 /\ wf (one_limbs n) /\ length (one_limbs n) = n.
Proof.
  destruct n; [congruence|]. intros _. simpl. rewrite eval_zeros, length_zeros.
  repeat split; try lia. apply wf_cons. split; [|apply wf_zeros]. unfold is_word. pose proof B_gt1. lia.
Qed.

Lemma nil_or_not (a : list Z) : a = [] \/ a <> [].
Proof. destruct a; [left; reflexivity | right; discriminate]. Qed.
Lemma nonempty_len (a : list Z) : a <> [] -> length a <> 0%nat.
Proof. destruct a; [congruence | discriminate]. Qed.

Definition halfB (n : nat) : Z := 2 ^ 63 * Bn (pred n).
Lemma Bn_half n : n <> 0%nat -> Bn n = 2 * halfB n /\ 0 < halfB n.
Proof.
  destruct n; [congruence|]. intros _. unfold halfB. cbn [pred]. rewrite Bn_S.
  pose proof (Bn_pos n). word_facts. split; [lia | apply Z.mul_pos_pos; lia].
Qed.

Lemma halfB_ge n : n <> 0%nat -> 2 ^ 63 <= halfB n.
Proof.
  intros Hn. unfold halfB. pose proof (Bn_pos (pred n)). word_facts.
  assert (2 ^ 63 * 1 <= 2 ^ 63 * Bn (pred n)) by (apply Z.mul_le_mono_nonneg_l; lia). lia.
Qed.

Lemma seval_cases a : wf a ->
  (2 * eval a < Bn (length a) /\ seval a = eval a) \/
  (Bn (length a) <= 2 * eval a /\ seval a = eval a - Bn (length a)).
Proof.
  intros H. unfold seval. destruct (2 * eval a <? Bn (length a)) eqn:E.
  - apply Z.ltb_lt in E. left. auto.
  - apply Z.ltb_ge in E. right. auto.
Qed.

Lemma seval_range a : wf a -> - Bn (length a) <= 2 * seval a < Bn (length a).
Proof.
  intros H. pose proof (eval_bounds a H). destruct (seval_cases a H) as [[? ->]|[? ->]]; lia.
Qed.

Lemma seval_mod a : wf a -> seval a mod Bn (length a) = eval a.
Proof.
  intros H. pose proof (eval_bounds a H). pose proof (Bn_pos (length a)).
  destruct (seval_cases a H) as [[? ->]|[? ->]].
  - apply Z.mod_small. lia.
  - symmetry. apply (Z.mod_unique_pos _ _ (-1)); lia.
Qed.

Lemma seval_neg a : wf a -> (seval a <? 0) = (Bn (length a) <=? 2 * eval a).
Proof.
  intros H. pose proof (eval_bounds a H). apply eq_true_iff_eq. rewrite Z.ltb_lt, Z.leb_le.
  destruct (seval_cases a H) as [[? ->]|[? ->]]; lia.
Qed.

Lemma seval_nil : seval [] = 0. Proof. reflexivity. Qed.

Lemma seval_zero_iff d : wf d -> (seval d = 0 <-> eval d = 0).
Proof.
  intros Hd. pose proof (eval_bounds d Hd). pose proof (Bn_pos (length d)).
  destruct (seval_cases d Hd) as [[? ->]|[? ->]]; lia.
Qed.

Lemma eval_to_limbs_s n x : eval (to_limbs_s n x) = x mod Bn n.
Proof. unfold to_limbs_s. rewrite eval_to_limbs. pose proof (Bn_pos n). apply Z.mod_mod. lia. Qed.
Lemma wf_to_limbs_s n x : wf (to_limbs_s n x). Proof. apply wf_to_limbs. Qed.
Lemma length_to_limbs_s n x : length (to_limbs_s n x) = n. Proof. apply length_to_limbs. Qed.

Lemma to_limbs_s_unique n r x : wf r -> length r = n -> eval r = x mod Bn n -> r = to_limbs_s n x.
Proof.
  intros Hw Hl He. unfold to_limbs_s. apply to_limbs_unique; auto.
  pose proof (Bn_pos n). rewrite Z.mod_mod by lia. assumption.
Qed.

Lemma to_limbs_to_limbs_s n x : 0 <= x < Bn n -> to_limbs n x = to_limbs_s n x.
Proof. intros H. unfold to_limbs_s. rewrite Z.mod_small by assumption. reflexivity. Qed.

Lemma to_limbs_mod n x : to_limbs n (x mod Bn n) = to_limbs n x.
Proof.
  apply eval_inj; auto using wf_to_limbs.
  - rewrite !length_to_limbs. reflexivity.
  - rewrite !eval_to_limbs. pose proof (Bn_pos n). apply Z.mod_mod. lia.
Qed.

Lemma to_limbs_s_cong n x y k : x = y + k * Bn n -> to_limbs_s n x = to_limbs_s n y.
Proof. intros ->. unfold to_limbs_s. pose proof (Bn_pos n). rewrite Z.mod_add by lia. reflexivity. Qed.

Lemma seval_to_limbs_s n x : - Bn n <= 2 * x < Bn n -> seval (to_limbs_s n x) = x.
Proof.
  intros Hr. pose proof (Bn_pos n).
  pose proof (seval_cases _ (wf_to_limbs_s n x)) as Hc.
  rewrite length_to_limbs_s, eval_to_limbs_s in Hc.
  destruct (Z_lt_ge_dec x 0).
  - assert (E : x mod Bn n = x + Bn n) by (symmetry; apply (Z.mod_unique_pos _ _ (-1)); lia).
    rewrite E in Hc. destruct Hc as [[? ->]|[? ->]]; lia.
  - assert (E : x mod Bn n = x) by (apply Z.mod_small; lia).
    rewrite E in Hc. destruct Hc as [[? ->]|[? ->]]; lia.
Qed.

Lemma to_limbs_s_seval a : wf a -> to_limbs_s (length a) (seval a) = a.
Proof.
  intros H. symmetry. apply to_limbs_s_unique; auto. symmetry. apply seval_mod. assumption.
Qed.

Lemma isp_fits_iff n x : isp_fits n x = true <-> - Bn n <= 2 * x < Bn n.
Proof. unfold isp_fits. rewrite andb_true_iff, Z.leb_le, Z.ltb_lt. tauto. Qed.
Lemma isp_fits_true n x : - Bn n <= 2 * x < Bn n -> isp_fits n x = true.
Proof. apply isp_fits_iff. Qed.
Lemma isp_fits_false n x : isp_fits n x = false <-> (2 * x < - Bn n \/ Bn n <= 2 * x).
Proof. unfold isp_fits. rewrite andb_false_iff, Z.leb_gt, Z.ltb_ge. tauto. Qed.

(* sign bit = top bit of the last limb *)
Lemma msw_sign a : wf a -> a <> [] ->
  is_word (int_msw a) /\ (2 ^ 63 <= int_msw a <-> Bn (length a) <= 2 * eval a).
Proof.
  intros H Hne. unfold int_msw.
  destruct (exists_last Hne) as (ini & top & ->).
  rewrite last_last. apply wf_app in H. destruct H as [Hi Ht]. apply wf_cons in Ht. destruct Ht as [Ht _].
  split; [assumption|].
  rewrite eval_app, app_length, Bn_add. cbn [eval length]. rewrite Bn_1.
  pose proof (eval_bounds ini Hi) as Hb. set (K := Bn (length ini)) in *. set (e := eval ini) in *.
  unfold is_word in Ht. word_facts. replace (top + B * 0) with top by lia.
  split; intros Hc.
  - assert (K * 2 ^ 63 <= K * top) by (apply Z.mul_le_mono_nonneg_l; lia). lia.
  - destruct (Z_lt_ge_dec top (2 ^ 63)); [|lia]. exfalso.
    assert (K * top <= K * (2 ^ 63 - 1)) by (apply Z.mul_le_mono_nonneg_l; lia). lia.
Qed.

Lemma int_is_negative_spec a : wf a -> int_is_negative a = choice_of_bool (seval a <? 0).
Proof.
  intros H. destruct (nil_or_not a) as [->|Hne]; [reflexivity|].
  destruct (msw_sign a H Hne) as [Hw Hiff]. unfold int_is_negative.
  rewrite from_word_msb_spec by assumption. f_equal. rewrite seval_neg by assumption.
  apply eq_true_iff_eq. rewrite !Z.leb_le. assumption.
Qed.

Lemma seval_shift a : wf a -> exists k, eval a = seval a + k * Bn (length a).
Proof.
  intros H. destruct (seval_cases a H) as [[_ ->]|[_ ->]]; [exists 0 | exists 1]; lia.
Qed.

Lemma wrapping_add_signed a b : wf a -> wf b -> length a = length b ->
  uint_wrapping_add a b = to_limbs_s (length a) (seval a + seval b).
Proof.
  intros Ha Hb Hl. destruct (wrapping_add_spec a b Ha Hb Hl) as (He & Hw & Hlr).
  apply to_limbs_s_unique; auto. rewrite He, <- (seval_mod a Ha), <- (seval_mod b Hb), <- Hl.
  symmetry. apply Z.add_mod. pose proof (Bn_pos (length a)). lia.
Qed.

Lemma wrapping_sub_signed a b : wf a -> wf b -> length a = length b ->
  uint_wrapping_sub a b = to_limbs_s (length a) (seval a - seval b).
Proof.
  intros Ha Hb Hl. destruct (wrapping_sub_spec a b Ha Hb Hl) as (He & Hw & Hlr).
  apply to_limbs_s_unique; auto. rewrite He, <- (seval_mod a Ha), <- (seval_mod b Hb), <- Hl.
  symmetry. apply Zminus_mod.
Qed.

Ltac zb := repeat match goal with
  | |- context [?x <? ?y] => destruct (Z.ltb_spec x y)
  | |- context [?x <=? ?y] => destruct (Z.leb_spec x y)
  | |- context [?x =? ?y] => destruct (Z.eqb_spec x y)
  end.

(* the sign of the wrapped result is the sign of the exact one, flipped exactly when that does not fit
   (for a value at most one modulus outside the range) *)
Lemma wrapped_sign n x : - 2 * Bn n <= 2 * x < 2 * Bn n ->
  (seval (to_limbs_s n x) <? 0) = xorb (x <? 0) (negb (isp_fits n x)).
Proof.
  intros Hr. pose proof (Bn_pos n). destruct (isp_fits n x) eqn:F.
  - apply isp_fits_iff in F. rewrite seval_to_limbs_s, xorb_false_r by assumption. reflexivity.
  - apply isp_fits_false in F. destruct F as [F|F].
    + rewrite (to_limbs_s_cong n x (x + Bn n) (-1)), seval_to_limbs_s by lia. zb; try reflexivity; lia.
    + rewrite (to_limbs_s_cong n x (x - Bn n) 1), seval_to_limbs_s by lia. zb; try reflexivity; lia.
Qed.

Lemma int_overflowing_add_spec a b : wf a -> wf b -> length a = length b ->
  int_overflowing_add a b =
    (to_limbs_s (length a) (seval a + seval b),
     choice_of_bool (negb (isp_fits (length a) (seval a + seval b)))).
Proof.
  intros Ha Hb Hl. unfold int_overflowing_add.
  rewrite wrapping_add_signed by assumption.
  rewrite !int_is_negative_spec by auto using wf_to_limbs_s.
  rewrite cc_eq_bool, cc_ne_bool, cc_and_bool. f_equal. f_equal.
  pose proof (seval_range a Ha) as Ra. pose proof (seval_range b Hb) as Rb. rewrite <- Hl in Rb.
  rewrite wrapped_sign by lia.
  (* operands of equal sign whose sum has the other sign *)
  destruct (isp_fits (length a) (seval a + seval b)) eqn:F; [apply isp_fits_iff in F | apply isp_fits_false in F];
    zb; try reflexivity; lia.
Qed.

Lemma int_checked_add_spec a b : wf a -> wf b -> length a = length b ->
  int_checked_add a b =
    if isp_fits (length a) (seval a + seval b) then Some (to_limbs_s (length a) (seval a + seval b)) else None.
Proof.
  intros. unfold int_checked_add. rewrite int_overflowing_add_spec by assumption.
  rewrite cc_not_bool, negb_involutive, ctopt_new_bool. reflexivity.
Qed.

Lemma int_checked_sub_spec a b : wf a -> wf b -> length a = length b ->
  int_checked_sub a b =
    if isp_fits (length a) (seval a - seval b) then Some (to_limbs_s (length a) (seval a - seval b)) else None.
Proof.
  intros Ha Hb Hl. unfold int_checked_sub.
  rewrite wrapping_sub_signed by assumption.
  rewrite !int_is_negative_spec by auto using wf_to_limbs_s.
  rewrite !cc_ne_bool, cc_and_bool, cc_not_bool, ctopt_new_bool.
  pose proof (seval_range a Ha) as Ra. pose proof (seval_range b Hb) as Rb. rewrite <- Hl in Rb.
  rewrite wrapped_sign by lia.
  (* operands of different sign whose difference has the sign of the subtrahend *)
  destruct (isp_fits (length a) (seval a - seval b)) eqn:F; [apply isp_fits_iff in F | apply isp_fits_false in F];
    zb; try reflexivity; lia.
Qed.

Lemma int_wrapping_sub_spec a b : wf a -> wf b -> length a = length b ->
  int_wrapping_sub a b = to_limbs_s (length a) (seval a - seval b).
Proof. apply wrapping_sub_signed. Qed.

Lemma seval_complement a : wf a -> a <> [] -> seval (map wnot a) = - seval a - 1.
Proof.
  intros H Hne. destruct (eval_map_wnot a H) as [He Hw].
  pose proof (nonempty_len a Hne) as Hn.
  destruct (Bn_half _ Hn) as [HM HH].
  pose proof (eval_bounds a H).
  pose proof (seval_cases _ Hw) as Hc. rewrite map_length, He in Hc.
  destruct (seval_cases a H) as [[? ->]|[? ->]]; destruct Hc as [[? ->]|[? ->]]; lia.
Qed.

Lemma seval_one n : n <> 0%nat -> seval (one_limbs n) = 1.
Proof.
  intros Hn. destruct (one_limbs_spec n Hn) as (He & Hw & Hl).
  destruct (Bn_half _ Hn) as [HM HH]. pose proof (halfB_ge n Hn). word_facts.
  destruct (seval_cases _ Hw) as [[? ->]|[? ->]]; rewrite ?Hl, ?He in *; lia.
Qed.

Lemma int_overflowing_neg_spec a : wf a ->
  int_overflowing_neg a =
    (to_limbs_s (length a) (- seval a), choice_of_bool (negb (isp_fits (length a) (- seval a)))).
Proof.
  intros H. destruct (nil_or_not a) as [->|Hne]; [vm_compute; reflexivity|].
  pose proof (nonempty_len a Hne) as Hn.
  unfold int_overflowing_neg. rewrite ux_xor_max_spec by assumption.
  destruct (eval_map_wnot a H) as [_ Hw]. destruct (one_limbs_spec _ Hn) as (_ & Hw1 & Hl1).
  rewrite int_overflowing_add_spec by (auto; rewrite map_length, Hl1; reflexivity).
  rewrite map_length, seval_complement, seval_one by assumption.
  replace (- seval a - 1 + 1) with (- seval a) by lia. reflexivity.
Qed.

Lemma neg_if_encodes a x (b : bool) : wf a -> eval a = x mod Bn (length a) ->
  uint_wrapping_neg_if a (choice_of_bool b) = to_limbs_s (length a) (if b then - x else x).
Proof.
  intros Ha Hx. unfold uint_wrapping_neg_if.
  destruct (wrapping_neg_facts a Ha) as (Hw & Hl & He).
  rewrite select_limbs_choice by auto. destruct b; apply to_limbs_s_unique; auto.
  rewrite He, Hx, <- !Z.sub_0_l. apply Zminus_mod_idemp_r.
Qed.

Lemma int_wrapping_neg_if_spec a (b : bool) : wf a ->
  int_wrapping_neg_if a (choice_of_bool b) = to_limbs_s (length a) (if b then - seval a else seval a).
Proof.
  intros Ha. unfold int_wrapping_neg_if. apply neg_if_encodes; auto. symmetry. apply seval_mod. assumption.
Qed.

Lemma abs_bound a : wf a -> 0 <= Z.abs (seval a) < Bn (length a) /\ 2 * Z.abs (seval a) <= Bn (length a).
Proof. intros H. pose proof (seval_range a H). pose proof (Bn_pos (length a)). lia. Qed.

Lemma int_abs_sign_spec a : wf a ->
  int_abs_sign a = (to_limbs (length a) (Z.abs (seval a)), choice_of_bool (seval a <? 0)).
Proof.
  intros Ha. unfold int_abs_sign. rewrite int_is_negative_spec by assumption. f_equal.
  rewrite int_wrapping_neg_if_spec by assumption.
  rewrite to_limbs_to_limbs_s by (apply abs_bound; assumption). f_equal.
  destruct (Z.ltb_spec (seval a) 0); lia.
Qed.

Lemma int_abs_spec a : wf a -> int_abs a = to_limbs (length a) (Z.abs (seval a)).
Proof. intros. unfold int_abs. rewrite int_abs_sign_spec by assumption. reflexivity. Qed.

Lemma eval_abs a : wf a -> eval (to_limbs (length a) (Z.abs (seval a))) = Z.abs (seval a).
Proof. intros H. apply to_limbs_small. apply abs_bound. assumption. Qed.

Lemma int_max_limbs_spec n : n <> 0%nat ->
  eval (int_max_limbs n) = halfB n - 1 /\ wf (int_max_limbs n) /\ length (int_max_limbs n) = n.
Proof.
  destruct n; [congruence|]. intros _. unfold int_max_limbs, halfB. cbn [pred].
  rewrite eval_app, eval_maxs, length_maxs, app_length, length_maxs. cbn [eval length].
  word_facts. repeat split; try lia.
  apply wf_app. split; [apply wf_maxs|]. apply wf_cons. split; [unfold is_word; lia | apply wf_nil].
Qed.

Lemma int_min_limbs_spec n : n <> 0%nat ->
  eval (int_min_limbs n) = halfB n /\ wf (int_min_limbs n) /\ length (int_min_limbs n) = n.
Proof.
  destruct n; [congruence|]. intros _. unfold int_min_limbs, halfB. cbn [pred].
  rewrite eval_app, eval_zeros, length_zeros, app_length, length_zeros. cbn [eval length].
  word_facts. repeat split; try lia.
  apply wf_app. split; [apply wf_zeros|]. apply wf_cons. split; [unfold is_word; lia | apply wf_nil].
Qed.

(* the two components of the ConstCtOption that Int::new_from_abs_sign builds: is_some ... *)
Lemma abs_sign_fits_spec ab (b : bool) : wf ab ->
  cc_or (ux_lte ab (int_max_limbs (length ab))) (cc_and (choice_of_bool b) (ux_eq ab (int_min_limbs (length ab)))) =
    choice_of_bool (isp_fits (length ab) (if b then - eval ab else eval ab)).
Proof.
  intros Ha. destruct (nil_or_not ab) as [->|Hne]; [destruct b; vm_compute; reflexivity|].
  pose proof (nonempty_len ab Hne) as Hn.
  destruct (int_max_limbs_spec _ Hn) as (Emax & Wmax & Lmax).
  destruct (int_min_limbs_spec _ Hn) as (Emin & Wmin & Lmin).
  destruct (Bn_half _ Hn) as [HM HH]. pose proof (eval_bounds ab Ha) as Hb.
  rewrite ux_lte_spec, ux_eq_spec by auto. rewrite Emax, Emin, cc_and_bool, cc_or_bool. f_equal.
  unfold isp_fits. destruct b; cbn [andb orb]; zb; try reflexivity; lia.
Qed.

(* ... and value (the wrapped encoding, whether it fits or not) *)
Lemma abs_sign_value_spec ab (b : bool) : wf ab ->
  int_wrapping_neg_if ab (choice_of_bool b) = to_limbs_s (length ab) (if b then - eval ab else eval ab).
Proof.
  intros Ha. apply neg_if_encodes; [assumption|]. symmetry. apply Z.mod_small. apply eval_bounds. assumption.
Qed.

Lemma int_new_from_abs_sign_spec ab (b : bool) : wf ab ->
  let x := if b then - eval ab else eval ab in
  int_new_from_abs_sign ab (choice_of_bool b) =
    if isp_fits (length ab) x then Some (to_limbs_s (length ab) x) else None.
Proof.
  intros Ha x. unfold int_new_from_abs_sign.
  rewrite abs_sign_fits_spec, abs_sign_value_spec, ctopt_new_bool by assumption. reflexivity.
Qed.

Lemma int_is_min_spec a : wf a -> a <> [] -> int_is_min a = choice_of_bool (2 * seval a =? - Bn (length a)).
Proof.
  intros Ha Hne. pose proof (nonempty_len a Hne) as Hn.
  unfold int_is_min. destruct (int_min_limbs_spec _ Hn) as (Emin & Wmin & Lmin).
  rewrite ux_eq_spec by auto. rewrite Emin. f_equal.
  destruct (Bn_half _ Hn) as [HM HH]. pose proof (eval_bounds a Ha).
  destruct (seval_cases a Ha) as [[? ->]|[? ->]]; zb; try reflexivity; lia.
Qed.

Lemma int_is_max_spec a : wf a -> a <> [] -> int_is_max a = choice_of_bool (2 * seval a =? Bn (length a) - 2).
Proof.
  intros Ha Hne. pose proof (nonempty_len a Hne) as Hn.
  unfold int_is_max. destruct (int_max_limbs_spec _ Hn) as (Emax & Wmax & Lmax).
  rewrite ux_eq_spec by auto. rewrite Emax. f_equal.
  destruct (Bn_half _ Hn) as [HM HH]. pose proof (eval_bounds a Ha).
  destruct (seval_cases a Ha) as [[? ->]|[? ->]]; zb; try reflexivity; lia.
Qed.

Lemma int_is_positive_spec a : wf a -> int_is_positive a = choice_of_bool (0 <? seval a).
Proof.
  intros Ha. unfold int_is_positive. rewrite int_is_negative_spec, ux_is_nonzero_spec by assumption.
  rewrite cc_not_bool, cc_and_bool. f_equal.
  pose proof (eval_bounds a Ha). pose proof (Bn_pos (length a)).
  destruct (seval_cases a Ha) as [[? E]|[? E]]; rewrite E; zb; try reflexivity; lia.
Qed.

Lemma mul_sign A Bv :
  (if xorb (A <? 0) (Bv <? 0) then - (Z.abs A * Z.abs Bv) else Z.abs A * Z.abs Bv) = A * Bv.
Proof.
  destruct (Z.ltb_spec A 0), (Z.ltb_spec Bv 0); cbn [xorb];
    rewrite ?(Z.abs_neq A), ?(Z.abs_eq A), ?(Z.abs_neq Bv), ?(Z.abs_eq Bv) by lia; ring.
Qed.
Lemma mul_sign_u A e : (if A <? 0 then - (Z.abs A * e) else Z.abs A * e) = A * e.
Proof. destruct (Z.ltb_spec A 0); rewrite ?(Z.abs_neq A), ?(Z.abs_eq A) by lia; ring. Qed.

Lemma high_part n m p : 0 <= p < Bn n * Bn m -> 0 <= p / Bn n < Bn m.
Proof.
  intros H. pose proof (Bn_pos n). split; [apply Z.div_pos; lia|].
  apply Z.div_lt_upper_bound; lia.
Qed.

Lemma eval_lo_hi n m p : 0 <= p < Bn n * Bn m ->
  eval (to_limbs n p ++ to_limbs m (p / Bn n)) = p.
Proof.
  intros H. rewrite eval_app, length_to_limbs, !eval_to_limbs.
  rewrite (Z.mod_small (p / Bn n)) by (apply high_part; assumption).
  pose proof (Bn_pos n). rewrite (Z.div_mod p (Bn n)) at 3 by lia. lia.
Qed.

Lemma fit_product_spec n m p (b : bool) : 0 <= p < Bn n * Bn m ->
  int_fit_product (to_limbs n p, to_limbs m (p / Bn n), choice_of_bool b) =
    if isp_fits n (if b then - p else p) then Some (to_limbs_s n (if b then - p else p)) else None.
Proof.
  intros Hp. unfold int_fit_product.
  pose proof (int_new_from_abs_sign_spec (to_limbs n p) b (wf_to_limbs n p)) as E. cbv zeta in E.
  rewrite length_to_limbs, eval_to_limbs in E. rewrite E. clear E.
  pose proof (Bn_pos n). pose proof (Bn_pos m). pose proof (high_part n m p Hp) as Hh.
  destruct (Z_lt_ge_dec p (Bn n)) as [Hs|Hl].
  - rewrite (Z.mod_small p (Bn n)) by lia.
    destruct (isp_fits n (if b then - p else p)); [|reflexivity].
    rewrite ux_is_zero_spec by apply wf_to_limbs. rewrite eval_to_limbs, ctopt_new_bool.
    rewrite (Z.div_small p (Bn n)) by lia. rewrite Z.mod_0_l by lia. reflexivity.
  - assert (Hq : 1 <= p / Bn n) by (apply Z.div_le_lower_bound; lia).
    replace (isp_fits n (if b then - p else p)) with false
      by (symmetry; apply isp_fits_false; destruct b; lia).
    destruct (isp_fits n _); [|reflexivity].
    rewrite ux_is_zero_spec by apply wf_to_limbs. rewrite eval_to_limbs, ctopt_new_bool.
    rewrite (Z.mod_small (p / Bn n)) by lia.
    replace (p / Bn n =? 0) with false by (symmetry; apply Z.eqb_neq; lia). reflexivity.
Qed.

Lemma abs_mul_bound a b : wf a -> wf b ->
  0 <= Z.abs (seval a) * Z.abs (seval b) < Bn (length a) * Bn (length b).
Proof.
  intros Ha Hb. destruct (abs_bound a Ha) as [? _]. destruct (abs_bound b Hb) as [? _].
  split; [apply Z.mul_nonneg_nonneg; lia | apply Z.mul_lt_mono_nonneg; lia].
Qed.
Lemma abs_umul_bound a b : wf a -> wf b ->
  0 <= Z.abs (seval a) * eval b < Bn (length a) * Bn (length b).
Proof.
  intros Ha Hb. destruct (abs_bound a Ha) as [? _]. pose proof (eval_bounds b Hb).
  split; [apply Z.mul_nonneg_nonneg; lia | apply Z.mul_lt_mono_nonneg; lia].
Qed.

Lemma int_split_mul_spec a b : wf a -> wf b ->
  let p := Z.abs (seval a) * Z.abs (seval b) in
  int_split_mul a b = (to_limbs (length a) p, to_limbs (length b) (p / Bn (length a)),
                       choice_of_bool (xorb (seval a <? 0) (seval b <? 0))).
Proof.
  intros Ha Hb p. unfold int_split_mul. rewrite !int_abs_sign_spec by assumption.
  unfold ux_split_mul. rewrite !length_to_limbs, !eval_abs, cc_xor_bool by assumption. reflexivity.
Qed.

Lemma int_split_mul_uint_spec a b : wf a -> wf b ->
  int_split_mul_uint a b =
    (to_limbs (length a) (Z.abs (seval a) * eval b), to_limbs (length b) (Z.abs (seval a) * eval b / Bn (length a)),
     choice_of_bool (seval a <? 0)).
Proof.
  intros Ha Hb. unfold int_split_mul_uint. rewrite !int_abs_sign_spec by assumption.
  unfold ux_split_mul. rewrite !length_to_limbs, !eval_abs by assumption. reflexivity.
Qed.

Lemma int_split_mul_uint_right_spec a b : wf a -> wf b ->
  int_split_mul_uint_right a b =
    (to_limbs (length b) (Z.abs (seval a) * eval b), to_limbs (length a) (Z.abs (seval a) * eval b / Bn (length b)),
     choice_of_bool (seval a <? 0)).
Proof.
  intros Ha Hb. unfold int_split_mul_uint_right. rewrite !int_abs_sign_spec by assumption.
  unfold ux_split_mul. rewrite !length_to_limbs, !eval_abs, (Z.mul_comm (eval b)) by assumption. reflexivity.
Qed.

Lemma int_checked_mul_spec a b : wf a -> wf b ->
  int_checked_mul a b =
    if isp_fits (length a) (seval a * seval b) then Some (to_limbs_s (length a) (seval a * seval b)) else None.
Proof.
  intros Ha Hb. unfold int_checked_mul. pose proof (int_split_mul_spec a b Ha Hb) as E. cbv zeta in E.
  rewrite E, fit_product_spec by (apply abs_mul_bound; assumption). rewrite mul_sign. reflexivity.
Qed.

Lemma int_checked_mul_uint_spec a b : wf a -> wf b ->
  int_checked_mul_uint a b =
    if isp_fits (length a) (seval a * eval b) then Some (to_limbs_s (length a) (seval a * eval b)) else None.
Proof.
  intros Ha Hb. unfold int_checked_mul_uint.
  rewrite int_split_mul_uint_spec, fit_product_spec by (assumption || apply abs_umul_bound; assumption).
  rewrite mul_sign_u. reflexivity.
Qed.

Lemma widen_neg_if n m p (b : bool) : 0 <= p < Bn n * Bn m ->
  uint_wrapping_neg_if (to_limbs n p ++ to_limbs m (p / Bn n)) (choice_of_bool b) =
    to_limbs_s (n + m) (if b then - p else p).
Proof.
  intros Hp.
  assert (Hl : length (to_limbs n p ++ to_limbs m (p / Bn n)) = (n + m)%nat)
    by (rewrite app_length, !length_to_limbs; reflexivity).
  rewrite <- Hl. apply neg_if_encodes.
  - apply wf_app. split; apply wf_to_limbs.
  - rewrite eval_lo_hi, Hl, Bn_add by assumption. symmetry. apply Z.mod_small. assumption.
Qed.

Lemma widening_fits a b : wf a -> wf b -> a <> [] -> b <> [] ->
  - Bn (length a + length b) <= 2 * (seval a * seval b) < Bn (length a + length b).
Proof.
  intros Ha Hb Hna Hnb.
  pose proof (nonempty_len a Hna) as Hla. pose proof (nonempty_len b Hnb) as Hlb.
  destruct (Bn_half _ Hla) as [HMa HHa]. destruct (Bn_half _ Hlb) as [HMb HHb].
  pose proof (seval_range a Ha) as Ra. pose proof (seval_range b Hb) as Rb.
  rewrite Bn_add, HMa, HMb. rewrite HMa in Ra. rewrite HMb in Rb.
  set (x := seval a) in *. set (y := seval b) in *. set (h := halfB (length a)) in *. set (k := halfB (length b)) in *.
  assert (Z.abs (x * y) <= h * k).
  { rewrite Z.abs_mul. apply Z.mul_le_mono_nonneg; lia. }
  assert (0 < h * k) by (apply Z.mul_pos_pos; lia).
  replace (2 * h * (2 * k)) with (4 * (h * k)) by ring. lia.
Qed.

Lemma abs_sq A : Z.abs A * Z.abs A = A * A.
Proof. rewrite <- Z.abs_mul. apply Z.abs_eq. apply Z.square_nonneg. Qed.

Lemma sq_bound a : wf a -> 0 <= seval a * seval a < Bn (length a) * Bn (length a).
Proof. intros Ha. rewrite <- abs_sq. apply abs_mul_bound; assumption. Qed.

Lemma ux_square_wide_abs a : wf a ->
  ux_square_wide (int_abs a) =
    (to_limbs (length a) (seval a * seval a), to_limbs (length a) (seval a * seval a / Bn (length a))).
Proof.
  intros Ha. rewrite int_abs_spec by assumption. unfold ux_square_wide.
  rewrite length_to_limbs, eval_abs, abs_sq by assumption. reflexivity.
Qed.

Lemma int_widening_square_spec a : wf a ->
  int_widening_square a = to_limbs (length a + length a) (seval a * seval a).
Proof.
  intros Ha. unfold int_widening_square. rewrite ux_square_wide_abs by assumption.
  pose proof (sq_bound a Ha) as Hp.
  apply eval_inj.
  - apply wf_app. split; apply wf_to_limbs.
  - apply wf_to_limbs.
  - rewrite app_length, !length_to_limbs. reflexivity.
  - rewrite eval_lo_hi by assumption. rewrite eval_to_limbs, Bn_add. symmetry. apply Z.mod_small. assumption.
Qed.

Lemma hi_limbs_zero_iff n p : 0 <= p < Bn n * Bn n -> (eval (to_limbs n (p / Bn n)) =? 0) = (p <? Bn n).
Proof.
  intros Hp. pose proof (high_part n n p Hp). pose proof (Bn_pos n).
  rewrite eval_to_limbs, Z.mod_small by assumption.
  destruct (Z.ltb_spec p (Bn n)).
  - rewrite Z.div_small by lia. reflexivity.
  - apply Z.eqb_neq. assert (1 <= p / Bn n) by (apply Z.div_le_lower_bound; lia). lia.
Qed.

Lemma int_saturating_square_spec a : wf a ->
  int_saturating_square a =
    to_limbs (length a) (if seval a * seval a <? Bn (length a) then seval a * seval a else Bn (length a) - 1).
Proof.
  intros Ha. unfold int_saturating_square. rewrite ux_square_wide_abs by assumption.
  rewrite ux_is_nonzero_spec by apply wf_to_limbs.
  rewrite hi_limbs_zero_iff by (apply sq_bound; assumption).
  rewrite select_limbs_choice; auto using wf_to_limbs, wf_maxs; [|rewrite !length_to_limbs, length_maxs; reflexivity].
  rewrite length_to_limbs.
  destruct (seval a * seval a <? Bn (length a)); cbn [negb]; [reflexivity | apply maxs_to_limbs].
Qed.

Lemma int_resize_spec t a : wf a -> int_resize t a = to_limbs_s t (seval a).
Proof.
  intros Ha. unfold int_resize. rewrite int_is_negative_spec by assumption.
  rewrite select_word_choice by (apply is_word_0' || apply is_word_MAXW).
  set (d := (t - length a)%nat). set (neg := seval a <? 0).
  apply to_limbs_s_unique.
  - apply wf_app. split; [apply wf_firstn; assumption|]. destruct neg; [apply wf_maxs | apply wf_zeros].
  - rewrite app_length, firstn_length, repeat_length. lia.
  - assert (Ef : eval (repeat (if neg then MAXW else 0) d) = if neg then Bn d - 1 else 0)
      by (destruct neg; [apply eval_maxs | apply eval_zeros]).
    rewrite eval_app, Ef. pose proof (Bn_pos t).
    destruct (le_lt_dec t (length a)) as [Hle|Hgt].
    + (* narrowing: no fill, and Bn t divides the modulus of a *)
      replace d with 0%nat by lia. rewrite Bn_0, eval_firstn by assumption.
      destruct (seval_shift a Ha) as [k ->].
      assert (E : Bn (length a) = Bn (length a - t) * Bn t) by (rewrite <- Bn_add; f_equal; lia).
      rewrite E, Z.mul_assoc, Z.mod_add by lia. destruct neg; lia.
    + (* widening: the fill adds Bn t - Bn (length a) exactly when a is negative *)
      rewrite firstn_all2 by lia.
      assert (E : Bn t = Bn (length a) * Bn d) by (rewrite <- Bn_add; f_equal; lia). rewrite E in *.
      pose proof (Bn_pos (length a)). pose proof (Bn_pos d). pose proof (eval_bounds a Ha).
      assert (Bn (length a) * 1 <= Bn (length a) * Bn d) by (apply Z.mul_le_mono_nonneg_l; lia).
      destruct (seval_cases a Ha) as [[Hc Es]|[Hc Es]].
      * replace neg with false by (symmetry; apply Z.ltb_ge; lia). rewrite Es, Z.mod_small; lia.
      * replace neg with true by (symmetry; apply Z.ltb_lt; lia). rewrite Es. apply (Z.mod_unique_pos _ _ (-1)); lia.
Qed.

Lemma sext_word_spec bits x : 1 <= bits <= 64 -> 0 <= x < 2 ^ bits ->
  is_word (sext_word bits x) /\ seval [sext_word bits x] = prim_sval bits x.
Proof.
  intros Hb Hx. unfold sext_word, prim_sval, seval, is_word. cbn [eval length]. rewrite Bn_1.
  assert (E : 2 ^ bits = 2 * 2 ^ (bits - 1)).
  { replace bits with (Z.succ (bits - 1)) at 1 by lia. apply Z.pow_succ_r. lia. }
  assert (Hle : 2 ^ (bits - 1) <= 2 ^ 63) by (apply Z.pow_le_mono_r; lia).
  assert (0 < 2 ^ (bits - 1)) by (apply Z.pow_pos_nonneg; lia).
  word_facts.
  destruct (Z.ltb_spec x (2 ^ (bits - 1))).
  - split; [lia|]. replace (2 * (x + B * 0) <? B) with true; [lia|]. symmetry. apply Z.ltb_lt. lia.
  - split; [lia|]. replace (2 * (x + (B - 2 ^ bits) + B * 0) <? B) with false; [lia|]. symmetry. apply Z.ltb_ge. lia.
Qed.

Lemma int_from_prim_spec bits t x : 1 <= bits <= 64 -> 0 <= x < 2 ^ bits ->
  int_from_prim bits t x = to_limbs_s t (prim_sval bits x).
Proof.
  intros Hb Hx. destruct (sext_word_spec bits x Hb Hx) as [Hw Hs]. unfold int_from_prim.
  rewrite int_resize_spec by (apply wf_cons; split; [assumption | apply wf_nil]).
  rewrite Hs. reflexivity.
Qed.

Lemma int_from_i128_spec t lo hi : is_word lo -> is_word hi ->
  int_from_i128 t lo hi = to_limbs_s t (seval [lo; hi]).
Proof.
  intros Hl Hh. unfold int_from_i128. apply int_resize_spec.
  apply wf_cons. split; [assumption|]. apply wf_cons. split; [assumption | apply wf_nil].
Qed.

Definition opt_enc (n : nat) (o : option (list Z)) (s : option Z) : Prop :=
  match o, s with
  | Some r, Some v => r = to_limbs_s n v /\ (- Bn n <= 2 * v < Bn n)
  | None, None => True
  | _, _ => False
  end.

Lemma opt_enc_of_fits n x :
  opt_enc n (if isp_fits n x then Some (to_limbs_s n x) else None) (if isp_fits n x then Some x else None).
Proof.
  destruct (isp_fits n x) eqn:E; cbn; [|exact I]. split; [reflexivity | apply isp_fits_iff; assumption].
Qed.

Lemma opt_enc_some n a : wf a -> length a = n -> opt_enc n (Some a) (Some (seval a)).
Proof.
  intros Ha Hl. cbn. subst n. split; [symmetry; apply to_limbs_s_seval; assumption | apply seval_range; assumption].
Qed.

Lemma int_checked_bin_spec n op xo xs yo ys : opt_enc n xo xs -> opt_enc n yo ys ->
  opt_enc n (int_checked_bin op xo yo) (isp_checked_bin n op xs ys).
Proof.
  intros Hx Hy.
  destruct xo as [r|], xs as [v|]; cbn in Hx; try contradiction; [|exact I].
  destruct yo as [r2|], ys as [v2|]; cbn in Hy; try contradiction; [|exact I].
  destruct Hx as [-> Hv]. destruct Hy as [-> Hv2]. unfold int_checked_bin, isp_checked_bin.
  pose proof (wf_to_limbs_s n v) as Hw. pose proof (length_to_limbs_s n v) as Hlr.
  pose proof (wf_to_limbs_s n v2) as Hw2. pose proof (length_to_limbs_s n v2) as Hlr2.
  pose proof (seval_to_limbs_s n v Hv) as Hs. pose proof (seval_to_limbs_s n v2 Hv2) as Hs2.
  destruct (op =? 0); [|destruct (op =? 1)].
  - rewrite int_checked_add_spec by (auto; lia). rewrite Hlr, Hs, Hs2. apply opt_enc_of_fits.
  - rewrite int_checked_sub_spec by (auto; lia). rewrite Hlr, Hs, Hs2. apply opt_enc_of_fits.
  - rewrite int_checked_mul_spec by auto. rewrite Hlr, Hs, Hs2. apply opt_enc_of_fits.
Qed.

Lemma int_checked_expr_spec shape op1 op2 a b c : wf a -> wf b -> wf c -> length a = length b -> length a = length c ->
  opt_enc (length a) (int_checked_expr shape op1 op2 a b c)
                     (isp_checked_expr (length a) shape op1 op2 (seval a) (seval b) (seval c)).
Proof.
  intros Ha Hb Hc Hl1 Hl2. unfold int_checked_expr, isp_checked_expr.
  pose proof (opt_enc_some (length a) a Ha eq_refl) as Ea.
  pose proof (opt_enc_some (length a) b Hb (eq_sym Hl1)) as Eb.
  pose proof (opt_enc_some (length a) c Hc (eq_sym Hl2)) as Ec.
  destruct (shape =? 0); repeat apply int_checked_bin_spec; assumption.
Qed.

