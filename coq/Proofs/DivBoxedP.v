(** C02: BoxedUint division: div_rem_vartime_in_place, div_rem_vartime, rem_vartime. *)
From CB Require Import Model.Limbs Model.Div Proofs.WordP Proofs.LimbsP Proofs.BitsP Proofs.DivP Proofs.Rem2kP
  Proofs.Div3by2P Proofs.KnuthStepP Proofs.DivShiftP Proofs.DivVtP.
From Coq Require Import ZArith Lia List.
Open Scope Z_scope.

Lemma nlimbs_unique v k : 0 < v -> Bn (k - 1) <= v < Bn k -> (1 <= k)%nat -> nlimbs v = k.
Proof.
  intros Hv [Hlo Hhi] Hk. destruct (nlimbs_spec v Hv) as (H1 & _ & _ & [Hlo' Hhi'] & _).
  destruct (lt_eq_lt_dec (nlimbs v) k) as [[Hlt|Heq]|Hgt]; [|assumption|].
  - assert (Bn (nlimbs v) <= Bn (k - 1)) by (apply Bn_le; lia). lia.
  - assert (Bn k <= Bn (nlimbs v - 1)) by (apply Bn_le; lia). lia.
Qed.

Lemma nshift_unique v s : 0 < v -> 0 <= s ->
  Bn (nlimbs v) <= 2 * (v * 2 ^ s) -> v * 2 ^ s < Bn (nlimbs v) -> nshift v = s.
Proof.
  intros Hv Hs Hlo Hhi. destruct (nlimbs_spec v Hv) as (_ & Hs' & _ & _ & Hlo' & Hhi').
  set (t := nshift v) in *.
  assert (H1 : 2 ^ s < 2 ^ (t + 1)).
  { rewrite Z.pow_add_r, Z.pow_1_r by lia. apply (Z.mul_lt_mono_pos_l v); lia. }
  assert (H2 : 2 ^ t < 2 ^ (s + 1)).
  { rewrite Z.pow_add_r, Z.pow_1_r by lia. apply (Z.mul_lt_mono_pos_l v); lia. }
  apply Z.pow_lt_mono_r_iff in H1; [|lia|lia]. apply Z.pow_lt_mono_r_iff in H2; lia.
Qed.

(** a limb list with non-zero top limb t: significant limbs = all, shift = leading zeros of t *)
Lemma top_limb_facts l t : wf l -> 0 < t < B ->
  let v := eval (l ++ [t]) in let s := leading_zeros_word t in
  0 < v /\ 0 <= s < 64 /\ nlimbs v = S (length l) /\ nshift v = s /\
  Bn (length l) <= v /\ v * 2 ^ s < Bn (S (length l)) /\ Bn (S (length l)) <= 2 * (v * 2 ^ s).
Proof.
  intros Hw Ht v s. unfold v, s, leading_zeros_word.
  destruct (bits_of_spec t ltac:(lia)) as (Hb1 & Hlo & Hhi). set (b := bits_of t) in *.
  assert (Hb64 : b <= 64).
  { destruct (Z_lt_ge_dec 64 b); [|lia]. assert (2 ^ 64 <= 2 ^ (b - 1)) by (apply Z.pow_le_mono_r; lia).
    rewrite B_val in Ht. lia. }
  pose proof (eval_bounds l Hw) as Hbl. pose proof (Bn_pos (length l)) as Hp. pose proof B_half as Hh. pose proof p63_pos.
  rewrite eval_snoc. set (K := Bn (length l)) in *. rewrite Bn_S. fold K.
  assert (H2s : 0 < 2 ^ (64 - b)) by (apply Z.pow_pos_nonneg; lia).
  assert (Hp1 : 2 ^ 64 = 2 ^ b * 2 ^ (64 - b)) by (rewrite <- Z.pow_add_r by lia; f_equal; lia).
  assert (Hp2 : 2 ^ 63 = 2 ^ (b - 1) * 2 ^ (64 - b)) by (rewrite <- Z.pow_add_r by lia; f_equal; lia).
  assert (Hts1 : (t + 1) * 2 ^ (64 - b) <= B) by (rewrite B_val, Hp1; apply Z.mul_le_mono_nonneg_r; lia).
  assert (Hts2 : 2 ^ 63 <= t * 2 ^ (64 - b)) by (rewrite Hp2; apply Z.mul_le_mono_nonneg_r; lia).
  assert (HKt : K * 1 <= K * t) by (apply Z.mul_le_mono_nonneg_l; lia).
  assert (Hv0 : 0 < eval l + K * t) by lia.
  assert (Hhi' : (eval l + K * t) * 2 ^ (64 - b) < B * K).
  { assert ((eval l + K * t) * 2 ^ (64 - b) < (K * (t + 1)) * 2 ^ (64 - b)) by (apply Z.mul_lt_mono_pos_r; lia).
    assert (K * ((t + 1) * 2 ^ (64 - b)) <= K * B) by (apply Z.mul_le_mono_nonneg_l; lia). lia. }
  assert (Hlo' : B * K <= 2 * ((eval l + K * t) * 2 ^ (64 - b))).
  { assert (K * 2 ^ 63 <= K * (t * 2 ^ (64 - b))) by (apply Z.mul_le_mono_nonneg_l; lia).
    assert (0 <= eval l * 2 ^ (64 - b)) by (apply Z.mul_nonneg_nonneg; lia). lia. }
  assert (Hnl : nlimbs (eval l + K * t) = S (length l)).
  { apply nlimbs_unique; [lia| |lia]. replace (S (length l) - 1)%nat with (length l) by lia. fold K. rewrite Bn_S. fold K.
    split; [lia|]. assert (K * t <= K * (B - 1)) by (apply Z.mul_le_mono_nonneg_l; lia). lia. }
  split; [lia|]. split; [lia|]. split; [assumption|]. split.
  - apply nshift_unique; try lia; rewrite Hnl, Bn_S; fold K; lia.
  - split; [lia|]. split; lia.
Qed.

Theorem boxed_div_rem_in_place_correct x0 y0 q r :
  wf x0 -> wf y0 -> (2 <= length y0)%nat -> nthz y0 (length y0 - 1) <> 0 ->
  recip_ok (top64 (eval y0)) (reciprocal (top64 (eval y0))) ->
  boxed_div_rem_in_place x0 y0 = (q, r) ->
  eval x0 = eval q * eval y0 + eval r /\ 0 <= eval r < eval y0 /\
  length q = length x0 /\ length r = length y0 /\ wf q /\ wf r.
Proof.
  intros Hwx Hwy Hly Htop Hrec E.
  destruct (wf_snoc y0 (length y0 - 1) ltac:(lia) Hwy) as (yl0 & t & Ey0 & Hlyl0 & Hwyl0 & Htw).
  assert (Ht : nthz y0 (length y0 - 1) = t) by (rewrite Ey0 at 1; apply nthz_app_mid; assumption).
  rewrite Ht in Htop.
  assert (Ht0 : 0 < t < B) by (unfold is_word in Htw; lia).
  pose proof (top_limb_facts yl0 t Hwyl0 Ht0) as Hf. cbv zeta in Hf. rewrite <- Ey0 in Hf.
  destruct Hf as (Hyp & Hsh & Hnl & Hns & Hylo & Hnhi & Hnlo).
  rewrite Hlyl0 in *. replace (S (length y0 - 1)) with (length y0) in * by lia.
  set (s := leading_zeros_word t) in *.
  pose proof (eval_bounds x0 Hwx) as Hbx.
  unfold boxed_div_rem_in_place in E. rewrite Ht in E. fold s in E.
  set (n := length x0) in *. set (yc := length y0) in *.
  destruct (n =? 0)%nat eqn:E0.
  - apply Nat.eqb_eq in E0. inv_pair E. destruct x0; [|simpl in n; lia].
    rewrite eval_zeros. cbn [eval]. repeat split; auto using length_zeros, wf_zeros, wf_nil; lia.
  - apply Nat.eqb_neq in E0. destruct (n <? yc)%nat eqn:E2.
    + apply Nat.ltb_lt in E2. inv_pair E.
      assert (Bn n <= Bn (yc - 1)) by (apply Bn_le; lia).
      rewrite eval_app, !eval_zeros.
      repeat split; auto using length_zeros, wf_zeros; try lia.
      * rewrite app_length, length_zeros. lia.
      * apply wf_app. split; auto using wf_zeros.
    + apply Nat.ltb_ge in E2.
      destruct yc as [|[|k]] eqn:Eyc; [lia | lia |].
      pose proof (vt_core k x0 y0 Hwx Hwy Hyp Hnl E2 Hrec) as H. cbv zeta in H. rewrite Hns in H. fold n in H.
      destruct (shl_limb_vartime y0 s (S (S k))) as [y cy]. destruct (shl_limb_vartime x0 s n) as [xs x_hi].
      destruct H as (rl & Qs & yb & Hvx & _ & Hlrl & HlQ & HwQ & Hlyb & He & Hr & Hwr & Hlr).
      destruct yb; [|simpl in Hlyb; lia]. rewrite app_nil_r in He, Hr, Hwr, Hlr.
      rewrite Hvx in E. inv_pair E.
      assert (Ef : firstn (S (S k) - 1) (rl ++ Qs) = rl /\ skipn (S (S k) - 1) (rl ++ Qs) = Qs).
      { cbn [Nat.sub]. rewrite <- Hlrl, firstn_app, skipn_app, firstn_all, skipn_all, Nat.sub_diag.
        cbn [firstn skipn]. rewrite app_nil_r. auto. }
      destruct Ef as [-> ->].
      replace (firstn (n - S (S k) + 1) Qs) with Qs by (rewrite <- HlQ; symmetry; apply firstn_all).
      rewrite eval_app, eval_zeros.
      split; [lia|]. split; [assumption|]. split; [rewrite app_length, length_zeros; lia|].
      split; [lia|]. split; [apply wf_app; split; [assumption | apply wf_zeros] | assumption].
Qed.

Lemma significant_limbs y0 : wf y0 -> 0 < eval y0 ->
  let yc := nlimbs (eval y0) in
  (yc <= length y0)%nat /\ eval (firstn yc y0) = eval y0 /\ eval (skipn yc y0) = 0 /\
  nthz (firstn yc y0) (yc - 1) <> 0 /\ length (firstn yc y0) = yc.
Proof.
  intros Hw Hp yc. destruct (nlimbs_spec _ Hp) as (Hyc1 & _ & _ & [Hylo Hyhi] & _). fold yc in Hyc1, Hylo, Hyhi.
  pose proof (nlimbs_le_length y0 Hw Hp) as Hle. fold yc in Hle.
  destruct (low_limbs_hold y0 yc Hw Hle Hyhi) as [Hfe Hsk].
  split; [assumption|]. split; [assumption|]. split; [assumption|]. split; [|apply firstn_length_le; assumption].
  destruct (wf_snoc (firstn yc y0) (yc - 1)) as (l & t & El & Hll & Hwl & _);
    [rewrite firstn_length_le by assumption; lia | apply wf_firstn; assumption |].
  rewrite El, nthz_app_mid by assumption. intros ->.
  pose proof (eval_bounds l Hwl) as Hbl. rewrite Hll in Hbl.
  rewrite El, eval_snoc in Hfe. lia.
Qed.

Theorem boxed_div_rem_vartime_correct x0 y0 :
  wf x0 -> wf y0 -> eval y0 <> 0 ->
  recip_ok (top64 (eval y0)) (reciprocal (top64 (eval y0))) ->
  exists q r, boxed_div_rem_vartime x0 y0 = Some (q, r) /\
  eval x0 = eval q * eval y0 + eval r /\ 0 <= eval r < eval y0 /\
  length q = length x0 /\ length r = length y0 /\ wf q /\ wf r.
Proof.
  intros Hwx Hwy Hnz Hrec.
  pose proof (eval_nonneg y0 Hwy) as Hy0. assert (Hyp : 0 < eval y0) by lia.
  destruct (nlimbs_spec _ Hyp) as (Hyc1 & _ & _ & [Hylo Hyhi] & _).
  destruct (significant_limbs y0 Hwy Hyp) as (Hle & Hfe & Hsk & Htop & Hlf).
  unfold boxed_div_rem_vartime. fold (nlimbs (eval y0)).
  set (yc := nlimbs (eval y0)) in *. pose proof B_gt1 as HB.
  destruct yc as [|[|k]] eqn:Eyc; [lia| |].
  - rewrite Bn_1 in Hyhi.
    destruct (single_limb_recip y0 Hwy ltac:(lia) Hrec) as [Hd Hfor]. set (d := nthz y0 0) in *.
    pose proof (div_rem_limb_correct x0 d (recip_new d) Hwx ltac:(lia) Hfor) as H.
    destruct (div_rem_limb_with_reciprocal x0 (recip_new d)) as [q1 r1].
    destruct H as (He & Hr & Hwq & Hlq). exists q1, (resize (length y0) [r1]). split; [reflexivity|].
    destruct (resize_limb (length y0) r1 Hle ltac:(lia)) as (Hev & Hwr & Hlr).
    rewrite Hev, Hd. repeat split; auto; lia.
  - destruct (boxed_div_rem_in_place x0 (firstn (S (S k)) y0)) as [q r] eqn:E.
    exists q, (r ++ skipn (S (S k)) y0). split; [reflexivity|].
    pose proof (boxed_div_rem_in_place_correct x0 (firstn (S (S k)) y0) q r Hwx (wf_firstn _ _ Hwy)) as H.
    rewrite Hlf, Hfe in H. specialize (H ltac:(lia) Htop Hrec E).
    destruct H as (He & Hr & Hlq & Hlr & Hwq & Hwr).
    rewrite eval_app, Hsk. split; [lia|]. split; [lia|]. split; [assumption|].
    split; [rewrite app_length, skipn_length; lia|]. split; [assumption|].
    apply wf_app. split; [assumption | apply wf_skipn; assumption].
Qed.

Theorem boxed_div_rem_vartime_zero x0 y0 : wf y0 -> eval y0 = 0 -> boxed_div_rem_vartime x0 y0 = None.
Proof. intros _ Hz. unfold boxed_div_rem_vartime. rewrite Hz. reflexivity. Qed.

Theorem boxed_rem_vartime_correct x0 y0 :
  wf x0 -> wf y0 -> eval y0 <> 0 ->
  recip_ok (top64 (eval y0)) (reciprocal (top64 (eval y0))) ->
  exists r, boxed_rem_vartime x0 y0 = Some r /\
  eval r = eval x0 mod eval y0 /\ length r = length y0 /\ wf r.
Proof.
  intros Hwx Hwy Hnz Hrec.
  pose proof (eval_nonneg y0 Hwy) as Hy0. assert (Hyp : 0 < eval y0) by lia.
  destruct (nlimbs_spec _ Hyp) as (Hyc1 & _ & _ & [Hylo Hyhi] & _).
  destruct (significant_limbs y0 Hwy Hyp) as (Hle & Hfe & Hsk & Htop & Hlf).
  pose proof (eval_bounds x0 Hwx) as Hbx. pose proof (eval_bounds y0 Hwy) as Hby.
  unfold boxed_rem_vartime. fold (nlimbs (eval y0)).
  set (yc := nlimbs (eval y0)) in *. pose proof B_gt1 as HB.
  destruct yc as [|[|k]] eqn:Eyc; [lia| |].
  - rewrite Bn_1 in Hyhi.
    destruct (single_limb_recip y0 Hwy ltac:(lia) Hrec) as [Hd Hfor]. set (d := nthz y0 0) in *.
    pose proof (div_rem_limb_correct x0 d (recip_new d) Hwx ltac:(lia) Hfor) as H.
    unfold rem_limb_with_reciprocal.
    destruct (div_rem_limb_with_reciprocal x0 (recip_new d)) as [q1 r1]. cbn [snd].
    destruct H as (He & Hr & Hwq & Hlq). exists (resize (length y0) [r1]). split; [reflexivity|].
    destruct (resize_limb (length y0) r1 Hle ltac:(lia)) as (Hev & Hwr & Hlr).
    rewrite Hev, Hd. split; [|split; assumption].
    apply (Z.mod_unique_pos _ _ (eval q1)); lia.
  - destruct (length x0 <? S (S k))%nat eqn:E2.
    + apply Nat.ltb_lt in E2. exists (resize (length y0) x0). split; [reflexivity|].
      assert (Bn (length x0) <= Bn (S (S k) - 1)) by (apply Bn_le; lia).
      rewrite eval_resize by assumption. rewrite (Z.mod_small (eval x0) (Bn (length y0))) by lia.
      split; [symmetry; apply Z.mod_small; lia|]. split; auto using length_resize, wf_resize.
    + destruct (boxed_div_rem_in_place x0 (firstn (S (S k)) y0)) as [q r] eqn:E.
      exists (r ++ skipn (S (S k)) y0). split; [reflexivity|].
      pose proof (boxed_div_rem_in_place_correct x0 (firstn (S (S k)) y0) q r Hwx (wf_firstn _ _ Hwy)) as H.
      rewrite Hlf, Hfe in H. specialize (H ltac:(lia) Htop Hrec E).
      destruct H as (He & Hr & Hlq & Hlr & Hwq & Hwr).
      rewrite eval_app, Hsk. split; [|split].
      * apply (Z.mod_unique_pos _ _ (eval q)); lia.
      * rewrite app_length, skipn_length. lia.
      * apply wf_app. split; [assumption | apply wf_skipn; assumption].
Qed.
