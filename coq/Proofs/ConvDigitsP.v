(** C16 proofs, part 1: positional digit lists in an arbitrary base; limbs <-> bytes <-> nibbles. *)
From CB Require Import Model.Limbs Model.Conv Proofs.WordP Proofs.LimbsP.
From Coq Require Import ZArith Lia List.
Import ListNotations.
Open Scope Z_scope.
Open Scope list_scope.

Definition wfd (b : Z) (ds : list Z) : Prop := Forall (fun d => 0 <= d < b) ds.

Lemma wfd_cons b d ds : wfd b (d :: ds) <-> 0 <= d < b /\ wfd b ds.
Proof. unfold wfd. split; [intros H; inversion H; auto | intros [? ?]; constructor; auto]. Qed.
Lemma wfd_nil b : wfd b []. Proof. constructor. Qed.
Lemma wfd_app b x y : wfd b (x ++ y) <-> wfd b x /\ wfd b y.
Proof. unfold wfd. apply Forall_app. Qed.
Lemma wfd_rev b x : wfd b x -> wfd b (rev x).
Proof. unfold wfd. intros H. apply Forall_forall. intros d Hd. apply in_rev in Hd.
  rewrite Forall_forall in H. auto. Qed.
Lemma wfd_firstn b k x : wfd b x -> wfd b (firstn k x).
Proof. intros H. rewrite <- (firstn_skipn k x) in H. apply wfd_app in H. tauto. Qed.
Lemma wfd_skipn b k x : wfd b x -> wfd b (skipn k x).
Proof. intros H. rewrite <- (firstn_skipn k x) in H. apply wfd_app in H. tauto. Qed.
Lemma wfd_wf ls : wfd B ls <-> wf ls.
Proof. unfold wfd, wf, is_word. tauto. Qed.

Lemma pow_pos_nat b (k : nat) : 0 < b -> 0 < b ^ Z.of_nat k.
Proof. intros. apply Z.pow_pos_nonneg; lia. Qed.
Lemma pow_S_nat b (k : nat) : b ^ Z.of_nat (S k) = b * b ^ Z.of_nat k.
Proof. rewrite Nat2Z.inj_succ, Z.pow_succ_r by lia. reflexivity. Qed.
Lemma pow_add_nat b (k m : nat) : b ^ Z.of_nat (k + m) = b ^ Z.of_nat k * b ^ Z.of_nat m.
Proof. rewrite Nat2Z.inj_add, Z.pow_add_r by lia. reflexivity. Qed.
Lemma pow_mul_nat b (k m : nat) : b ^ Z.of_nat (k * m) = (b ^ Z.of_nat k) ^ Z.of_nat m.
Proof. rewrite Nat2Z.inj_mul, Z.pow_mul_r by lia. reflexivity. Qed.

Lemma evalb_app b x y : evalb b (x ++ y) = evalb b x + b ^ Z.of_nat (length x) * evalb b y.
Proof.
  induction x as [|d x IH]; cbn [evalb app length].
  - change (Z.of_nat 0) with 0. rewrite Z.pow_0_r. lia.
  - rewrite IH, pow_S_nat. ring.
Qed.

Lemma evalb_bounds b ds : 0 < b -> wfd b ds -> 0 <= evalb b ds < b ^ Z.of_nat (length ds).
Proof.
  intros Hb. induction ds as [|d ds IH]; intros H; cbn [evalb length].
  - change (Z.of_nat 0) with 0. rewrite Z.pow_0_r. lia.
  - apply wfd_cons in H. destruct H as [Hd Hw]. specialize (IH Hw). rewrite pow_S_nat.
    pose proof (pow_pos_nat b (length ds) Hb). nia.
Qed.

Lemma evalb_repeat0 b k : evalb b (repeat 0 k) = 0.
Proof. induction k; cbn [repeat evalb]; [reflexivity | rewrite IHk; lia]. Qed.

Lemma length_digits b k x : length (digits b k x) = k.
Proof. revert x; induction k; intros; cbn [digits length]; [reflexivity | rewrite IHk; reflexivity]. Qed.

Lemma wfd_digits b k x : 0 < b -> wfd b (digits b k x).
Proof.
  intros Hb. revert x; induction k; intros; cbn [digits]; [apply wfd_nil|].
  apply wfd_cons. split; [apply Z.mod_pos_bound; lia | apply IHk].
Qed.

Lemma evalb_digits b k x : 0 < b -> evalb b (digits b k x) = x mod b ^ Z.of_nat k.
Proof.
  intros Hb. revert x; induction k; intros x; cbn [digits evalb].
  - change (Z.of_nat 0) with 0. rewrite Z.pow_0_r, Z.mod_1_r. reflexivity.
  - rewrite IHk, pow_S_nat. pose proof (pow_pos_nat b k Hb). rewrite Z.rem_mul_r by lia. reflexivity.
Qed.

Lemma digits_evalb b ds : 0 < b -> wfd b ds -> digits b (length ds) (evalb b ds) = ds.
Proof.
  intros Hb. induction ds as [|d ds IH]; intros H; cbn [digits evalb length]; [reflexivity|].
  apply wfd_cons in H. destruct H as [Hd Hw].
  assert (Hq : (d + b * evalb b ds) / b = evalb b ds /\ (d + b * evalb b ds) mod b = d).
  { apply div_mod_unique_pos; lia. }
  destruct Hq as [-> ->]. rewrite IH by assumption. reflexivity.
Qed.

Lemma mod_pow_S b (k : nat) x : 0 < b ->
  (x mod b ^ Z.of_nat (S k)) mod b = x mod b /\ (x mod b ^ Z.of_nat (S k)) / b = (x / b) mod b ^ Z.of_nat k.
Proof.
  intros Hb. rewrite pow_S_nat. pose proof (pow_pos_nat b k Hb) as Hp.
  rewrite Z.rem_mul_r by lia.
  pose proof (Z.mod_pos_bound x b Hb).
  assert (Hq : (x mod b + b * ((x / b) mod b ^ Z.of_nat k)) / b = (x / b) mod b ^ Z.of_nat k /\
               (x mod b + b * ((x / b) mod b ^ Z.of_nat k)) mod b = x mod b).
  { apply div_mod_unique_pos; lia. }
  tauto.
Qed.

Lemma digits_mod b k x : 0 < b -> digits b k (x mod b ^ Z.of_nat k) = digits b k x.
Proof.
  intros Hb. revert x; induction k; intros x; cbn [digits]; [reflexivity|].
  destruct (mod_pow_S b k x Hb) as [-> ->]. rewrite IHk. reflexivity.
Qed.

Lemma digits_app b k m x : 0 < b ->
  digits b (k + m) x = digits b k x ++ digits b m (x / b ^ Z.of_nat k).
Proof.
  intros Hb. revert x; induction k; intros x.
  - cbn [Nat.add digits app]. change (Z.of_nat 0) with 0. rewrite Z.pow_0_r, Z.div_1_r. reflexivity.
  - cbn [Nat.add digits app]. rewrite IHk. f_equal. f_equal. f_equal.
    rewrite pow_S_nat. pose proof (pow_pos_nat b k Hb). rewrite Z.div_div by lia. reflexivity.
Qed.

Lemma nth_digits b k x i : 0 < b -> (i < k)%nat ->
  nth i (digits b k x) 0 = (x / b ^ Z.of_nat i) mod b.
Proof.
  intros Hb. revert x i; induction k; intros x i Hi; [lia|].
  cbn [digits]. destruct i as [|i].
  - cbn [nth]. change (Z.of_nat 0) with 0. rewrite Z.pow_0_r, Z.div_1_r. reflexivity.
  - cbn [nth]. rewrite IHk by lia. rewrite pow_S_nat. pose proof (pow_pos_nat b i Hb).
    rewrite Z.div_div by lia. reflexivity.
Qed.

(** regrouping: k base-b digits make one base-b^k digit *)
Lemma digits_group b k n x : 0 < b ->
  flat_map (digits b k) (digits (b ^ Z.of_nat k) n x) = digits b (k * n) x.
Proof.
  intros Hb. revert x; induction n; intros x.
  - rewrite Nat.mul_0_r. reflexivity.
  - cbn [digits flat_map]. rewrite IHn, digits_mod by assumption.
    rewrite Nat.mul_succ_r, Nat.add_comm. rewrite digits_app by assumption. reflexivity.
Qed.

Lemma evalb_concat b k css : 0 < b -> Forall (fun c => length c = k) css ->
  evalb (b ^ Z.of_nat k) (map (evalb b) css) = evalb b (concat css).
Proof.
  intros Hb H. induction css as [|c css IH]; cbn [map evalb concat]; [reflexivity|].
  inversion H as [|? ? Hc Hr]; subst. rewrite evalb_app, IH by assumption. reflexivity.
Qed.

Lemma wfd_evalb_chunks b k css : 0 < b -> Forall (fun c => length c = k) css -> Forall (wfd b) css ->
  wfd (b ^ Z.of_nat k) (map (evalb b) css).
Proof.
  intros Hb Hl Hw. induction css as [|c css IH]; cbn [map]; [apply wfd_nil|].
  inversion Hl; inversion Hw; subst. apply wfd_cons. split; [|auto].
  pose proof (evalb_bounds b c Hb ltac:(assumption)). lia.
Qed.

Lemma chunks_spec k n bs : length bs = (k * n)%nat ->
  concat (chunks k n bs) = bs /\ Forall (fun c => length c = k) (chunks k n bs) /\ length (chunks k n bs) = n.
Proof.
  revert bs; induction n; intros bs Hl.
  - rewrite Nat.mul_0_r in Hl. destruct bs; [|discriminate]. cbn. repeat split; constructor.
  - rewrite Nat.mul_succ_r in Hl. cbn [chunks concat length].
    assert (Hs : length (skipn k bs) = (k * n)%nat) by (rewrite skipn_length; lia).
    destruct (IHn _ Hs) as (Hc & Hf & Hn). rewrite Hc, firstn_skipn. repeat split; [|lia].
    constructor; [rewrite firstn_length; lia | assumption].
Qed.

Lemma wfd_chunks b k n bs : wfd b bs -> Forall (wfd b) (chunks k n bs).
Proof.
  revert bs; induction n; intros bs H; cbn [chunks]; constructor.
  - apply wfd_firstn; assumption.
  - apply IHn. apply wfd_skipn; assumption.
Qed.

Lemma flat_map_rev {A C} (f : A -> list C) l :
  rev (flat_map f l) = flat_map (fun x => rev (f x)) (rev l).
Proof.
  induction l as [|a l IH]; cbn [flat_map rev]; [reflexivity|].
  rewrite rev_app_distr, IH, flat_map_app. cbn [flat_map]. rewrite app_nil_r. reflexivity.
Qed.
Lemma flat_map_map_out {A C D} (h : C -> D) (g : A -> list C) l :
  flat_map (fun x => map h (g x)) l = map h (flat_map g l).
Proof. induction l as [|a l IH]; cbn [flat_map]; [reflexivity|]. rewrite map_app, IH. reflexivity. Qed.
Lemma concat_map_rev {A} (css : list (list A)) : concat (map (@rev A) (rev css)) = rev (concat css).
Proof.
  induction css as [|c css IH]; cbn [concat rev map]; [reflexivity|].
  rewrite map_app, concat_app, IH, rev_app_distr. cbn [map concat]. rewrite app_nil_r. reflexivity.
Qed.
Lemma nth_rev_lt {A} (l : list A) d i : (i < length l)%nat -> nth i (rev l) d = nth (length l - 1 - i) l d.
Proof. intros H. rewrite rev_nth by assumption. f_equal. lia. Qed.

Lemma eval_evalb ls : eval ls = evalb B ls.
Proof. induction ls as [|x ls IH]; cbn [eval evalb]; [reflexivity | rewrite IH; reflexivity]. Qed.
Lemma to_limbs_digits n x : to_limbs n x = digits B n x.
Proof. revert x; induction n; intros; cbn [to_limbs digits]; [reflexivity | rewrite IHn; reflexivity]. Qed.
Lemma B_256 : B = 256 ^ Z.of_nat 8. Proof. rewrite B_val. reflexivity. Qed.
Lemma B_16 : B = 16 ^ Z.of_nat 16. Proof. rewrite B_val. reflexivity. Qed.
Lemma B_2 : B = 2 ^ Z.of_nat 64. Proof. rewrite B_val. reflexivity. Qed.
Lemma Bn_B_pow n : Bn n = B ^ Z.of_nat n.
Proof. induction n; [rewrite Bn_0; reflexivity | rewrite Bn_S, IHn, pow_S_nat; reflexivity]. Qed.
Lemma Bn_256 n : Bn n = 256 ^ Z.of_nat (8 * n).
Proof. rewrite Bn_B_pow, pow_mul_nat, <- B_256. reflexivity. Qed.
Lemma Bn_16 n : Bn n = 16 ^ Z.of_nat (16 * n).
Proof. rewrite Bn_B_pow, pow_mul_nat, <- B_16. reflexivity. Qed.
Lemma Bn_2 n : Bn n = 2 ^ Z.of_nat (64 * n).
Proof. rewrite Bn_B_pow, pow_mul_nat, <- B_2. reflexivity. Qed.

(** the limbs of a value, regrouped into digits of a base b with b^k = B *)
Lemma limbs_regroup b k ls : 0 < b -> B = b ^ Z.of_nat k -> wf ls ->
  flat_map (digits b k) ls = digits b (k * length ls) (eval ls).
Proof.
  intros Hb HB Hw. rewrite <- (to_limbs_eval ls Hw) at 1. rewrite to_limbs_digits, HB.
  apply digits_group. assumption.
Qed.
