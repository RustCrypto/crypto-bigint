(** C12 proofs, part 2: every producer of the table yields a valid wrapper or fails -- one lemma per producer, for all
    limb counts, argument values, byte strings and RNG streams -- and the induction over call histories. *)
From CB Require Import Model.Limbs Model.AddSub Model.Cmp Model.Conv Model.Rand Model.Wrappers
  Proofs.WordP Proofs.LimbsP Proofs.AddSubP Proofs.WordPredP Proofs.CmpWordP Proofs.CmpP Proofs.CmpBoxedP Proofs.CmpIntP
  Proofs.ConvDigitsP Proofs.ConvBytesP Proofs.ConvHexP Proofs.ConvBoxedP Proofs.ConvCopyP Proofs.ConvP
  Proofs.RandBaseP Proofs.RandModP Proofs.RandBitsP Proofs.RandMiscP Proofs.TotalityP Proofs.WrappersP.
From Coq Require Import ZArith Lia List Bool String.
Import ListNotations.
Open Scope Z_scope. Open Scope list_scope.
Notation length := List.length.

Definition out_ok (w : wrapper) (v : list Z) : Prop := wf v /\ valid w v.

(** the domain of a producer: word arguments, byte arguments that are bytes, wrapper arguments that are valid *)
Definition dom (p : pentry) (a : list (list Z)) : Prop :=
  w_wf_args a /\
  Forall (fun j => wfd 256 (arg j a)) (pe_bytes p) /\
  Forall (fun jw => valid (snd jw) (arg (fst jw) a)) (pe_ins p).

Definition producer_ok (p : pentry) : Prop :=
  forall dbg a vs, dom p a -> pe_model p dbg a = Val vs -> Forall (out_ok (pe_out p)) (firstn (pe_nout p) vs).

Lemma out1 w v rest : wf v -> valid w v -> Forall (out_ok w) (firstn 1 (v :: rest)).
Proof. intros. cbn [firstn]. constructor; [split; assumption | constructor]. Qed.

Lemma out1' w v rest : out_ok w v -> Forall (out_ok w) (firstn 1 (v :: rest)).
Proof. intros [? ?]. apply out1; assumption. Qed.

Ltac pv_open :=
  intros dbg a vs (Hwf & Hby & Hin) E;
  cbn [pe_model pe_out pe_nout pe_ins pe_bytes] in *.

(* a gate of the shape "if c then bad else Val [v]" (bad is not a Val) *)
Ltac gate_inv E :=
  match type of E with
  | (if ?c then _ else _) = Val _ => let Hc := fresh "Hc" in destruct c eqn:Hc; [try discriminate E | try discriminate E]
  end.

(* ------------------------------------------------------------------ gated constructors *)
Lemma pv_limb_gate key (f : Z -> outcome) bad spec : (forall vs, bad <> Val vs) ->
  (forall x, is_word x -> f x = if x =? 0 then bad else Val [[x]]) ->
  producer_ok (PE key WNonZero 1 [] [] (fun _ a => f (sarg 0 a)) spec).
Proof.
  intros Hbad Hf. pv_open. pose proof (sarg_word 0 a Hwf) as Hx. rewrite Hf in E by assumption.
  destruct (Z.eqb_spec (sarg 0 a) 0); [elim (Hbad _ E)|]. injection E as <-.
  apply out1; [apply wf_one; assumption|]. cbn [valid]. rewrite eval_one. assumption.
Qed.
Lemma pv_nz_new_limb : producer_ok pe_w_nz_new_limb.
Proof. apply (pv_limb_gate _ _ NoneV); [discriminate | exact nz_new_limb_eq]. Qed.
Lemma pv_nz_to_nz_limb : producer_ok pe_w_nz_to_nz_limb.
Proof. apply (pv_limb_gate _ _ NoneV); [discriminate | exact nz_to_nz_limb_eq]. Qed.
Lemma pv_nz_new_unwrap_limb : producer_ok pe_w_nz_new_unwrap_limb.
Proof. apply (pv_limb_gate _ _ PanicV); [discriminate | exact nz_new_unwrap_limb_eq]. Qed.

Ltac pv_gate_with lem :=
  pv_open; match goal with Hwf : w_wf_args ?a |- _ => pose proof (wf_arg 0 a Hwf) as Ha end;
  match goal with E : _ = Val _ |- _ => rewrite lem in E by assumption; gate_inv E; injection E as <- end.
Ltac pv_gate_nz lem :=
  pv_gate_with lem; apply out1; [assumption|]; cbn [valid]; apply Z.eqb_neq; assumption.
Ltac pv_gate_odd lem :=
  pv_gate_with lem; apply out1; [assumption|]; cbn [valid]; assumption.

Lemma pv_nz_new_uint : producer_ok pe_w_nz_new_uint.
Proof. unfold pe_w_nz_new_uint. pv_gate_nz nz_new_uint_eq. Qed.
Lemma pv_nz_new_boxed : producer_ok pe_w_nz_new_boxed.
Proof. unfold pe_w_nz_new_boxed. pv_gate_nz nz_new_boxed_eq. Qed.
Lemma pv_nz_to_nz_uint : producer_ok pe_w_nz_to_nz_uint.
Proof. unfold pe_w_nz_to_nz_uint. pv_gate_nz nz_to_nz_uint_eq. Qed.
Lemma pv_nz_new_unwrap_uint : producer_ok pe_w_nz_new_unwrap_uint.
Proof. unfold pe_w_nz_new_unwrap_uint. pv_gate_nz nz_new_unwrap_uint_eq. Qed.
Lemma pv_odd_new : producer_ok pe_w_odd_new.
Proof. unfold pe_w_odd_new. pv_gate_odd wodd_new_eq. Qed.
Lemma pv_odd_to_odd : producer_ok pe_w_odd_to_odd.
Proof. unfold pe_w_odd_to_odd. pv_gate_odd wodd_to_odd_eq. Qed.
Lemma pv_odd_to_odd_unwrap : producer_ok pe_w_odd_to_odd_unwrap.
Proof. unfold pe_w_odd_to_odd_unwrap. pv_gate_odd wodd_to_odd_unwrap_eq. Qed.

(* ------------------------------------------------------------------ constants, Default *)
Lemma one_valid k n m w : wsp_kind_n k n = Some m -> out_ok w (w_one k n).
Proof.
  intros H. destruct (eval_w_one k n m H) as [Hw He]. split; [assumption|].
  destruct w; cbn [valid]; rewrite He; [lia | reflexivity].
Qed.
Lemma max_valid k n m : wsp_kind_n k n = Some m -> out_ok WNonZero (w_max k n).
Proof. intros H. destruct (w_max_facts k n m H) as (Hw & _ & He & Hr). split; [assumption|]. cbn [valid]. lia. Qed.

Ltac pv_const lem :=
  pv_open; unfold w_typed in *;
  match goal with E : match ?k with Some _ => _ | None => _ end = Val _ |- _ =>
    destruct k as [m|] eqn:Hk; [|discriminate E]; injection E as <- end;
  apply out1'; eapply lem; eassumption.
Lemma pv_nz_one : producer_ok pe_w_nz_one.
Proof. unfold pe_w_nz_one. pv_const one_valid. Qed.
Lemma pv_nz_default : producer_ok pe_w_nz_default.
Proof. unfold pe_w_nz_default. pv_const one_valid. Qed.
Lemma pv_odd_default : producer_ok pe_w_odd_default.
Proof. unfold pe_w_odd_default. pv_const one_valid. Qed.
Lemma pv_nz_max : producer_ok pe_w_nz_max.
Proof. unfold pe_w_nz_max. pv_const max_valid. Qed.

(* ------------------------------------------------------------------ From<core::num::NonZeroU*> *)
Lemma in_valid0 (w : wrapper) a (rest : list (nat * wrapper)) :
  Forall (fun jw => valid (snd jw) (arg (fst jw) a)) ((0%nat, w) :: rest) -> valid w (arg 0 a).
Proof. intros H. inversion H; subst. assumption. Qed.
Lemma in_valid1 (w0 w1 : wrapper) a (rest : list (nat * wrapper)) :
  Forall (fun jw => valid (snd jw) (arg (fst jw) a)) ((0%nat, w0) :: (1%nat, w1) :: rest) ->
  valid w0 (arg 0 a) /\ valid w1 (arg 1 a).
Proof. intros H. inversion H as [|? ? H0 H1]; subst. inversion H1; subst. split; assumption. Qed.

Lemma nz_prim_arg_spec bits l v : wf l -> nz_prim_arg bits l = Some v ->
  eval l = v /\ 0 <= v /\ (if bits =? 128 then v < B * B else v < B).
Proof.
  intros Hw. unfold nz_prim_arg, prim_val, nthz. pose proof B_pos.
  destruct (bits =? 128).
  - destruct (Nat.leb_spec (length l) 2); [|discriminate]. intros E; injection E as <-.
    destruct l as [|x [|y [|z r]]]; cbn [length] in *; try lia; cbn [nth eval].
    + lia.
    + apply wf_cons in Hw. destruct Hw as [Hx _]. unfold is_word in Hx. nia.
    + apply wf_cons in Hw. destruct Hw as [Hx Hw]. apply wf_cons in Hw. destruct Hw as [Hy _].
      unfold is_word in *. nia.
  - destruct (Nat.eqb_spec (length l) 1); [|discriminate]. intros E; injection E as <-.
    destruct l as [|x [|y r]]; cbn [length] in *; try lia. cbn [nth eval].
    apply wf_cons in Hw. destruct Hw as [Hx _]. unfold is_word in Hx. lia.
Qed.

Lemma pv_nz_from_prim_limb : producer_ok pe_w_nz_from_prim_limb.
Proof.
  unfold pe_w_nz_from_prim_limb. pv_open. apply in_valid0 in Hin. cbn [valid] in Hin.
  destruct (nz_prim_arg 64 (arg 0 a)) as [v|] eqn:Ev; [|discriminate].
  destruct (nz_prim_arg_spec 64 _ v (wf_arg 0 a Hwf) Ev) as (He & H0 & Hb). change (64 =? 128) with false in Hb. cbv iota in Hb.
  unfold nz_limb_from_prim in E. injection E as <-.
  apply out1; [apply wf_one; unfold is_word; lia|]. cbn [valid]. rewrite eval_one. lia.
Qed.

Lemma pv_nz_from_prim_uint : producer_ok pe_w_nz_from_prim_uint.
Proof.
  unfold pe_w_nz_from_prim_uint. pv_open. apply in_valid0 in Hin. cbn [valid] in Hin.
  destruct (nz_prim_arg (sarg 1 a) (arg 0 a)) as [v|] eqn:Ev; [|discriminate].
  destruct (nz_prim_arg_spec _ _ v (wf_arg 0 a Hwf) Ev) as (He & H0 & Hb).
  unfold nz_uint_from_prim, vpanic in E. destruct (sarg 1 a =? 128).
  - destruct (uint_from_u128 (w_n 2 a) v) as [r|] eqn:Er; [|discriminate]. injection E as <-.
    destruct (uint_from_u128_spec _ v r ltac:(lia) Er) as (_ & Hw & _ & Hv).
    apply out1; [assumption|]. cbn [valid]. lia.
  - destruct (uint_from_small (w_n 2 a) v) as [r|] eqn:Er; [|discriminate]. injection E as <-.
    destruct (uint_from_small_spec _ v r ltac:(unfold is_word; lia) Er) as (_ & Hw & _ & Hv).
    apply out1; [assumption|]. cbn [valid]. lia.
Qed.

(* ------------------------------------------------------------------ NonZero<Int>::abs_sign *)
Lemma valid_nonempty w a : valid w a -> a <> [].
Proof. intros H ->. destruct w; cbn in H; [contradiction H; reflexivity | discriminate]. Qed.

Lemma pv_nz_abs_sign : producer_ok pe_w_nz_abs_sign.
Proof.
  unfold pe_w_nz_abs_sign. pv_open. apply in_valid0 in Hin. pose proof (valid_nonempty _ _ Hin) as Hn. cbn [valid] in Hin.
  destruct (nz_int_abs_sign_eq (arg 0 a) (wf_arg 0 a Hwf) Hn Hin) as (Eq & Hnz & Hb).
  rewrite Eq in E. injection E as <-. apply out1; [apply wf_to_limbs|]. cbn [valid].
  rewrite to_limbs_small by assumption. assumption.
Qed.

(* ------------------------------------------------------------------ decoders *)
Lemma by_bytes0 a (rest : list nat) : Forall (fun j => wfd 256 (arg j a)) (0%nat :: rest) -> wfd 256 (arg 0 a).
Proof. intros H. inversion H; subst. assumption. Qed.

(* a result "to_limbs n x" with x <> 0 read from at most 8n bytes is a valid NonZero *)
Lemma to_limbs_valid_nz n x : 0 <= x < Bn n -> x <> 0 -> out_ok WNonZero (to_limbs n x).
Proof. intros Hx Hz. split; [apply wf_to_limbs|]. cbn [valid]. rewrite to_limbs_small by assumption. assumption. Qed.
Lemma to_limbs_valid_odd n x : 0 <= x < Bn n -> Z.odd x = true -> out_ok WOdd (to_limbs n x).
Proof. intros Hx Hz. split; [apply wf_to_limbs|]. cbn [valid]. rewrite to_limbs_small by assumption. assumption. Qed.

Lemma evalb_bytes_bound n bs : wfd 256 bs -> length bs = (8 * n)%nat -> 0 <= evalb 256 bs < Bn n.
Proof.
  intros Hw Hl. pose proof (evalb_bounds 256 bs ltac:(lia) Hw) as Hb. rewrite Hl in Hb.
  rewrite Bn_256. assumption.
Qed.

Lemma rev_bytes_bound n bs : wfd 256 bs -> length bs = (8 * n)%nat -> 0 <= evalb 256 (rev bs) < Bn n.
Proof. intros Hw Hl. apply evalb_bytes_bound; [apply wfd_rev; assumption | rewrite rev_length; assumption]. Qed.

(* the closed form of a byte decoder: a value only for 8n bytes, and then the non-zero [x] read from them *)
Lemma nz_bytes_case (n : nat) (bs : list Z) (x : Z) vs : (length bs = (8 * n)%nat -> 0 <= x < Bn n) ->
  (if Nat.eqb (length bs) (8 * n) then (if x =? 0 then NoneV else Val [to_limbs n x]) else PanicV) = Val vs ->
  Forall (out_ok WNonZero) (firstn 1 vs).
Proof.
  intros Hx E. destruct (Nat.eqb_spec (length bs) (8 * n)) as [Hl|]; [|discriminate].
  destruct (Z.eqb_spec x 0); [discriminate|]. injection E as <-. apply out1'. apply to_limbs_valid_nz; auto.
Qed.

Lemma pv_nz_from_le_bytes_gen n bs vs : wfd 256 bs -> nz_from_le_bytes n bs = Val vs -> Forall (out_ok WNonZero) (firstn 1 vs).
Proof.
  intros Hw E. rewrite nz_from_le_bytes_eq in E by assumption. exact (nz_bytes_case n bs _ vs (evalb_bytes_bound n bs Hw) E).
Qed.
Lemma pv_nz_from_be_bytes_gen n bs vs : wfd 256 bs -> nz_from_be_bytes n bs = Val vs -> Forall (out_ok WNonZero) (firstn 1 vs).
Proof.
  intros Hw E. rewrite nz_from_be_bytes_eq in E by assumption. exact (nz_bytes_case n bs _ vs (rev_bytes_bound n bs Hw) E).
Qed.

Lemma pv_nz_from_be_bytes : producer_ok pe_w_nz_from_be_bytes.
Proof. unfold pe_w_nz_from_be_bytes. pv_open. apply by_bytes0 in Hby. eapply pv_nz_from_be_bytes_gen; eassumption. Qed.
Lemma pv_nz_from_le_bytes : producer_ok pe_w_nz_from_le_bytes.
Proof. unfold pe_w_nz_from_le_bytes. pv_open. apply by_bytes0 in Hby. eapply pv_nz_from_le_bytes_gen; eassumption. Qed.
Lemma pv_nz_from_be_byte_array : producer_ok pe_w_nz_from_be_byte_array.
Proof. unfold pe_w_nz_from_be_byte_array. pv_open. apply by_bytes0 in Hby. eapply pv_nz_from_be_bytes_gen; eassumption. Qed.
Lemma pv_nz_from_le_byte_array : producer_ok pe_w_nz_from_le_byte_array.
Proof. unfold pe_w_nz_from_le_byte_array. pv_open. apply by_bytes0 in Hby. eapply pv_nz_from_le_bytes_gen; eassumption. Qed.

Lemma pv_nz_from_le_bytes_limb : producer_ok pe_w_nz_from_le_bytes_limb.
Proof.
  unfold pe_w_nz_from_le_bytes_limb. pv_open. apply by_bytes0 in Hby. rewrite nz_limb_from_le_bytes_eq in E by assumption.
  exact (nz_bytes_case 1 _ _ vs (evalb_bytes_bound 1 _ Hby) E).
Qed.
Lemma pv_nz_from_be_bytes_limb : producer_ok pe_w_nz_from_be_bytes_limb.
Proof.
  unfold pe_w_nz_from_be_bytes_limb. pv_open. apply by_bytes0 in Hby. rewrite nz_limb_from_be_bytes_eq in E by assumption.
  exact (nz_bytes_case 1 _ _ vs (rev_bytes_bound 1 _ Hby) E).
Qed.

(* hex: the value of 16n hex digits fits n limbs *)
Lemma hex_value_bound le n cs ds : length cs = (16 * n)%nat -> hexvals cs = Some ds -> 0 <= hex_value le ds < Bn n.
Proof.
  intros Hl Hh. destruct (hexvals_spec cs ds Hh) as [Hlds Hwds]. unfold hex_value. destruct le.
  - destruct (nib_pairs_spec (8 * n) ds ltac:(lia) Hwds) as (Hln & Hwn & _). apply evalb_bytes_bound; assumption.
  - pose proof (evalb_bounds 16 (rev ds) ltac:(lia) (wfd_rev 16 ds Hwds)) as Hb. rewrite rev_length, Hlds, Hl in Hb.
    rewrite Bn_16. assumption.
Qed.

Lemma pv_odd_of_hex_gen (le : bool) n cs vs : wfd 256 cs ->
  (if le then odd_of_le_hex n cs else odd_of_be_hex n cs) = Val vs -> Forall (out_ok WOdd) (firstn 1 vs).
Proof.
  intros Hw E. rewrite odd_of_hex_eq in E by assumption.
  destruct (Nat.eqb_spec (length cs) (16 * n)) as [Hl|]; [|discriminate].
  destruct (hexvals cs) as [ds|] eqn:Hh; [|discriminate].
  destruct (Z.odd (hex_value le ds)) eqn:Ho; [|discriminate]. injection E as <-.
  apply out1'. apply to_limbs_valid_odd; [eapply hex_value_bound; eassumption | assumption].
Qed.
Lemma pv_odd_from_be_hex : producer_ok pe_w_odd_from_be_hex.
Proof. unfold pe_w_odd_from_be_hex. pv_open. apply by_bytes0 in Hby. apply (pv_odd_of_hex_gen false _ _ _ Hby E). Qed.
Lemma pv_odd_from_le_hex : producer_ok pe_w_odd_from_le_hex.
Proof. unfold pe_w_odd_from_le_hex. pv_open. apply by_bytes0 in Hby. apply (pv_odd_of_hex_gen true _ _ _ Hby E). Qed.

(* ------------------------------------------------------------------ conditional selection between valid values *)
Lemma carg_bool i a : exists c : bool, carg i a = b2z c.
Proof. eexists. apply carg_b2z. Qed.

(** select_valid: whatever the choice, the selection of two valid wrappers of the same width is one of them *)
Lemma select_valid w a b c vs : wf a -> wf b -> length a = length b -> valid w a -> valid w b ->
  w_select a b (b2z c) = Val vs -> Forall (out_ok w) (firstn 1 vs).
Proof.
  intros Ha Hb Hl Va Vb E. rewrite w_select_eq in E by assumption. injection E as <-.
  apply out1; destruct c; assumption.
Qed.
Lemma swap_valid w a b c vs : wf a -> wf b -> length a = length b -> valid w a -> valid w b ->
  w_swap a b (b2z c) = Val vs -> Forall (out_ok w) (firstn 2 vs).
Proof.
  intros Ha Hb Hl Va Vb E. rewrite w_swap_eq in E by assumption.
  destruct c; injection E as <-; cbn [firstn]; repeat constructor; assumption.
Qed.

Ltac pv_sel lem :=
  pv_open; match goal with Hin : Forall _ _ |- _ => apply in_valid1 in Hin; destruct Hin as [? ?] end;
  unfold w_same_len in *;
  match goal with E : (if Nat.eqb ?x ?y then _ else _) = Val _ |- _ =>
    destruct (Nat.eqb_spec x y); [|discriminate E];
    match goal with Hwf : w_wf_args ?a |- _ =>
      let c := fresh "c" in let Hc := fresh "Hc" in
      destruct (carg_bool 2 a) as [c Hc]; rewrite Hc in E;
      eapply lem; [apply (wf_arg 0 a Hwf) | apply (wf_arg 1 a Hwf) | eassumption | eassumption | eassumption | exact E] end end.

Lemma pv_nz_select : producer_ok pe_w_nz_select.
Proof. unfold pe_w_nz_select. pv_sel select_valid. Qed.
Lemma pv_odd_select : producer_ok pe_w_odd_select.
Proof. unfold pe_w_odd_select. pv_sel select_valid. Qed.
Lemma pv_nz_swap : producer_ok pe_w_nz_swap.
Proof. unfold pe_w_nz_swap. pv_sel swap_valid. Qed.
Lemma pv_odd_swap : producer_ok pe_w_odd_swap.
Proof. unfold pe_w_odd_swap. pv_sel swap_valid. Qed.

Lemma single_of_len1 (l : list Z) : length l = 1%nat -> l = [nthz l 0].
Proof. destruct l as [|x [|y r]]; cbn [length]; intros H; try lia. reflexivity. Qed.

Lemma pv_nz_select_limb : producer_ok pe_w_nz_select_limb.
Proof.
  unfold pe_w_nz_select_limb. pv_open. apply in_valid1 in Hin. destruct Hin as [Va Vb]. unfold w_limb_args in E.
  destruct (Nat.eqb_spec (length (arg 0 a)) 1) as [H0|]; [|discriminate].
  destruct (Nat.eqb_spec (length (arg 1 a)) 1) as [H1|]; [|discriminate]. cbn [andb] in E.
  pose proof (sarg_word 0 a Hwf) as Hx. pose proof (sarg_word 1 a Hwf) as Hy.
  destruct (carg_bool 2 a) as [c Hc]. rewrite Hc, w_select_limb_eq in E by assumption. injection E as <-.
  cbn [valid] in Va, Vb. rewrite (single_of_len1 _ H0) in Va. rewrite (single_of_len1 _ H1) in Vb.
  rewrite eval_one in Va, Vb. change (nthz (arg 0 a) 0) with (sarg 0 a) in Va. change (nthz (arg 1 a) 0) with (sarg 1 a) in Vb.
  apply out1; [apply wf_one; destruct c; assumption|]. cbn [valid]. rewrite eval_one. destruct c; assumption.
Qed.

(* ------------------------------------------------------------------ serde *)
(* the Uint decoder returns one value or an error; the wrapper's test [ok] then lets only valid values through *)
Lemma serde_gate_valid w (ok : list Z -> bool) n bs vs : wfd 256 bs -> (forall r, ok r = true -> valid w r) ->
  match uint_serde_de n bs with Val [r] => if ok r then Val [r] else ErrV W_E_INVALID | o => o end = Val vs ->
  Forall (out_ok w) (firstn 1 vs).
Proof.
  intros Hby Hok E. rewrite uint_serde_de_eq in E by assumption. revert E.
  destruct (Nat.ltb _ 8); [discriminate|]. cbv zeta. destruct (_ <? _); [discriminate|]. destruct (negb _); [discriminate|].
  destruct (ok _) eqn:Eo; [|discriminate]. intros E. injection E as <-.
  apply out1; [apply wf_to_limbs | apply Hok; assumption].
Qed.
Lemma pv_nz_serde_de : producer_ok pe_w_nz_serde_de.
Proof.
  unfold pe_w_nz_serde_de. pv_open. apply by_bytes0 in Hby. rewrite nz_serde_uint_eq in E by assumption.
  apply (serde_gate_valid WNonZero (fun r => negb (eval r =? 0)) (w_n 1 a) (arg 0 a)); [assumption | |].
  - intros r Hr. apply negb_true_iff, Z.eqb_neq in Hr. exact Hr.
  - rewrite <- E. destruct (uint_serde_de _ _) as [[|r [|? ?]]| | | |]; try reflexivity. destruct (eval r =? 0); reflexivity.
Qed.
Lemma pv_odd_serde_de : producer_ok pe_w_odd_serde_de.
Proof.
  unfold pe_w_odd_serde_de. pv_open. apply by_bytes0 in Hby. rewrite odd_serde_uint_eq in E by assumption.
  apply (serde_gate_valid WOdd (fun r => Z.odd (eval r)) (w_n 1 a) (arg 0 a)); [assumption | auto | exact E].
Qed.
Lemma pv_nz_serde_de_limb : producer_ok pe_w_nz_serde_de_limb.
Proof.
  unfold pe_w_nz_serde_de_limb. pv_open. apply by_bytes0 in Hby. rewrite nz_serde_limb_eq in E by assumption.
  destruct (Nat.ltb_spec (length (arg 0 a)) 8); [discriminate|].
  assert (Hb : 0 <= evalb 256 (firstn 8 (arg 0 a)) < Bn 1).
  { apply evalb_bytes_bound; [apply wfd_firstn; assumption | rewrite firstn_length; lia]. }
  set (x := evalb 256 (firstn 8 (arg 0 a))) in *.
  destruct (Z.eqb_spec x 0); [discriminate|].
  assert (Hvs : vs = [to_limbs 1 x]) by congruence. subst vs.
  apply out1'. apply to_limbs_valid_nz; assumption.
Qed.

(* ------------------------------------------------------------------ random generation, every stream *)
Lemma rnd_out_val f o vs : rnd_out f o = Val vs ->
  exists v ws nw nb, o = Some (v, Rng ws nw nb) /\ vs = [v; [nw]; [nb]].
Proof.
  unfold rnd_out, rnd_exh. destruct o as [[v [ws nw nb]]|].
  - intros E; injection E as <-. repeat eexists.
  - destruct (f =? 0); discriminate.
Qed.

(** random_valid: for EVERY word stream, a value returned by the NonZero / Odd samplers is valid *)
Lemma random_valid_nz n ws nw nb v r : (0 < n)%nat -> wf ws ->
  nonzero_uint_random n (Rng ws nw nb) = Some (v, r) -> out_ok WNonZero v.
Proof.
  intros Hn Hws E. destruct (nonzero_uint_random_valid n ws nw nb v r Hn Hws E) as (Hw & _ & Hp).
  split; [assumption|]. cbn [valid]. lia.
Qed.
Lemma random_valid_odd n ws nw nb v r : (0 < n)%nat -> wf ws ->
  odd_uint_random n (Rng ws nw nb) = Some (v, r) -> out_ok WOdd v.
Proof.
  intros Hn Hws E. destruct (odd_uint_random_valid n ws nw nb v r Hws Hn E) as (Hw & _ & Hp). split; assumption.
Qed.
(* Odd<BoxedUint>::random: also for bit_length = 0 (the one zero limb becomes 1) *)
Lemma random_valid_odd_boxed ws nw nb bl v r : wf ws -> 0 <= bl ->
  odd_boxed_random (Rng ws nw nb) bl = Some (v, r) -> out_ok WOdd v.
Proof.
  intros Hws Hbl E. unfold odd_boxed_random, boxed_random_bits in E.
  destruct (boxed_random_bits_prec (Rng ws nw nb) bl bl) as [v0 r0| ? ? ?] eqn:Eb; [|discriminate].
  destruct (boxed_random_bits_range ws nw nb bl bl v0 r0 Hws Hbl Eb) as (Hw0 & Hl0 & _).
  assert (Hne : v0 <> []).
  { intros ->. cbn [length] in Hl0. unfold rnd_boxed_limbs in Hl0. lia. }
  destruct (rnd_set_lsb_spec v0 Hw0 Hne) as (ls' & E' & Hw' & _ & _ & Ho).
  rewrite E' in E. injection E as <- _. split; assumption.
Qed.

(* an all-zero stream exhausts the NonZero sampler *)
Lemma sp_nonzero_loop_zeros n : forall f k cnt, sp_nonzero_loop f n (zeros k) cnt = SpExhausted.
Proof.
  induction f as [|f IH]; intros k cnt; [reflexivity|]. cbn [sp_nonzero_loop].
  destruct (length (zeros k) <? n)%nat; [reflexivity|].
  assert (Hz : eval (firstn n (zeros k)) = 0).
  { pose proof (eval_firstn_skipn n (zeros k)) as He. rewrite eval_zeros in He.
    pose proof (eval_nonneg _ (wf_firstn n _ (wf_zeros k))). pose proof (eval_nonneg _ (wf_skipn n _ (wf_zeros k))).
    pose proof (Bn_pos (length (firstn n (zeros k)))).
    assert (0 <= Bn (length (firstn n (zeros k))) * eval (skipn n (zeros k))) by (apply Z.mul_nonneg_nonneg; lia). lia. }
  rewrite Hz. cbn [Z.eqb]. unfold zeros. rewrite skipn_repeat. apply IH.
Qed.

Lemma w_n_pos i a : 0 < sarg i a -> (0 < w_n i a)%nat.
Proof. unfold w_n. lia. Qed.

Lemma pv_nz_random : producer_ok pe_w_nz_random.
Proof.
  unfold pe_w_nz_random. pv_open. destruct (Z.ltb_spec 0 (sarg 1 a)) as [Hp|]; [|discriminate].
  destruct (rnd_out_val _ _ _ E) as (v & ws' & nw & nb & Eo & ->). unfold w_rng in Eo.
  apply out1'. eapply random_valid_nz; [apply w_n_pos; eassumption | apply (wf_arg 0 a Hwf) | exact Eo].
Qed.
Lemma pv_odd_random : producer_ok pe_w_odd_random.
Proof.
  unfold pe_w_odd_random. pv_open. destruct (Z.ltb_spec 0 (sarg 1 a)) as [Hp|]; [|discriminate].
  destruct (rnd_out_val _ _ _ E) as (v & ws' & nw & nb & Eo & ->). unfold w_rng in Eo.
  apply out1'. eapply random_valid_odd; [apply w_n_pos; eassumption | apply (wf_arg 0 a Hwf) | exact Eo].
Qed.
Lemma pv_odd_random_boxed : producer_ok pe_w_odd_random_boxed.
Proof.
  unfold pe_w_odd_random_boxed. pv_open.
  destruct (rnd_out_val _ _ _ E) as (v & ws' & nw & nb & Eo & ->). unfold w_rng in Eo.
  apply out1'. eapply random_valid_odd_boxed; [apply (wf_arg 0 a Hwf) | | exact Eo].
  pose proof (sarg_word 1 a Hwf) as Hb. unfold is_word in Hb. lia.
Qed.

(* ------------------------------------------------------------------ wrappers made from wrappers *)
Lemma pv_same_gen key win wout spec : (forall v, valid win v -> valid wout v) ->
  producer_ok (PE key wout 1 [(0%nat, win)] [] (fun _ a => w_same (arg 0 a)) spec).
Proof.
  intros Hv. pv_open. apply in_valid0 in Hin. injection E as <-.
  apply out1; [apply (wf_arg 0 a Hwf) | apply Hv; assumption].
Qed.
Lemma pv_nz_same : producer_ok pe_w_nz_same.
Proof. apply pv_same_gen. auto. Qed.
Lemma pv_odd_same : producer_ok pe_w_odd_same.
Proof. apply pv_same_gen. auto. Qed.
(** Odd::as_nz_ref reinterprets an Odd as a NonZero: sound because an odd value is not zero *)
Lemma pv_odd_as_nz_ref : producer_ok pe_w_odd_as_nz_ref.
Proof. apply pv_same_gen. exact valid_odd_nz. Qed.
Lemma pv_nz_widen : producer_ok pe_w_nz_widen.
Proof.
  unfold pe_w_nz_widen. pv_open. apply in_valid0 in Hin. pose proof (valid_nonempty _ _ Hin) as Hn.
  pose proof (wf_arg 0 a Hwf) as Ha.
  assert (Hl : (1 <= length (arg 0 a))%nat) by (destruct (arg 0 a); [congruence | cbn [length]; lia]).
  unfold nz_boxed_widen, vpanic in E. destruct (boxed_widen (arg 0 a) (sarg 1 a)) as [r|] eqn:Er; [|discriminate].
  injection E as <-. destruct (boxed_widen_spec _ _ r Ha Hl Er) as (_ & Hwr & _ & Her).
  apply out1; [assumption|]. cbn [valid] in *. rewrite Her. assumption.
Qed.

(* ================================================================== the table *)
(** producer_valid, by cases over the producer table with one lemma per producer *)
Theorem producers_all_ok : Forall producer_ok producers.
Proof.
  unfold producers. repeat (apply Forall_cons || apply Forall_nil).
  - exact pv_nz_new_limb.
  - exact pv_nz_new_uint.
  - exact pv_nz_new_boxed.
  - exact pv_nz_to_nz_limb.
  - exact pv_nz_to_nz_uint.
  - exact pv_nz_new_unwrap_limb.
  - exact pv_nz_new_unwrap_uint.
  - exact pv_odd_new.
  - exact pv_odd_to_odd.
  - exact pv_odd_to_odd_unwrap.
  - exact pv_nz_one.
  - exact pv_nz_max.
  - exact pv_nz_default.
  - exact pv_odd_default.
  - exact pv_nz_from_prim_limb.
  - exact pv_nz_from_prim_uint.
  - exact pv_nz_abs_sign.
  - exact pv_nz_from_be_bytes.
  - exact pv_nz_from_le_bytes.
  - exact pv_nz_from_be_byte_array.
  - exact pv_nz_from_le_byte_array.
  - exact pv_nz_from_be_bytes_limb.
  - exact pv_nz_from_le_bytes_limb.
  - exact pv_odd_from_be_hex.
  - exact pv_odd_from_le_hex.
  - exact pv_nz_select_limb.
  - exact pv_nz_select.
  - exact pv_nz_swap.
  - exact pv_odd_select.
  - exact pv_odd_swap.
  - exact pv_nz_serde_de.
  - exact pv_odd_serde_de.
  - exact pv_nz_serde_de_limb.
  - exact pv_nz_random.
  - exact pv_odd_random.
  - exact pv_odd_random_boxed.
  - exact pv_nz_same.
  - exact pv_odd_same.
  - exact pv_odd_as_nz_ref.
  - exact pv_nz_widen.
Qed.

Definition run_producer (p : pentry) (dbg : bool) (args : list (list Z)) : outcome := pe_model p dbg args.

Theorem producer_valid : forall p dbg args vs, In p producers -> dom p args ->
  run_producer p dbg args = Val vs -> Forall (out_ok (pe_out p)) (firstn (pe_nout p) vs).
Proof.
  intros p dbg args vs Hin. pose proof producers_all_ok as H. rewrite Forall_forall in H. apply (H p Hin).
Qed.

(** the op tables the correspondence harness runs ARE the producer table: a table made of one field [f] of the
    entries, looked up at the key of an entry, returns that entry's field *)
Lemma lookup_producer (f : pentry -> opfn) ps p : In p ps -> NoDup (map pe_key ps) ->
  lookup (pe_key p) (map (fun e => (pe_key e, f e)) ps) = Some (f p).
Proof.
  induction ps as [|q l IH]; intros Hin Hnd; [contradiction|].
  cbn [map lookup]. inversion Hnd as [|? ? Hnotin Hnd']; subst. destruct Hin as [->|Hin].
  - rewrite String.eqb_refl. reflexivity.
  - destruct (String.eqb_spec (pe_key p) (pe_key q)) as [Heq|]; [|apply IH; assumption].
    exfalso. apply Hnotin. rewrite <- Heq. apply in_map. assumption.
Qed.

(* ================================================================== every call history *)
(** a wrapper value is OBTAINABLE when it is a wrapper-typed component of the result of a producer applied to
    well-formed arguments whose byte-string arguments are bytes and whose wrapper-typed arguments are themselves
    obtainable: the least set closed under the public API. *)
Inductive obtainable : wrapper -> list Z -> Prop :=
| Obt : forall p dbg args vs v,
    In p producers ->
    w_wf_args args ->
    Forall (fun j => wfd 256 (arg j args)) (pe_bytes p) ->
    Forall (fun jw => obtainable (snd jw) (arg (fst jw) args)) (pe_ins p) ->
    run_producer p dbg args = Val vs ->
    In v (firstn (pe_nout p) vs) ->
    obtainable (pe_out p) v.

(** no obtainable NonZero is zero, no obtainable Odd is even: by induction over the history *)
Theorem obtainable_valid : forall w v, obtainable w v -> wf v /\ valid w v.
Proof.
  fix IH 3. intros w v H. destruct H as [p dbg args vs v Hp Hwf Hby Hins E Hv].
  assert (Hd : dom p args).
  { split; [assumption|]. split; [assumption|].
    clear - Hins IH. induction Hins as [|jw l Hj Hl IHl]; constructor; [|assumption].
    apply IH in Hj. tauto. }
  pose proof (producer_valid p dbg args vs Hp Hd E) as Hall. rewrite Forall_forall in Hall. apply Hall. assumption.
Qed.
