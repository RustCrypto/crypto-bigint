(** C05 proofs, part 3: bitwise operators and bit queries agree with the binary expansion
    (Z.testbit / Z.land / Z.lor / Z.lxor / Z.log2) of the represented integer. *)
From CB Require Import Model.Limbs Model.AddSub Model.Bits Proofs.WordP Proofs.LimbsP Proofs.AddSubP
  Proofs.BitsWordP.
From Coq Require Import ZArith Lia List Bool.
Open Scope Z_scope.

Section BitOp.
  Variable f : Z -> Z -> Z.
  Variable g : bool -> bool -> bool.
  Hypothesis f_spec : forall a b i, Z.testbit (f a b) i = g (Z.testbit a i) (Z.testbit b i).
  Hypothesis f_word : forall x y, is_word x -> is_word y -> is_word (f x y).
  Hypothesis f_00 : f 0 0 = 0.

  Lemma bitop_cons x y r s : is_word x -> is_word y -> f (x + B * r) (y + B * s) = f x y + B * f r s.
  Proof.
    intros Hx Hy. apply Z.bits_inj'. intros i Hi.
    rewrite f_spec, !testbit_word_cons by auto.
    destruct (i <? 64); rewrite f_spec; reflexivity.
  Qed.

  Lemma eval_map2 a : forall b, wf a -> wf b -> length a = length b ->
    let r := map (fun p => f (fst p) (snd p)) (combine a b) in
    wf r /\ length r = length a /\ eval r = f (eval a) (eval b).
  Proof.
    induction a as [|x a IH]; intros b Ha Hb Hl; cbn zeta.
    - destruct b; [|discriminate]. simpl. rewrite f_00. auto using wf_nil.
    - destruct b as [|y b]; [discriminate|].
      apply wf_cons in Ha. destruct Ha as [Hx Ha]. apply wf_cons in Hb. destruct Hb as [Hy Hb].
      simpl in Hl. specialize (IH b Ha Hb ltac:(lia)). cbn zeta in IH. destruct IH as (IHw & IHl & IHe).
      cbn [combine map fst snd eval length].
      split; [apply wf_cons; split; auto|]. split; [lia|].
      rewrite IHe. symmetry. apply bitop_cons; assumption.
  Qed.
End BitOp.

Lemma limbs_and_correct a b : wf a -> wf b -> length a = length b ->
  wf (limbs_and a b) /\ length (limbs_and a b) = length a /\ eval (limbs_and a b) = Z.land (eval a) (eval b).
Proof. apply (eval_map2 wand andb); [apply Z.land_spec | apply is_word_land | reflexivity]. Qed.
Lemma limbs_or_correct a b : wf a -> wf b -> length a = length b ->
  wf (limbs_or a b) /\ length (limbs_or a b) = length a /\ eval (limbs_or a b) = Z.lor (eval a) (eval b).
Proof. apply (eval_map2 wor orb); [apply Z.lor_spec | apply is_word_lor | reflexivity]. Qed.
Lemma limbs_xor_correct a b : wf a -> wf b -> length a = length b ->
  wf (limbs_xor a b) /\ length (limbs_xor a b) = length a /\ eval (limbs_xor a b) = Z.lxor (eval a) (eval b).
Proof. apply (eval_map2 wxor xorb); [apply Z.lxor_spec | apply is_word_lxor | reflexivity]. Qed.

Lemma limbs_not_correct a : wf a ->
  wf (limbs_not a) /\ length (limbs_not a) = length a /\ eval (limbs_not a) = Bn (length a) - 1 - eval a.
Proof.
  induction a as [|x a IH]; intros Hw.
  - simpl. rewrite Bn_0. auto using wf_nil.
  - apply wf_cons in Hw. destruct Hw as [Hx Ha]. destruct (IH Ha) as (IHw & IHl & IHe).
    unfold limbs_not in *. cbn [map eval length]. rewrite Bn_S.
    split; [apply wf_cons; split; [apply is_word_wnot; assumption | assumption]|].
    split; [lia|]. rewrite IHe. unfold wnot. pose proof MAXW_val. lia.
Qed.

(** every bit of the result is the complement, within the width *)
Lemma limbs_not_testbit a i : wf a -> 0 <= i < 64 * Z.of_nat (length a) ->
  Z.testbit (eval (limbs_not a)) i = negb (Z.testbit (eval a) i).
Proof.
  intros Hw Hi. destruct (limbs_not_correct a Hw) as (_ & _ & E). rewrite E.
  replace (Bn (length a) - 1 - eval a) with (Z.lnot (eval a) + 1 * Bn (length a)) by (unfold Z.lnot; lia).
  rewrite Bn_pow2. rewrite <- (Z.mod_pow2_bits_low _ (64 * Z.of_nat (length a))) by lia.
  pose proof (pow2_pos (64 * Z.of_nat (length a)) ltac:(lia)).
  rewrite Z.mod_add by lia. rewrite Z.mod_pow2_bits_low by lia. apply Z.lnot_spec. lia.
Qed.

Lemma limbs_and_limb_correct a l : limbs_and_limb a l = limbs_and a (repeat l (length a)).
Proof.
  unfold limbs_and_limb, limbs_and. induction a as [|x a IH]; [reflexivity|].
  cbn [map length repeat combine fst snd]. rewrite IH. reflexivity.
Qed.

Lemma wf_repeat l n : is_word l -> wf (repeat l n).
Proof. intros Hl. unfold wf. apply Forall_forall. intros x Hx. apply repeat_spec in Hx. subst. exact Hl. Qed.

Theorem uint_and_limb_correct a l : wf a -> is_word l ->
  wf (limbs_and_limb a l) /\ length (limbs_and_limb a l) = length a /\
  eval (limbs_and_limb a l) = Z.land (eval a) (eval (repeat l (length a))).
Proof.
  intros Hw Hl. rewrite limbs_and_limb_correct.
  apply limbs_and_correct; auto using wf_repeat. rewrite repeat_length. reflexivity.
Qed.

(** BoxedUint: operands of different precisions are zero-extended to the wider one *)
Section BoxedOp.
  Variable fl : list Z -> list Z -> list Z.
  Variable fz : Z -> Z -> Z.
  Hypothesis fl_correct : forall a b, wf a -> wf b -> length a = length b ->
    wf (fl a b) /\ length (fl a b) = length a /\ eval (fl a b) = fz (eval a) (eval b).
  Lemma boxed_map2_correct a b : wf a -> wf b ->
    let n := Nat.max (length a) (length b) in
    wf (boxed_map2 fl a b) /\ length (boxed_map2 fl a b) = n /\ eval (boxed_map2 fl a b) = fz (eval a) (eval b).
  Proof.
    intros Ha Hb. cbn zeta. unfold boxed_map2. set (n := Nat.max (length a) (length b)).
    destruct (fl_correct (resize n a) (resize n b)) as (W & L & E);
      [apply wf_resize; assumption | apply wf_resize; assumption | rewrite !length_resize; reflexivity|].
    rewrite length_resize in L. rewrite !eval_resize_ge in E by (auto; unfold n; lia). auto.
  Qed.
End BoxedOp.

Definition boxed_and_correct := boxed_map2_correct limbs_and Z.land limbs_and_correct.
Definition boxed_or_correct := boxed_map2_correct limbs_or Z.lor limbs_or_correct.
Definition boxed_xor_correct := boxed_map2_correct limbs_xor Z.lxor limbs_xor_correct.

(** BoxedUint |= is `*self = self | rhs`: it widens to the larger precision exactly like | (and &=, ^=) *)
Theorem boxed_or_assign_correct a b : wf a -> wf b ->
  let n := Nat.max (length a) (length b) in
  boxed_or_assign a b = boxed_map2 limbs_or a b /\
  wf (boxed_or_assign a b) /\ length (boxed_or_assign a b) = n /\
  eval (boxed_or_assign a b) = Z.lor (eval a) (eval b).
Proof. intros Ha Hb. cbn zeta. split; [reflexivity|]. exact (boxed_or_correct a b Ha Hb). Qed.

(** one round of the scan: limb [i] is kept iff [i] is the limb number looked for *)
Lemma bit_loop_cons mask ln x ls i res : is_word mask -> is_word x -> 0 <= i < U32 -> 0 <= ln < U32 ->
  bit_loop (x :: ls) i ln mask res = bit_loop ls (i + 1) ln mask (if i =? ln then wor res (wand x mask) else res).
Proof.
  intros Hm Hx Hi Hln. cbn [bit_loop]. rewrite from_u32_eq_bool by assumption.
  rewrite if_true_word_bool by (apply is_word_land; assumption).
  destruct (i =? ln); [reflexivity|]. unfold wor. rewrite Z.lor_0_r. reflexivity.
Qed.

Lemma bit_loop_past mask ln : is_word mask -> 0 <= ln -> forall ls i res,
  wf ls -> ln < i -> i + Z.of_nat (length ls) < U32 -> bit_loop ls i ln mask res = res.
Proof.
  intros Hm Hln. induction ls as [|x ls IH]; intros i res Hw Hi Hlen; [reflexivity|].
  apply wf_cons in Hw. destruct Hw as [Hx Hl]. cbn [length] in Hlen. rewrite Nat2Z.inj_succ in Hlen.
  rewrite bit_loop_cons by (auto; lia). destruct (Z.eqb_spec i ln); [lia|]. apply IH; auto; lia.
Qed.

(** the scan returns limb [ln] masked (limbs beyond the end read as 0) *)
Lemma bit_loop_correct mask ln : is_word mask -> forall ls i res,
  wf ls -> 0 <= i <= ln -> ln < U32 -> i + Z.of_nat (length ls) < U32 ->
  bit_loop ls i ln mask res = wor res (wand (nthz ls (Z.to_nat (ln - i))) mask).
Proof.
  intros Hm. induction ls as [|x ls IH]; intros i res Hw Hi Hln Hlen.
  - cbn [bit_loop]. unfold nthz. destruct (Z.to_nat (ln - i)); cbn [nth]; unfold wor, wand; rewrite Z.land_0_l, Z.lor_0_r; reflexivity.
  - apply wf_cons in Hw. destruct Hw as [Hx Hl]. cbn [length] in Hlen. rewrite Nat2Z.inj_succ in Hlen.
    rewrite bit_loop_cons by (auto; lia). destruct (Z.eqb_spec i ln) as [->|Hne].
    + rewrite bit_loop_past by (auto; lia). rewrite Z.sub_diag. reflexivity.
    + rewrite IH by (auto; lia). replace (Z.to_nat (ln - i)) with (S (Z.to_nat (ln - (i + 1)))) by lia. reflexivity.
Qed.

Theorem limbs_bit_correct ls index : wf ls -> Z.of_nat (length ls) < U32 -> 0 <= index < U32 ->
  limbs_bit ls index = choice_of_bool (Z.testbit (eval ls) index).
Proof.
  intros Hw Hlen Hi. unfold limbs_bit.
  pose proof (Z.mod_pos_bound index 64 ltac:(lia)) as Hmb.
  assert (Hq : 0 <= index / 64 < U32).
  { split; [apply Z.div_pos; lia|]. apply Z.div_lt_upper_bound; unfold U32 in *; lia. }
  rewrite wshl_1, bit_loop_correct by (auto using is_word_pow2; lia).
  rewrite testbit_eval, Z.sub_0_r by (auto; lia).
  set (x := nthz ls (Z.to_nat (index / 64))). set (k := index mod 64) in *.
  unfold wor, wand, wshr. rewrite Z.lor_0_l, land_pow2 by lia. pose proof (pow2_pos k ltac:(lia)).
  destruct (Z.testbit x k); [rewrite Z.div_same by lia | rewrite Z.div_0_l by lia]; reflexivity.
Qed.

Theorem limbs_bit_vartime_correct ls index : wf ls -> 0 <= index ->
  limbs_bit_vartime ls index = Z.testbit (eval ls) index.
Proof.
  intros Hw Hi. unfold limbs_bit_vartime, lenZ.
  pose proof (Z.div_mod index 64 ltac:(lia)) as Hdm. pose proof (Z.mod_pos_bound index 64 ltac:(lia)) as Hmb.
  assert (Hq : 0 <= index / 64) by (apply Z.div_pos; lia).
  destruct (Z.leb_spec (Z.of_nat (length ls)) (index / 64)).
  - symmetry. apply testbit_eval_high; [assumption | lia].
  - rewrite testbit_eval by assumption.
    set (x := nthz ls (Z.to_nat (index / 64))). set (k := index mod 64) in *.
    unfold wshr. rewrite land_1_mod2. rewrite <- (Z.testbit_spec' x k) by lia.
    destruct (Z.testbit x k); reflexivity.
Qed.

Lemma eval_zero_cons x ls : is_word x -> wf ls -> (x + B * eval ls =? 0) = (eval ls =? 0) && (x =? 0).
Proof.
  unfold is_word. intros Hx Hl. pose proof (eval_nonneg ls Hl). pose proof B_pos.
  destruct (Z.eqb_spec (eval ls) 0) as [->|]; destruct (Z.eqb_spec x 0) as [->|]; simpl;
    apply Z.eqb_neq || apply Z.eqb_eq; nia.
Qed.

Lemma lz_scan_correct ls : wf ls ->
  lz_scan ls = (64 * Z.of_nat (length ls) - bitlen (eval ls), choice_of_bool (eval ls =? 0)).
Proof.
  induction ls as [|l ls IH]; intros Hw; [reflexivity|].
  apply wf_cons in Hw. destruct Hw as [Hl Hls]. cbn [lz_scan]. rewrite (IH Hls).
  pose proof (wlz_range l Hl).
  rewrite if_true_u32_bool by (unfold U32; lia).
  rewrite from_word_nonzero_spec by assumption. unfold choice_not. rewrite wnot_choice, negb_involutive, choice_and_bool.
  cbn [eval length]. rewrite Nat2Z.inj_succ.
  rewrite bitlen_cons by (auto using eval_nonneg). rewrite eval_zero_cons by assumption.
  f_equal. destruct (Z.eqb_spec (eval ls) 0) as [E|]; [rewrite E, bitlen_0; unfold wlz|]; lia.
Qed.

Theorem limbs_leading_zeros_correct ls : wf ls ->
  limbs_leading_zeros ls = 64 * Z.of_nat (length ls) - spec_bits (eval ls).
Proof. intros Hw. unfold limbs_leading_zeros. rewrite lz_scan_correct by assumption. reflexivity. Qed.

Lemma top_nonzero_correct ls : wf ls -> forall i,
  match top_nonzero ls i with
  | None => eval ls = 0
  | Some (j, l) => is_word l /\ i <= j /\ eval ls <> 0 /\ bitlen (eval ls) = 64 * (j - i) + bitlen l
  end.
Proof.
  induction ls as [|x ls IH]; intros Hw i; [reflexivity|].
  apply wf_cons in Hw. destruct Hw as [Hx Hl]. cbn [top_nonzero eval]. specialize (IH Hl (i + 1)).
  pose proof (eval_nonneg ls Hl). pose proof B_pos. unfold is_word in Hx.
  destruct (top_nonzero ls (i + 1)) as [[j l]|].
  - destruct IH as (Wl & Hj & Hne & Hb).
    rewrite bitlen_cons by (auto using eval_nonneg). destruct (Z.eqb_spec (eval ls) 0); [contradiction|].
    split; [exact Wl|]. split; [lia|]. split; [nia | lia].
  - rewrite IH. destruct (Z.eqb_spec x 0) as [->|Hnz]; [lia|].
    split; [exact Hx|]. split; [lia|]. split; [lia|]. rewrite Z.sub_diag, Z.mul_0_r, Z.add_0_l. f_equal. lia.
Qed.

Theorem limbs_bits_vartime_correct ls : wf ls -> ls <> [] ->
  limbs_bits_vartime ls = Some (spec_bits (eval ls)).
Proof.
  intros Hw Hne. destruct ls as [|x0 r]; [congruence|].
  apply wf_cons in Hw. destruct Hw as [Hx Hr]. unfold limbs_bits_vartime.
  pose proof (top_nonzero_correct r Hr 1) as H. change (spec_bits (eval (x0 :: r))) with (bitlen (eval (x0 :: r))). cbn [eval].
  rewrite bitlen_cons by (auto using eval_nonneg).
  destruct (top_nonzero r 1) as [[i l]|].
  - destruct H as (Wl & Hi & Hne' & Hb). destruct (Z.eqb_spec (eval r) 0); [contradiction|].
    f_equal. unfold wlz. lia.
  - rewrite H. f_equal. unfold wlz. cbn [Z.eqb]. lia.
Qed.

(** constant-time and variable-time bit length agree *)
Theorem bits_ct_eq_vartime ls : wf ls -> ls <> [] ->
  limbs_bits_vartime ls = Some (64 * Z.of_nat (length ls) - limbs_leading_zeros ls).
Proof.
  intros Hw Hne. rewrite limbs_bits_vartime_correct, limbs_leading_zeros_correct by assumption. f_equal. lia.
Qed.

(** [spec_bits] is the position of the highest set bit plus one *)
Lemma spec_bits_testbit v : 0 < v ->
  Z.testbit v (spec_bits v - 1) = true /\ forall i, spec_bits v <= i -> Z.testbit v i = false.
Proof.
  intros Hv. unfold spec_bits. destruct (Z.leb_spec v 0); [lia|].
  replace (Z.log2 v + 1 - 1) with (Z.log2 v) by lia.
  split; [apply Z.bit_log2; lia|]. intros i Hi. apply Z.bits_above_log2; lia.
Qed.

(** what [first_bit] computes: the least index in [0, k) whose bit equals b (k if there is none) *)
Lemma first_bit_spec b v k : forall i, 0 <= i ->
  let t := first_bit b k i v in
  i <= t <= i + Z.of_nat k /\ (forall j, i <= j < t -> Z.testbit v j = negb b) /\
  (t < i + Z.of_nat k -> Z.testbit v t = b).
Proof.
  induction k as [|k IH]; intros i Hi; cbn zeta.
  - simpl. repeat split; try lia.
  - cbn [first_bit]. rewrite Nat2Z.inj_succ.
    destruct (Bool.eqb (Z.testbit v i) b) eqn:E.
    + apply eqb_prop in E. repeat split; try lia. intros _. exact E.
    + specialize (IH (i + 1) ltac:(lia)). cbn zeta in IH. destruct IH as (I1 & I2 & I3).
      repeat split; try lia.
      * intros j Hj. destruct (Z.eq_dec j i) as [->|]; [|apply I2; lia].
        destruct (Z.testbit v i), b; simpl in E; try discriminate; reflexivity.
      * intros Hlt. apply I3. lia.
Qed.

Lemma first_bit_found b v k : forall i t, 0 <= i -> i <= t <= i + Z.of_nat k ->
  (forall j, i <= j < t -> Z.testbit v j = negb b) ->
  (t < i + Z.of_nat k -> Z.testbit v t = b) ->
  first_bit b k i v = t.
Proof.
  induction k as [|k IH]; intros i t Hi Ht Hlow Hat.
  - simpl in *. lia.
  - cbn [first_bit]. rewrite Nat2Z.inj_succ in *.
    destruct (Z.eq_dec t i) as [->|Hne].
    + rewrite Hat by lia. rewrite eqb_reflx. reflexivity.
    + rewrite Hlow by lia. destruct b; cbn [negb Bool.eqb]; apply IH; try lia;
        try (intros j Hj; apply Hlow; lia); intros; apply Hat; lia.
Qed.

Theorem limb_trailing_zeros_correct x : is_word x -> wtz x = spec_trailing_zeros 64 x.
Proof.
  intros Hx. pose proof (wtz_spec x Hx) as (Hr & Hz & Hb & Hlow). unfold spec_trailing_zeros. symmetry.
  apply first_bit_found; try (change (Z.of_nat 64) with 64); try lia.
  - intros j Hj. apply Hlow. lia.
  - intros Hlt. apply Hb. intros E. assert (wtz x = 64) by (apply Hz; exact E). lia.
Qed.

Theorem limb_trailing_ones_correct x : is_word x -> wto x = spec_trailing_ones 64 x.
Proof.
  intros Hx. pose proof (wto_spec x Hx) as (Hr & Hz & Hb & Hlow). unfold spec_trailing_ones. symmetry.
  apply first_bit_found; try (change (Z.of_nat 64) with 64); try lia.
  - intros j Hj. apply Hlow. lia.
  - intros Hlt. apply Hb. intros E. assert (wto x = 64) by (apply Hz; exact E). lia.
Qed.

Lemma wtz_full x : is_word x -> (wtz x =? 64) = (x =? 0).
Proof.
  intros Hx. destruct (wtz_spec x Hx) as (_ & Hz & _).
  destruct (Z.eqb_spec x 0) as [E|N]; [apply Z.eqb_eq, Hz, E | apply Z.eqb_neq; intros E; apply N, Hz, E].
Qed.

Lemma wto_full x : is_word x -> (wto x =? 64) = (x =? MAXW).
Proof.
  intros Hx. destruct (wto_spec x Hx) as (_ & Hz & _).
  destruct (Z.eqb_spec x MAXW) as [E|N]; [apply Z.eqb_eq, Hz, E | apply Z.eqb_neq; intros E; apply N, Hz, E].
Qed.

(** the search over [x + B * r] looks through the low limb first *)
Lemma first_bit_cons b x r n : is_word x ->
  first_bit b (64 + n) 0 (x + B * r) =
  if first_bit b 64 0 x =? 64 then 64 + first_bit b n 0 r else first_bit b 64 0 x.
Proof.
  intros Hx.
  destruct (first_bit_spec b x 64 0 ltac:(lia)) as (X1 & X2 & X3).
  destruct (first_bit_spec b r n 0 ltac:(lia)) as (R1 & R2 & R3).
  set (tx := first_bit b 64 0 x) in *. set (tr := first_bit b n 0 r) in *.
  change (Z.of_nat 64) with 64 in *. rewrite Z.add_0_l in *.
  apply first_bit_found; rewrite ?Nat2Z.inj_add; try (change (Z.of_nat 64) with 64);
    destruct (Z.eqb_spec tx 64) as [E|N]; try lia.
  - intros j Hj. rewrite testbit_word_cons by (auto; lia).
    destruct (Z.ltb_spec j 64); [apply X2 | apply R2]; lia.
  - intros j Hj. rewrite testbit_word_cons by (auto; lia).
    destruct (Z.ltb_spec j 64); [apply X2; lia | lia].
  - intros Hlt. rewrite testbit_word_cons by (auto; lia).
    destruct (Z.ltb_spec (64 + tr) 64); [lia|]. replace (64 + tr - 64) with tr by lia. apply R3. lia.
  - intros _. rewrite testbit_word_cons by (auto; lia).
    destruct (Z.ltb_spec tx 64); [apply X3|]; lia.
Qed.

Lemma first_bit_cons_limbs b x ls : is_word x ->
  first_bit b (64 * length (x :: ls)) 0 (eval (x :: ls)) =
  if first_bit b 64 0 x =? 64 then 64 + first_bit b (64 * length ls) 0 (eval ls) else first_bit b 64 0 x.
Proof.
  intros Hx. cbn [length eval]. rewrite Nat.mul_succ_r, Nat.add_comm. apply first_bit_cons, Hx.
Qed.

(** The four scans (constant / variable time, for the first 1 / the first 0) are two loops over the count [cnt] of one
    limb (wtz / wto), which is [first_bit b] of the limb; [keep] is the flag update of the constant-time loop. *)
Section TrailingLoops.
  Variable b : bool.
  Variable cnt keep : Z -> Z.
  Hypothesis cnt_first : forall x, is_word x -> cnt x = first_bit b 64 0 x.
  Hypothesis keep_full : forall x, is_word x -> keep x = choice_of_bool (cnt x =? 64).

  Fixpoint ct_loop (ls : list Z) (count nz : Z) : Z :=
    match ls with
    | [] => count
    | l :: r => ct_loop r (count + if_true_u32 nz (cnt l)) (choice_and nz (keep l))
    end.
  Fixpoint vt_loop (ls : list Z) (count : Z) : Z :=
    match ls with
    | [] => count
    | l :: r => let z := cnt l in if z =? 64 then vt_loop r (count + z) else count + z
    end.

  Lemma ct_loop_correct ls : wf ls -> forall count c,
    ct_loop ls count (choice_of_bool c) = if c then count + first_bit b (64 * length ls) 0 (eval ls) else count.
  Proof.
    induction ls as [|l ls IH]; intros Hw count c.
    - simpl. destruct c; lia.
    - apply wf_cons in Hw. destruct Hw as [Hl Hls].
      rewrite first_bit_cons_limbs, <- cnt_first by assumption. cbn [ct_loop].
      destruct (first_bit_spec b l 64 0 ltac:(lia)) as (Hr & _). rewrite <- cnt_first in Hr by assumption.
      rewrite if_true_u32_bool by (unfold U32; change (Z.of_nat 64) with 64 in Hr; lia).
      rewrite keep_full, choice_and_bool, IH by assumption.
      destruct c; cbn [andb]; [|lia]. destruct (Z.eqb_spec (cnt l) 64); lia.
  Qed.

  Lemma vt_loop_correct ls : wf ls -> forall count,
    vt_loop ls count = count + first_bit b (64 * length ls) 0 (eval ls).
  Proof.
    induction ls as [|l ls IH]; intros Hw count.
    - simpl. lia.
    - apply wf_cons in Hw. destruct Hw as [Hl Hls].
      rewrite first_bit_cons_limbs, <- cnt_first by assumption. cbn [vt_loop].
      destruct (Z.eqb_spec (cnt l) 64) as [E|]; [|reflexivity]. rewrite IH by assumption. lia.
  Qed.
End TrailingLoops.

Lemma tz_keep x : is_word x -> choice_not (from_word_nonzero x) = choice_of_bool (wtz x =? 64).
Proof. intros Hx. unfold choice_not. rewrite from_word_nonzero_spec, wnot_choice, negb_involutive, wtz_full by assumption. reflexivity. Qed.

Lemma to_keep x : is_word x -> from_word_eq x MAXW = choice_of_bool (wto x =? 64).
Proof. intros Hx. rewrite from_word_eq_spec, wto_full by (auto using is_word_MAXW). reflexivity. Qed.

Theorem limbs_trailing_zeros_correct ls : wf ls ->
  limbs_trailing_zeros ls = spec_trailing_zeros (64 * length ls) (eval ls).
Proof. intros Hw. exact (ct_loop_correct true wtz _ limb_trailing_zeros_correct tz_keep ls Hw 0 true). Qed.

Theorem limbs_trailing_zeros_vartime_correct ls : wf ls ->
  limbs_trailing_zeros_vartime ls = spec_trailing_zeros (64 * length ls) (eval ls).
Proof. intros Hw. exact (vt_loop_correct true wtz limb_trailing_zeros_correct ls Hw 0). Qed.

Theorem limbs_trailing_ones_correct ls : wf ls ->
  limbs_trailing_ones ls = spec_trailing_ones (64 * length ls) (eval ls).
Proof. intros Hw. exact (ct_loop_correct false wto _ limb_trailing_ones_correct to_keep ls Hw 0 true). Qed.

Theorem limbs_trailing_ones_vartime_correct ls : wf ls ->
  limbs_trailing_ones_vartime ls = spec_trailing_ones (64 * length ls) (eval ls).
Proof. intros Hw. exact (vt_loop_correct false wto limb_trailing_ones_correct ls Hw 0). Qed.

Lemma set_bit_word_true x k : 0 <= k -> wor x (2 ^ k) = x + 2 ^ k * (1 - b2z (Z.testbit x k)).
Proof. intros Hk. unfold wor. rewrite <- Z.setbit_spec'. apply setbit_val, Hk. Qed.

Lemma set_bit_word_false x k : is_word x -> 0 <= k < 64 ->
  wand x (wnot (2 ^ k)) = x - 2 ^ k * b2z (Z.testbit x k).
Proof.
  intros Hx Hk. rewrite <- clearbit_val by lia. unfold wand. apply Z.bits_inj'. intros i Hi.
  rewrite Z.land_spec, Z.clearbit_eqb. destruct (Z_lt_ge_dec i 64).
  - rewrite wnot_testbit, Z.pow2_bits_eqb by (auto using is_word_pow2; lia). reflexivity.
  - rewrite (word_high_bits x i) by (auto; lia). reflexivity.
Qed.

Lemma eval_update_nth f : forall ls k, (k < length ls)%nat ->
  eval (update_nth ls k f) = eval ls + Bn k * (f (nthz ls k) - nthz ls k) /\
  length (update_nth ls k f) = length ls.
Proof.
  induction ls as [|x ls IH]; intros k Hk; [simpl in Hk; lia|].
  destruct k as [|k].
  - cbn [update_nth eval length]. unfold nthz. cbn [nth]. rewrite Bn_0. split; [lia | reflexivity].
  - cbn [update_nth eval length]. simpl in Hk. destruct (IH k ltac:(lia)) as (E & L).
    rewrite E, L, Bn_S. unfold nthz. cbn [nth]. split; [ring | reflexivity].
Qed.

Lemma wf_update_nth f : (forall x, is_word x -> is_word (f x)) -> forall ls k, wf ls -> wf (update_nth ls k f).
Proof.
  intros Hf. induction ls as [|x ls IH]; intros k Hw; [apply wf_nil|].
  apply wf_cons in Hw. destruct Hw as [Hx Hl]. destruct k; cbn [update_nth]; apply wf_cons; auto.
Qed.

Lemma wf_nthz ls k : wf ls -> is_word (nthz ls k).
Proof.
  intros Hw. unfold nthz. destruct (Nat.lt_ge_cases k (length ls)).
  - unfold wf in Hw. rewrite Forall_forall in Hw. apply Hw. apply nth_In. assumption.
  - rewrite nth_overflow by assumption. apply is_word_0'.
Qed.

Definition set_word (b : bool) (mask x : Z) : Z := if b then wor x mask else wand x (wnot mask).

Lemma is_word_set_word b mask x : is_word mask -> is_word x -> is_word (set_word b mask x).
Proof. intros. unfold set_word. destruct b; [apply is_word_lor | apply is_word_land]; auto using is_word_wnot. Qed.

Lemma update_nth_overflow f : forall ls k, (length ls <= k)%nat -> update_nth ls k f = ls.
Proof.
  induction ls as [|x ls IH]; intros k Hk; [reflexivity|].
  destruct k; cbn [length] in Hk; [lia|]. cbn [update_nth]. rewrite IH by lia. reflexivity.
Qed.

Lemma set_bit_loop_cons b mask ln x ls i : is_word mask -> is_word x -> 0 <= i < U32 -> 0 <= ln < U32 ->
  set_bit_loop (x :: ls) i ln mask (choice_of_bool b) =
  (if i =? ln then set_word b mask x else x) :: set_bit_loop ls (i + 1) ln mask (choice_of_bool b).
Proof.
  intros Hm Hx Hi Hln. cbn [set_bit_loop]. rewrite from_u32_eq_bool by assumption.
  rewrite (select_word_choice b) by (first [apply is_word_lor | apply is_word_land]; auto using is_word_wnot).
  fold (set_word b mask x). rewrite select_word_choice by (auto using is_word_set_word). reflexivity.
Qed.

Lemma set_bit_loop_past b mask ln : is_word mask -> 0 <= ln -> forall ls i,
  wf ls -> ln < i -> i + Z.of_nat (length ls) < U32 -> set_bit_loop ls i ln mask (choice_of_bool b) = ls.
Proof.
  intros Hm Hln. induction ls as [|x ls IH]; intros i Hw Hi Hlen; [reflexivity|].
  apply wf_cons in Hw. destruct Hw as [Hx Hl]. cbn [length] in Hlen. rewrite Nat2Z.inj_succ in Hlen.
  rewrite set_bit_loop_cons by (auto; lia). destruct (Z.eqb_spec i ln); [lia|]. rewrite IH by (auto; lia). reflexivity.
Qed.

(** the scan rewrites limb [ln] (no limb if [ln] is beyond the end) *)
Lemma set_bit_loop_correct b mask ln : is_word mask -> forall ls i,
  wf ls -> 0 <= i <= ln -> ln < U32 -> i + Z.of_nat (length ls) < U32 ->
  set_bit_loop ls i ln mask (choice_of_bool b) = update_nth ls (Z.to_nat (ln - i)) (set_word b mask).
Proof.
  intros Hm. induction ls as [|x ls IH]; intros i Hw Hi Hln Hlen; [reflexivity|].
  apply wf_cons in Hw. destruct Hw as [Hx Hl]. cbn [length] in Hlen. rewrite Nat2Z.inj_succ in Hlen.
  rewrite set_bit_loop_cons by (auto; lia). destruct (Z.eqb_spec i ln) as [->|Hne].
  - rewrite set_bit_loop_past by (auto; lia). rewrite Z.sub_diag. reflexivity.
  - rewrite IH by (auto; lia). replace (Z.to_nat (ln - i)) with (S (Z.to_nat (ln - (i + 1)))) by lia. reflexivity.
Qed.

Lemma update_set_word_correct ls index b : wf ls -> 0 <= index < 64 * Z.of_nat (length ls) ->
  let r := update_nth ls (Z.to_nat (index / 64)) (set_word b (2 ^ (index mod 64))) in
  wf r /\ length r = length ls /\ eval r = spec_set_bit (eval ls) index b.
Proof.
  intros Hw Hi. cbn zeta.
  pose proof (Z.div_mod index 64 ltac:(lia)) as Hdm. pose proof (Z.mod_pos_bound index 64 ltac:(lia)) as Hmb.
  assert (Hq : 0 <= index / 64 < Z.of_nat (length ls)).
  { split; [apply Z.div_pos; lia|]. apply Z.div_lt_upper_bound; lia. }
  set (q := index / 64) in *. set (k := index mod 64) in *.
  pose proof (is_word_pow2 k ltac:(lia)) as Hmk.
  destruct (eval_update_nth (set_word b (2 ^ k)) ls (Z.to_nat q) ltac:(lia)) as (E & L).
  split; [apply wf_update_nth; auto using is_word_set_word|]. split; [exact L|].
  rewrite E. unfold spec_set_bit. rewrite testbit_eval by (auto; lia). fold q k.
  pose proof (wf_nthz ls (Z.to_nat q) Hw) as Hx. set (x := nthz ls (Z.to_nat q)) in *.
  assert (Hp : 2 ^ index = Bn (Z.to_nat q) * 2 ^ k).
  { rewrite Bn_pow2, Z2Nat.id by lia. rewrite <- pow2_split by lia. f_equal. lia. }
  rewrite Hp. unfold set_word. destruct b.
  - rewrite set_bit_word_true by lia. cbn [b2z]. ring.
  - rewrite set_bit_word_false by (auto; lia). cbn [b2z]. ring.
Qed.

Lemma limbs_set_bit_update ls index b : wf ls -> Z.of_nat (length ls) < U32 -> 0 <= index -> index / 64 < U32 ->
  limbs_set_bit ls index (choice_of_bool b) =
  update_nth ls (Z.to_nat (index / 64)) (set_word b (2 ^ (index mod 64))).
Proof.
  intros Hw Hlen Hi Hq. unfold limbs_set_bit.
  pose proof (Z.mod_pos_bound index 64 ltac:(lia)) as Hmb.
  assert (0 <= index / 64) by (apply Z.div_pos; lia).
  rewrite wshl_1, set_bit_loop_correct, Z.sub_0_r by (auto using is_word_pow2; lia). reflexivity.
Qed.

Theorem limbs_set_bit_correct ls index b :
  wf ls -> Z.of_nat (length ls) < U32 -> 0 <= index < 64 * Z.of_nat (length ls) ->
  let r := limbs_set_bit ls index (choice_of_bool b) in
  wf r /\ length r = length ls /\ eval r = spec_set_bit (eval ls) index b.
Proof.
  intros Hw Hlen Hi. cbn zeta.
  assert (index / 64 < Z.of_nat (length ls)) by (apply Z.div_lt_upper_bound; lia).
  rewrite limbs_set_bit_update by (auto; lia). apply update_set_word_correct; assumption.
Qed.

(** an index outside the value leaves it unchanged (constant-time form) *)
Theorem limbs_set_bit_out_of_range ls index b :
  wf ls -> Z.of_nat (length ls) < U32 -> 64 * Z.of_nat (length ls) <= index < U32 ->
  limbs_set_bit ls index (choice_of_bool b) = ls.
Proof.
  intros Hw Hlen Hi.
  assert (Z.of_nat (length ls) <= index / 64 < U32).
  { split; [apply Z.div_le_lower_bound; lia | apply Z.div_lt_upper_bound; lia]. }
  rewrite limbs_set_bit_update by (auto; lia). apply update_nth_overflow. lia.
Qed.

Theorem limbs_set_bit_vartime_correct ls index b : wf ls -> 0 <= index ->
  if index <? 64 * Z.of_nat (length ls)
  then exists r, limbs_set_bit_vartime ls index b = Some r /\ wf r /\ length r = length ls /\
                 eval r = spec_set_bit (eval ls) index b
  else limbs_set_bit_vartime ls index b = None.
Proof.
  intros Hw Hi. unfold limbs_set_bit_vartime, lenZ.
  pose proof (Z.div_mod index 64 ltac:(lia)) as Hdm. pose proof (Z.mod_pos_bound index 64 ltac:(lia)) as Hmb.
  destruct (Z.ltb_spec index (64 * Z.of_nat (length ls))) as [Hin|Hout].
  - destruct (Z.leb_spec (Z.of_nat (length ls)) (index / 64)); [lia|].
    rewrite wshl_1 by lia. eexists. split; [reflexivity|].
    apply (update_set_word_correct ls index b Hw). lia.
  - destruct (Z.leb_spec (Z.of_nat (length ls)) (index / 64)); [reflexivity|lia].
Qed.

(** the meaning of [spec_set_bit]: bit [i] becomes [b], all other bits are unchanged *)
Lemma spec_set_bit_testbit v i b j : 0 <= v -> 0 <= i -> 0 <= j ->
  Z.testbit (spec_set_bit v i b) j = if j =? i then b else Z.testbit v j.
Proof.
  intros _ Hi _. unfold spec_set_bit. rewrite (Z.eqb_sym j i). destruct b; cbn [b2z].
  - rewrite <- setbit_val, Z.setbit_eqb by assumption. destruct (i =? j); reflexivity.
  - replace (v + 2 ^ i * (0 - b2z (Z.testbit v i))) with (v - 2 ^ i * b2z (Z.testbit v i)) by ring.
    rewrite <- clearbit_val, Z.clearbit_eqb by assumption.
    destruct (i =? j); [apply andb_false_r | apply andb_true_r].
Qed.

Theorem limb_bits_correct x : is_word x -> 64 - wlz x = spec_bits x.
Proof. intros _. unfold wlz. change (spec_bits x) with (bitlen x). lia. Qed.

(** Limb shifts (inherent and every << >> <<= >>= form): the result for s < 64, a panic for every s >= 64,
    in both build profiles *)
Theorem limb_shift_correct lft dbg x s : is_word x -> 0 <= s ->
  limb_shift lft dbg x s =
  if s <? 64 then Val [[if lft then (x * 2 ^ s) mod B else x / 2 ^ s]] else PanicV.
Proof.
  intros Hx Hs. unfold limb_shift, fits_u32, U32.
  destruct (Z.ltb_spec s 64).
  - destruct (Z.leb_spec 0 s); [|lia]. destruct (Z.ltb_spec s (2 ^ 32)); [|lia]. cbn [andb negb].
    destruct (Z.leb_spec 64 s); [lia|]. reflexivity.
  - destruct ((0 <=? s) && (s <? 2 ^ 32)); cbn [negb]; [|reflexivity].
    destruct (Z.leb_spec 64 s); [reflexivity|lia].
Qed.

Theorem limb_shift_is_word (lft : bool) x s : is_word x -> 0 <= s < 64 ->
  is_word (if lft then (x * 2 ^ s) mod B else x / 2 ^ s).
Proof.
  intros Hx Hs. destruct lft.
  - apply is_word_mod.
  - apply (is_word_wshr x s Hx). lia.
Qed.
