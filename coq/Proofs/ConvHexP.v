(** C16 proofs, part 3: the branch-free hex nibble decoder, strict hex decoding, hex / binary formatting. *)
From CB Require Import Model.Limbs Model.Conv Proofs.WordP Proofs.BitsP Proofs.LimbsP Proofs.ConvDigitsP Proofs.ConvBytesP.
From Coq Require Import ZArith Lia List Bool.
Import ListNotations.
Open Scope Z_scope.
Open Scope list_scope.

Definition byte_list : list Z := map Z.of_nat (seq 0 256).
Lemma in_byte_list c : 0 <= c < 256 -> In c byte_list.
Proof.
  intros H. unfold byte_list. rewrite <- (Z2Nat.id c) by lia. apply in_map. apply in_seq. lia.
Qed.

(** decode_nibble on every byte value: the digit value for [0-9A-Fa-f], 0xFFFF otherwise *)
Definition nibble_expected (c : Z) : Z := match hexval c with Some d => d | None => 65535 end.
Lemma decode_nibble_sweep : forallb (fun c => decode_nibble c =? nibble_expected c) byte_list = true.
Proof. vm_compute. reflexivity. Qed.
Lemma decode_nibble_spec c : 0 <= c < 256 -> decode_nibble c = nibble_expected c.
Proof.
  intros H. pose proof decode_nibble_sweep as S. rewrite forallb_forall in S.
  apply Z.eqb_eq. apply S. apply in_byte_list. assumption.
Qed.

(** no intermediate value of the i16 computation leaves the i16 range (no overflow in any profile) *)
Definition i16b (x : Z) : bool := (-32768 <=? x) && (x <=? 32767).
Definition nib_term_ok (lo hi off byte : Z) : bool :=
  i16b (lo - byte) && i16b (byte - hi) && i16b (Z.land (lo - byte) (byte - hi)) &&
  i16b (Z.shiftr (Z.land (lo - byte) (byte - hi)) 8) && i16b (byte - off) && i16b (nib_term lo hi off byte).
Definition nibble_i16_ok (c : Z) : bool :=
  nib_term_ok 47 58 47 c && nib_term_ok 64 71 54 c && nib_term_ok 96 103 86 c &&
  i16b (-1 + nib_term 47 58 47 c) && i16b (-1 + nib_term 47 58 47 c + nib_term 64 71 54 c) &&
  i16b (decode_nibble_i16 c) && (-1 <=? decode_nibble_i16 c) && (decode_nibble_i16 c <=? 15).
Lemma nibble_i16_sweep : forallb nibble_i16_ok byte_list = true.
Proof. vm_compute. reflexivity. Qed.
Lemma decode_nibble_no_overflow c : 0 <= c < 256 -> nibble_i16_ok c = true.
Proof. intros H. pose proof nibble_i16_sweep as S. rewrite forallb_forall in S. apply S, in_byte_list, H. Qed.

Lemma hexval_range c d : hexval c = Some d -> 0 <= d < 16.
Proof.
  unfold hexval. intros H.
  destruct ((48 <=? c) && (c <=? 57)) eqn:E1; [injection H as <-; lia|].
  destruct ((65 <=? c) && (c <=? 70)) eqn:E2; [injection H as <-; lia|].
  destruct ((97 <=? c) && (c <=? 102)) eqn:E3; [injection H as <-; lia | discriminate].
Qed.

Lemma lor_pos_r a e : 0 <= a -> 0 < e -> 0 < Z.lor a e.
Proof.
  intros Ha He. assert (0 <= Z.lor a e) by (apply Z.lor_nonneg; lia).
  assert (Z.lor a e <> 0) by (intros E; apply Z.lor_eq_0_iff in E; lia). lia.
Qed.
Lemma lor_pos_l a e : 0 < a -> 0 <= e -> 0 < Z.lor a e.
Proof. intros Ha He. rewrite Z.lor_comm. apply lor_pos_r; assumption. Qed.
Lemma lor_high_pos a b k : 0 <= k -> 0 <= a -> 0 <= b -> 2 ^ k <= a \/ 2 ^ k <= b -> 0 < Z.lor a b / 2 ^ k.
Proof.
  intros Hk Ha Hb H. rewrite <- Z.shiftr_div_pow2, Z.shiftr_lor, !Z.shiftr_div_pow2 by lia.
  assert (0 < 2 ^ k) by (apply Z.pow_pos_nonneg; lia).
  destruct H; [apply lor_pos_l | apply lor_pos_r]; (apply Z.div_str_pos || apply Z.div_pos); lia.
Qed.

(** decode_hex_byte: two hex digits give their byte and no error; otherwise the invalid nibble 0xFFFF
    leaves a bit above the low byte, which is the error *)
Lemma decode_hex_byte_spec c0 c1 r e : 0 <= c0 < 256 -> 0 <= c1 < 256 -> decode_hex_byte c0 c1 = (r, e) ->
  0 <= r < 256 /\
  match hexval c0, hexval c1 with
  | Some h, Some l => r = 16 * h + l /\ e = 0
  | _, _ => 0 < e
  end.
Proof.
  intros H0 H1 E. unfold decode_hex_byte in E. rewrite !decode_nibble_spec in E by assumption. inv_pair E.
  split; [apply Z.mod_pos_bound; lia|]. unfold nibble_expected.
  assert (Hlo : 0 <= match hexval c1 with Some d => d | None => 65535 end).
  { destruct (hexval c1) as [l|] eqn:E1; [apply hexval_range in E1|]; lia. }
  destruct (hexval c0) as [h|] eqn:E0.
  - apply hexval_range in E0. rewrite (Z.mod_small (h * 16)) by lia.
    destruct (hexval c1) as [l|] eqn:E1.
    + apply hexval_range in E1. change (h * 16) with (h * 2 ^ 4). rewrite lor_disjoint by lia.
      change (2 ^ 4) with 16. rewrite Z.mod_small, Z.div_small by lia. lia.
    + apply (lor_high_pos _ _ 8); lia.
  - apply (lor_high_pos _ _ 8); [lia | apply Z.mod_pos_bound | | left; change (65535 * 16 mod 65536) with 65520]; lia.
Qed.

Lemma hexvals_spec cs : forall ds, hexvals cs = Some ds -> length ds = length cs /\ wfd 16 ds.
Proof.
  induction cs as [|c cs IH]; intros ds H; cbn [hexvals] in H.
  - injection H as <-. split; [reflexivity | apply wfd_nil].
  - destruct (hexval c) as [d|] eqn:Ec; [|discriminate].
    destruct (hexvals cs) as [ds'|] eqn:Er; [|discriminate]. injection H as <-.
    destruct (IH ds' eq_refl) as [Hl Hw]. split; [cbn [length]; lia|].
    apply wfd_cons. split; [eapply hexval_range; eassumption | assumption].
Qed.

(** the pair decoder with its error accumulator: the error word is zero exactly when every character
    is a hex digit, and then the bytes are the nibble pairs *)
Lemma decode_hex_pairs_spec m : forall cs err0 bs err,
  length cs = (2 * m)%nat -> wfd 256 cs -> 0 <= err0 -> decode_hex_pairs cs err0 = (bs, err) ->
  length bs = m /\ wfd 256 bs /\ 0 <= err /\ (0 < err0 -> 0 < err) /\
  match hexvals cs with
  | Some ds => err = err0 /\ bs = nib_pairs ds
  | None => 0 < err
  end.
Proof.
  induction m as [|m IH]; intros cs err0 bs err Hl Hw He E.
  - destruct cs; [|discriminate]. cbn in E. inv_pair E. cbn. repeat split; (lia || apply wfd_nil || auto).
  - destruct cs as [|c0 [|c1 r]]; cbn [length] in Hl; try lia.
    apply wfd_cons in Hw. destruct Hw as [H0 Hw]. apply wfd_cons in Hw. destruct Hw as [H1 Hw].
    cbn [decode_hex_pairs] in E.
    destruct (decode_hex_byte c0 c1) as [b e] eqn:Eb.
    destruct (decode_hex_pairs r (Z.lor err0 e)) as [bs' err'] eqn:Ep. inv_pair E.
    destruct (decode_hex_byte_spec _ _ _ _ H0 H1 Eb) as [Hb Hcase].
    assert (He0 : 0 <= e) by (destruct (hexval c0); [destruct (hexval c1)|]; lia).
    assert (Hlor : 0 <= Z.lor err0 e) by (apply Z.lor_nonneg; lia).
    destruct (IH r (Z.lor err0 e) bs' err' ltac:(lia) Hw Hlor Ep) as (Hlb & Hwb & Herr & Hmono & Hrest).
    split; [cbn [length]; lia|]. split; [apply wfd_cons; split; assumption|]. split; [assumption|].
    split; [intros Hp; apply Hmono; apply lor_pos_l; lia|].
    cbn [hexvals].
    destruct (hexval c0) as [h|] eqn:E0.
    + destruct (hexval c1) as [l|] eqn:E1.
      * destruct Hcase as [-> ->]. rewrite Z.lor_0_r in *.
        destruct (hexvals r) as [ds|] eqn:Er.
        -- destruct Hrest as [-> ->]. cbn [nib_pairs]. split; reflexivity.
        -- assumption.
      * destruct (hexvals r); apply Hmono; apply lor_pos_r; lia.
    + apply Hmono. apply lor_pos_r; lia.
Qed.

Lemma nib_pairs_spec m : forall ds, length ds = (2 * m)%nat -> wfd 16 ds ->
  length (nib_pairs ds) = m /\ wfd 256 (nib_pairs ds) /\
  evalb 256 (rev (nib_pairs ds)) = evalb 16 (rev ds).
Proof.
  induction m as [|m IH]; intros ds Hl Hw.
  - destruct ds; [|discriminate]. cbn. repeat split; (reflexivity || apply wfd_nil).
  - destruct ds as [|d0 [|d1 r]]; cbn [length] in Hl; try lia.
    apply wfd_cons in Hw. destruct Hw as [H0 Hw]. apply wfd_cons in Hw. destruct Hw as [H1 Hw].
    destruct (IH r ltac:(lia) Hw) as (Hlen & Hwn & Hev).
    cbn [nib_pairs length rev]. split; [lia|]. split; [apply wfd_cons; split; [lia | assumption]|].
    rewrite !evalb_app, Hev. cbn [evalb]. rewrite !app_length, !rev_length, Hlen. cbn [length].
    assert (Hr : length r = (2 * m)%nat) by lia. rewrite Hr.
    replace (2 * m + 1)%nat with (S (2 * m)) by lia. rewrite pow_S_nat.
    rewrite (pow_mul_nat 16 2 m). change (16 ^ Z.of_nat 2) with 256. ring.
Qed.

(** * Strict hex decoding of Uint / Int: accepted iff exactly 16n hex digits; the value is positional *)
Lemma from_be_hex_spec n cs : wfd 256 cs ->
  match uint_from_be_hex n cs with
  | HexLen => length cs <> (16 * n)%nat
  | HexInvalid => length cs = (16 * n)%nat /\ hexvals cs = None
  | HexOk r => length cs = (16 * n)%nat /\
               exists ds, hexvals cs = Some ds /\ wf r /\ length r = n /\ eval r = evalb 16 (rev ds)
  end.
Proof.
  intros Hw. unfold uint_from_be_hex.
  destruct (Nat.eqb_spec (length cs) (16 * n)) as [Hl|Hl]; [|assumption].
  destruct (decode_hex_pairs cs 0) as [bs err] eqn:Ep.
  destruct (decode_hex_pairs_spec (8 * n) cs 0 bs err ltac:(lia) Hw ltac:(lia) Ep) as (Hlb & Hwb & Herr & _ & Hcase).
  destruct (hexvals cs) as [ds|] eqn:Eh.
  - destruct Hcase as [-> ->]. cbn [Z.eqb]. split; [assumption|]. exists ds. split; [reflexivity|].
    destruct (hexvals_spec cs ds Eh) as [Hlds Hwds].
    destruct (nib_pairs_spec (8 * n) ds ltac:(lia) Hwds) as (Hln & Hwn & Hev).
    destruct (be_limbs_of_chunks n (nib_pairs ds) Hwn Hln) as (H1 & H2 & H3).
    rewrite H3, Hev. auto.
  - destruct (Z.eqb_spec err 0); [lia|]. auto.
Qed.

Lemma from_le_hex_spec n cs : wfd 256 cs ->
  match uint_from_le_hex n cs with
  | HexLen => length cs <> (16 * n)%nat
  | HexInvalid => length cs = (16 * n)%nat /\ hexvals cs = None
  | HexOk r => length cs = (16 * n)%nat /\
               exists ds, hexvals cs = Some ds /\ wf r /\ length r = n /\ eval r = evalb 256 (nib_pairs ds)
  end.
Proof.
  intros Hw. unfold uint_from_le_hex.
  destruct (Nat.eqb_spec (length cs) (16 * n)) as [Hl|Hl]; [|assumption].
  destruct (decode_hex_pairs cs 0) as [bs err] eqn:Ep.
  destruct (decode_hex_pairs_spec (8 * n) cs 0 bs err ltac:(lia) Hw ltac:(lia) Ep) as (Hlb & Hwb & Herr & _ & Hcase).
  destruct (hexvals cs) as [ds|] eqn:Eh.
  - destruct Hcase as [-> ->]. cbn [Z.eqb]. split; [assumption|]. exists ds. split; [reflexivity|].
    destruct (hexvals_spec cs ds Eh) as [Hlds Hwds].
    destruct (nib_pairs_spec (8 * n) ds ltac:(lia) Hwds) as (Hln & Hwn & Hev).
    destruct (le_limbs_of_chunks n (nib_pairs ds) Hwn Hln) as (H1 & H2 & H3). auto.
  - destruct (Z.eqb_spec err 0); [lia|]. auto.
Qed.

Lemma uint_fmt_hex_digits u ls : wf ls ->
  uint_fmt_hex u ls = map (hexchar u) (rev (digits 16 (16 * length ls) (eval ls))).
Proof.
  intros Hw. unfold uint_fmt_hex, word_fmt_hex.
  rewrite (flat_map_map_out (hexchar u) (fun x => rev (digits 16 16 x))).
  rewrite <- flat_map_rev. rewrite (limbs_regroup 16 16 ls) by (reflexivity || apply B_16 || assumption).
  reflexivity.
Qed.
Lemma uint_fmt_bin_digits ls : wf ls ->
  uint_fmt_bin ls = map (fun d => 48 + d) (rev (digits 2 (64 * length ls) (eval ls))).
Proof.
  intros Hw. unfold uint_fmt_bin, word_fmt_bin.
  rewrite (flat_map_map_out (fun d => 48 + d) (fun x => rev (digits 2 64 x))).
  rewrite <- flat_map_rev. rewrite (limbs_regroup 2 64 ls) by (reflexivity || apply B_2 || assumption).
  reflexivity.
Qed.

Lemma nth_map_rev_digits (h : Z -> Z) b (m : nat) x i : 0 < b -> (i < m)%nat ->
  nth i (map h (rev (digits b m x))) 0 = h ((x / b ^ (Z.of_nat m - 1 - Z.of_nat i)) mod b).
Proof.
  intros Hb Hi. pose proof (length_digits b m x) as Hl.
  rewrite (nth_indep _ 0 (h 0)) by (rewrite map_length, rev_length; lia).
  rewrite map_nth. f_equal. rewrite nth_rev_lt, Hl, nth_digits by lia. do 3 f_equal. lia.
Qed.

Lemma hexval_hexchar u d : 0 <= d < 16 -> hexval (hexchar u d) = Some d.
Proof.
  intros H.
  assert (C : d = 0 \/ d = 1 \/ d = 2 \/ d = 3 \/ d = 4 \/ d = 5 \/ d = 6 \/ d = 7 \/ d = 8 \/ d = 9 \/
              d = 10 \/ d = 11 \/ d = 12 \/ d = 13 \/ d = 14 \/ d = 15) by lia.
  destruct u; repeat (destruct C as [->|C]; [reflexivity|]); subst; reflexivity.
Qed.
Lemma hexchar_byte u d : 0 <= d < 16 -> 0 <= hexchar u d < 256.
Proof. intros H. unfold hexchar. destruct (d <? 10); destruct u; lia. Qed.

Lemma hexvals_map_hexchar u ds : wfd 16 ds -> hexvals (map (hexchar u) ds) = Some ds.
Proof.
  induction ds as [|d ds IH]; intros Hw; cbn [map hexvals]; [reflexivity|].
  apply wfd_cons in Hw. destruct Hw as [Hd Hw]. rewrite hexval_hexchar, IH by assumption. reflexivity.
Qed.
Lemma wfd_map_hexchar u ds : wfd 16 ds -> wfd 256 (map (hexchar u) ds).
Proof.
  induction ds as [|d ds IH]; intros Hw; cbn [map]; [apply wfd_nil|].
  apply wfd_cons in Hw. destruct Hw as [Hd Hw]. apply wfd_cons. split; [apply hexchar_byte; assumption | auto].
Qed.

(** formatting (either case) followed by from_be_hex is the identity *)
Lemma hex_roundtrip u ls : wf ls -> uint_from_be_hex (length ls) (uint_fmt_hex u ls) = HexOk ls.
Proof.
  intros Hw.
  set (ds := rev (digits 16 (16 * length ls) (eval ls))).
  assert (Hwd : wfd 16 ds) by (apply wfd_rev, wfd_digits; reflexivity).
  assert (Hf : uint_fmt_hex u ls = map (hexchar u) ds) by (apply uint_fmt_hex_digits; assumption).
  pose proof (from_be_hex_spec (length ls) (uint_fmt_hex u ls)) as S.
  rewrite Hf in *. specialize (S (wfd_map_hexchar u ds Hwd)).
  assert (Hlen : length (map (hexchar u) ds) = (16 * length ls)%nat).
  { unfold ds. rewrite map_length, rev_length, length_digits. reflexivity. }
  destruct (uint_from_be_hex (length ls) (map (hexchar u) ds)) as [r| |].
  - destruct S as (_ & ds' & Hh & Hwr & Hlr & Her). rewrite hexvals_map_hexchar in Hh by assumption.
    injection Hh as <-. f_equal. apply eval_inj; try assumption.
    rewrite Her. unfold ds. rewrite rev_involutive, evalb_digits, <- Bn_16 by reflexivity.
    apply Z.mod_small, eval_bounds. assumption.
  - destruct S as [_ Hn]. rewrite hexvals_map_hexchar in Hn by assumption. discriminate.
  - contradiction.
Qed.
