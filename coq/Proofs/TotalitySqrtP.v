(** C11, area sqrt (Model/Sqrt.v, owner C20): the model table equals the spec table on every well-formed argument
    (Proofs/SqrtP.v), and the spec table never panics; in particular the fuel the model passes to the data-dependent
    loop of sqrt_vartime always suffices (the model maps "out of fuel" to [Unsupported]). *)
From CB Require Import Model.Limbs Model.Sqrt Proofs.WordP Proofs.LimbsP Proofs.SqrtP Proofs.TotalityP.
From Coq Require Import ZArith Lia List String Bool.
Open Scope Z_scope.
Notation length := List.length.

Lemma sqrt_cover : covers sqrt_keys ops_sqrt_model = true.
Proof. vm_compute. reflexivity. Qed.
Lemma sqrt_quiet : quiet_keys_ok ops_sqrt_model ops_sqrt_spec sqrt_quiet_keys.
Proof. unfold sqrt_quiet_keys. intros k dbg a []. Qed.

Lemma agree_run M S : Forall2 entries_agree M S -> forall k dbg a, wf (arg 0 a) -> run_tab M k dbg a = run_tab S k dbg a.
Proof.
  intros H k dbg a Hw. unfold run_tab. induction H as [|[km fm] [ks fs] M S [Hk Hf] H IH]; cbn [lookup]; [reflexivity|].
  cbn [fst snd] in Hk, Hf. subst ks. destruct (String.eqb k km); [apply Hf; assumption | exact IH].
Qed.
Lemma sqrt_model_eq_spec k dbg a : wf (arg 0 a) -> run_tab ops_sqrt_model k dbg a = run_tab ops_sqrt_spec k dbg a.
Proof. apply agree_run. exact sqrt_tables_agree. Qed.

Lemma sqrt_spec_never_panics k dbg a : run_tab ops_sqrt_spec k dbg a <> PanicV.
Proof.
  unfold run_tab. destruct (lookup k ops_sqrt_spec) as [f|] eqn:E; [|discriminate].
  cbn [lookup ops_sqrt_spec] in E.
  repeat (destruct (String.eqb k _); [inversion E; subst f; unfold sp_sqrt, sp_checked_sqrt; np |]).
  discriminate.
Qed.

