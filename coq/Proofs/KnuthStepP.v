(** C02: the multiply-subtract / masked add-back step shared by all Knuth loops (mulsub_go, addback_go,
    knuth_step), reformulated on the window of limbs it touches, and the quotient-digit estimate lemma. *)
From CB Require Import Model.Limbs Model.Div Proofs.WordP Proofs.WordPredP Proofs.LimbsP Proofs.AddSubP Proofs.DivP Proofs.Div3by2P.
From Coq Require Import ZArith Lia List.
Open Scope Z_scope.

Lemma nthz_app_mid (a : list Z) v b n : length a = n -> nthz (a ++ v :: b) n = v.
Proof. intros <-. unfold nthz. rewrite app_nth2 by lia. rewrite Nat.sub_diag. reflexivity. Qed.

Lemma upd_app_mid (a : list Z) v b n w : length a = n -> upd (a ++ v :: b) n w = a ++ w :: b.
Proof.
  intros <-. unfold upd. rewrite firstn_app, Nat.sub_diag, firstn_all. cbn [firstn]. rewrite app_nil_r.
  f_equal. f_equal.
  replace (S (length a)) with (length (a ++ [v])) by (rewrite app_length; simpl; lia).
  replace (a ++ v :: b) with ((a ++ [v]) ++ b) by (rewrite <- app_assoc; reflexivity).
  rewrite skipn_app, skipn_all, Nat.sub_diag. reflexivity.
Qed.

Lemma list_snoc {A} (l : list A) k : length l = S k -> exists a b, l = a ++ [b] /\ length a = k.
Proof.
  intros H. destruct (exists_last (l := l)) as (a & b & ->); [intros ->; discriminate|].
  exists a, b. split; [reflexivity|]. rewrite app_length in H. simpl in H. lia.
Qed.

Lemma wf_app_word a b : wf (a ++ [b]) <-> wf a /\ is_word b.
Proof. rewrite wf_app, wf_cons. pose proof wf_nil. tauto. Qed.

(** a well-formed list of [S k] (resp. [S (S k)]) limbs: the low [k] limbs and the top word(s) *)
Lemma wf_snoc l k : length l = S k -> wf l -> exists a b, l = a ++ [b] /\ length a = k /\ wf a /\ is_word b.
Proof.
  intros Hl Hw. destruct (list_snoc l k Hl) as (a & b & -> & Ha). exists a, b.
  apply wf_app_word in Hw. tauto.
Qed.

Lemma wf_snoc2 l k : length l = S (S k) -> wf l ->
  exists a u v, l = a ++ [u; v] /\ length a = k /\ wf a /\ is_word u /\ is_word v.
Proof.
  intros Hl Hw. destruct (wf_snoc l (S k) Hl Hw) as (a' & v & -> & Ha' & Hwa' & Hv).
  destruct (wf_snoc a' k Ha' Hwa') as (a & u & -> & Ha & Hwa & Hu).
  exists a, u, v. rewrite <- app_assoc. auto.
Qed.

Lemma mul_small_zero M k : 0 < M -> - M < M * k < M -> k = 0.
Proof.
  intros HM [H1 H2]. destruct (Z_lt_ge_dec k 0) as [Hn|Hp].
  - assert (M * k <= M * (-1)) by (apply Z.mul_le_mono_nonneg_l; lia). lia.
  - destruct (Z_lt_ge_dec 0 k) as [Hq|]; [|lia].
    assert (M * 1 <= M * k) by (apply Z.mul_le_mono_nonneg_l; lia). lia.
Qed.

Fixpoint mulsub_w (xw yw : list Z) (quo carry borrow : Z) : list Z * Z * Z :=
  match xw, yw with
  | xv :: xr, yv :: yr =>
      let '(tmp, carry') := mac 0 yv quo carry in
      let '(r, borrow') := sbb xv tmp borrow in
      let '(rs, c, b) := mulsub_w xr yr quo carry' borrow' in (r :: rs, c, b)
  | _, _ => ([], carry, borrow)
  end.

Fixpoint addback_w (xw yw : list Z) (mask : bool) (carry : Z) : list Z * Z :=
  match xw, yw with
  | xv :: xr, yv :: yr =>
      let '(r, carry') := adc xv (sel mask 0 yv) carry in
      let '(rs, c) := addback_w xr yr mask carry' in (r :: rs, c)
  | _, _ => ([], carry)
  end.

Lemma mulsub_go_window : forall cnt i x y base yoff quo c b xa xw xb ya yw yb,
  x = xa ++ xw ++ xb -> length xa = (base + i)%nat -> length xw = cnt ->
  y = ya ++ yw ++ yb -> length ya = (yoff + i)%nat -> length yw = cnt ->
  mulsub_go cnt i x y base yoff quo c b =
    let '(xw', c', b') := mulsub_w xw yw quo c b in (xa ++ xw' ++ xb, c', b').
Proof.
  induction cnt as [|cnt IH]; intros i x y base yoff quo c b xa xw xb ya yw yb Hx Hxa Hxw Hy Hya Hyw.
  - destruct xw; [|discriminate]. destruct yw; [|discriminate]. subst. reflexivity.
  - destruct xw as [|xv xr]; [discriminate|]. destruct yw as [|yv yr]; [discriminate|].
    cbn [mulsub_go mulsub_w]. subst x y. cbn [app].
    rewrite (nthz_app_mid ya yv (yr ++ yb) (yoff + i)) by assumption.
    rewrite (nthz_app_mid xa xv (xr ++ xb) (base + i)) by assumption.
    destruct (mac 0 yv quo c) as [tmp c1].
    destruct (sbb xv tmp b) as [r b1].
    rewrite (upd_app_mid xa xv (xr ++ xb) (base + i) r) by assumption.
    rewrite (IH (S i) (xa ++ r :: xr ++ xb) (ya ++ yv :: yr ++ yb) base yoff quo c1 b1
                (xa ++ [r]) xr xb (ya ++ [yv]) yr yb).
    + destruct (mulsub_w xr yr quo c1 b1) as [[rs c2] b2]. rewrite <- app_assoc. reflexivity.
    + rewrite <- app_assoc. reflexivity.
    + rewrite app_length. simpl. lia.
    + simpl in Hxw. lia.
    + rewrite <- app_assoc. reflexivity.
    + rewrite app_length. simpl. lia.
    + simpl in Hyw. lia.
Qed.

Lemma addback_go_window : forall cnt i x y base yoff mask c xa xw xb ya yw yb,
  x = xa ++ xw ++ xb -> length xa = (base + i)%nat -> length xw = cnt ->
  y = ya ++ yw ++ yb -> length ya = (yoff + i)%nat -> length yw = cnt ->
  addback_go cnt i x y base yoff mask c = xa ++ fst (addback_w xw yw mask c) ++ xb.
Proof.
  induction cnt as [|cnt IH]; intros i x y base yoff mask c xa xw xb ya yw yb Hx Hxa Hxw Hy Hya Hyw.
  - destruct xw; [|discriminate]. destruct yw; [|discriminate]. subst. reflexivity.
  - destruct xw as [|xv xr]; [discriminate|]. destruct yw as [|yv yr]; [discriminate|].
    cbn [addback_go addback_w]. subst x y. cbn [app].
    rewrite (nthz_app_mid ya yv (yr ++ yb) (yoff + i)) by assumption.
    rewrite (nthz_app_mid xa xv (xr ++ xb) (base + i)) by assumption.
    destruct (adc xv (sel mask 0 yv) c) as [r c1].
    rewrite (upd_app_mid xa xv (xr ++ xb) (base + i) r) by assumption.
    rewrite (IH (S i) (xa ++ r :: xr ++ xb) (ya ++ yv :: yr ++ yb) base yoff mask c1
                (xa ++ [r]) xr xb (ya ++ [yv]) yr yb).
    + destruct (addback_w xr yr mask c1) as [rs c2]. cbn [fst]. rewrite <- app_assoc. reflexivity.
    + rewrite <- app_assoc. reflexivity.
    + rewrite app_length. simpl. lia.
    + simpl in Hxw. lia.
    + rewrite <- app_assoc. reflexivity.
    + rewrite app_length. simpl. lia.
    + simpl in Hyw. lia.
Qed.

Lemma mulsub_w_correct xw : forall yw quo c b xw' c' b',
  wf xw -> wf yw -> length xw = length yw -> is_word quo -> is_word c -> (b = 0 \/ b = MAXW) ->
  mulsub_w xw yw quo c b = (xw', c', b') ->
  wf xw' /\ length xw' = length xw /\ is_word c' /\ (b' = 0 \/ b' = MAXW) /\
  eval xw - quo * eval yw - c - bin b = eval xw' - Bn (length xw) * (c' + bin b').
Proof.
  induction xw as [|xv xr IH]; intros yw quo c b xw' c' b' Hx Hy Hl Hq Hc Hb E.
  - destruct yw; [|discriminate]. cbn [mulsub_w] in E.
    apply pair_equal_spec in E. destruct E as [E <-]. inv_pair E.
    cbn [eval length]. rewrite Bn_0. split; [apply wf_nil|]. split; [reflexivity|]. split; [assumption|].
    split; [assumption|]. lia.
  - destruct yw as [|yv yr]; [discriminate|]. simpl in Hl.
    apply wf_cons in Hx. destruct Hx as [Hxv Hxr]. apply wf_cons in Hy. destruct Hy as [Hyv Hyr].
    cbn [mulsub_w] in E.
    destruct (mac 0 yv quo c) as [tmp c1] eqn:E1.
    destruct (sbb xv tmp b) as [r b1] eqn:E2.
    destruct (mulsub_w xr yr quo c1 b1) as [[rs c2] b2] eqn:E3.
    apply pair_equal_spec in E. destruct E as [E <-]. inv_pair E.
    pose proof (mac_exact 0 yv quo c tmp c1 is_word_0' Hyv Hq Hc E1) as (Hm & Htmp & Hc1).
    pose proof (sbb_exact xv tmp b r b1 Hxv Htmp (is_borrow_word b Hb) E2) as (Hr & Hs).
    assert (Hb1 : b1 = 0 \/ b1 = MAXW) by (destruct Hs as [[-> _]|[-> _]]; auto).
    specialize (IH yr quo c1 b1 rs c2 b2 Hxr Hyr ltac:(lia) Hq Hc1 Hb1 E3).
    destruct IH as (Hwrs & Hlrs & Hc2 & Hb2 & IHe).
    cbn [eval length]. rewrite Bn_S.
    split; [apply wf_cons; split; assumption|]. split; [lia|]. split; [assumption|]. split; [assumption|].
    assert (Hbin1 : bin b1 * B = r - (xv - tmp - bin b)).
    { destruct Hs as [[-> Hv]|[-> Hv]]; rewrite ?bin_0, ?bin_MAXW; lia. }
    assert (Hmul : B * (eval xr - quo * eval yr - c1 - bin b1) = B * (eval rs - Bn (length xr) * (c2 + bin b2)))
      by (rewrite IHe; reflexivity).
    lia.
Qed.

Lemma addback_w_correct xw : forall yw mask c xw' c',
  wf xw -> wf yw -> length xw = length yw -> 0 <= c <= 1 ->
  addback_w xw yw mask c = (xw', c') ->
  wf xw' /\ length xw' = length xw /\ 0 <= c' <= 1 /\
  eval xw' + Bn (length xw) * c' = eval xw + (if mask then eval yw else 0) + c.
Proof.
  induction xw as [|xv xr IH]; intros yw mask c xw' c' Hx Hy Hl Hc E.
  - destruct yw; [|discriminate]. cbn [addback_w] in E. inv_pair E.
    cbn [eval length]. rewrite Bn_0. repeat split; auto using wf_nil; try lia. destruct mask; lia.
  - destruct yw as [|yv yr]; [discriminate|]. simpl in Hl.
    apply wf_cons in Hx. destruct Hx as [Hxv Hxr]. apply wf_cons in Hy. destruct Hy as [Hyv Hyr].
    cbn [addback_w] in E.
    destruct (adc xv (sel mask 0 yv) c) as [r c1] eqn:E1.
    destruct (addback_w xr yr mask c1) as [rs c2] eqn:E2. inv_pair E.
    assert (Hsel : is_word (sel mask 0 yv)) by (unfold sel; destruct mask; [assumption | apply is_word_0']).
    assert (Hcw : is_word c) by (unfold is_word; pose proof B_gt4; lia).
    pose proof (adc_exact _ _ _ _ _ Hxv Hsel Hcw E1) as (Ha & Hr & _).
    pose proof (adc_carry_small _ _ _ _ _ Hxv Hsel Hc E1) as Hc1.
    specialize (IH yr mask c1 rs c2 Hxr Hyr ltac:(lia) Hc1 E2). destruct IH as (Hwrs & Hlrs & Hc2 & IHe).
    cbn [eval length]. rewrite Bn_S.
    split; [apply wf_cons; split; assumption|]. split; [lia|]. split; [assumption|].
    assert (Hmul : B * (eval rs + Bn (length xr) * c2) = B * (eval xr + (if mask then eval yr else 0) + c1))
      by (rewrite IHe; reflexivity).
    unfold sel in Ha. destruct mask; lia.
Qed.

(** knuth_step on a window.
   x = xa ++ xw ++ xb, the window xw (cnt limbs) with x_hi on top holds W; y = ya ++ yw ++ yb, yw holds Y.
   For ANY word quo: the mask says whether quo * Y exceeds W, and the window afterwards holds
   W - quo*Y (+ Y if masked) modulo B^cnt.
   Proof: the multiply-subtract chain gives W - quo*Y = E - B^(cnt+1) * [final borrow], with E the new window and
   new top limb; the borrow is the mask; the add-back adds Y or 0 and its carry out cancels the borrow modulo B^cnt. *)
Theorem knuth_step_window x y x_hi base yoff cnt quo xa xw xb ya yw yb :
  x = xa ++ xw ++ xb -> length xa = base -> length xw = cnt ->
  y = ya ++ yw ++ yb -> length ya = yoff -> length yw = cnt ->
  wf xw -> wf yw -> is_word x_hi -> is_word quo ->
  let W := eval xw + Bn cnt * x_hi in
  let Y := eval yw in
  let mask := W <? quo * Y in
  exists xw'', knuth_step x y x_hi base yoff cnt quo = (xa ++ xw'' ++ xb, mask) /\
    wf xw'' /\ length xw'' = cnt /\
    eval xw'' = (W - quo * Y + (if mask then Y else 0)) mod Bn cnt.
Proof.
  intros Hx Hxa Hxw Hy Hya Hyw Hwx Hwy Hxhi Hquo W Y mask.
  unfold knuth_step.
  rewrite (mulsub_go_window cnt 0 x y base yoff quo 0 0 xa xw xb ya yw yb) by (auto; lia).
  destruct (mulsub_w xw yw quo 0 0) as [[xw1 c1] b1] eqn:E1.
  pose proof (mulsub_w_correct xw yw quo 0 0 xw1 c1 b1 Hwx Hwy ltac:(lia) Hquo is_word_0' ltac:(auto) E1)
    as (Hw1 & Hl1 & Hc1 & Hb1 & He1).
  rewrite bin_0 in He1. rewrite Hxw in *.
  destruct (sbb x_hi c1 b1) as [r b2] eqn:E2.
  pose proof (sbb_exact x_hi c1 b1 r b2 Hxhi Hc1 (is_borrow_word b1 Hb1) E2) as (Hr & Hs).
  pose proof (Bn_pos cnt) as HBn. pose proof B_gt1 as HB.
  pose proof (eval_bounds xw1 Hw1) as Hbw1. rewrite Hl1 in Hbw1.
  pose proof (eval_bounds xw Hwx) as Hbw. rewrite Hxw in Hbw.
  pose proof (eval_bounds yw Hwy) as Hby. rewrite Hyw in Hby. fold Y in Hby.
  (* total: W - quo*Y = E - B^(cnt+1) * [b2 <> 0] *)
  set (E := eval xw1 + Bn cnt * r).
  assert (HE : 0 <= E < Bn cnt * B).
  { unfold E, is_word in *. assert (Bn cnt * r <= Bn cnt * (B - 1)) by (apply Z.mul_le_mono_nonneg_l; lia).
    assert (0 <= Bn cnt * r) by (apply Z.mul_nonneg_nonneg; lia). lia. }
  assert (Htot : (b2 = 0 /\ W - quo * Y = E) \/ (b2 = MAXW /\ W - quo * Y = E - Bn cnt * B)).
  { unfold W, Y, E. fold Y in He1.
    destruct Hs as [[-> Hv]|[-> Hv]]; [left|right]; (split; [reflexivity|]).
    - assert (Bn cnt * (x_hi - c1 - bin b1) = Bn cnt * r) by (rewrite Hv; reflexivity). lia.
    - assert (Bn cnt * (x_hi - c1 - bin b1) = Bn cnt * (r - B)) by (rewrite Hv; reflexivity). lia. }
  assert (Hmz : MAXW =? 0 = false) by reflexivity.
  assert (Hmask : negb (b2 =? 0) = mask).
  { unfold mask. destruct Htot as [[-> Ht]|[-> Ht]].
    - change (0 =? 0) with true. cbn [negb]. symmetry. apply Z.ltb_ge. lia.
    - rewrite Hmz. cbn [negb]. symmetry. apply Z.ltb_lt. lia. }
  rewrite Hmask.
  rewrite (addback_go_window cnt 0 (xa ++ xw1 ++ xb) y base yoff mask 0 xa xw1 xb ya yw yb) by (auto; lia).
  destruct (addback_w xw1 yw mask 0) as [xw2 c2] eqn:E3.
  pose proof (addback_w_correct xw1 yw mask 0 xw2 c2 Hw1 Hwy ltac:(lia) ltac:(lia) E3) as (Hw2 & Hl2 & Hc2 & He2).
  rewrite Hl1 in *. fold Y in He2.
  exists xw2. cbn [fst]. split; [reflexivity|]. split; [assumption|]. split; [assumption|].
  pose proof (eval_bounds xw2 Hw2) as Hbw2. rewrite Hl2 in Hbw2.
  apply (Z.mod_unique_pos _ _ (r - (if b2 =? 0 then 0 else B) + c2)); [lia|].
  clearbody mask. subst mask.
  destruct Htot as [[-> Ht]|[-> Ht]].
  - change (0 =? 0) with true in *. cbn [negb] in *. cbv iota in *. unfold E in Ht. lia.
  - rewrite Hmz in *. cbn [negb] in *. cbv iota in *. unfold E in Ht. lia.
Qed.

(** the intended use: quo is the true digit or one too large; the window then holds the exact partial
    remainder and the corrected digit is the true digit *)
Corollary knuth_step_exact x y x_hi base yoff cnt quo xa xw xb ya yw yb :
  x = xa ++ xw ++ xb -> length xa = base -> length xw = cnt ->
  y = ya ++ yw ++ yb -> length ya = yoff -> length yw = cnt ->
  wf xw -> wf yw -> is_word x_hi -> is_word quo ->
  let W := eval xw + Bn cnt * x_hi in
  let Y := eval yw in
  (quo - 1) * Y <= W < (quo + 1) * Y ->
  exists xw'' mask, knuth_step x y x_hi base yoff cnt quo = (xa ++ xw'' ++ xb, mask) /\
    wf xw'' /\ length xw'' = cnt /\
    let q := if mask then quo - 1 else quo in
    W = q * Y + eval xw'' /\ 0 <= eval xw'' < Y /\ q = W / Y /\ eval xw'' = W mod Y /\ 0 <= q /\
    sel mask quo (wsub quo 1) = q /\ sel mask quo (if quo =? 0 then 0 else quo - 1) = q.
Proof.
  intros Hx Hxa Hxw Hy Hya Hyw Hwx Hwy Hxhi Hquo W Y Hest.
  destruct (knuth_step_window x y x_hi base yoff cnt quo xa xw xb ya yw yb Hx Hxa Hxw Hy Hya Hyw Hwx Hwy Hxhi Hquo)
    as (xw2 & Hk & Hw2 & Hl2 & He2).
  fold W Y in Hk, He2. exists xw2, (W <? quo * Y). split; [assumption|]. split; [assumption|]. split; [assumption|].
  pose proof (eval_bounds yw Hwy) as Hby. rewrite Hyw in Hby. fold Y in Hby.
  pose proof (eval_bounds xw Hwx) as Hbw. rewrite Hxw in Hbw.
  pose proof (Bn_pos cnt). pose proof B_gt1 as HB. unfold is_word in Hxhi, Hquo.
  assert (HW0 : 0 <= W) by (unfold W; assert (0 <= Bn cnt * x_hi) by (apply Z.mul_nonneg_nonneg; lia); lia).
  cbv zeta.
  destruct (W <? quo * Y) eqn:Em.
  - apply Z.ltb_lt in Em.
    assert (Hq1 : 1 <= quo).
    { destruct (Z_lt_ge_dec quo 1); [|lia]. assert (quo = 0) by lia. subst quo. lia. }
    rewrite Z.mod_small in He2 by lia.
    assert (Hdm : W / Y = quo - 1 /\ W mod Y = eval xw2) by (apply div_mod_unique_pos; lia).
    destruct Hdm as [Hd Hm]. unfold sel, wsub, wrap.
    rewrite (Z.mod_small (quo - 1) B) by lia.
    assert (quo =? 0 = false) as -> by (apply Z.eqb_neq; lia).
    repeat split; lia.
  - apply Z.ltb_ge in Em.
    rewrite Z.mod_small in He2 by lia.
    assert (Hdm : W / Y = quo /\ W mod Y = eval xw2) by (apply div_mod_unique_pos; lia).
    destruct Hdm as [Hd Hm]. unfold sel.
    repeat split; lia.
Qed.

(** a zero digit leaves the window untouched (the masked iterations of the constant-time loop) *)
Corollary knuth_step_zero x y x_hi base yoff cnt xa xw xb ya yw yb :
  x = xa ++ xw ++ xb -> length xa = base -> length xw = cnt ->
  y = ya ++ yw ++ yb -> length ya = yoff -> length yw = cnt ->
  wf xw -> wf yw -> is_word x_hi ->
  knuth_step x y x_hi base yoff cnt 0 = (x, false).
Proof.
  intros Hx Hxa Hxw Hy Hya Hyw Hwx Hwy Hxhi.
  destruct (knuth_step_window x y x_hi base yoff cnt 0 xa xw xb ya yw yb Hx Hxa Hxw Hy Hya Hyw Hwx Hwy Hxhi is_word_0')
    as (xw2 & Hk & Hw2 & Hl2 & He2).
  pose proof (eval_bounds xw Hwx) as Hbw. rewrite Hxw in Hbw.
  pose proof (Bn_pos cnt). unfold is_word in Hxhi.
  assert (0 <= Bn cnt * x_hi) by (apply Z.mul_nonneg_nonneg; lia).
  cbv zeta in Hk, He2. rewrite Z.mul_0_l in *.
  assert (Em : eval xw + Bn cnt * x_hi <? 0 = false) by (apply Z.ltb_ge; lia).
  rewrite Em in *. rewrite Hk. f_equal. rewrite Hx. f_equal. f_equal.
  apply eval_inj; auto; [lia|]. rewrite He2.
  replace (eval xw + Bn cnt * x_hi - 0 + 0) with (eval xw + x_hi * Bn cnt) by ring.
  rewrite Z.mod_add by lia. apply Z.mod_small. lia.
Qed.

(* the digit estimate is the true digit or one more (Knuth, Theorem B + step D3) *)
Lemma knuth_estimate K xl yl U V W Y quo :
  0 < K -> 0 <= xl < K -> 0 <= yl < K -> 0 <= U -> B <= V ->
  W = xl + K * U -> Y = yl + K * V -> W < Y * B ->
  quo = Z.min (U / V) (B - 1) ->
  (quo - 1) * Y <= W < (quo + 1) * Y /\ 0 <= quo < B.
Proof.
  intros HK Hxl Hyl HU HV HW HY Hlt Hquo. pose proof B_gt1 as HB.
  assert (HVp : 0 < V) by lia.
  pose proof (Z.div_mod U V ltac:(lia)) as Hdm. pose proof (Z.mod_pos_bound U V HVp) as Hmb.
  assert (Hq0 : 0 <= U / V) by (apply Z.div_pos; lia).
  set (Q := U / V) in *.
  assert (Hquo0 : 0 <= quo < B) by lia.
  assert (HqV : quo * V <= U).
  { assert (quo * V <= Q * V) by (apply Z.mul_le_mono_nonneg_r; lia). lia. }
  assert (HKU : 0 <= K * U) by (apply Z.mul_nonneg_nonneg; lia).
  split; [split|assumption].
  - (* lower *)
    destruct (Z.eq_dec quo 0) as [->|Hnz].
    + assert (0 <= Y) by (subst Y; assert (0 <= K * V) by (apply Z.mul_nonneg_nonneg; lia); lia). lia.
    + assert (H1 : (quo - 1) * Y <= (quo - 1) * (K * V + K)).
      { apply Z.mul_le_mono_nonneg_l; lia. }
      assert (H2 : (quo - 1) * (K * V + K) = K * (quo * V + (quo - 1 - V))) by ring.
      assert (H3 : K * (quo * V + (quo - 1 - V)) <= K * U) by (apply Z.mul_le_mono_nonneg_l; lia).
      lia.
  - (* upper *)
    destruct (Z_lt_ge_dec Q (B - 1)) as [Hs|Hb].
    + assert (quo = Q) by lia. subst quo.
      assert (U + 1 <= (Q + 1) * V) by lia.
      assert (K * (U + 1) <= K * ((Q + 1) * V)) by (apply Z.mul_le_mono_nonneg_l; lia).
      assert ((Q + 1) * (K * V) <= (Q + 1) * Y) by (apply Z.mul_le_mono_nonneg_l; lia).
      lia.
    + assert (quo = B - 1) by lia. subst quo. lia.
Qed.
