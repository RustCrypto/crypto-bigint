(** C10 proofs: [fg] and [de] on the unsaturated representation, one [divstep1], and the invariants of the
    fixed-count divsteps loop for any number of jumps; the run-until-zero loop returns one of its states. *)
From CB Require Import Model.Limbs Model.AddSub Model.SafeGcd Proofs.WordP Proofs.LimbsP Proofs.BitsP
  Proofs.SafeGcdArithP Proofs.SafeGcdJumpP Proofs.SafeGcdUnsatP Proofs.SafeGcdStepP.
From Coq Require Import ZArith Lia List Bool Znumtheory Zdiv Setoid Morphisms.
Open Scope Z_scope.
Global Opaque jump.

Lemma uval_mod_P62 a : wf62 a -> uval a mod P62 = hd 0 a.
Proof.
  destruct a as [|x r]; cbn [uval hd]; intros H; [reflexivity|].
  apply wf62_cons in H. destruct H as [Hx _]. rewrite Z.mul_comm, Z.mod_add by (pfacts; lia). apply Z.mod_small. assumption.
Qed.
Lemma P62_div_M62 L : (0 < L)%nat -> (P62 | M62 L).
Proof. intros H. destruct L; [lia|]. rewrite M62_S. exists (M62 L). ring. Qed.
Lemma sval_cg_P62 a : wf62 a -> (0 < length a)%nat -> cg P62 (sval a) (hd 0 a).
Proof.
  intros H HL. pose proof (sval_cg a) as C.
  apply (cg_weaken _ P62) in C; [| pose proof (M62_pos (length a)); lia | pfacts; lia | apply P62_div_M62; assumption].
  rewrite C. apply cg_iff. rewrite uval_mod_P62 by assumption.
  symmetry. apply Z.mod_small. destruct a as [|x r]; [cbn in HL; lia|]. apply wf62_cons in H. cbn [hd]. tauto.
Qed.
Lemma sval_mod_P62 a : wf62 a -> (0 < length a)%nat -> sval a mod P62 = hd 0 a.
Proof.
  intros H HL. pose proof (sval_cg_P62 a H HL) as C. apply cg_iff in C. rewrite C.
  apply Z.mod_small. destruct a as [|x r]; [cbn in HL; lia|]. apply wf62_cons in H. cbn [hd]. tauto.
Qed.
Lemma nonempty_len (a : list Z) : (0 < length a)%nat -> a <> [].
Proof. destruct a; [cbn; lia | discriminate]. Qed.

Lemma u_lin2 a b c1 c2 : wf62 a -> wf62 b -> length a = length b -> - P63 < c1 < P63 -> - P63 < c2 < P63 ->
  let r := u_add (u_mul a c1) (u_mul b c2) in
  wf62 r /\ length r = length a /\ cg (M62 (length a)) (uval r) (sval a * c1 + sval b * c2).
Proof.
  intros Ha Hb Hl H1 H2 r.
  destruct (u_mul_spec a c1 Ha H1) as (W1 & L1 & E1).
  destruct (u_mul_spec b c2 Hb H2) as (W2 & L2 & E2).
  destruct (u_add_spec _ _ W1 W2 ltac:(congruence)) as (W & Ln & E).
  fold r in W, Ln, E. rewrite L1 in Ln, E. rewrite <- Hl in E2.
  repeat split; [assumption | assumption |].
  pose proof (sval_cg a) as Ca. pose proof (sval_cg b) as Cb. rewrite <- Hl in Cb.
  rewrite E, E1, E2. rewrite !cg_mod. rewrite Ca, Cb. reflexivity.
Qed.
Lemma u_lin3 a b c c1 c2 c3 : wf62 a -> wf62 b -> wf62 c -> length a = length b -> length a = length c ->
  - P63 < c1 < P63 -> - P63 < c2 < P63 -> - P63 < c3 < P63 ->
  let r := u_add (u_add (u_mul a c1) (u_mul b c2)) (u_mul c c3) in
  wf62 r /\ length r = length a /\ cg (M62 (length a)) (uval r) (sval a * c1 + sval b * c2 + sval c * c3).
Proof.
  intros Ha Hb Hc Hl Hl2 H1 H2 H3 r.
  destruct (u_lin2 a b c1 c2 Ha Hb Hl H1 H2) as (W12 & L12 & C12). cbv zeta in W12, L12, C12.
  destruct (u_mul_spec c c3 Hc H3) as (W3 & L3 & E3).
  destruct (u_add_spec _ _ W12 W3 ltac:(congruence)) as (W & Ln & E).
  fold r in W, Ln, E. rewrite L12 in Ln, E. rewrite <- Hl2 in E3.
  repeat split; [assumption | assumption |].
  pose proof (sval_cg c) as Cc. rewrite <- Hl2 in Cc.
  rewrite E, E3. rewrite !cg_mod. rewrite C12, Cc. reflexivity.
Qed.

Lemma shr_exact r X : wf62 r -> (0 < length r)%nat -> cg (M62 (length r)) (uval r) (P62 * X) ->
  - M62 (length r) <= 2 * (P62 * X) < M62 (length r) ->
  wf62 (u_shr r) /\ length (u_shr r) = length r /\ sval (u_shr r) = X.
Proof.
  intros W HL C R. destruct (u_shr_spec r W HL) as (W' & L' & E').
  repeat split; [assumption | assumption |].
  rewrite E', (sval_unique r (P62 * X) W C R). rewrite Z.mul_comm. apply Z.div_mul. pfacts. lia.
Qed.

Lemma fit_bound Bd M X : 0 <= Bd -> 2 * P62 * Bd < M -> Z.abs X <= Bd -> - M <= 2 * (P62 * X) < M.
Proof.
  intros HB HM HX. pfacts.
  assert (P62 * Z.abs X <= P62 * Bd) by (apply Z.mul_le_mono_nonneg_l; lia).
  assert (Z.abs (P62 * X) = P62 * Z.abs X) by (rewrite Z.abs_mul, (Z.abs_eq P62); lia). lia.
Qed.

Lemma abs_sum_bound ta tb : Z.abs ta + Z.abs tb <= P62 -> - P63 < ta < P63 /\ - P63 < tb < P63.
Proof. intros H. pfacts. lia. Qed.

Lemma fg_spec f g t00 t01 t10 t11 F' G' : wf62 f -> wf62 g -> length f = length g -> (0 < length f)%nat ->
  Z.abs t00 + Z.abs t01 <= P62 -> Z.abs t10 + Z.abs t11 <= P62 ->
  t00 * sval f + t01 * sval g = P62 * F' -> t10 * sval f + t11 * sval g = P62 * G' ->
  - M62 (length f) <= 2 * (P62 * F') < M62 (length f) -> - M62 (length f) <= 2 * (P62 * G') < M62 (length f) ->
  wf62 (fst (fg f g (t00, t01, t10, t11))) /\ wf62 (snd (fg f g (t00, t01, t10, t11))) /\
  length (fst (fg f g (t00, t01, t10, t11))) = length f /\ length (snd (fg f g (t00, t01, t10, t11))) = length f /\
  sval (fst (fg f g (t00, t01, t10, t11))) = F' /\ sval (snd (fg f g (t00, t01, t10, t11))) = G'.
Proof.
  intros Wf Wg Hl HL R0 R1 E0 E1 B0 B1. cbn [fg fst snd].
  destruct (abs_sum_bound _ _ R0) as [T00 T01]. destruct (abs_sum_bound _ _ R1) as [T10 T11].
  destruct (u_lin2 f g t00 t01 Wf Wg Hl T00 T01) as (W0 & L0 & C0). cbv zeta in W0, L0, C0.
  destruct (u_lin2 f g t10 t11 Wf Wg Hl T10 T11) as (W1 & L1 & C1). cbv zeta in W1, L1, C1.
  assert (C0' : cg (M62 (length f)) (uval (u_add (u_mul f t00) (u_mul g t01))) (P62 * F')).
  { rewrite C0. apply cg_of_eq. rewrite <- E0. ring. }
  assert (C1' : cg (M62 (length f)) (uval (u_add (u_mul f t10) (u_mul g t11))) (P62 * G')).
  { rewrite C1. apply cg_of_eq. rewrite <- E1. ring. }
  destruct (shr_exact _ F' W0) as (X1 & X2 & X3); [rewrite L0; assumption | rewrite L0; assumption | rewrite L0; assumption |].
  destruct (shr_exact _ G' W1) as (Y1 & Y2 & Y3); [rewrite L1; assumption | rewrite L1; assumption | rewrite L1; assumption |].
  repeat split; try assumption; lia.
Qed.

Lemma b01_cases x : 0 <= x <= 1 -> x = 0 \/ x = 1. Proof. lia. Qed.
Lemma de_m_spec inverse ta tb nd ne d0 e0 :
  Z.abs ta + Z.abs tb <= P62 -> 0 <= nd <= 1 -> 0 <= ne <= 1 ->
  let m0 := ta * nd + tb * ne in
  let rr := (inverse * ((ta * d0 + tb * e0) mod P62) + m0) mod P62 in
  de_m inverse ta tb nd ne d0 e0 = m0 - rr /\ 0 <= rr < P62 /\ Z.abs m0 <= P62.
Proof.
  intros R Hnd Hne m0 rr. pfacts.
  assert (Hm0 : Z.abs m0 <= P62).
  { unfold m0. destruct (b01_cases _ Hnd) as [-> | ->]; destruct (b01_cases _ Hne) as [-> | ->]; lia. }
  assert (Hrr : 0 <= rr < P62) by (apply Z.mod_pos_bound; lia).
  split; [|split; assumption].
  unfold de_m. fold m0. rewrite (s64_id m0) by lia. rewrite !land_u64_mask62. fold rr.
  apply s64_id. lia.
Qed.

Lemma de_cong inverse mlo M ta tb D E d0 e0 m0 :
  (mlo * inverse) mod P62 = 1 -> cg P62 M mlo -> cg P62 D d0 -> cg P62 E e0 ->
  cg P62 (ta * D + tb * E + M * (m0 - (inverse * ((ta * d0 + tb * e0) mod P62) + m0) mod P62)) 0.
Proof.
  intros Hinv CM CD CE.
  assert (C1 : cg P62 (mlo * inverse) 1) by (apply cg_iff; rewrite Hinv; reflexivity).
  rewrite !cg_mod. rewrite CM, CD, CE.
  transitivity ((ta * d0 + tb * e0) * (1 - mlo * inverse)); [apply cg_of_eq; ring|].
  rewrite C1. apply cg_of_eq. ring.
Qed.

(** range of a row of [de]: a negative d or e has m added, which brings it into [-ub, ub], so the row is within
    P62 * ub before rr * m < P62 * m is taken off *)
Lemma de_row_range ta tb D E m ub rr D' :
  Z.abs ta + Z.abs tb <= P62 -> 0 < m -> m - 1 <= ub <= m -> - 2 * m < D <= ub -> - 2 * m < E <= ub -> 0 <= rr < P62 ->
  ta * D + tb * E + m * (ta * b2z (D <? 0) + tb * b2z (E <? 0) - rr) = D' * P62 -> - 2 * m < D' <= ub.
Proof.
  intros R Hm Hub RD RE Hrr ED'. pfacts.
  set (Dp := D + b2z (D <? 0) * m). set (Ep := E + b2z (E <? 0) * m).
  assert (HDp : Z.abs Dp <= ub) by (unfold Dp; destruct (Z.ltb_spec D 0); cbn [b2z]; lia).
  assert (HEp : Z.abs Ep <= ub) by (unfold Ep; destruct (Z.ltb_spec E 0); cbn [b2z]; lia).
  pose proof (abs_lin ta tb Dp Ep ub HDp HEp) as AL.
  assert (AL2 : (Z.abs ta + Z.abs tb) * ub <= P62 * ub) by (apply Z.mul_le_mono_nonneg_r; lia).
  assert (EX : D' * P62 = (ta * Dp + tb * Ep) - rr * m) by (rewrite <- ED'; unfold Dp, Ep; ring).
  assert (Hrm : 0 <= rr * m <= (P62 - 1) * m) by (split; [apply Z.mul_nonneg_nonneg | apply Z.mul_le_mono_nonneg_r]; lia).
  assert (Pub : P62 * ub <= P62 * m) by (apply Z.mul_le_mono_nonneg_l; lia).
  clearbody Dp Ep. clear - EX AL AL2 Hrm Pub Hm H0.
  split; [apply (Z.mul_lt_mono_pos_r P62) | apply (Z.mul_le_mono_pos_r _ _ P62)]; lia.
Qed.

(** the congruence d a = f A (mod m) goes through a row: 2^62 is cancelled because m is odd *)
Lemma de_row_cg m a A ta tb D E md F G D' F' : 0 < m -> Z.odd m = true ->
  ta * F + tb * G = P62 * F' -> ta * D + tb * E + m * md = D' * P62 ->
  cg m (D * a) (F * A) -> cg m (E * a) (G * A) -> cg m (D' * a) (F' * A).
Proof.
  intros Hm Om EF ED' CD CE.
  apply cg_divide; [lia|]. apply cg_divide in CD; [|lia]. apply cg_divide in CE; [|lia].
  apply (gauss_pow2 m 62); [assumption | lia |]. rewrite <- P62_pow.
  replace (P62 * (D' * a - F' * A)) with (ta * (D * a - F * A) + tb * (E * a - G * A) + m * (md * a)).
  - apply Z.divide_add_r; [apply Z.divide_add_r; apply Z.divide_mul_r; assumption | apply Z.divide_factor_l].
  - replace (P62 * (D' * a - F' * A)) with ((D' * P62) * a - (P62 * F') * A) by ring. rewrite <- ED', <- EF. ring.
Qed.

Lemma b2z_range b : 0 <= b2z b <= 1.
Proof. destruct b; cbn; lia. Qed.

Section DeRow.
  Context (mL : list Z) (inverse m a A ub : Z).
  Context (WmL : wf62 mL) (HLm : (0 < length mL)%nat) (Em : sval mL = m) (Hm : 0 < m) (Om : Z.odd m = true)
          (Fit : 4 * P62 * m <= M62 (length mL)) (Hinv : (hd 0 mL * inverse) mod P62 = 1)
          (Hub : m - 1 <= ub <= m).

  Lemma de_row ta tb d e F G F' :
    wf62 d -> wf62 e -> length d = length mL -> length e = length mL ->
    Z.abs ta + Z.abs tb <= P62 -> ta * F + tb * G = P62 * F' ->
    - 2 * m < sval d <= ub -> - 2 * m < sval e <= ub ->
    cg m (sval d * a) (F * A) -> cg m (sval e * a) (G * A) ->
    let md := de_m inverse ta tb (b2z (u_is_negative d)) (b2z (u_is_negative e)) (hd 0 d) (hd 0 e) in
    let r := u_shr (u_add (u_add (u_mul d ta) (u_mul e tb)) (u_mul mL md)) in
    wf62 r /\ length r = length mL /\ - 2 * m < sval r <= ub /\ cg m (sval r * a) (F' * A).
  Proof.
    intros Wd We Ld Le R EF RD RE CDa CEa. cbv zeta.
    assert (HLd : (0 < length d)%nat) by (rewrite Ld; exact HLm).
    assert (HLe : (0 < length e)%nat) by (rewrite Le; exact HLm).
    rewrite !u_is_negative_sval by (try apply nonempty_len; assumption).
    set (D := sval d) in *. set (E := sval e) in *.
    destruct (de_m_spec inverse ta tb _ _ (hd 0 d) (hd 0 e) R (b2z_range (D <? 0)) (b2z_range (E <? 0))) as (Emd & Hrr & Hm0).
    cbv zeta in Emd, Hrr, Hm0.
    set (md := de_m _ _ _ _ _ _ _) in *.
    set (rr := (inverse * _ + _) mod P62) in *.
    (* exact divisibility by 2^62 *)
    assert (CX : cg P62 (ta * D + tb * E + m * md) 0).
    { rewrite Emd. apply (de_cong inverse (hd 0 mL)); [assumption | rewrite <- Em | | ]; apply sval_cg_P62; assumption. }
    apply cg_divide in CX; [|discriminate]. rewrite Z.sub_0_r in CX. destruct CX as [D' ED'].
    assert (RD' : - 2 * m < D' <= ub).
    { apply (de_row_range ta tb D E m ub rr); try assumption. rewrite <- Emd. exact ED'. }
    assert (Hmd : - P63 < md < P63) by (clear - Emd Hrr Hm0; pfacts; lia).
    destruct (abs_sum_bound _ _ R) as [Ta Tb].
    destruct (u_lin3 d e mL ta tb md Wd We WmL ltac:(congruence) ltac:(congruence) Ta Tb Hmd) as (W3 & L3 & C3).
    cbv zeta in W3, L3, C3. fold D E in C3. rewrite Em, Ld in C3. rewrite Ld in L3.
    replace (D * ta + E * tb + m * md) with (P62 * D') in C3 by (rewrite (Z.mul_comm P62), <- ED'; ring).
    destruct (shr_exact _ D' W3) as (X1 & X2 & X3); rewrite ?L3; try assumption.
    { apply (fit_bound (2 * m - 1)); clear - Hm Fit RD' Hub; pfacts; lia. }
    rewrite X3. split; [exact X1|]. split; [congruence|]. split; [exact RD'|].
    exact (de_row_cg m a A ta tb D E md F G D' F' Hm Om EF ED' CDa CEa).
  Qed.

  Lemma de_spec t00 t01 t10 t11 d e F G F' G' :
    wf62 d -> wf62 e -> length d = length mL -> length e = length mL ->
    Z.abs t00 + Z.abs t01 <= P62 -> Z.abs t10 + Z.abs t11 <= P62 ->
    t00 * F + t01 * G = P62 * F' -> t10 * F + t11 * G = P62 * G' ->
    - 2 * m < sval d <= ub -> - 2 * m < sval e <= ub ->
    cg m (sval d * a) (F * A) -> cg m (sval e * a) (G * A) ->
    let d' := fst (de mL inverse (t00, t01, t10, t11) d e) in
    let e' := snd (de mL inverse (t00, t01, t10, t11) d e) in
    wf62 d' /\ wf62 e' /\ length d' = length mL /\ length e' = length mL /\
    - 2 * m < sval d' <= ub /\ - 2 * m < sval e' <= ub /\
    cg m (sval d' * a) (F' * A) /\ cg m (sval e' * a) (G' * A).
  Proof.
    intros Wd We Ld Le R0 R1 E0 E1 RD RE CD CE. cbn [de fst snd]. cbv zeta.
    destruct (de_row t00 t01 d e F G F' Wd We Ld Le R0 E0 RD RE CD CE) as (A1 & A2 & A3 & A4).
    destruct (de_row t10 t11 d e F G G' Wd We Ld Le R1 E1 RD RE CD CE) as (B1 & B2 & B3 & B4).
    cbv zeta in A1, A2, A3, A4, B1, B2, B3, B4.
    repeat split; try assumption; lia.
  Qed.
End DeRow.

(** the (delta, f, g) part of the state: L limbs each, |f|, |g| <= Bd, gcd G0, a jump may start, |delta| <= K *)
Definition FGI (G0 Bd K : Z) (L : nat) (delta : Z) (f g : list Z) : Prop :=
  wf62 f /\ wf62 g /\ length f = L /\ length g = L /\
  Z.abs (sval f) <= Bd /\ Z.abs (sval g) <= Bd /\ Z.gcd (sval f) (sval g) = G0 /\
  PRE (sval f) (sval g) delta /\ Z.abs delta <= K.
(** the (d, e) part: L limbs each, values in (-2m, ub], and d a = f A, e a = g A modulo m *)
Definition DEI (m a A ub : Z) (L : nat) (d e f g : list Z) : Prop :=
  wf62 d /\ wf62 e /\ length d = L /\ length e = L /\
  - 2 * m < sval d <= ub /\ - 2 * m < sval e <= ub /\
  cg m (sval d * a) (sval f * A) /\ cg m (sval e * a) (sval g * A).

Lemma divsteps_loop_S n m i s : divsteps_loop (S n) m i s = divsteps_loop n m i (divstep1 m i s).
Proof. reflexivity. Qed.
Lemma divsteps_vt_S n m i delta d e f g : divsteps_vt_loop (S n) m i (delta, d, e, f, g) =
  if u_is_zero g then Some (delta, d, e, f, g) else divsteps_vt_loop n m i (divstep1 m i (delta, d, e, f, g)).
Proof. reflexivity. Qed.
Lemma divsteps_vt_0 m i delta d e f g : divsteps_vt_loop 0 m i (delta, d, e, f, g) =
  if u_is_zero g then Some (delta, d, e, f, g) else None.
Proof. reflexivity. Qed.

Lemma divstep1_eq mL inv delta d e f g :
  exists delta' t00 t01 t10 t11,
    jump (hd 0 f) (hd 0 g) delta = (delta', (t00, t01, t10, t11)) /\
    divstep1 mL inv (delta, d, e, f, g) =
      (delta', fst (de mL inv (t00, t01, t10, t11) d e), snd (de mL inv (t00, t01, t10, t11) d e),
       fst (fg f g (t00, t01, t10, t11)), snd (fg f g (t00, t01, t10, t11))).
Proof.
  unfold divstep1. destruct (jump (hd 0 f) (hd 0 g) delta) as [delta' [[[t00 t01] t10] t11]].
  exists delta', t00, t01, t10, t11. split; [reflexivity|].
  destruct (fg f g (t00, t01, t10, t11)) as [f' g']. destruct (de mL inv (t00, t01, t10, t11) d e) as [d' e']. reflexivity.
Qed.

Lemma divstep1_fg G0 Bd K L mL inv delta d e f g : (0 < L)%nat -> K + 62 <= P62 -> 2 * P62 * Bd < M62 L ->
  FGI G0 Bd K L delta f g ->
  exists delta' d' e' f' g' t00 t01 t10 t11,
    divstep1 mL inv (delta, d, e, f, g) = (delta', d', e', f', g') /\
    d' = fst (de mL inv (t00, t01, t10, t11) d e) /\ e' = snd (de mL inv (t00, t01, t10, t11) d e) /\
    Z.abs t00 + Z.abs t01 <= P62 /\ Z.abs t10 + Z.abs t11 <= P62 /\
    t00 * sval f + t01 * sval g = P62 * sval f' /\ t10 * sval f + t11 * sval g = P62 * sval g' /\
    FGI G0 Bd (K + 62) L delta' f' g'.
Proof.
  intros HL HK HM (Wf & Wg & Lf & Lg & Bf & Bg & GC & Hpre & Hd).
  destruct (divstep1_eq mL inv delta d e f g) as (delta' & t00 & t01 & t10 & t11 & EJ & ES).
  pose proof (divstep_gcd_inv (sval f) (sval g) delta Bd Hpre ltac:(lia) Bf Bg) as DS.
  rewrite !sval_mod_P62 in DS by (assumption || lia). rewrite EJ in DS.
  destruct DS as (F' & G' & E0 & E1 & R0 & R1 & Ho & BF' & BG' & GC' & Hd').
  assert (HB : 0 <= Bd) by (eapply Z.le_trans; [apply Z.abs_nonneg | exact Bf]).
  destruct (fg_spec f g t00 t01 t10 t11 F' G' Wf Wg ltac:(congruence) ltac:(rewrite Lf; exact HL) R0 R1 E0 E1) as (W1 & W2 & L1 & L2 & S1 & S2).
  { rewrite Lf. apply (fit_bound Bd); assumption. }
  { rewrite Lf. apply (fit_bound Bd); assumption. }
  exists delta', (fst (de mL inv (t00, t01, t10, t11) d e)), (snd (de mL inv (t00, t01, t10, t11) d e)),
    (fst (fg f g (t00, t01, t10, t11))), (snd (fg f g (t00, t01, t10, t11))), t00, t01, t10, t11.
  split; [exact ES|]. split; [reflexivity|]. split; [reflexivity|].
  unfold FGI. rewrite S1, S2, L1, L2, GC'.
  repeat split; try assumption.
  - destruct Ho as [Ho | Ho]; [left; assumption | right; right; assumption].
  - clear - Hd Hd'. lia.
Qed.

Lemma divsteps_loop_fg G0 Bd L mL inv : (0 < L)%nat -> 2 * P62 * Bd < M62 L ->
  forall n K delta d e f g, K + 62 * Z.of_nat n <= P62 -> FGI G0 Bd K L delta f g ->
  exists delta' d' e' f' g', divsteps_loop n mL inv (delta, d, e, f, g) = (delta', d', e', f', g') /\
    FGI G0 Bd (K + 62 * Z.of_nat n) L delta' f' g'.
Proof.
  intros HL HM. induction n as [|n IH]; intros K delta d e f g HK I.
  - exists delta, d, e, f, g. split; [reflexivity|]. replace (K + 62 * Z.of_nat 0) with K by lia. assumption.
  - rewrite divsteps_loop_S.
    destruct (divstep1_fg G0 Bd K L mL inv delta d e f g HL ltac:(lia) HM I) as (delta1 & d1 & e1 & f1 & g1 & t00 & t01 & t10 & t11 & ES & _ & _ & _ & _ & _ & _ & I1).
    rewrite ES.
    destruct (IH (K + 62) delta1 d1 e1 f1 g1 ltac:(lia) I1) as (delta' & d' & e' & f' & g' & EL & I').
    exists delta', d', e', f', g'. split; [assumption|].
    replace (K + 62 * Z.of_nat (S n)) with (K + 62 + 62 * Z.of_nat n) by lia. assumption.
Qed.

(** the run-until-zero loop returns a state of the fixed-count loop with g = 0 *)
Lemma divsteps_vt_some mL inv : forall n s delta' d' e' f' g',
  divsteps_vt_loop n mL inv s = Some (delta', d', e', f', g') ->
  exists k, (k <= n)%nat /\ divsteps_loop k mL inv s = (delta', d', e', f', g') /\ u_is_zero g' = true.
Proof.
  induction n as [|n IH]; intros [[[[delta d] e] f] g] delta' d' e' f' g' E.
  - rewrite divsteps_vt_0 in E. destruct (u_is_zero g) eqn:Z0; [|discriminate].
    exists 0%nat. injection E as <- <- <- <- <-. split; [lia|]. split; [reflexivity | exact Z0].
  - rewrite divsteps_vt_S in E. destruct (u_is_zero g) eqn:Z0.
    + exists 0%nat. injection E as <- <- <- <- <-. split; [lia|]. split; [reflexivity | exact Z0].
    + destruct (IH _ _ _ _ _ _ E) as (k & Hk & EL & Z'). exists (S k). rewrite divsteps_loop_S. split; [lia|]. split; [exact EL | exact Z'].
Qed.

Section DeLoop.
  Context (mL : list Z) (inverse m a A ub : Z) (L : nat).
  Context (WmL : wf62 mL) (LmL : length mL = L) (HL : (0 < L)%nat) (Em : sval mL = m) (Hm : 0 < m) (Om : Z.odd m = true)
          (Fit : 4 * P62 * m <= M62 L) (Hinv : (hd 0 mL * inverse) mod P62 = 1)
          (Hub : m - 1 <= ub <= m).
  Context (G0 Bd : Z) (HM : 2 * P62 * Bd < M62 L).

  Lemma divstep1_de K delta d e f g delta' d' e' f' g' : K + 62 <= P62 ->
    FGI G0 Bd K L delta f g -> DEI m a A ub L d e f g ->
    divstep1 mL inverse (delta, d, e, f, g) = (delta', d', e', f', g') ->
    FGI G0 Bd (K + 62) L delta' f' g' /\ DEI m a A ub L d' e' f' g'.
  Proof.
    intros HK I (Wd & We & Ld & Le & RD & RE & CD & CE) ES.
    destruct (divstep1_fg G0 Bd K L mL inverse delta d e f g HL HK HM I) as (delta1 & d1 & e1 & f1 & g1 & t00 & t01 & t10 & t11 & ES' & Ed & Ee & R0 & R1 & E0 & E1 & I1).
    assert (EQ : (delta', d', e', f', g') = (delta1, d1, e1, f1, g1)) by congruence.
    injection EQ as -> -> -> -> ->. clear ES'.
    split; [assumption|].
    assert (HLm : (0 < length mL)%nat) by lia. rewrite <- LmL in Fit.
    pose proof (de_spec mL inverse m a A ub WmL HLm Em Hm Om Fit Hinv Hub t00 t01 t10 t11 d e (sval f) (sval g) (sval f1) (sval g1)
                  Wd We ltac:(congruence) ltac:(congruence) R0 R1 E0 E1 RD RE CD CE) as DS.
    cbv zeta in DS. rewrite <- Ed, <- Ee in DS. destruct DS as (X1 & X2 & X3 & X4 & X5 & X6 & X7 & X8).
    unfold DEI. repeat split; try assumption; try lia.
  Qed.

  Lemma divsteps_loop_de : forall n K delta d e f g delta' d' e' f' g', K + 62 * Z.of_nat n <= P62 ->
    FGI G0 Bd K L delta f g -> DEI m a A ub L d e f g ->
    divsteps_loop n mL inverse (delta, d, e, f, g) = (delta', d', e', f', g') ->
    FGI G0 Bd (K + 62 * Z.of_nat n) L delta' f' g' /\ DEI m a A ub L d' e' f' g'.
  Proof.
    induction n as [|n IH]; intros K delta d e f g delta' d' e' f' g' HK I J E.
    - cbn [divsteps_loop] in E. inversion E; subst. replace (K + 62 * Z.of_nat 0) with K by lia. split; assumption.
    - rewrite divsteps_loop_S in E.
      destruct (divstep1 mL inverse (delta, d, e, f, g)) as [[[[delta1 d1] e1] f1] g1] eqn:ES.
      destruct (divstep1_de K delta d e f g delta1 d1 e1 f1 g1 ltac:(lia) I J ES) as (I1 & J1).
      destruct (IH (K + 62) delta1 d1 e1 f1 g1 delta' d' e' f' g' ltac:(lia) I1 J1 E) as (I' & J').
      split; [|assumption]. replace (K + 62 * Z.of_nat (S n)) with (K + 62 + 62 * Z.of_nat n) by lia. assumption.
  Qed.

End DeLoop.
