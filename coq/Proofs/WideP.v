(** C05 proofs, part 5: the double-width shifts Uint::overflowing_shl_vartime_wide / shr_vartime_wide. *)
From CB Require Import Model.Limbs Model.AddSub Model.Bits Proofs.WordP Proofs.LimbsP Proofs.AddSubP
  Proofs.BitsWordP Proofs.ShiftP Proofs.LadderP Proofs.BitQueryP.
From Coq Require Import ZArith Lia List Bool.
Open Scope Z_scope.

Lemma shl_vt_some x d : wf x -> 0 <= d < bitsZ' x ->
  exists v, ct_expect (uint_overflowing_shl_vartime x d) = Some v /\ wf v /\ length v = length x /\
            eval v = (eval x * 2 ^ d) mod Bn (length x).
Proof. exact (step_some _ _ shl_kernel x d). Qed.

Lemma shr_vt_some x d : wf x -> 0 <= d < bitsZ' x ->
  exists v, ct_expect (uint_overflowing_shr_vartime x d) = Some v /\ wf v /\ length v = length x /\
            eval v = eval x / 2 ^ d.
Proof. exact (step_some _ _ shr_kernel x d). Qed.

Lemma shl_vt_none x d : wf x -> bitsZ' x <= d -> ct_expect (uint_overflowing_shl_vartime x d) = None.
Proof. exact (step_none _ _ shl_kernel x d). Qed.

Lemma shr_vt_none x d : wf x -> bitsZ' x <= d -> ct_expect (uint_overflowing_shr_vartime x d) = None.
Proof. exact (step_none _ _ shr_kernel x d). Qed.

(** the two halves of a double-width value [L + 2^w * H] shifted left / right by [0 < s < w] *)
Lemma shl_wide w s L H : 0 < s < w -> 0 <= L < 2 ^ w -> 0 <= H ->
  ((L + 2 ^ w * H) * 2 ^ s) mod (2 ^ w * 2 ^ w) =
  (L * 2 ^ s) mod 2 ^ w + 2 ^ w * Z.lor (L / 2 ^ (w - s)) ((H * 2 ^ s) mod 2 ^ w).
Proof.
  intros Hs HL HH. set (M := 2 ^ w). assert (0 < M) by (apply pow2_pos; lia).
  destruct (shl_split_gen L s w ltac:(lia) ltac:(lia)) as [EL _]. fold M in EL.
  assert (Hc : 0 <= L / 2 ^ (w - s) < 2 ^ s).
  { pose proof (pow2_pos (w - s) ltac:(lia)). split; [apply Z.div_pos; lia|].
    apply Z.div_lt_upper_bound; [lia|]. rewrite <- pow2_split by lia. replace (w - s + s) with w by lia. lia. }
  destruct (shl_window w s H _ HH ltac:(lia) Hc) as [EH Hlo]. fold M in EH, Hlo.
  assert (EQ : (L + M * H) * 2 ^ s = (L * 2 ^ s) mod M + M * (H * 2 ^ s + L / 2 ^ (w - s))).
  { replace ((L + M * H) * 2 ^ s) with (L * 2 ^ s + M * (H * 2 ^ s)) by ring. rewrite EL at 1. ring. }
  rewrite EQ.
  rewrite mod_cons by (try apply Z.mod_pos_bound; lia). f_equal. f_equal.
  symmetry. apply (Z.mod_unique_pos _ _ (H / 2 ^ (w - s))); [exact Hlo | exact EH].
Qed.

Lemma shr_wide w s L H : 0 < s < w -> 0 <= L < 2 ^ w -> 0 <= H ->
  (L + 2 ^ w * H) / 2 ^ s =
  Z.lor (L / 2 ^ s) ((H * 2 ^ (w - s)) mod 2 ^ w) + 2 ^ w * (H / 2 ^ s).
Proof.
  intros Hs HL HH. pose proof (pow2_pos s ltac:(lia)) as Hps. pose proof (pow2_pos (w - s) ltac:(lia)) as Hpw.
  assert (HM : 2 ^ w = 2 ^ (w - s) * 2 ^ s) by (rewrite <- pow2_split by lia; f_equal; lia).
  destruct (shl_split_gen H (w - s) w HH ltac:(lia)) as (_ & E). replace (w - (w - s)) with s in E by lia. rewrite E.
  assert (Hll : 0 <= L / 2 ^ s < 2 ^ (w - s)).
  { split; [apply Z.div_pos; lia|]. apply Z.div_lt_upper_bound; lia. }
  rewrite Z.lor_comm, lor_disjoint by lia.
  replace (L + 2 ^ w * H) with (L + (2 ^ (w - s) * H) * 2 ^ s) by (rewrite HM; ring).
  rewrite Z.div_add by lia. rewrite (Z.div_mod H (2 ^ s)) at 1 by lia. rewrite HM. ring.
Qed.

Section Wide.
  Variables lo hi : list Z.
  Hypothesis Wlo : wf lo.
  Hypothesis Whi : wf hi.
  Hypothesis Hlen : length hi = length lo.
  Hypothesis Hne : lo <> [].
  Let n := length lo.
  Let bits := bitsZ' lo.
  Let M := Bn n.
  Let L := eval lo.
  Let H := eval hi.

  Lemma wide_facts : 64 <= bits /\ M = 2 ^ bits /\ 0 <= L < M /\ 0 <= H < M /\ bitsZ' hi = bits /\ 0 < M.
  Proof.
    unfold bits, M, L, H, n. pose proof (bits_ge_64 lo Hne). pose proof (eval_bounds lo Wlo).
    pose proof (eval_bounds hi Whi) as Hh. rewrite Hlen in Hh. pose proof (Bn_pos (length lo)).
    repeat split; try lia.
    - rewrite Bn_pow2. reflexivity.
    - unfold bitsZ'. rewrite Hlen. reflexivity.
  Qed.

  Lemma uint_shl_vartime_wide_pos s : 0 < s < 2 * bits ->
    exists l h, uint_shl_vartime_wide lo hi s = Some (Some (l, h)) /\
      wf l /\ wf h /\ length l = n /\ length h = n /\
      eval l + M * eval h = ((L + M * H) * 2 ^ s) mod (M * M).
  Proof.
    intros Hs. destruct wide_facts as (H64 & HM & HL & HH & Hbh & HMp).
    unfold uint_shl_vartime_wide. unfold lenZ. fold (bitsZ' lo). fold bits.
    destruct (Z.leb_spec (2 * bits) s); [lia|].
    destruct (Z.leb_spec bits s) as [Hhi|Hlo].
    - destruct (shl_vt_some lo (s - bits) Wlo ltac:(fold bits; lia)) as (u & Eu & Wu & Lu & Vu).
      rewrite Eu. exists (zeros (length lo)), u. split; [reflexivity|].
      split; [apply wf_zeros|]. split; [exact Wu|]. split; [apply length_zeros|]. split; [exact Lu|].
      rewrite eval_zeros, Vu. fold n; fold M; fold L.
      set (T := 2 ^ (s - bits)). assert (HT : 2 ^ s = M * T).
      { rewrite HM. unfold T. rewrite <- pow2_split by lia. f_equal. lia. }
      rewrite HT. replace ((L + M * H) * (M * T)) with (M * ((L + M * H) * T)) by ring.
      rewrite Z.mul_mod_distr_l by lia.
      replace ((L + M * H) * T) with (L * T + (H * T) * M) by ring. rewrite Z.mod_add by lia. lia.
    - destruct (Z.eqb_spec s 0); [lia|].
      destruct (shl_vt_some lo s Wlo ltac:(fold bits; lia)) as (nl & Enl & Wnl & Lnl & Vnl).
      destruct (shr_vt_some lo (bits - s) Wlo ltac:(fold bits; lia)) as (ul & Eul & Wul & Lul & Vul).
      destruct (shl_vt_some hi s Whi ltac:(rewrite Hbh; lia)) as (uh & Euh & Wuh & Luh & Vuh).
      rewrite Enl, Eul, Euh.
      destruct (limbs_or_correct ul uh Wul Wuh ltac:(lia)) as (Wo & Lo & Eo).
      exists nl, (limbs_or ul uh). split; [reflexivity|].
      split; [exact Wnl|]. split; [exact Wo|]. split; [exact Lnl|]. split; [unfold n; lia|].
      rewrite Eo, Vnl, Vul, Vuh, Hlen. fold n; fold M; fold L; fold H.
      rewrite HM in *. symmetry. apply shl_wide; lia.
  Qed.

  Lemma uint_shr_vartime_wide_pos s : 0 < s < 2 * bits ->
    exists l h, uint_shr_vartime_wide lo hi s = Some (Some (l, h)) /\
      wf l /\ wf h /\ length l = n /\ length h = n /\
      eval l + M * eval h = (L + M * H) / 2 ^ s.
  Proof.
    intros Hs. destruct wide_facts as (H64 & HM & HL & HH & Hbh & HMp).
    unfold uint_shr_vartime_wide. unfold lenZ. fold (bitsZ' lo). fold bits.
    destruct (Z.leb_spec (2 * bits) s); [lia|].
    destruct (Z.leb_spec bits s) as [Hhi|Hlo].
    - destruct (shr_vt_some hi (s - bits) Whi ltac:(rewrite Hbh; lia)) as (u & Eu & Wu & Lu & Vu).
      rewrite Eu. exists u, (zeros (length lo)). split; [reflexivity|].
      split; [exact Wu|]. split; [apply wf_zeros|]. split; [unfold n; lia|]. split; [apply length_zeros|].
      rewrite eval_zeros, Vu. fold n; fold M; fold L; fold H.
      set (T := 2 ^ (s - bits)). assert (HT : 2 ^ s = M * T).
      { rewrite HM. unfold T. rewrite <- pow2_split by lia. f_equal. lia. }
      assert (0 < T) by (apply pow2_pos; lia).
      rewrite HT. rewrite <- Z.div_div by lia.
      replace (L + M * H) with (L + H * M) by ring. rewrite Z.div_add by lia.
      rewrite (Z.div_small L M) by lia. rewrite Z.add_0_l. lia.
    - destruct (Z.eqb_spec s 0); [lia|].
      destruct (shr_vt_some hi s Whi ltac:(rewrite Hbh; lia)) as (nu & Enu & Wnu & Lnu & Vnu).
      destruct (shl_vt_some hi (bits - s) Whi ltac:(rewrite Hbh; lia)) as (lh & Elh & Wlh & Llh & Vlh).
      destruct (shr_vt_some lo s Wlo ltac:(fold bits; lia)) as (ll & Ell & Wll & Lll & Vll).
      rewrite Enu, Elh, Ell.
      destruct (limbs_or_correct ll lh Wll Wlh ltac:(lia)) as (Wo & Lo & Eo).
      exists (limbs_or ll lh), nu. split; [reflexivity|].
      split; [exact Wo|]. split; [exact Wnu|]. split; [unfold n; lia|]. split; [unfold n; lia|].
      rewrite Eo, Vnu, Vlh, Vll, Hlen. fold n; fold M; fold L; fold H.
      rewrite HM in *. symmetry. apply shr_wide; lia.
  Qed.

  Theorem uint_wide_overflow s : 2 * bits <= s ->
    uint_shl_vartime_wide lo hi s = Some None /\ uint_shr_vartime_wide lo hi s = Some None.
  Proof.
    intros Hs. unfold uint_shl_vartime_wide, uint_shr_vartime_wide. unfold lenZ. fold (bitsZ' lo). fold bits.
    destruct (Z.leb_spec (2 * bits) s); [|lia]. split; reflexivity.
  Qed.

  (** a shift by 0 returns the input (the branch added by the fix of the zero-shift panic) *)
  Lemma uint_wide_shift_zero :
    uint_shl_vartime_wide lo hi 0 = Some (Some (lo, hi)) /\ uint_shr_vartime_wide lo hi 0 = Some (Some (lo, hi)).
  Proof.
    destruct wide_facts as (H64 & HM & HL & HH & Hbh & HMp).
    unfold uint_shl_vartime_wide, uint_shr_vartime_wide. unfold lenZ. fold (bitsZ' lo). fold bits.
    destruct (Z.leb_spec (2 * bits) 0); [lia|]. destruct (Z.leb_spec bits 0); [lia|].
    split; reflexivity.
  Qed.

  Theorem uint_shl_vartime_wide_correct s : 0 <= s < 2 * bits ->
    exists l h, uint_shl_vartime_wide lo hi s = Some (Some (l, h)) /\
      wf l /\ wf h /\ length l = n /\ length h = n /\
      eval l + M * eval h = ((L + M * H) * 2 ^ s) mod (M * M).
  Proof.
    intros Hs. destruct (Z.eq_dec s 0) as [->|Hnz]; [|apply uint_shl_vartime_wide_pos; lia].
    destruct wide_facts as (H64 & HM & HL & HH & Hbh & HMp).
    exists lo, hi. split; [apply uint_wide_shift_zero|].
    split; [exact Wlo|]. split; [exact Whi|]. split; [reflexivity|]. split; [exact Hlen|].
    fold L H. rewrite Z.pow_0_r, Z.mul_1_r. symmetry. apply Z.mod_small.
    assert (M * H <= M * (M - 1)) by (apply Z.mul_le_mono_nonneg_l; lia).
    assert (0 <= M * H) by (apply Z.mul_nonneg_nonneg; lia). lia.
  Qed.

  Theorem uint_shr_vartime_wide_correct s : 0 <= s < 2 * bits ->
    exists l h, uint_shr_vartime_wide lo hi s = Some (Some (l, h)) /\
      wf l /\ wf h /\ length l = n /\ length h = n /\
      eval l + M * eval h = (L + M * H) / 2 ^ s.
  Proof.
    intros Hs. destruct (Z.eq_dec s 0) as [->|Hnz]; [|apply uint_shr_vartime_wide_pos; lia].
    exists lo, hi. split; [apply uint_wide_shift_zero|].
    split; [exact Wlo|]. split; [exact Whi|]. split; [reflexivity|]. split; [exact Hlen|].
    fold L H. rewrite Z.pow_0_r, Z.div_1_r. reflexivity.
  Qed.
End Wide.
