(** C10 proofs: Uint::gcd / BoxedUint::gcd (common power of two, odd operand selection, zeros),
    Gcd::gcd_vartime, and Uint::inv_mod / BoxedUint::inv_mod for arbitrary moduli (CRT over s 2^k). *)
From CB Require Import Model.Limbs Model.AddSub Model.SafeGcd Proofs.WordP Proofs.LimbsP Proofs.BitsP
  Proofs.SafeGcdArithP Proofs.SafeGcdJumpP Proofs.SafeGcdUnsatP Proofs.SafeGcdStepP Proofs.SafeGcdDivstepsP
  Proofs.SafeGcdCoreP Proofs.InvMod2kP Proofs.LimbConvertP Proofs.SafeGcdInvP Proofs.SafeGcdConvP.
From Coq Require Import ZArith Lia List Bool Znumtheory Zdiv Setoid Morphisms.
Open Scope Z_scope.

Lemma bitsn_Bn n : Bn n = 2 ^ bitsn n. Proof. unfold bitsn. apply Bn_pow2. Qed.
Lemma vtz_spec n v : 0 < v < Bn n ->
  0 <= vtz n v < bitsn n /\ v = 2 ^ vtz n v * (v / 2 ^ vtz n v) /\ Z.odd (v / 2 ^ vtz n v) = true.
Proof.
  intros Hv. unfold vtz. destruct (Z.eqb_spec v 0); [lia|].
  assert (HN : 0 <= bitsn n) by (unfold bitsn; lia).
  pose proof (ctz_upto_range (Z.to_nat (bitsn n)) v) as R. rewrite Z2Nat.id in R by assumption.
  pose proof (ctz_upto_divide (Z.to_nat (bitsn n)) v) as D.
  set (c := ctz_upto (Z.to_nat (bitsn n)) v) in *.
  assert (Hc : c < bitsn n).
  { destruct (Z.eq_dec c (bitsn n)) as [E|E]; [|lia]. exfalso.
    rewrite E, <- bitsn_Bn in D. rewrite (Z.div_small v (Bn n)) in D by lia. lia. }
  split; [lia|]. split; [assumption|].
  apply ctz_upto_odd. rewrite Z2Nat.id by assumption. assumption.
Qed.
Lemma vtz_zero n : vtz n 0 = bitsn n. Proof. reflexivity. Qed.

Lemma vtz_range n v : 0 <= v < Bn n -> 0 <= vtz n v <= bitsn n /\ (vtz n v = bitsn n <-> v = 0).
Proof.
  intros Hv. destruct (Z.eq_dec v 0) as [->|Hv0].
  - rewrite vtz_zero. unfold bitsn. split; [lia | tauto].
  - destruct (vtz_spec n v ltac:(lia)) as (R & _). lia.
Qed.
(** shifting out k of the trailing zeros is exact, and leaves an odd number when all of them go *)
Lemma vshr_vtz n v k : 0 <= v < Bn n -> 0 <= k <= vtz n v ->
  v = 2 ^ k * vshr n v k /\ 0 <= vshr n v k < Bn n /\ (v <> 0 -> k = vtz n v -> Z.odd (vshr n v k) = true).
Proof.
  intros Hv Hk. destruct (vtz_range n v Hv) as (R & Z0).
  assert (Pk : 0 < 2 ^ k) by (apply pow2_pos; lia).
  destruct (Z.eq_dec v 0) as [->|Hv0].
  - assert (E : vshr n 0 k = 0) by (unfold vshr; destruct (k <? bitsn n); [apply Z.div_0_l; lia | reflexivity]).
    rewrite E. split; [lia|]. split; [lia | contradiction].
  - destruct (vtz_spec n v ltac:(lia)) as (R' & Ed & Ho).
    unfold vshr. destruct (Z.ltb_spec k (bitsn n)); [|lia].
    assert (D : (2 ^ k | v)) by (rewrite Ed; apply Z.divide_mul_l, pow2_divide; lia).
    destruct D as [q Hq].
    assert (Eq : v / 2 ^ k = q) by (rewrite Hq; apply Z.div_mul; lia).
    rewrite Eq. split; [lia|]. split; [nia|]. intros _ ->. rewrite <- Eq. exact Ho.
Qed.

Lemma gcd_lt_bound x y M : 0 <= x < M -> 0 <= y < M -> 0 <= Z.gcd x y < M.
Proof.
  intros Hx Hy. split; [apply Z.gcd_nonneg|].
  destruct (Z.eq_dec y 0) as [->|Hy0]; [rewrite Z.gcd_0_r, Z.abs_eq; lia|].
  pose proof (Z.gcd_divide_r x y) as D. apply Z.divide_pos_le in D; lia.
Qed.

Section UGcd.
  Context (a b : list Z) (n : nat).
  Context (Wa : wf a) (Wb : wf b) (La : length a = n) (Lb : length b = n) (Hn : (0 < n)%nat) (Hn32 : Z.of_nat n <= 2 ^ 32).
  Let av := eval a. Let bv := eval b.

  Lemma uint_gcd_pre_spec :
    exists k f g, uint_gcd_pre a b = (k, f, g) /\ wf f /\ wf g /\ length f = n /\ length g = n /\
      (Z.odd (eval g) = true \/ eval g = 0) /\ 0 <= k /\
      Z.gcd av bv = 2 ^ k * Z.gcd (eval f) (eval g) /\ (k < bitsn n \/ Z.gcd av bv = 0).
  Proof.
    pose proof (eval_bounds a Wa) as Ba. rewrite La in Ba. fold av in Ba.
    pose proof (eval_bounds b Wb) as Bb. rewrite Lb in Bb. fold bv in Bb.
    unfold uint_gcd_pre. rewrite La, Lb. fold av bv.
    set (k1 := vtz n av). set (k2 := vtz n bv). set (k := if k2 <? k1 then k2 else k1).
    destruct (vtz_range n av Ba) as (R1 & Z1). destruct (vtz_range n bv Bb) as (R2 & Z2). fold k1 in R1, Z1. fold k2 in R2, Z2.
    assert (Hk : 0 <= k <= k1 /\ k <= k2 /\ (k = k1 \/ k = k2)) by (unfold k; destruct (Z.ltb_spec k2 k1); lia).
    destruct (vshr_vtz n av k Ba ltac:(lia)) as (E1 & B1 & O1). destruct (vshr_vtz n bv k Bb ltac:(lia)) as (E2 & B2 & O2).
    fold k1 in O1. fold k2 in O2.
    set (s1 := vshr n av k) in *. set (s2 := vshr n bv k) in *.
    assert (Pk : 0 < 2 ^ k) by (apply pow2_pos; lia).
    assert (OO : Z.odd s2 = true \/ Z.odd s1 = true \/ (s1 = 0 /\ s2 = 0)).
    { destruct (Z.eq_dec bv 0) as [Zb|Zb]; [destruct (Z.eq_dec av 0) as [Za|Za]|].
      - right. right. split; nia.
      - right. left. apply O1; [assumption | lia].
      - destruct (Z.eq_dec k k2) as [Ek|Ek]; [left; apply O2; assumption | right; left; apply O1; lia]. }
    assert (GG : Z.gcd av bv = 2 ^ k * Z.gcd s1 s2).
    { rewrite E1, E2. apply Z.gcd_mul_mono_l_nonneg. lia. }
    assert (KK : k < bitsn n \/ Z.gcd av bv = 0).
    { destruct (Z.ltb_spec k (bitsn n)); [left; assumption|]. right.
      assert (Za : av = 0) by lia. assert (Zb : bv = 0) by lia. rewrite Za, Zb. reflexivity. }
    destruct (Z.odd s2) eqn:Os2.
    - exists k, (to_limbs n s1), (to_limbs n s2). rewrite !to_limbs_small by assumption.
      repeat split; try apply wf_to_limbs; try apply length_to_limbs; try lia; try assumption. left. assumption.
    - exists k, (to_limbs n s2), (to_limbs n s1). rewrite !to_limbs_small by assumption.
      repeat split; try apply wf_to_limbs; try apply length_to_limbs; try lia; try assumption.
      + destruct OO as [H|[H|[H _]]]; [discriminate | left; assumption | right; assumption].
      + rewrite (Z.gcd_comm s2 s1). assumption.
  Qed.

  (** Uint::gcd, BoxedUint::gcd *)
  Theorem uint_gcd_partial dbg boxed :
    uint_gcd_converged boxed a b = true ->
    uint_gcd dbg boxed a b = SgOk (to_limbs n (Z.gcd av bv)) true.
  Proof.
    intros Hc. unfold uint_gcd_converged in Hc. unfold uint_gcd.
    destruct uint_gcd_pre_spec as (k & f & g & EP & Wf & Wg & Lf & Lg & Og & Hk & GG & KK).
    rewrite EP in *. rewrite La in *.
    pose proof (sg_converged_conv boxed f g (unsat_nlimbs n) false (u_one (unsat_nlimbs n)) (inv_mod2_62 (hd 0 f)) Hc) as SC.
    rewrite (sg_gcd_partial f g n Wf Wg Lf Lg Hn Hn32 ltac:(tauto) dbg false boxed SC).
    f_equal. f_equal.
    pose proof (eval_bounds f Wf) as Bf. rewrite Lf in Bf. pose proof (eval_bounds g Wg) as Bg. rewrite Lg in Bg.
    pose proof (gcd_lt_bound _ _ _ Bf Bg) as BG.
    rewrite (to_limbs_small _ _ BG).
    pose proof (eval_bounds a Wa) as Ba. rewrite La in Ba. fold av in Ba.
    pose proof (eval_bounds b Wb) as Bb. rewrite Lb in Bb. fold bv in Bb.
    pose proof (gcd_lt_bound _ _ _ Ba Bb) as BG2.
    unfold vshl. destruct (Z.ltb_spec k (bitsn n)).
    - rewrite Z.mul_comm, <- GG. apply Z.mod_small. assumption.
    - destruct KK as [?|Z0]; [lia|]. symmetry. assumption.
  Qed.
End UGcd.

(** Gcd::gcd_vartime for Uint / BoxedUint: the vartime driver when self is odd, else Uint::gcd *)
Theorem uint_gcd_vartime_partial a b n dbg boxed : wf a -> wf b -> length a = n -> length b = n -> (0 < n)%nat -> Z.of_nat n <= 2 ^ 32 ->
  (if Z.odd (eval a) then sg_converged boxed a b (unsat_nlimbs n) else uint_gcd_converged boxed a b) = true ->
  uint_gcd_vartime dbg boxed a b = SgOk (to_limbs n (Z.gcd (eval a) (eval b))) true.
Proof.
  intros Wa Wb La Lb Hn Hn32 Hc. unfold uint_gcd_vartime. destruct (Z.odd (eval a)) eqn:Oa.
  - apply (sg_gcd_partial a b n Wa Wb La Lb Hn Hn32 ltac:(left; assumption)).
    apply sg_converged_conv. assumption.
  - apply uint_gcd_partial; assumption.
Qed.

Lemma gcd1_mul_split a x y : Z.gcd a (x * y) = 1 <-> Z.gcd a x = 1 /\ Z.gcd a y = 1.
Proof.
  split.
  - intros H. apply Zgcd_1_rel_prime in H. apply rel_prime_sym in H. split; apply Zgcd_1_rel_prime; apply rel_prime_sym.
    + apply (rel_prime_div (x * y)); [assumption | exists y; ring].
    + apply (rel_prime_div (x * y)); [assumption | exists x; ring].
  - intros [H1 H2]. apply Zgcd_1_rel_prime. apply rel_prime_mult; apply Zgcd_1_rel_prime; assumption.
Qed.
Lemma crt_divide s k y : Z.odd s = true -> 0 <= k -> (s | y) -> (2 ^ k | y) -> (s * 2 ^ k | y).
Proof.
  intros Hs Hk [q ->] D2. rewrite Z.mul_comm in D2. apply Gauss in D2; [|apply rel_prime_sym, rel_prime_odd_pow2; assumption].
  destruct D2 as [q' ->]. exists q'. ring.
Qed.

Lemma cg_mod_weaken N M y : N <> 0 -> M <> 0 -> (M | N) -> cg M (y mod N) y.
Proof. intros HN HM D. apply (cg_weaken N M); try assumption. apply cg_mod. Qed.

(** Garner recombination at value level *)
Lemma crt_value s k ai b mi av T mv :
  Z.odd s = true -> 0 < s -> 0 <= k -> mv = s * 2 ^ k -> 2 <= mv -> 0 <= ai <= s -> 0 <= T < 2 ^ k ->
  cg s (av * ai) 1 -> cg (2 ^ k) (av * b) 1 -> cg (2 ^ k) (s * mi) 1 -> cg (2 ^ k) T ((b - ai) * mi) ->
  0 <= ai + s * T < mv /\ cg mv (av * (ai + s * T)) 1.
Proof.
  intros Os Hs Hk Emv Hmv Hai HT Ca Cb Cm CT.
  assert (Pk : 0 < 2 ^ k) by (apply pow2_pos; assumption).
  assert (C1 : cg s (av * (ai + s * T)) 1).
  { rewrite <- Ca. apply cg_divide; [lia|]. exists (av * T). ring. }
  assert (C2 : cg (2 ^ k) (av * (ai + s * T)) 1).
  { rewrite CT. transitivity (av * (ai + (b - ai) * (s * mi))); [apply cg_of_eq; ring|].
    rewrite Cm. transitivity (av * b); [apply cg_of_eq; ring | assumption]. }
  assert (C : cg mv (av * (ai + s * T)) 1).
  { apply cg_divide; [lia|]. rewrite Emv. apply crt_divide; try assumption; apply cg_divide; try lia; assumption. }
  split; [|assumption].
  assert (ST : s * T <= s * (2 ^ k - 1)) by (apply Z.mul_le_mono_nonneg_l; lia).
  assert (ST0 : 0 <= s * T) by (apply Z.mul_nonneg_nonneg; lia).
  assert (LE : ai + s * T <= mv) by lia.
  split; [lia|]. destruct (Z.eq_dec (ai + s * T) mv) as [E|E]; [|lia]. exfalso.
  rewrite E in C. apply cg_divide in C; [|lia]. destruct C as [q Hq].
  assert (D : (mv | 1)) by (exists (av - q); lia).
  apply Z.divide_1_r_nonneg in D; lia.
Qed.

Section UInvMod.
  Context (a m : list Z) (n : nat).
  Context (Wa : wf a) (Wm : wf m) (La : length a = n) (Lm : length m = n) (Hn : (0 < n)%nat) (Hn32 : Z.of_nat n <= 2 ^ 32)
          (Hm : 0 < eval m).
  Let av := eval a. Let mv := eval m.
  Let k := vtz n mv. Let s := vshr n mv k.

  Lemma odd_part_facts : 0 <= k < bitsn n /\ mv = s * 2 ^ k /\ Z.odd s = true /\ 0 < s < Bn n /\ 2 ^ k < Bn n /\ 0 < 2 ^ k.
  Proof.
    pose proof (eval_bounds m Wm) as Bm. rewrite Lm in Bm. fold mv in Bm, Hm.
    destruct (vtz_range n mv Bm) as (R & Z0). fold k in R, Z0.
    destruct (vshr_vtz n mv k Bm ltac:(lia)) as (E & Bs & Os). fold s in E, Bs, Os.
    assert (Pk : 0 < 2 ^ k) by (apply pow2_pos; lia).
    assert (P2 : 2 ^ k < Bn n) by (rewrite bitsn_Bn; apply Z.pow_lt_mono_r; lia).
    assert (Hs : 0 < s) by nia.
    repeat split; try lia. apply Os; [lia | reflexivity].
  Qed.

  (** Uint::inv_mod, BoxedUint::inv_mod for every modulus >= 1 *)
  Theorem uint_inv_mod_partial dbg boxed :
    sg_converged boxed (to_limbs n s) a (unsat_nlimbs n) = true ->
    exists X some, uint_inv_mod dbg boxed a m = SgOk (to_limbs n X) some /\
      (some = true <-> Z.gcd av mv = 1) /\ (some = true -> 2 <= mv -> X = modinv av mv).
  Proof.
    intros Hc.
    destruct odd_part_facts as (Hk & Emv & Os & Hs & P2 & Pk).
    pose proof (eval_bounds a Wa) as Ba. rewrite La in Ba. fold av in Ba.
    pose proof (eval_bounds m Wm) as Bm. rewrite Lm in Bm. fold mv in Bm.
    pose proof (Bn_pos n) as PB.
    assert (Esl : eval (to_limbs n s) = s) by (apply to_limbs_small; lia).
    assert (Eone : eval (ones_limbs n) = 1) by (apply to_limbs_small; lia).
    pose proof (sg_converged_conv boxed (to_limbs n s) a (unsat_nlimbs n) false (from_uint (unsat_nlimbs n) (ones_limbs n))
                  (inv_mod2_62 (hd 0 (to_limbs n s))) Hc) as SC.
    destruct (sg_inv_partial (to_limbs n s) a (ones_limbs n) n s (wf_to_limbs n s) Wa (wf_to_limbs n 1) (length_to_limbs n s) La
                (length_to_limbs n 1) Hn Hn32 ltac:(rewrite Esl; assumption) ltac:(rewrite Esl; lia) ltac:(rewrite Eone; lia) dbg false boxed SC)
      as (x0 & some0 & E0 & Wx0 & Lx0 & Rx0 & Hs0 & Hv0).
    rewrite Esl in Hs0, Hv0. rewrite Eone in Hv0. fold av in Hs0, Hv0.
    destruct (inv_mod2k_correct n av k Hn ltac:(lia) ltac:(unfold bitsn in Hk; lia)) as (B1 & _ & B3 & B4).
    rewrite <- B1 in B3, B4.
    destruct (inv_mod2k_correct n s k Hn ltac:(lia) ltac:(unfold bitsn in Hk; lia)) as (M1 & _ & M3 & M4).
    rewrite <- M1 in M3, M4.
    unfold uint_inv_mod. rewrite Lm. cbv zeta. fold av mv. fold k. fold s. rewrite E0.
    destruct (inv_mod2k_ct n av k) as [b bsome]. destruct (inv_mod2k_ct n s k) as [mi0 misome]. cbn [fst snd] in *.
    assert (Ms : misome = true).
    { apply M3. apply Z.eqb_eq. rewrite gcd_pow2 by lia. rewrite Os. apply orb_true_r. }
    subst misome. destruct (M4 eq_refl) as (Rmi & Cmi & _). clear M3 M4.
    eexists. eexists. split; [reflexivity|]. split.
    - rewrite Os, andb_true_r. rewrite andb_true_iff, Hs0, B3. rewrite Emv. symmetry. apply gcd1_mul_split.
    - rewrite Os, andb_true_r. intros Hsome Hmv2. apply andb_true_iff in Hsome. destruct Hsome as [H0 Hb].
      subst some0 bsome. cbv iota. destruct (B4 eq_refl) as (Rb & Cb & _). specialize (Hv0 eq_refl).
      assert (Emask : (vshl n 1 k - 1) mod Bn n = Z.ones k).
      { unfold vshl. destruct (Z.ltb_spec k (bitsn n)); [|lia]. rewrite Z.mul_1_l, (Z.mod_small (2 ^ k)) by lia.
        rewrite Z.ones_equiv. apply Z.mod_small. lia. }
      rewrite Emask, Z.land_ones by lia.
      set (ai := eval x0) in *.
      set (T := ((b - ai) mod Bn n * mi0) mod Bn n mod 2 ^ k).
      assert (DB : (2 ^ k | Bn n)) by (rewrite bitsn_Bn; apply pow2_divide; lia).
      assert (HT : 0 <= T < 2 ^ k) by (apply Z.mod_pos_bound; assumption).
      assert (CT : cg (2 ^ k) T ((b - ai) * mi0)).
      { unfold T. rewrite cg_mod. rewrite (cg_mod_weaken (Bn n) (2 ^ k)) by (assumption || lia).
        rewrite (cg_mod_weaken (Bn n) (2 ^ k) (b - ai)) by (assumption || lia). reflexivity. }
      destruct (crt_value s k ai b mi0 av T mv Os ltac:(lia) ltac:(lia) Emv Hmv2 Rx0 HT) as (RX & CX).
      { apply cg_iff. assumption. }
      { apply cg_iff. assumption. }
      { apply cg_iff. assumption. }
      { assumption. }
      assert (ST0 : 0 <= s * T) by (apply Z.mul_nonneg_nonneg; lia).
      rewrite (Z.mod_small (s * T)) by lia. rewrite (Z.mod_small (ai + s * T)) by lia.
      destruct (modinv_spec av mv ltac:(lia)) as (RI & CI).
      assert (G : Z.gcd av mv = 1) by (rewrite Emv; apply gcd1_mul_split; split; [apply Hs0; reflexivity | apply B3; reflexivity]).
      apply (inv_unique mv av 1); try assumption; try lia; try (apply cg_iff; assumption). rewrite CI, G. reflexivity.
  Qed.
End UInvMod.
