(** C02: [short_div] is restoring division: it computes the floor quotient. *)
From CB Require Import Model.Limbs Model.Div Proofs.WordP Proofs.BitsP.
From Coq Require Import ZArith Lia List.
Open Scope Z_scope.

(** With the divisor aligned to [d * 2^i / 2], a dividend below [d * 2^i] and the quotient bits below
    [2^i] still clear, the remaining [i] rounds add the floor quotient. *)
Lemma short_div_loop_correct d i : 0 < d -> forall dvd k,
  0 <= dvd < d * 2 ^ Z.of_nat i -> dvd < M32 ->
  short_div_loop i dvd (d * 2 ^ Z.of_nat i / 2) (k * 2 ^ Z.of_nat i) = k * 2 ^ Z.of_nat i + dvd / d.
Proof.
  intros Hd. induction i as [|i IH]; intros dvd k Hdvd H32; cbn [short_div_loop].
  - rewrite Z.div_small by (cbn in Hdvd; lia). ring.
  - assert (Hp : 0 < 2 ^ Z.of_nat i) by (apply Z.pow_pos_nonneg; lia).
    assert (Hs : 2 ^ Z.of_nat (S i) = 2 * 2 ^ Z.of_nat i) by (rewrite Nat2Z.inj_succ; apply Z.pow_succ_r; lia).
    replace (d * 2 ^ Z.of_nat (S i) / 2) with (d * 2 ^ Z.of_nat i) by (apply Z.div_unique_exact; lia).
    destruct (Z.ltb_spec dvd (d * 2 ^ Z.of_nat i)) as [Hlt|Hge].
    + rewrite Z.mul_0_l, Z.lor_0_r, Hs, Z.mul_assoc. apply IH; lia.
    + rewrite lor_disjoint by lia.
      rewrite Z.mod_small by lia.
      replace (k * 2 ^ Z.of_nat (S i) + 1 * 2 ^ Z.of_nat i) with ((k * 2 + 1) * 2 ^ Z.of_nat i) by lia.
      rewrite IH by lia.
      replace dvd with (dvd - d * 2 ^ Z.of_nat i + 2 ^ Z.of_nat i * d) at 2 by ring.
      rewrite Z.div_add by lia. lia.
Qed.

Lemma short_div_correct dvd dbits dvs vbits :
  0 < dvs -> vbits <= dbits -> dvs * 2 ^ (dbits - vbits) < M32 ->
  0 <= dvd < dvs * 2 ^ (dbits - vbits + 1) -> dvd < M32 ->
  short_div dvd dbits dvs vbits = dvd / dvs.
Proof.
  intros Hs Hb Hs32 Hdvd H32. unfold short_div.
  set (n := dbits - vbits) in *.
  assert (Hp : 0 < 2 ^ n) by (apply Z.pow_pos_nonneg; lia).
  assert (Hn : 2 ^ (n + 1) = 2 * 2 ^ n) by (apply Z.pow_succ_r; lia).
  rewrite Z.mod_small by lia.
  replace (dvs * 2 ^ n) with (dvs * 2 ^ Z.of_nat (Z.to_nat (n + 1)) / 2).
  - apply (short_div_loop_correct dvs _ Hs dvd 0); rewrite ?Z2Nat.id; lia.
  - rewrite Z2Nat.id by lia. symmetry. apply Z.div_unique_exact; lia.
Qed.

Lemma short_div_v0 d9 : 256 <= d9 <= 511 ->
  short_div (2 ^ 19 - 3 * 2 ^ 8) 19 d9 9 = (2 ^ 19 - 3 * 2 ^ 8) / d9.
Proof. intros H. apply short_div_correct; unfold M32; lia. Qed.
