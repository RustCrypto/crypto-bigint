(** C10 proofs: the convergence flag the model reports ([sg_converged], the ops `*.safegcd_converged` /
    `*.gcd_converged` of the correspondence) implies the convergence hypothesis [sg_conv] of every entry point that
    runs on the same (f, g): the evolution of (delta, f, g) does not depend on d, e, the modulus or its inverse, and the
    run-until-zero loop stops within the fixed count whenever the fixed-count loop ends with g = 0. *)
From CB Require Import Model.Limbs Model.AddSub Model.SafeGcd Proofs.WordP Proofs.LimbsP Proofs.BitsP
  Proofs.SafeGcdArithP Proofs.SafeGcdJumpP Proofs.SafeGcdUnsatP Proofs.SafeGcdStepP Proofs.SafeGcdDivstepsP
  Proofs.SafeGcdCoreP.
From Coq Require Import ZArith Lia List Bool.
Open Scope Z_scope.

Definition fg3 (s : dstate) : Z * list Z * list Z := let '(delta, d, e, f, g) := s in (delta, f, g).
Definition g_of (s : dstate) : list Z := let '(delta, d, e, f, g) := s in g.

Lemma divstep1_fg3 m inv m' inv' s s' : fg3 s = fg3 s' -> fg3 (divstep1 m inv s) = fg3 (divstep1 m' inv' s').
Proof.
  destruct s as [[[[delta d] e] f] g]. destruct s' as [[[[delta2 d2] e2] f2] g2]. cbn [fg3]. intros H.
  injection H as -> -> ->.
  destruct (divstep1_eq m inv delta2 d e f2 g2) as (dl1 & a00 & a01 & a10 & a11 & EJ1 & ES1).
  destruct (divstep1_eq m' inv' delta2 d2 e2 f2 g2) as (dl2 & b00 & b01 & b10 & b11 & EJ2 & ES2).
  rewrite ES1, ES2. rewrite EJ1 in EJ2. injection EJ2 as -> -> -> -> ->. reflexivity.
Qed.
Lemma divsteps_loop_fg3 m inv m' inv' n : forall s s', fg3 s = fg3 s' ->
  fg3 (divsteps_loop n m inv s) = fg3 (divsteps_loop n m' inv' s').
Proof.
  induction n as [|n IH]; intros s s' H; [exact H|].
  rewrite !divsteps_loop_S. apply IH. apply divstep1_fg3. assumption.
Qed.
Lemma g_of_fg3 s s' : fg3 s = fg3 s' -> g_of s = g_of s'.
Proof.
  destruct s as [[[[delta d] e] f] g]. destruct s' as [[[[delta2 d2] e2] f2] g2]. cbn [fg3 g_of]. intros H.
  injection H as _ _ ->. reflexivity.
Qed.

(** once g = 0 it stays 0: jump returns the matrix (2^62, 0; 0, 1), and g' = (0 f + 1 g) >> 62 *)
Lemma divstep1_g0 m inv delta d e f g : u_is_zero g = true -> - P62 <= delta <= P62 ->
  exists d' e' f' g', divstep1 m inv (delta, d, e, f, g) = (delta + 62, d', e', f', g') /\ u_is_zero g' = true.
Proof.
  intros Hz Hd. destruct (divstep1_eq m inv delta d e f g) as (dl & t00 & t01 & t10 & t11 & EJ & ES).
  rewrite (u_is_zero_zeros g Hz) in EJ at 1.
  replace (hd 0 (zeros (length g))) with 0 in EJ by (destruct (length g); reflexivity).
  rewrite jump_g0 in EJ by assumption. injection EJ as <- <- <- <- <-.
  rewrite ES. do 4 eexists. split; [reflexivity|].
  cbn [fg snd]. unfold u_mul, u_add. cbn [Z.ltb Z.compare]. rewrite u_mul_c_0.
  rewrite (u_is_zero_zeros g Hz), u_mul_c_zeros, u_add_c_zeros. apply u_shr_zeros.
Qed.
Lemma divsteps_loop_g0 m inv n : forall delta d e f g, u_is_zero g = true -> - P62 <= delta -> delta + 62 * Z.of_nat n <= P62 ->
  u_is_zero (g_of (divsteps_loop n m inv (delta, d, e, f, g))) = true.
Proof.
  induction n as [|n IH]; intros delta d e f g Hz Hl Hu; [exact Hz|].
  rewrite divsteps_loop_S. destruct (divstep1_g0 m inv delta d e f g Hz ltac:(lia)) as (d' & e' & f' & g' & E & Hz').
  rewrite E. apply IH; [assumption | lia | lia].
Qed.
Lemma divsteps_loop_add m inv k : forall j s, divsteps_loop (k + j) m inv s = divsteps_loop j m inv (divsteps_loop k m inv s).
Proof. induction k as [|k IH]; intros j s; [reflexivity|]. cbn [Nat.add]. rewrite !divsteps_loop_S. apply IH. Qed.

(** the run-until-zero loop stops within n jumps if the n-jump loop ends with g = 0 *)
Lemma divsteps_vt_of_ct m inv n : forall s, u_is_zero (g_of (divsteps_loop n m inv s)) = true ->
  exists s', divsteps_vt_loop n m inv s = Some s'.
Proof.
  induction n as [|n IH]; intros s H; destruct s as [[[[delta d] e] f] g].
  - cbn [divsteps_loop g_of] in H. rewrite divsteps_vt_0, H. eexists. reflexivity.
  - rewrite divsteps_vt_S. destruct (u_is_zero g); [eexists; reflexivity|].
    rewrite divsteps_loop_S in H. apply IH. assumption.
Qed.

Lemma sg_core_ct_flag boxed e f0 g inverse :
  exists d f, sg_core false boxed e f0 g inverse =
    Some (d, f, u_is_zero (g_of (divsteps_loop (iterations ((if boxed then bu_bits else u_bits) f0) ((if boxed then bu_bits else u_bits) g))
                                   f0 inverse (1, u_zero (length f0), e, f0, g)))).
Proof.
  unfold sg_core.
  destruct (divsteps_loop _ f0 inverse (1, u_zero (length f0), e, f0, g)) as [[[[delta' d'] e'] f'] g'].
  exists d', f'. reflexivity.
Qed.

(** the reported flag does not depend on e and the inverse, and covers both drivers *)
Theorem sg_conv_of_flag boxed e0 inv0 vartime e f0 g inverse :
  (exists d f, sg_core false boxed e0 f0 g inv0 = Some (d, f, true)) ->
  sg_conv vartime boxed e f0 g inverse.
Proof.
  intros (d0 & fr0 & E0).
  destruct (sg_core_ct_flag boxed e0 f0 g inv0) as (d1 & f1 & E1). rewrite E1 in E0.
  assert (Z0 : u_is_zero (g_of (divsteps_loop (iterations ((if boxed then bu_bits else u_bits) f0) ((if boxed then bu_bits else u_bits) g))
                                   f0 inv0 (1, u_zero (length f0), e0, f0, g))) = true) by congruence.
  clear E0 E1.
  set (n := iterations ((if boxed then bu_bits else u_bits) f0) ((if boxed then bu_bits else u_bits) g)) in *.
  assert (Z1 : u_is_zero (g_of (divsteps_loop n f0 inverse (1, u_zero (length f0), e, f0, g))) = true).
  { rewrite <- Z0. f_equal. apply g_of_fg3. apply divsteps_loop_fg3. reflexivity. }
  unfold sg_conv. destruct vartime.
  - destruct (divsteps_vt_of_ct f0 inverse n _ Z1) as (s' & ES). unfold sg_core. fold n. rewrite ES.
    destruct s' as [[[[delta' d'] e'] f'] g']. exists d', f'. reflexivity.
  - destruct (sg_core_ct_flag boxed e f0 g inverse) as (d2 & f2 & E2). fold n in E2. rewrite Z1 in E2. exists d2, f2. assumption.
Qed.

Corollary sg_converged_conv boxed fl gl L vartime e inverse :
  sg_converged boxed fl gl L = true -> sg_conv vartime boxed e (from_uint L fl) (from_uint L gl) inverse.
Proof.
  unfold sg_converged. intros H.
  destruct (sg_core false boxed (u_one L) (from_uint L fl) (from_uint L gl) (inv_mod2_62 (hd 0 fl))) as [[[d f] c]|] eqn:E; [|discriminate].
  subst c. apply (sg_conv_of_flag boxed (u_one L) (inv_mod2_62 (hd 0 fl))). exists d, f. assumption.
Qed.
