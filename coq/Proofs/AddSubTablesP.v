(** C04 (tables): the model table and the spec table of Model/AddSub.v agree on EVERY key (42 of 42), for all
    well-formed argument lists that satisfy the typing side condition of the key, in both profiles.
    [run_tab t k dbg a] is the table lookup of Model/Api.v (Proofs/TotalityP.v). *)
From CB Require Import Model.Limbs Model.AddSub Proofs.WordP Proofs.WordPredP Proofs.LimbsP Proofs.AddSubP
  Proofs.TotalityP.
From Coq Require Import ZArith Lia List String Bool.
Open Scope Z_scope.
Notation length := List.length.

(* ------------------------------------------------------------------ typing side conditions (boolean) *)
Definition btyping := list (string * (list (list Z) -> bool)).
Definition typedb (t : btyping) (k : string) (a : list (list Z)) : bool :=
  match lookup k t with Some P => P a | None => true end.

(* a Limb argument is one word *)
Definition ty_limb1 (a : list (list Z)) : bool := (ln 0 a =? 1)%nat.
Definition ty_limb2 (a : list (list Z)) : bool := (ln 0 a =? 1)%nat && (ln 1 a =? 1)%nat.
(* two Uint<N> operands have one N *)
Definition ty_same2 (a : list (list Z)) : bool := (ln 0 a =? ln 1 a)%nat.
(* ... and at least one limb (the borrow word of sbb is only normalised by a limb step) *)
Definition ty_same2_nonempty (a : list (list Z)) : bool := (ln 0 a =? ln 1 a)%nat && negb (ln 0 a =? 0)%nat.
(* three Uint<N> operands of a Checked<Uint<N>> expression *)
Definition ty_same3 (a : list (list Z)) : bool := (ln 0 a =? ln 1 a)%nat && (ln 0 a =? ln 2 a)%nat.
(* BoxedUint: any pair of precisions; at least one limb where an arbitrary borrow word comes in *)
Definition ty_some_limb (a : list (list Z)) : bool := negb (lmax a =? 0)%nat.
Definition ty_recv_limb (a : list (list Z)) : bool := negb (ln 0 a =? 0)%nat.

Open Scope string_scope.
Definition addsub_tbl_ty : btyping :=
  [("limb.adc", ty_limb2); ("limb.sbb", ty_limb2); ("limb.overflowing_add", ty_limb2);
   ("limb.wrapping_add", ty_limb2); ("limb.wrapping_sub", ty_limb2); ("limb.wrapping_neg", ty_limb1);
   ("limb.saturating_add", ty_limb2); ("limb.saturating_sub", ty_limb2);
   ("limb.checked_add", ty_limb2); ("limb.checked_sub", ty_limb2); ("limb.add", ty_limb2); ("limb.sub", ty_limb2);
   ("uint.adc", ty_same2); ("uint.sbb", ty_same2_nonempty);
   ("uint.wrapping_add", ty_same2); ("uint.wrapping_sub", ty_same2);
   ("uint.saturating_add", ty_same2); ("uint.saturating_sub", ty_same2);
   ("uint.checked_add", ty_same2); ("uint.checked_sub", ty_same2); ("uint.add", ty_same2); ("uint.sub", ty_same2);
   ("uint.checked_expr", ty_same3);
   ("boxed.sbb", ty_some_limb); ("boxed.sbb_assign", ty_recv_limb)].
Open Scope Z_scope.

Definition tbl_ok (k : string) : Prop :=
  forall dbg a, wf_args a -> typedb addsub_tbl_ty k a = true ->
    run_tab ops_addsub_spec k dbg a <> Unsupported ->
    run_tab ops_addsub_model k dbg a = run_tab ops_addsub_spec k dbg a.

Ltac open_typedb H :=
  unfold typedb in H;
  lazy beta iota delta [lookup addsub_tbl_ty String.eqb Ascii.eqb Bool.eqb] in H.
Ltac start_tbl :=
  let dbg := fresh "dbg" in let a := fresh "a" in
  let Hwf := fresh "Hwf" in let Hty := fresh "Hty" in
  intros dbg a Hwf Hty _; open_typedb Hty; open_tabs ops_addsub_model ops_addsub_spec.

(* ------------------------------------------------------------------ small facts *)
Lemma ty_limb1_inv a : ty_limb1 a = true -> arg 0 a = [sarg 0 a].
Proof. unfold ty_limb1, ln. intros H. apply Nat.eqb_eq in H. apply arg_single. exact H. Qed.
Lemma ty_limb2_len a : ty_limb2 a = true -> length (arg 0 a) = 1%nat /\ length (arg 1 a) = 1%nat.
Proof. unfold ty_limb2, ln. intros H. apply andb_prop in H. rewrite !Nat.eqb_eq in H. exact H. Qed.
Lemma ty_limb2_inv a : ty_limb2 a = true -> arg 0 a = [sarg 0 a] /\ arg 1 a = [sarg 1 a].
Proof. intros H. destruct (ty_limb2_len a H). split; apply arg_single; assumption. Qed.
Lemma ty_same2_inv a : ty_same2 a = true -> length (arg 0 a) = length (arg 1 a).
Proof. unfold ty_same2, ln. intros H. apply Nat.eqb_eq in H. exact H. Qed.

(* ------------------------------------------------------------------ the range test of the spec; BoxedUint += / -= :
   limbs of rhs beyond the receiver's precision are folded into the carry / borrow *)
Lemma sp_fits_true n x : 0 <= x < Bn n -> sp_fits n x = true.
Proof. intros H. unfold sp_fits. apply andb_true_intro. split; [apply Z.leb_le | apply Z.ltb_lt]; lia. Qed.

Lemma sp_fits_false n x : x < 0 \/ Bn n <= x -> sp_fits n x = false.
Proof.
  intros H. unfold sp_fits. apply andb_false_iff. destruct H; [left; apply Z.leb_gt | right; apply Z.ltb_ge]; lia.
Qed.

Lemma fold_or m l : is_word m -> wf l -> forall c,
  fold_left (fun cy x => wor cy (if_true_word (from_word_nonzero x) m)) l c = if eval l =? 0 then c else wor c m.
Proof.
  intros Hm Hl. induction l as [|x l IH]; intros c; cbn [fold_left eval]; [reflexivity|].
  apply wf_cons in Hl. destruct Hl as [Hx Hl]. rewrite (IH Hl).
  pose proof (eval_nonneg l Hl) as Hn. pose proof B_pos as HB. unfold is_word in Hx.
  assert (HBn : 0 <= B * eval l) by (apply Z.mul_nonneg_nonneg; lia).
  rewrite from_word_nonzero_spec by assumption. unfold if_true_word, wand, wor.
  destruct (Z.eqb_spec x 0) as [->|Hx0]; cbn [negb choice_of_bool].
  - rewrite Z.land_0_r, Z.lor_0_r.
    destruct (Z.eqb_spec (eval l) 0) as [E|E]; destruct (Z.eqb_spec (0 + B * eval l) 0) as [E'|E']; try reflexivity; exfalso.
    + apply E'. rewrite E. lia.
    + apply E. destruct (Z.eq_dec (eval l) 0); [assumption|]. assert (B * 1 <= B * eval l) by (apply Z.mul_le_mono_nonneg_l; lia). lia.
  - rewrite Z.land_comm, land_MAXW by assumption.
    rewrite <- Z.lor_assoc, Z.lor_diag.
    destruct (Z.eqb_spec (x + B * eval l) 0) as [E'|E']; [lia|].
    destruct (eval l =? 0); reflexivity.
Qed.
(* hence the flag (0, or the mark [m] once set) stays clear exactly when it came in clear and all those limbs are zero *)
Lemma fold_flag m l : is_word m -> m <> 0 -> wf l -> forall c, (c = 0 \/ c = m) ->
  (fold_left (fun cy x => wor cy (if_true_word (from_word_nonzero x) m)) l c = 0 <-> c = 0 /\ eval l = 0).
Proof.
  intros Hm Hm0 Hl c Hc. rewrite (fold_or m l Hm Hl). destruct (Z.eqb_spec (eval l) 0) as [E|E]; [tauto|].
  assert (wor c m = m) as -> by (unfold wor; destruct Hc as [-> | ->]; [apply Z.lor_0_l | apply Z.lor_diag]). tauto.
Qed.

Lemma eval_skipn_zero_iff n b : wf b -> (eval (skipn n b) = 0 <-> eval b < Bn n).
Proof.
  intros Hb. pose proof (eval_firstn_skipn n b) as E.
  pose proof (eval_bounds _ (wf_firstn n b Hb)) as H1. pose proof (eval_nonneg _ (wf_skipn n b Hb)) as H2.
  destruct (Nat.le_gt_cases (length b) n) as [Hle|Hgt].
  - rewrite skipn_all2 by assumption. cbn [eval]. pose proof (eval_bounds b Hb). pose proof (Bn_le _ _ Hle). lia.
  - rewrite firstn_length_le in * by lia. pose proof (Bn_pos n).
    split; intros Hz.
    + rewrite Hz in E. lia.
    + destruct (Z.eq_dec (eval (skipn n b)) 0) as [|Hne]; [assumption|exfalso].
      assert (Bn n * 1 <= Bn n * eval (skipn n b)) by (apply Z.mul_le_mono_nonneg_l; lia). lia.
Qed.

Lemma boxed_add_assign_full x y dbg : wf x -> wf y ->
  (eval x + eval y < Bn (length x) /\
   exists r, boxed_add_assign_op dbg x y = Val [r] /\ eval r = eval x + eval y /\ length r = length x /\ wf r) \/
  (Bn (length x) <= eval x + eval y /\ boxed_add_assign_op dbg x y = PanicV).
Proof.
  intros Hx Hy. unfold boxed_add_assign_op, boxed_adc_assign.
  destruct (adc_limbs x (resize (length x) y) 0) as [r c] eqn:E.
  pose proof (adc_limbs_correct x (resize (length x) y) 0 r c Hx (wf_resize _ _ Hy)
    ltac:(rewrite length_resize; reflexivity) is_word_0' E) as (He & Hw & Hlr & Hc & Hc1).
  specialize (Hc1 ltac:(lia)). rewrite eval_resize in He by assumption.
  assert (Hc01 : c = 0 \/ c = 1) by (unfold is_word in Hc; lia).
  pose proof (fold_flag 1 (skipn (length x) y) is_word_1 ltac:(lia) (wf_skipn _ _ Hy) c Hc01) as Hf.
  rewrite eval_skipn_zero_iff in Hf by assumption.
  pose proof (eval_bounds r Hw) as Hb. rewrite Hlr in Hb.
  pose proof (eval_bounds x Hx) as Hbx. pose proof (eval_nonneg y Hy) as Hny. pose proof (Bn_pos (length x)) as HB.
  destruct (Z.eqb_spec (fold_left (fun cy x0 => wor cy (if_true_word (from_word_nonzero x0) 1)) (skipn (length x) y) c) 0)
    as [E0|E0].
  - apply Hf in E0. destruct E0 as [-> Hlt]. rewrite Z.mod_small in He by lia.
    left. split; [lia|]. exists r. repeat split; auto; lia.
  - right. split; [|reflexivity].
    destruct (Z.lt_ge_cases (eval x + eval y) (Bn (length x))) as [Hlt|]; [exfalso|assumption].
    apply E0, Hf. rewrite Z.mod_small in He by lia.
    split; [|lia]. destruct Hc01 as [ | -> ]; [assumption|lia].
Qed.

Lemma boxed_sub_assign_full x y dbg : wf x -> wf y ->
  (eval y <= eval x /\
   exists r, boxed_sub_assign_op dbg x y = Val [r] /\ eval r = eval x - eval y /\ length r = length x /\ wf r) \/
  (eval x < eval y /\ boxed_sub_assign_op dbg x y = PanicV).
Proof.
  intros Hx Hy. unfold boxed_sub_assign_op, boxed_sbb_assign.
  destruct (sbb_limbs x (resize (length x) y) 0) as [r c] eqn:E.
  pose proof (sbb_limbs_correct x (resize (length x) y) 0 r c Hx (wf_resize _ _ Hy)
    ltac:(rewrite length_resize; reflexivity) is_word_0' E) as (Hw & Hlr & Hcase).
  rewrite eval_resize in Hcase by assumption. rewrite bin_0 in Hcase.
  assert (HM : MAXW <> 0) by (pose proof MAXW_val; pose proof B_gt1; lia).
  assert (Hc0M : c = 0 \/ c = MAXW) by (destruct Hcase as [(_ & -> & _)|(_ & Hc & _)]; [left; reflexivity | exact Hc]).
  pose proof (fold_flag MAXW (skipn (length x) y) is_word_MAXW HM (wf_skipn _ _ Hy) c Hc0M) as Hf.
  rewrite eval_skipn_zero_iff in Hf by assumption.
  pose proof (eval_bounds r Hw) as Hb. rewrite Hlr in Hb.
  pose proof (eval_bounds x Hx) as Hbx. pose proof (eval_nonneg y Hy) as Hny. pose proof (Bn_pos (length x)) as HB.
  destruct (Z.eqb_spec (fold_left (fun cy x0 => wor cy (if_true_word (from_word_nonzero x0) MAXW)) (skipn (length x) y) c) 0)
    as [E0|E0].
  - apply Hf in E0. destruct E0 as [-> Hlt]. rewrite Z.mod_small in Hcase by lia. rewrite bout_0 in Hcase.
    left. destruct Hcase as [(Hz & _ & ->)|(_ & _ & He)].
    + destruct x; [|discriminate]. cbn [length eval] in *. rewrite Bn_0 in *.
      split; [lia|]. exists []. repeat split; auto. cbn [eval]. lia.
    + split; [lia|]. exists r. repeat split; auto; lia.
  - right. split; [|reflexivity].
    destruct (Z.lt_ge_cases (eval x) (eval y)) as [|Hge]; [assumption|exfalso].
    apply E0, Hf. rewrite Z.mod_small in Hcase by lia.
    split; [|lia]. destruct Hcase as [(_ & -> & _)|(_ & [-> | ->] & He)]; [reflexivity | reflexivity | exfalso].
    rewrite bout_MAXW in He. lia.
Qed.

(* ------------------------------------------------------------------ carry / borrow chains against sp_adc / sp_sbb *)
Lemma adc_chain_entry a b c : wf a -> wf b -> length a = length b -> is_word c ->
  vpair (adc_limbs a b c) = sp_adc (length a) (eval a) (eval b) c.
Proof.
  intros Ha Hb Hl Hc. destruct (adc_limbs a b c) as [r co] eqn:E. unfold vpair, sp_adc, spec_adc. cbn [fst snd].
  pose proof (adc_limbs_correct a b c r co Ha Hb Hl Hc E) as (He & Hw & Hlr & Hco & _).
  pose proof (eval_bounds r Hw) as Hbr. rewrite Hlr in Hbr.
  destruct (div_mod_unique_pos (Bn (length a)) co (eval r) (eval a + eval b + c) Hbr ltac:(lia)) as [Hq Hm].
  rewrite Hq. f_equal. f_equal. apply limbs_of_mod; auto.
Qed.

Lemma sbb_chain_entry a b bw : wf a -> wf b -> length a = length b -> length a <> 0%nat -> is_word bw ->
  vpair (sbb_limbs a b bw) = sp_sbb (length a) (eval a) (eval b) bw.
Proof.
  intros Ha Hb Hl Hn Hc. destruct (sbb_limbs a b bw) as [r bo] eqn:E. unfold vpair, sp_sbb, spec_sbb. cbn [fst snd].
  pose proof (sbb_limbs_correct a b bw r bo Ha Hb Hl Hc E) as (Hw & Hlr & [(Hz & _)|(_ & Hib & He)]);
    [contradiction|].
  unfold bin in He. set (s := eval a - eval b - bw / 2 ^ 63) in *.
  pose proof (eval_bounds r Hw) as Hbr. rewrite Hlr in Hbr. pose proof (Bn_pos (length a)) as HB.
  destruct Hib as [-> | ->].
  - rewrite bout_0 in He. assert (Hs : s = eval r) by lia.
    destruct (Z.ltb_spec s 0); [lia|]. f_equal. f_equal. apply limbs_of_mod; auto.
    rewrite Hs. symmetry. apply Z.mod_small. lia.
  - rewrite bout_MAXW in He.
    destruct (Z.ltb_spec s 0); [|lia]. f_equal. f_equal. apply limbs_of_mod; auto.
    apply (Z.mod_unique_pos _ _ (-1)); lia.
Qed.

(* the wrapping / checked / saturating selections *)
Section Uint2.
Variables a b : list Z.
Hypothesis Ha : wf a.
Hypothesis Hb : wf b.
Hypothesis Hl : length a = length b.

Lemma ent_wrapping_add : Val [uint_wrapping_add a b] = sp_wrapping (length a) (eval a + eval b).
Proof.
  destruct (wrapping_add_spec a b Ha Hb Hl) as (He & Hw & Hlr). unfold sp_wrapping, sp_val. do 2 f_equal.
  apply limbs_of_mod; auto.
Qed.
Lemma ent_wrapping_sub : Val [uint_wrapping_sub a b] = sp_wrapping (length a) (eval a - eval b).
Proof.
  destruct (wrapping_sub_spec a b Ha Hb Hl) as (He & Hw & Hlr). unfold sp_wrapping, sp_val. do 2 f_equal.
  apply limbs_of_mod; auto.
Qed.

(* checked: Some r (exact) or None, decided exactly by the spec's range test *)
Lemma checked_add_cases :
  (sp_fits (length a) (eval a + eval b) = true /\ uint_checked_add a b = Some (to_limbs (length a) (eval a + eval b))) \/
  (sp_fits (length a) (eval a + eval b) = false /\ uint_checked_add a b = None).
Proof.
  pose proof (checked_add_spec a b Ha Hb Hl) as H. destruct (uint_checked_add a b) as [r|]; cbv iota in H.
  - destruct H as (He & Hw & Hlr). pose proof (eval_bounds r Hw) as Hbr. rewrite Hlr in Hbr. left.
    split; [apply sp_fits_true; lia | f_equal; apply limbs_of_val; auto].
  - right. split; [apply sp_fits_false; lia | reflexivity].
Qed.

Lemma checked_sub_cases :
  (sp_fits (length a) (eval a - eval b) = true /\ uint_checked_sub a b = Some (to_limbs (length a) (eval a - eval b))) \/
  (sp_fits (length a) (eval a - eval b) = false /\ uint_checked_sub a b = None).
Proof.
  pose proof (checked_sub_spec a b Ha Hb Hl) as H. destruct (uint_checked_sub a b) as [r|]; cbv iota in H.
  - destruct H as (He & Hw & Hlr). pose proof (eval_bounds r Hw) as Hbr. rewrite Hlr in Hbr. left.
    split; [apply sp_fits_true; lia | f_equal; apply limbs_of_val; auto].
  - right. split; [apply sp_fits_false; lia | reflexivity].
Qed.

Lemma ent_checked_add : vopt (uint_checked_add a b) = sp_checked (length a) (eval a + eval b).
Proof. unfold sp_checked, sp_val. destruct checked_add_cases as [[-> ->]|[-> ->]]; reflexivity. Qed.
Lemma ent_checked_sub : vopt (uint_checked_sub a b) = sp_checked (length a) (eval a - eval b).
Proof. unfold sp_checked, sp_val. destruct checked_sub_cases as [[-> ->]|[-> ->]]; reflexivity. Qed.
Lemma ent_add : vpanic_none (uint_checked_add a b) = sp_panicking (length a) (eval a + eval b).
Proof. unfold sp_panicking, sp_val. destruct checked_add_cases as [[-> ->]|[-> ->]]; reflexivity. Qed.
Lemma ent_sub : vpanic_none (uint_checked_sub a b) = sp_panicking (length a) (eval a - eval b).
Proof. unfold sp_panicking, sp_val. destruct checked_sub_cases as [[-> ->]|[-> ->]]; reflexivity. Qed.

Lemma ent_saturating_add : Val [uint_saturating_add a b] = sp_saturating (length a) (eval a + eval b).
Proof.
  unfold uint_saturating_add, sp_saturating, sp_val. destruct (adc_limbs a b 0) as [r co] eqn:E.
  destruct (adc0_cases a b r co Ha Hb Hl E) as (Hw & Hlr & Hbr & Hc).
  pose proof (eval_nonneg a Ha). pose proof (eval_nonneg b Hb). pose proof (Bn_pos (length a)).
  do 2 f_equal.
  destruct (Z.ltb_spec (eval a + eval b) 0); [lia|].
  destruct Hc as [[-> He]|[-> He]].
  - change (from_word_lsb 0) with (choice_of_bool false).
    rewrite select_limbs_choice; auto using wf_maxs; [|rewrite length_maxs; assumption].
    destruct (Z.ltb_spec (eval a + eval b) (Bn (length a))); [|lia]. apply limbs_of_val; auto.
  - change (from_word_lsb 1) with (choice_of_bool true).
    rewrite select_limbs_choice; auto using wf_maxs; [|rewrite length_maxs; assumption].
    destruct (Z.ltb_spec (eval a + eval b) (Bn (length a))); [lia|].
    apply limbs_of_val; auto using wf_maxs, length_maxs, eval_maxs.
Qed.

Lemma ent_saturating_sub : Val [uint_saturating_sub a b] = sp_saturating (length a) (eval a - eval b).
Proof.
  unfold uint_saturating_sub, sp_saturating, sp_val. destruct (sbb_limbs a b 0) as [r bo] eqn:E.
  destruct (sbb0_cases a b r bo Ha Hb Hl E) as (Hw & Hlr & Hbr & Hc).
  pose proof (eval_bounds a Ha). pose proof (eval_nonneg b Hb).
  do 2 f_equal.
  destruct Hc as [[-> He]|[-> He]].
  - change 0 with (choice_of_bool false) at 1.
    rewrite select_limbs_choice; auto using wf_zeros; [|rewrite length_zeros; assumption].
    destruct (Z.ltb_spec (eval a - eval b) 0); [lia|].
    destruct (Z.ltb_spec (eval a - eval b) (Bn (length a))); [|lia]. apply limbs_of_val; auto.
  - change MAXW with (choice_of_bool true) at 1.
    rewrite select_limbs_choice; auto using wf_zeros; [|rewrite length_zeros; assumption].
    destruct (Z.ltb_spec (eval a - eval b) 0); [|lia].
    apply limbs_of_val; auto using wf_zeros, length_zeros, eval_zeros.
Qed.
End Uint2.

(* ------------------------------------------------------------------ negation *)
Section Neg.
Variable a : list Z.
Hypothesis Ha : wf a.

Lemma ent_wrapping_neg : Val [uint_wrapping_neg a] = sp_wrapping (length a) (- eval a).
Proof.
  destruct (wrapping_neg_spec a Ha) as (He & Hw & Hl). unfold sp_wrapping, sp_val. do 2 f_equal.
  apply limbs_of_mod; auto.
Qed.

Lemma ent_carrying_neg :
  (let '(r, c) := uint_carrying_neg a in Val [r; vbool (choice_to_bool c)]) =
  Val [to_limbs (length a) (spec_neg (length a) (eval a)); vbool (eval a =? 0)].
Proof.
  destruct (uint_carrying_neg a) as [r c] eqn:E.
  destruct (carrying_neg_spec a r c Ha E) as (He & Hw & Hl & Hc). rewrite Hc. unfold spec_neg.
  do 2 f_equal. apply limbs_of_mod; auto.
Qed.

Lemma ent_wrapping_neg_if s :
  Val [uint_wrapping_neg_if a (choice_of_bool (negb (s =? 0)))] =
  sp_wrapping (length a) (if s =? 0 then eval a else - eval a).
Proof.
  unfold uint_wrapping_neg_if. destruct (wrapping_neg_spec a Ha) as (He & Hw & Hl).
  rewrite select_limbs_choice by auto.
  destruct (s =? 0); cbn [negb]; [|apply ent_wrapping_neg].
  unfold sp_wrapping, sp_val. do 2 f_equal. apply limbs_of_mod; auto.
  symmetry. apply Z.mod_small. apply eval_bounds. assumption.
Qed.
End Neg.

(* ------------------------------------------------------------------ Checked<Uint<N>> expressions *)
(* an optional limb list represents an optional value of the spec at width n *)
Definition orep (n : nat) (o : option (list Z)) (v : option Z) : Prop :=
  match o, v with
  | Some r, Some x => wf r /\ length r = n /\ eval r = x
  | None, None => True
  | _, _ => False
  end.

Lemma orep_some n x : wf x -> length x = n -> orep n (Some x) (Some (eval x)).
Proof. intros. cbn. auto. Qed.

Lemma sp_fits_bounds n x : sp_fits n x = true -> 0 <= x < Bn n.
Proof. unfold sp_fits. intros H. apply andb_prop in H. destruct H as [H1 H2]. apply Z.leb_le in H1. apply Z.ltb_lt in H2. lia. Qed.

Lemma orep_to_limbs n v : sp_fits n v = true -> orep n (Some (to_limbs n v)) (Some v).
Proof.
  intros H. apply sp_fits_bounds in H. cbn. split; [apply wf_to_limbs|]. split; [apply length_to_limbs|].
  apply to_limbs_small. assumption.
Qed.

Lemma checked_bin_rep n op x y vx vy : orep n x vx -> orep n y vy ->
  orep n (checked_bin op x y) (sp_checked_bin n op vx vy).
Proof.
  intros Hx Hy. destruct x as [xv|], vx as [vxv|]; cbn in Hx; try contradiction; [|destruct y; exact I].
  destruct y as [yv|], vy as [vyv|]; cbn in Hy; try contradiction; [|exact I].
  destruct Hx as (Hwx & Hlx & <-). destruct Hy as (Hwy & Hly & <-). subst n.
  cbn [checked_bin sp_checked_bin]. symmetry in Hly.
  destruct (op =? 0).
  - destruct (checked_add_cases xv yv Hwx Hwy Hly) as [[Hf ->]|[Hf ->]]; rewrite Hf; [|exact I].
    apply orep_to_limbs. assumption.
  - destruct (checked_sub_cases xv yv Hwx Hwy Hly) as [[Hf ->]|[Hf ->]]; rewrite Hf; [|exact I].
    apply orep_to_limbs. assumption.
Qed.

Lemma ent_checked_expr shape op1 op2 a b c : wf a -> wf b -> wf c -> length a = length b -> length a = length c ->
  vopt (checked_expr shape op1 op2 a b c) =
  match (if shape =? 0
         then sp_checked_bin (length a) op2 (sp_checked_bin (length a) op1 (Some (eval a)) (Some (eval b))) (Some (eval c))
         else sp_checked_bin (length a) op2 (Some (eval a)) (sp_checked_bin (length a) op1 (Some (eval b)) (Some (eval c)))) with
  | Some r => sp_val (length a) r | None => NoneV end.
Proof.
  intros Ha Hb Hc Hl1 Hl2. set (n := length a).
  pose proof (orep_some n a Ha eq_refl) as Ra.
  pose proof (orep_some n b Hb (eq_sym Hl1)) as Rb.
  pose proof (orep_some n c Hc (eq_sym Hl2)) as Rc.
  unfold checked_expr.
  assert (K : forall o v, orep n o v -> vopt o = match v with Some r => sp_val n r | None => NoneV end).
  { intros [r|] [v|] H; cbn in H; try contradiction; [|reflexivity].
    destruct H as (Hw & Hl & He). cbn. unfold sp_val. do 2 f_equal. apply limbs_of_val; auto. }
  destruct (shape =? 0); apply K; repeat apply checked_bin_rep; assumption.
Qed.

(* ------------------------------------------------------------------ BoxedUint: operands of any two precisions *)
Lemma let_pair_vopt (p : list Z * Z) :
  (let '(r, c) := p in if c =? 0 then Val [r] else NoneV) =
  vopt (let '(r, c) := p in if c =? 0 then Some r else None).
Proof. destruct p as [r c]. destruct (c =? 0); reflexivity. Qed.
Lemma let_pair_vpanic (p : list Z * Z) :
  (let '(r, c) := p in if c =? 0 then Val [r] else PanicV) =
  vpanic_none (let '(r, c) := p in if c =? 0 then Some r else None).
Proof. destruct p as [r c]. destruct (c =? 0); reflexivity. Qed.

Section Boxed2.
Variables x y : list Z.
Hypothesis Hx : wf x.
Hypothesis Hy : wf y.
Let n := Nat.max (length x) (length y).
Let x' := resize n x.
Let y' := resize n y.

(* an entry of the Uint<N> code, run on the operands padded to the wider precision, is the entry at that precision *)
Lemma padded (F : list Z -> list Z -> outcome) (G : nat -> Z -> Z -> outcome) :
  (forall a b, wf a -> wf b -> length a = length b -> F a b = G (length a) (eval a) (eval b)) ->
  F x' y' = G n (eval x) (eval y).
Proof.
  intros H. destruct (resize_max x y Hx Hy) as (Wx & Wy & L & Ex & Ey). fold n x' y' in Wx, Wy, L, Ex, Ey.
  rewrite (H x' y' Wx Wy L), Ex, Ey. unfold x'. rewrite length_resize. reflexivity.
Qed.

Lemma ent_boxed_adc c : is_word c -> vpair (boxed_adc x y c) = sp_adc n (eval x) (eval y) c.
Proof.
  intros Hc. apply (padded (fun a b => vpair (adc_limbs a b c)) (fun n u v => sp_adc n u v c)).
  intros a b Ha Hb Hl. apply adc_chain_entry; assumption.
Qed.
Lemma ent_boxed_sbb c : is_word c -> n <> 0%nat -> vpair (boxed_sbb x y c) = sp_sbb n (eval x) (eval y) c.
Proof.
  intros Hc Hn. destruct (resize_max x y Hx Hy) as (Wx & Wy & L & Ex & Ey). fold n x' y' in Wx, Wy, L, Ex, Ey.
  assert (Ln : length x' = n) by apply length_resize. unfold boxed_sbb. fold n x' y'.
  rewrite (sbb_chain_entry x' y' c Wx Wy L ltac:(lia) Hc), Ln, Ex, Ey. reflexivity.
Qed.

Lemma ent_boxed_wrapping_add : Val [fst (boxed_adc x y 0)] = sp_wrapping n (eval x + eval y).
Proof. exact (padded (fun a b => Val [uint_wrapping_add a b]) (fun n u v => sp_wrapping n (u + v)) ent_wrapping_add). Qed.
Lemma ent_boxed_wrapping_sub : Val [fst (boxed_sbb x y 0)] = sp_wrapping n (eval x - eval y).
Proof. exact (padded (fun a b => Val [uint_wrapping_sub a b]) (fun n u v => sp_wrapping n (u - v)) ent_wrapping_sub). Qed.

Lemma ent_boxed_checked_add :
  (let '(r, c) := boxed_adc x y 0 in if c =? 0 then Val [r] else NoneV) = sp_checked n (eval x + eval y).
Proof.
  rewrite let_pair_vopt.
  exact (padded (fun a b => vopt (uint_checked_add a b)) (fun n u v => sp_checked n (u + v)) ent_checked_add).
Qed.
Lemma ent_boxed_checked_sub :
  (let '(r, c) := boxed_sbb x y 0 in if c =? 0 then Val [r] else NoneV) = sp_checked n (eval x - eval y).
Proof.
  rewrite let_pair_vopt.
  exact (padded (fun a b => vopt (uint_checked_sub a b)) (fun n u v => sp_checked n (u - v)) ent_checked_sub).
Qed.
Lemma ent_boxed_add :
  (let '(r, c) := boxed_adc x y 0 in if c =? 0 then Val [r] else PanicV) = sp_panicking n (eval x + eval y).
Proof.
  rewrite let_pair_vpanic.
  exact (padded (fun a b => vpanic_none (uint_checked_add a b)) (fun n u v => sp_panicking n (u + v)) ent_add).
Qed.
Lemma ent_boxed_sub :
  (let '(r, c) := boxed_sbb x y 0 in if c =? 0 then Val [r] else PanicV) = sp_panicking n (eval x - eval y).
Proof.
  rewrite let_pair_vpanic.
  exact (padded (fun a b => vpanic_none (uint_checked_sub a b)) (fun n u v => sp_panicking n (u - v)) ent_sub).
Qed.
End Boxed2.

(* ------------------------------------------------------------------ BoxedUint assigning forms *)
(* the limbs of rhs beyond the receiver's precision set the flag m in the carry / borrow word iff one is non-zero *)
Lemma hi_zero_iff n b : wf b -> (eval (skipn n b) =? 0) = (eval b / Bn n =? 0).
Proof.
  intros Hb. pose proof (eval_skipn_zero_iff n b Hb) as H. pose proof (eval_nonneg b Hb). pose proof (Bn_pos n).
  destruct (Z.eqb_spec (eval (skipn n b)) 0) as [E|E]; destruct (Z.eqb_spec (eval b / Bn n) 0) as [E'|E']; try reflexivity; exfalso.
  - apply E'. apply Z.div_small. apply H in E. lia.
  - apply E, H. apply Z.div_small_iff in E'; lia.
Qed.

Lemma lor_MAXW c : is_word c -> Z.lor c MAXW = MAXW.
Proof.
  intros Hc. apply Z.bits_inj'. intros i Hi. rewrite Z.lor_spec.
  destruct (Z.lt_ge_cases i 64).
  - rewrite MAXW_val, B_val. change (2 ^ 64 - 1) with (Z.ones 64). rewrite Z.ones_spec_low by lia. apply orb_true_r.
  - rewrite (word_high_bits c i Hc) by lia. reflexivity.
Qed.

Lemma val2_inj (r r' : list Z) (c c' : Z) : Val [r; [c]] = Val [r'; [c']] -> r = r' /\ c = c'.
Proof. intros H. injection H as H1 H2. auto. Qed.

Section BoxedAssign.
Variables x y : list Z.
Hypothesis Hx : wf x.
Hypothesis Hy : wf y.
Let n := length x.
Let y' := resize n y.

Lemma ent_boxed_adc_assign c : is_word c ->
  vpair (boxed_adc_assign x y c) =
  Val [to_limbs n ((eval x + eval y mod Bn n + c) mod Bn n);
       [if eval y / Bn n =? 0 then (eval x + eval y mod Bn n + c) / Bn n
        else wor ((eval x + eval y mod Bn n + c) / Bn n) 1]].
Proof.
  intros Hc. unfold boxed_adc_assign. fold n y'.
  pose proof (adc_chain_entry x y' c Hx (wf_resize n y Hy) ltac:(unfold y'; rewrite length_resize; reflexivity) Hc) as H.
  destruct (adc_limbs x y' c) as [r co]. unfold vpair, sp_adc, spec_adc in *. cbn [fst snd] in *. fold n in H. unfold y' in H. rewrite eval_resize in H by assumption.
  apply val2_inj in H. destruct H as [Hr Hco]. rewrite (fold_or 1 _ is_word_1 (wf_skipn n y Hy)), hi_zero_iff by assumption.
  rewrite <- Hr, <- Hco. reflexivity.
Qed.

Lemma ent_boxed_sbb_assign c : is_word c -> n <> 0%nat ->
  vpair (boxed_sbb_assign x y c) =
  Val [to_limbs n ((eval x - eval y mod Bn n - c / 2 ^ 63) mod Bn n);
       [if eval y / Bn n =? 0 then (if eval x - eval y mod Bn n - c / 2 ^ 63 <? 0 then MAXW else 0) else MAXW]].
Proof.
  intros Hc Hn. unfold boxed_sbb_assign. fold n y'.
  pose proof (sbb_chain_entry x y' c Hx (wf_resize n y Hy) ltac:(unfold y'; rewrite length_resize; reflexivity) Hn Hc) as H.
  destruct (sbb_limbs x y' c) as [r bo]. unfold vpair, sp_sbb, spec_sbb in *. cbn [fst snd] in *. fold n in H. unfold y' in H. rewrite eval_resize in H by assumption.
  apply val2_inj in H. destruct H as [Hr Hbo]. rewrite (fold_or MAXW _ is_word_MAXW (wf_skipn n y Hy)), hi_zero_iff by assumption.
  assert (Hm : wor bo MAXW = MAXW)
    by (rewrite Hbo; unfold wor; destruct (_ <? 0); [apply Z.lor_diag | apply Z.lor_0_l]).
  rewrite <- Hr, <- Hbo. destruct (eval y / Bn n =? 0); [reflexivity | rewrite Hm; reflexivity].
Qed.

Lemma ent_boxed_add_assign dbg : boxed_add_assign_op dbg x y = sp_panicking n (eval x + eval y).
Proof.
  unfold n, sp_panicking, sp_val. pose proof (eval_nonneg x Hx). pose proof (eval_nonneg y Hy).
  destruct (boxed_add_assign_full x y dbg Hx Hy) as [(Hlt & r & -> & He & Hl & Hw)|(Hge & ->)].
  - rewrite sp_fits_true by lia. do 2 f_equal. apply limbs_of_val; auto.
  - rewrite sp_fits_false by lia. reflexivity.
Qed.
Lemma ent_boxed_sub_assign dbg : boxed_sub_assign_op dbg x y = sp_panicking n (eval x - eval y).
Proof.
  unfold n, sp_panicking, sp_val. pose proof (eval_bounds x Hx). pose proof (eval_nonneg y Hy).
  destruct (boxed_sub_assign_full x y dbg Hx Hy) as [(Hlt & r & -> & He & Hl & Hw)|(Hge & ->)].
  - rewrite sp_fits_true by lia. do 2 f_equal. apply limbs_of_val; auto.
  - rewrite sp_fits_false by lia. reflexivity.
Qed.

Lemma ent_boxed_wrapping_add_assign dbg :
  boxed_wrapping_assign_op false dbg x y = sp_wrapping n (eval x + eval y).
Proof.
  unfold boxed_wrapping_assign_op, boxed_adc_assign. fold n y'. destruct (adc_limbs x y' 0) as [r co] eqn:E. cbn [fst].
  change r with (fst (r, co)). rewrite <- E. change (fst (adc_limbs x y' 0)) with (uint_wrapping_add x y').
  rewrite (ent_wrapping_add x y' Hx (wf_resize n y Hy)) by (unfold y'; rewrite length_resize; reflexivity).
  fold n. unfold y'. rewrite eval_resize by assumption. unfold sp_wrapping. pose proof (Bn_pos n).
  rewrite Z.add_mod_idemp_r by lia. reflexivity.
Qed.
Lemma ent_boxed_wrapping_sub_assign dbg :
  boxed_wrapping_assign_op true dbg x y = sp_wrapping n (eval x - eval y).
Proof.
  unfold boxed_wrapping_assign_op, boxed_sbb_assign. fold n y'. destruct (sbb_limbs x y' 0) as [r co] eqn:E. cbn [fst].
  change r with (fst (r, co)). rewrite <- E. change (fst (sbb_limbs x y' 0)) with (uint_wrapping_sub x y').
  rewrite (ent_wrapping_sub x y' Hx (wf_resize n y Hy)) by (unfold y'; rewrite length_resize; reflexivity).
  fold n. unfold y'. rewrite eval_resize by assumption. unfold sp_wrapping. pose proof (Bn_pos n).
  rewrite Zminus_mod_idemp_r. reflexivity.
Qed.
End BoxedAssign.

(* ------------------------------------------------------------------ Limb forms *)
Lemma limb_adc_entry x y c : is_word x -> is_word y -> is_word c -> vpair2 (adc x y c) = sp_adc 1 x y c.
Proof.
  intros Hx Hy Hc. pose proof (adc_chain_entry [x] [y] c (wf_one x Hx) (wf_one y Hy) eq_refl Hc) as H.
  cbn [adc_limbs] in H. destruct (adc x y c). rewrite !eval_one in H. exact H.
Qed.
Lemma limb_sbb_entry x y c : is_word x -> is_word y -> is_word c -> vpair2 (sbb x y c) = sp_sbb 1 x y c.
Proof.
  intros Hx Hy Hc.
  pose proof (sbb_chain_entry [x] [y] c (wf_one x Hx) (wf_one y Hy) eq_refl ltac:(discriminate) Hc) as H.
  cbn [sbb_limbs] in H. destruct (sbb x y c). rewrite !eval_one in H. exact H.
Qed.
Lemma limb_mac_entry x y z c : is_word x -> is_word y -> is_word z -> is_word c ->
  vpair2 (mac x y z c) = Val [[(x + y * z + c) mod B]; [(x + y * z + c) / B]].
Proof.
  intros Hx Hy Hz Hc. destruct (mac x y z c) as [lo hi] eqn:E.
  destruct (mac_exact x y z c lo hi Hx Hy Hz Hc E) as (He & Hlo & Hhi). unfold is_word in Hlo.
  destruct (div_mod_unique_pos B hi lo (x + y * z + c) Hlo ltac:(lia)) as [-> ->]. reflexivity.
Qed.
Lemma limb_wrap_entry v : Val [[wrap v]] = sp_wrapping 1 v.
Proof.
  unfold sp_wrapping, sp_val, wrap. rewrite to_limbs_1, Bn_1. pose proof B_pos. rewrite Z.mod_mod by lia. reflexivity.
Qed.

(* Limb forms that run the Uint<N> code on one-limb operands: the spec's width 1 is the operands' length *)
Lemma limb_as_uint (F : list Z -> list Z -> outcome) (G : nat -> Z -> outcome) (op : Z -> Z -> Z) a :
  (forall x y, wf x -> wf y -> length x = length y -> F x y = G (length x) (op (eval x) (eval y))) ->
  wf_args a -> ty_limb2 a = true -> F (arg 0 a) (arg 1 a) = G 1%nat (op (ev 0 a) (ev 1 a)).
Proof.
  intros H Hwf Hty. destruct (ty_limb2_len a Hty) as [H0 H1].
  rewrite H by (auto using wf_arg; congruence). rewrite H0. reflexivity.
Qed.

Lemma tbl_limb_adc : tbl_ok "limb.adc".
Proof. start_tbl. destruct (ty_limb2_len a Hty) as [H0 H1]. rewrite !ev_single by assumption. apply limb_adc_entry; apply sarg_word; assumption. Qed.
Lemma tbl_limb_sbb : tbl_ok "limb.sbb".
Proof. start_tbl. destruct (ty_limb2_len a Hty) as [H0 H1]. rewrite !ev_single by assumption. apply limb_sbb_entry; apply sarg_word; assumption. Qed.
Lemma tbl_limb_overflowing_add : tbl_ok "limb.overflowing_add".
Proof.
  start_tbl. destruct (ty_limb2_len a Hty) as [H0 H1]. rewrite !ev_single by assumption.
  rewrite <- limb_adc_entry by (try apply sarg_word; auto using is_word_0').
  unfold overflowing_add, adc. rewrite Z.add_0_r. reflexivity.
Qed.
Lemma tbl_limb_mac : tbl_ok "limb.mac".
Proof. start_tbl. cbv zeta. apply limb_mac_entry; apply sarg_word; assumption. Qed.
Lemma tbl_limb_wrapping_add : tbl_ok "limb.wrapping_add".
Proof. start_tbl. destruct (ty_limb2_len a Hty) as [H0 H1]. rewrite !ev_single by assumption. apply limb_wrap_entry. Qed.
Lemma tbl_limb_wrapping_sub : tbl_ok "limb.wrapping_sub".
Proof. start_tbl. destruct (ty_limb2_len a Hty) as [H0 H1]. rewrite !ev_single by assumption. apply limb_wrap_entry. Qed.
Lemma tbl_limb_wrapping_neg : tbl_ok "limb.wrapping_neg".
Proof.
  start_tbl. unfold ty_limb1, ln in Hty. apply Nat.eqb_eq in Hty. rewrite !ev_single by assumption. apply limb_wrap_entry.
Qed.
Lemma tbl_limb_saturating_add : tbl_ok "limb.saturating_add".
Proof. start_tbl. exact (limb_as_uint (fun x y => Val [uint_saturating_add x y]) sp_saturating Z.add a ent_saturating_add Hwf Hty). Qed.
Lemma tbl_limb_saturating_sub : tbl_ok "limb.saturating_sub".
Proof. start_tbl. exact (limb_as_uint (fun x y => Val [uint_saturating_sub x y]) sp_saturating Z.sub a ent_saturating_sub Hwf Hty). Qed.
Lemma tbl_limb_checked_add : tbl_ok "limb.checked_add".
Proof. start_tbl. exact (limb_as_uint (fun x y => vopt (uint_checked_add x y)) sp_checked Z.add a ent_checked_add Hwf Hty). Qed.
Lemma tbl_limb_checked_sub : tbl_ok "limb.checked_sub".
Proof. start_tbl. exact (limb_as_uint (fun x y => vopt (uint_checked_sub x y)) sp_checked Z.sub a ent_checked_sub Hwf Hty). Qed.
Lemma tbl_limb_add : tbl_ok "limb.add".
Proof. start_tbl. exact (limb_as_uint (fun x y => vpanic_none (uint_checked_add x y)) sp_panicking Z.add a ent_add Hwf Hty). Qed.
Lemma tbl_limb_sub : tbl_ok "limb.sub".
Proof. start_tbl. exact (limb_as_uint (fun x y => vpanic_none (uint_checked_sub x y)) sp_panicking Z.sub a ent_sub Hwf Hty). Qed.

(* ------------------------------------------------------------------ Uint<N> forms *)
Lemma tbl_uint_adc : tbl_ok "uint.adc".
Proof.
  start_tbl. apply adc_chain_entry; auto using wf_arg, ty_same2_inv. exact (sarg_word 2 a Hwf).
Qed.
Lemma tbl_uint_sbb : tbl_ok "uint.sbb".
Proof.
  start_tbl. unfold ty_same2_nonempty, ln in Hty. apply andb_prop in Hty. destruct Hty as [Hl Hn].
  apply Nat.eqb_eq in Hl. apply negb_true_iff, Nat.eqb_neq in Hn.
  apply sbb_chain_entry; auto using wf_arg. exact (sarg_word 2 a Hwf).
Qed.
Lemma tbl_uint_wrapping_add : tbl_ok "uint.wrapping_add".
Proof. start_tbl. apply ent_wrapping_add; auto using wf_arg, ty_same2_inv. Qed.
Lemma tbl_uint_wrapping_sub : tbl_ok "uint.wrapping_sub".
Proof. start_tbl. apply ent_wrapping_sub; auto using wf_arg, ty_same2_inv. Qed.
Lemma tbl_uint_saturating_add : tbl_ok "uint.saturating_add".
Proof. start_tbl. apply ent_saturating_add; auto using wf_arg, ty_same2_inv. Qed.
Lemma tbl_uint_saturating_sub : tbl_ok "uint.saturating_sub".
Proof. start_tbl. apply ent_saturating_sub; auto using wf_arg, ty_same2_inv. Qed.
Lemma tbl_uint_checked_add : tbl_ok "uint.checked_add".
Proof. start_tbl. apply ent_checked_add; auto using wf_arg, ty_same2_inv. Qed.
Lemma tbl_uint_checked_sub : tbl_ok "uint.checked_sub".
Proof. start_tbl. apply ent_checked_sub; auto using wf_arg, ty_same2_inv. Qed.
Lemma tbl_uint_add : tbl_ok "uint.add".
Proof. start_tbl. apply ent_add; auto using wf_arg, ty_same2_inv. Qed.
Lemma tbl_uint_sub : tbl_ok "uint.sub".
Proof. start_tbl. apply ent_sub; auto using wf_arg, ty_same2_inv. Qed.
Lemma tbl_uint_carrying_neg : tbl_ok "uint.carrying_neg".
Proof. start_tbl. apply ent_carrying_neg; auto using wf_arg. Qed.
Lemma tbl_uint_wrapping_neg : tbl_ok "uint.wrapping_neg".
Proof. start_tbl. apply ent_wrapping_neg; auto using wf_arg. Qed.
Lemma tbl_uint_wrapping_neg_if : tbl_ok "uint.wrapping_neg_if".
Proof. start_tbl. apply ent_wrapping_neg_if; auto using wf_arg. Qed.
Lemma tbl_uint_checked_expr : tbl_ok "uint.checked_expr".
Proof.
  start_tbl. unfold ty_same3, ln in Hty. apply andb_prop in Hty. destruct Hty as [H1 H2]. apply Nat.eqb_eq in H1, H2.
  apply ent_checked_expr; auto using wf_arg.
Qed.

(* ------------------------------------------------------------------ BoxedUint forms *)
Lemma tbl_boxed_adc : tbl_ok "boxed.adc".
Proof. start_tbl. apply ent_boxed_adc; auto using wf_arg. exact (sarg_word 2 a Hwf). Qed.
Lemma tbl_boxed_sbb : tbl_ok "boxed.sbb".
Proof.
  start_tbl. unfold ty_some_limb in Hty. apply negb_true_iff, Nat.eqb_neq in Hty.
  apply ent_boxed_sbb; auto using wf_arg. exact (sarg_word 2 a Hwf).
Qed.
Lemma tbl_boxed_wrapping_add : tbl_ok "boxed.wrapping_add".
Proof. start_tbl. apply ent_boxed_wrapping_add; auto using wf_arg. Qed.
Lemma tbl_boxed_wrapping_sub : tbl_ok "boxed.wrapping_sub".
Proof. start_tbl. apply ent_boxed_wrapping_sub; auto using wf_arg. Qed.
Lemma tbl_boxed_checked_add : tbl_ok "boxed.checked_add".
Proof. start_tbl. apply ent_boxed_checked_add; auto using wf_arg. Qed.
Lemma tbl_boxed_checked_sub : tbl_ok "boxed.checked_sub".
Proof. start_tbl. apply ent_boxed_checked_sub; auto using wf_arg. Qed.
Lemma tbl_boxed_add : tbl_ok "boxed.add".
Proof. start_tbl. apply ent_boxed_add; auto using wf_arg. Qed.
Lemma tbl_boxed_sub : tbl_ok "boxed.sub".
Proof. start_tbl. apply ent_boxed_sub; auto using wf_arg. Qed.
Lemma tbl_boxed_adc_assign : tbl_ok "boxed.adc_assign".
Proof. start_tbl. apply ent_boxed_adc_assign; auto using wf_arg. exact (sarg_word 2 a Hwf). Qed.
Lemma tbl_boxed_sbb_assign : tbl_ok "boxed.sbb_assign".
Proof.
  start_tbl. unfold ty_recv_limb, ln in Hty. apply negb_true_iff, Nat.eqb_neq in Hty.
  apply ent_boxed_sbb_assign; auto using wf_arg. exact (sarg_word 2 a Hwf).
Qed.
Lemma tbl_boxed_add_assign : tbl_ok "boxed.add_assign".
Proof. start_tbl. apply ent_boxed_add_assign; auto using wf_arg. Qed.
Lemma tbl_boxed_sub_assign : tbl_ok "boxed.sub_assign".
Proof. start_tbl. apply ent_boxed_sub_assign; auto using wf_arg. Qed.
Lemma tbl_boxed_wrapping_add_assign : tbl_ok "boxed.wrapping_add_assign".
Proof. start_tbl. apply ent_boxed_wrapping_add_assign; auto using wf_arg. Qed.
Lemma tbl_boxed_wrapping_sub_assign : tbl_ok "boxed.wrapping_sub_assign".
Proof. start_tbl. apply ent_boxed_wrapping_sub_assign; auto using wf_arg. Qed.
Lemma tbl_boxed_wrapping_neg : tbl_ok "boxed.wrapping_neg".
Proof. start_tbl. apply ent_wrapping_neg; auto using wf_arg. Qed.

(* ------------------------------------------------------------------ the area theorem *)
(** the list of keys IS the key set of the table (in table order) *)
Definition addsub_table_keys : list string := map fst ops_addsub_model.
Lemma addsub_table_keys_spec : map fst ops_addsub_spec = addsub_table_keys.
Proof. reflexivity. Qed.
Lemma addsub_table_keys_count : length addsub_table_keys = 42%nat.
Proof. reflexivity. Qed.

(* the lemmas of all keys, in table order *)
Lemma addsub_all_keys_ok : forall k, In k addsub_table_keys -> tbl_ok k.
Proof.
  exact (all_of_sigs tbl_ok
    [exist _ _ tbl_limb_adc; exist _ _ tbl_limb_sbb; exist _ _ tbl_limb_overflowing_add; exist _ _ tbl_limb_mac;
     exist _ _ tbl_limb_wrapping_add; exist _ _ tbl_limb_wrapping_sub; exist _ _ tbl_limb_wrapping_neg;
     exist _ _ tbl_limb_saturating_add; exist _ _ tbl_limb_saturating_sub; exist _ _ tbl_limb_checked_add;
     exist _ _ tbl_limb_checked_sub; exist _ _ tbl_limb_add; exist _ _ tbl_limb_sub; exist _ _ tbl_uint_adc;
     exist _ _ tbl_uint_sbb; exist _ _ tbl_uint_wrapping_add; exist _ _ tbl_uint_wrapping_sub;
     exist _ _ tbl_uint_saturating_add; exist _ _ tbl_uint_saturating_sub; exist _ _ tbl_uint_checked_add;
     exist _ _ tbl_uint_checked_sub; exist _ _ tbl_uint_add; exist _ _ tbl_uint_sub;
     exist _ _ tbl_uint_carrying_neg; exist _ _ tbl_uint_wrapping_neg; exist _ _ tbl_uint_wrapping_neg_if;
     exist _ _ tbl_uint_checked_expr; exist _ _ tbl_boxed_adc; exist _ _ tbl_boxed_sbb;
     exist _ _ tbl_boxed_wrapping_add; exist _ _ tbl_boxed_wrapping_sub; exist _ _ tbl_boxed_checked_add;
     exist _ _ tbl_boxed_checked_sub; exist _ _ tbl_boxed_add; exist _ _ tbl_boxed_sub;
     exist _ _ tbl_boxed_adc_assign; exist _ _ tbl_boxed_sbb_assign; exist _ _ tbl_boxed_add_assign;
     exist _ _ tbl_boxed_sub_assign; exist _ _ tbl_boxed_wrapping_add_assign;
     exist _ _ tbl_boxed_wrapping_sub_assign; exist _ _ tbl_boxed_wrapping_neg]).
Qed.

Theorem addsub_tables_agree : forall k dbg a,
  In k (map fst ops_addsub_model) -> wf_args a -> typedb addsub_tbl_ty k a = true ->
  run_tab ops_addsub_spec k dbg a <> Unsupported ->
  run_tab ops_addsub_model k dbg a = run_tab ops_addsub_spec k dbg a.
Proof. intros k dbg a Hin. exact (addsub_all_keys_ok k Hin dbg a). Qed.

(** the same over the key list of C11 (Proofs/TotalityP.v), which covers the table *)
Lemma addsub_keys_in_table : forall k, In k addsub_keys -> In k (map fst ops_addsub_model).
Proof. apply sublist_In. vm_compute. reflexivity. Qed.
Lemma table_in_addsub_keys : forall k, In k (map fst ops_addsub_model) -> In k addsub_keys.
Proof. apply sublist_In. vm_compute. reflexivity. Qed.
