(** C09 proofs, part 3: the powers table, pow / multi-exponentiation of MontyForm and ConstMontyForm
    (abstract Montgomery multiplication, then the value-level instance), array front = slice front,
    Pow = PowBoundedExp at full width. *)
From CB Require Import Model.Limbs Model.AddSub Model.ModArith Model.Cmp Model.Pow
  Proofs.WordP Proofs.LimbsP Proofs.AddSubP Proofs.PowMathP Proofs.PowLadderP.
From Coq Require Import ZArith Lia List Bool.
Open Scope Z_scope.
Notation length := List.length.

(** a canonical n-limb residue *)
Definition Mf (n : nat) (m : Z) (x : list Z) : Prop := wf x /\ length x = n /\ eval x < m.

Lemma nth_S_cons {A} i (x : A) l d : nth (S i) (x :: l) d = nth i l d.
Proof. reflexivity. Qed.

(** the powers table (for any notion of "good" entries closed under multiplication by the base) *)

Section Table.
Variables (m rinv : Z).
Hypothesis Hm : 0 < m.
Variable mmul : list Z -> list Z -> list Z.
Variable TG : list Z -> Prop.
Variable x : list Z.
Notation V := (V m rinv).
Hypothesis Hstep : forall p, TG p -> TG (mmul p x) /\ V (mmul p x) = (V p * V x) mod m.

Lemma powers_loop_spec : forall cnt prev j, TG prev -> 0 <= j -> V prev = (V x ^ j) mod m ->
  length (powers_loop mmul x prev cnt) = cnt /\
  forall i, (i < cnt)%nat -> TG (nth i (powers_loop mmul x prev cnt) []) /\
                            V (nth i (powers_loop mmul x prev cnt) []) = (V x ^ (j + 1 + Z.of_nat i)) mod m.
Proof.
  induction cnt as [|c IH]; intros prev j Tp Hj Vp.
  - cbn [powers_loop length]. split; [reflexivity | intros i Hi; lia].
  - cbn [powers_loop]. cbv zeta. destruct (Hstep prev Tp) as [T1 V1].
    assert (V1' : V (mmul prev x) = (V x ^ (j + 1)) mod m).
    { rewrite V1, Vp, mulmod_l. f_equal. rewrite Z.pow_add_r, Z.pow_1_r by lia. reflexivity. }
    destruct (IH (mmul prev x) (j + 1) T1 ltac:(lia) V1') as [Hl Hi].
    split; [cbn [length]; rewrite Hl; reflexivity|].
    intros [|i] Hlt.
    + cbn [nth]. split; [assumption|]. rewrite V1'. f_equal. f_equal. lia.
    + rewrite nth_S_cons. destruct (Hi i ltac:(lia)) as [T2 V2]. split; [assumption|].
      rewrite V2. f_equal. f_equal. lia.
Qed.

Lemma compute_powers_spec one : TG one -> TG x -> V one = 1 mod m ->
  length (compute_powers mmul one x) = 16%nat /\
  nth 1 (compute_powers mmul one x) [] = x /\
  forall i, (i < 16)%nat -> TG (nth i (compute_powers mmul one x) []) /\
                           V (nth i (compute_powers mmul one x) []) = (V x ^ Z.of_nat i) mod m.
Proof.
  intros T1 Tx V1. unfold compute_powers.
  assert (Vx : V x = (V x ^ 1) mod m) by (rewrite Z.pow_1_r; symmetry; apply V_mod; assumption).
  destruct (powers_loop_spec 14 x 1 Tx ltac:(lia) Vx) as [Hl Hi].
  split; [cbn [length]; rewrite Hl; reflexivity|]. split; [reflexivity|].
  intros [|[|i]] Hlt.
  - cbn [nth]. split; [assumption|]. rewrite V1. reflexivity.
  - cbn [nth]. split; [assumption|]. exact Vx.
  - rewrite !nth_S_cons. destruct (Hi i ltac:(lia)) as [T2 V2]. split; [assumption|].
    rewrite V2. f_equal. f_equal. lia.
Qed.
End Table.

Section Fixed.
Variables (n : nat) (m rinv : Z).
Hypothesis Hm : 0 < m.
Variable mmul : list Z -> list Z -> list Z.
Variable msq : list Z -> list Z.
Notation V := (V m rinv).
Notation Mf := (Mf n m).

(** the hypotheses that characterise Montgomery multiplication and squaring (limb-level proof: C08) *)
Hypothesis Hmul : forall x y, Mf x -> Mf y -> Mf (mmul x y) /\ eval (mmul x y) mod m = (eval x * eval y * rinv) mod m.
Hypothesis Hsq : forall x, Mf x -> Mf (msq x) /\ eval (msq x) mod m = (eval x * eval x * rinv) mod m.

Lemma V_mmul x y : Mf x -> Mf y -> Mf (mmul x y) /\ V (mmul x y) = (V x * V y) mod m.
Proof.
  intros Hx Hy. destruct (Hmul x y Hx Hy) as [H1 H2]. split; [assumption|].
  unfold PowLadderP.V. rewrite <- mulmod_l, H2, mulmod_l, mulmod_both. f_equal. ring.
Qed.
Lemma V_msq x : Mf x -> Mf (msq x) /\ V (msq x) = (V x * V x) mod m.
Proof.
  intros Hx. destruct (Hsq x Hx) as [H1 H2]. split; [assumption|].
  unfold PowLadderP.V. rewrite <- mulmod_l, H2, mulmod_l, mulmod_both. f_equal. ring.
Qed.
Lemma Mf_wf x : Mf x -> wf x /\ length x = n.
Proof. intros (H1 & H2 & _). split; assumption. Qed.

Definition be_ok (be : list Z * list Z) : Prop := Mf (fst be) /\ wf (snd be).

(** product of the individual powers, over the integers *)
Fixpoint prod_pow (bes : list (list Z * list Z)) (k : Z) : Z :=
  match bes with
  | [] => 1
  | be :: r => V (fst be) ^ (eval (snd be) mod 2 ^ k) * prod_pow r k
  end.

Variable one : list Z.
Hypothesis Hone : Mf one.
Hypothesis Vone : V one = 1 mod m.

Lemma powers_array_ok bes : Forall be_ok bes ->
  Forall (pe_ok m rinv Mf) (powers_array mmul one bes).
Proof.
  induction bes as [|[b e] r IH]; intros H; [constructor|].
  inversion H as [|be' r' [Hb He] Hr]; subst. cbn [fst snd] in *. cbn [powers_array].
  constructor; [|apply IH; assumption].
  destruct (compute_powers_spec m rinv Hm mmul Mf b (fun p Hp => V_mmul p b Hp Hb) one Hone Hb Vone) as (Hl & H1 & Hi).
  split; [|assumption]. cbn [fst]. split; [assumption|]. intros i Hlt. rewrite H1. apply Hi. assumption.
Qed.

Lemma Pw_powers_array bes k : Forall be_ok bes ->
  Pw m rinv k (powers_array mmul one bes) 0 = prod_pow bes k.
Proof.
  induction bes as [|[b e] r IH]; intros H; [reflexivity|].
  inversion H as [|be' r' [Hb He] Hr]; subst. cbn [fst snd] in *.
  cbn [powers_array Pw prod_pow fst snd]. rewrite IH by assumption. f_equal.
  unfold vbase, ebits. cbn [fst snd]. change (2 ^ 0) with 1. rewrite Z.div_1_r.
  unfold compute_powers. cbn [nth]. reflexivity.
Qed.

(** MultiExponentiateBoundedExp on arrays: the product of the powers, canonical; exponent_bits = 0 gives one *)
Theorem multi_exp_array_correct bes k : 0 <= k -> Forall be_ok bes ->
  let r := multi_exp_array mmul msq one bes k in
  Mf r /\ V r = prod_pow bes k mod m.
Proof.
  intros Hk Hbes. unfold multi_exp_array. destruct (Z.eqb_spec k 0) as [->|Hk0].
  - split; [assumption|]. rewrite Vone. f_equal.
    clear Hbes. induction bes as [|be r IH]; [reflexivity|]. cbn [prod_pow]. rewrite <- IH.
    change (2 ^ 0) with 1. rewrite Z.mod_1_r. reflexivity.
  - pose proof (multi_exp_internal_spec n m rinv Hm mmul msq Mf Mf Mf (fun z H => H) Mf_wf V_mmul V_msq k ltac:(lia)
                  (powers_array mmul one bes) (powers_array_ok bes Hbes) (or_intror (fun z H => H)) one Hone Vone) as [H1 H2].
    split; [exact H1|]. rewrite H2, Pw_powers_array by assumption. reflexivity.
Qed.

(** the slice front builds the same tables *)
Lemma slice_is_array bes k : multi_exp_slice mmul msq one bes k = multi_exp_array mmul msq one bes k.
Proof.
  unfold multi_exp_slice, multi_exp_array. destruct (k =? 0); [reflexivity|]. f_equal.
  induction bes as [|[b e] r IH]; [reflexivity|]. cbn [map powers_array fst snd]. rewrite IH. reflexivity.
Qed.

(** pow_bounded_exp: base^(exponent mod 2^k), canonical *)
Theorem pow_ladder_correct x e k : 0 <= k -> Mf x -> wf e ->
  let r := pow_montgomery_form mmul msq one x e k in
  Mf r /\ V r = (V x ^ (eval e mod 2 ^ k)) mod m.
Proof.
  intros Hk Hx He. unfold pow_montgomery_form.
  destruct (multi_exp_array_correct [(x, e)] k Hk) as [H1 H2].
  { constructor; [split; assumption | constructor]. }
  split; [exact H1|]. rewrite H2. cbn [prod_pow fst snd]. rewrite Z.mul_1_r. reflexivity.
Qed.

End Fixed.

Lemma to_limbs_Mf n m v : 0 < m <= Bn n -> Mf n m (to_limbs n (v mod m)) /\ eval (to_limbs n (v mod m)) = v mod m.
Proof.
  intros Hm. pose proof (Z.mod_pos_bound v m ltac:(lia)) as Hb.
  assert (E : eval (to_limbs n (v mod m)) = v mod m) by (apply to_limbs_small; lia).
  split; [|exact E]. split; [apply wf_to_limbs|]. split; [apply length_to_limbs | lia].
Qed.

Lemma mmul_v_ok n m rinv x y : 0 < m <= Bn n ->
  Mf n m (mmul_v n m rinv x y) /\ eval (mmul_v n m rinv x y) mod m = (eval x * eval y * rinv) mod m.
Proof.
  intros Hm. unfold mmul_v. destruct (to_limbs_Mf n m (eval x * eval y * rinv) Hm) as [H1 H2].
  split; [exact H1|]. rewrite H2. apply Z.mod_mod. lia.
Qed.

Section ValueLevel.
Variables (n : nat) (m : Z).
Hypothesis Hm : 0 < m <= Bn n.
Hypothesis Hodd : Z.odd m = true.
Let rinv := mg_rinv n m.
Notation V := (V m rinv).

Lemma V_one : Mf n m (to_limbs n (mg_one n m)) /\ V (to_limbs n (mg_one n m)) = 1 mod m.
Proof.
  unfold mg_one. destruct (to_limbs_Mf n m (Bn n) Hm) as [H1 H2]. split; [exact H1|].
  unfold PowLadderP.V. rewrite H2, mulmod_l. apply mg_rinv_spec; [lia | assumption].
Qed.

Lemma V_to_monty x : Mf n m (to_monty_v n m x) /\ V (to_monty_v n m x) = eval x mod m.
Proof.
  unfold to_monty_v. destruct (to_limbs_Mf n m (eval x * Bn n) Hm) as [H1 H2]. split; [exact H1|].
  unfold PowLadderP.V. rewrite H2, mulmod_l. rewrite <- Z.mul_assoc, <- mulmod_r.
  destruct (mg_rinv_spec n m ltac:(lia) Hodd) as [_ Hr]. fold rinv in Hr. rewrite Hr.
  rewrite mulmod_r, Z.mul_1_r. reflexivity.
Qed.

(** a canonical representative with known value is THE limb list of the specification *)
Lemma canonical_out z v : Mf n m z -> V z = v mod m ->
  z = to_limbs n ((v mod m * Bn n) mod m) /\ retrieve_v n m rinv z = to_limbs n (v mod m).
Proof.
  intros (Hw & Hl & Hlt) Hv. pose proof (eval_nonneg z Hw) as H0.
  destruct (mg_rinv_spec n m ltac:(lia) Hodd) as [_ Hr]. fold rinv in Hr.
  split.
  - apply to_limbs_unique; try assumption.
    assert (E : eval z = (v mod m * Bn n) mod m).
    { apply (rep_unique (Bn n) rinv m); try assumption; try lia. unfold PowLadderP.V in Hv. rewrite Hv. symmetry. apply Z.mod_mod. lia. }
    rewrite E. symmetry. apply Z.mod_small.
    pose proof (Z.mod_pos_bound (v mod m * Bn n) m ltac:(lia)). lia.
  - unfold retrieve_v. unfold PowLadderP.V in Hv. rewrite Hv. reflexivity.
Qed.
End ValueLevel.
