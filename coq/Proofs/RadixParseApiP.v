(** C17 proofs, part 3: the parsing entry points (Uint::from_str_radix_vartime = num_traits::Num::from_str_radix,
    BoxedUint::from_str_radix_vartime, BoxedUint::from_str_radix_with_precision_vartime) against the
    specification, for every radix 2..=36, every width / precision and every string. *)
From CB Require Import Model.Limbs Model.Div Model.Conv Model.Radix Proofs.WordP Proofs.LimbsP Proofs.ConvDigitsP
  Proofs.ConvBytesP Proofs.ConvBoxedP Proofs.DivShiftP Proofs.DivBoxedP Proofs.RadixSpecP Proofs.RadixParseP.
From Coq Require Import ZArith Lia List Bool.
Import ListNotations.
Open Scope Z_scope.
Open Scope list_scope.

Lemma pad_to_limbs o n v : wf o -> (length o <= n)%nat -> eval o = v -> o ++ zeros (n - length o) = to_limbs n v.
Proof.
  intros Hw Hl He. apply to_limbs_unique.
  - apply wf_app. split; [assumption | apply wf_zeros].
  - rewrite app_length, length_zeros. lia.
  - rewrite eval_app, eval_zeros, Z.mul_0_r, Z.add_0_r, He. symmetry. apply Z.mod_small.
    pose proof (eval_bounds o Hw). pose proof (Bn_le (length o) n Hl). lia.
Qed.

Lemma well_formed_body r s : well_formed r s -> sp_body s <> [].
Proof. intros H. apply well_formedb_iff in H. destruct H as (c & b & E & _). rewrite E. discriminate. Qed.

Lemma wfb_dec r s : {well_formed r s} + {~ well_formed r s}.
Proof. unfold well_formed. destruct (well_formedb r s); [left; reflexivity | right; discriminate]. Qed.

(* what the parse into n limbs returns for each class of input ([plimit]: the first value beyond the precision);
   it is the specification entry of Model/Radix.v without its guards *)
Definition fixed_parse (r : Z) (s : list Z) (n : nat) (plimit : Z) : outcome :=
  match sp_body s with
  | [] => ErrV E_Empty
  | _ => if negb (well_formedb r s) then ErrV E_InvalidDigit
         else let v := value r s in
              if Bn n <=? v then ErrV E_InputSize
              else if plimit <=? v then ErrV E_Precision
              else Val [to_limbs n v]
  end.

Lemma radix_ok_range r : sp_radix_ok r = true <-> 2 <= r <= 36.
Proof. unfold sp_radix_ok. rewrite andb_true_iff, !Z.leb_le. tauto. Qed.
Lemma radix_not_ok r : sp_radix_ok r = false -> r < 2 \/ 36 < r.
Proof. unfold sp_radix_ok. rewrite andb_false_iff, !Z.leb_gt. tauto. Qed.

Lemma sp_parse_fixed r s n pl : bytes_ok s = true -> 2 <= r <= 36 ->
  sp_parse r s (fun _ => n) (Bn n) pl = fixed_parse r s n pl.
Proof. intros Hb Hr. unfold sp_parse. rewrite Hb, (proj2 (radix_ok_range r) Hr). reflexivity. Qed.

Lemma fixed_parse_val r s n pl x : fixed_parse r s n pl = Val [x] <->
  well_formed r s /\ value r s < Bn n /\ value r s < pl /\ x = to_limbs n (value r s).
Proof.
  pose proof (well_formed_body r s) as Hne. unfold fixed_parse, well_formed in *. destruct (sp_body s).
  - split; [discriminate | intros (Hwf & _); exfalso; apply (Hne Hwf); reflexivity].
  - destruct (well_formedb r s); cbn [negb]; [|split; [discriminate | intros (Hwf & _); discriminate]]. cbv zeta.
    destruct (Z.leb_spec (Bn n) (value r s)); [split; [discriminate | lia]|].
    destruct (Z.leb_spec pl (value r s)); [split; [discriminate | lia]|].
    split; [intros E; inversion E; auto | intros (_ & _ & _ & ->); reflexivity].
Qed.
Lemma fixed_parse_err r s n pl : well_formed r s ->
  (fixed_parse r s n pl = ErrV E_InputSize <-> Bn n <= value r s) /\
  (fixed_parse r s n pl = ErrV E_Precision <-> pl <= value r s < Bn n).
Proof.
  intros Hwf. pose proof (well_formed_body r s Hwf) as Hne. unfold fixed_parse. unfold well_formed in Hwf. rewrite Hwf.
  destruct (sp_body s); [contradiction|]. cbn [negb]. cbv zeta. unfold E_InputSize, E_Precision.
  destruct (Z.leb_spec (Bn n) (value r s)); [split; split; (discriminate || lia || reflexivity)|].
  destruct (Z.leb_spec pl (value r s)); split; split; (discriminate || lia || reflexivity).
Qed.
Lemma fixed_parse_invalid r s n pl : sp_body s <> [] -> ~ well_formed r s -> fixed_parse r s n pl = ErrV E_InvalidDigit.
Proof.
  intros Hb Hn. unfold fixed_parse. destruct (sp_body s); [contradiction|]. unfold well_formed in Hn.
  destruct (well_formedb r s); [contradiction | reflexivity].
Qed.

(** Uint<n>: the specified outcome, except that a non-numeral may be reported as InputSize when the digits read
    before the offending character already overflow (F31) *)
Lemma uint_parse_cases n r s : 2 <= r <= 36 ->
  uint_from_str_radix n s r = fixed_parse r s n (Bn n) \/
  (uint_from_str_radix n s r = ErrV E_InputSize /\ sp_body s <> [] /\ ~ well_formed r s).
Proof.
  intros Hr. pose proof (radix_decode_str_spec r s (Some n) Hr) as H. unfold uint_from_str_radix.
  destruct (radix_decode_str s r (Some n)) as [o|c|].
  - left. destruct H as (Hwf & Hw & Hc & _ & He). cbn [capfit] in Hc.
    pose proof (eval_bounds o Hw). pose proof (Bn_le (length o) n Hc).
    rewrite (pad_to_limbs o n (value r s)) by assumption. symmetry. apply fixed_parse_val. repeat split; (assumption || lia).
  - destruct H as [[-> Hbd]|[[-> [Hbd Hn]]|[-> [Hbd (n0 & Hn0 & Hge)]]]].
    + left. unfold fixed_parse. rewrite Hbd. reflexivity.
    + left. symmetry. apply fixed_parse_invalid; assumption.
    + inversion Hn0; subst n0. destruct (wfb_dec r s) as [Hwf|Hn]; [left | right; auto].
      symmetry. apply fixed_parse_err; auto.
  - contradiction.
Qed.

Theorem uint_parse_correct n r s x : 2 <= r <= 36 ->
  uint_from_str_radix n s r = Val [x] <->
  well_formed r s /\ value r s < Bn n /\ x = to_limbs n (value r s).
Proof.
  intros Hr. destruct (uint_parse_cases n r s Hr) as [->|(-> & _ & Hn)].
  - rewrite fixed_parse_val. tauto.
  - split; [discriminate | intros (Hwf & _); contradiction].
Qed.

(** which error: Empty exactly for "" and "+"; InvalidDigit only for non-numerals; a non-numeral is always an error
    (InvalidDigit, or InputSize when the digits read before the offending character already overflow: F31);
    a supported radix never panics *)
Theorem uint_parse_errors n r s : 2 <= r <= 36 ->
  (uint_from_str_radix n s r = ErrV E_Empty <-> sp_body s = []) /\
  (uint_from_str_radix n s r = ErrV E_InvalidDigit -> sp_body s <> [] /\ ~ well_formed r s) /\
  (sp_body s <> [] -> ~ well_formed r s ->
     uint_from_str_radix n s r = ErrV E_InvalidDigit \/ uint_from_str_radix n s r = ErrV E_InputSize) /\
  uint_from_str_radix n s r <> PanicV /\ uint_from_str_radix n s r <> NoneV /\
  uint_from_str_radix n s r <> ErrV E_Precision.
Proof.
  intros Hr. pose proof (radix_decode_str_spec r s (Some n) Hr) as H. unfold uint_from_str_radix.
  unfold E_Empty, E_InvalidDigit, E_InputSize, E_Precision in *.
  destruct (radix_decode_str s r (Some n)) as [o|c|].
  - destruct H as (Hwf & _). pose proof (well_formed_body r s Hwf) as Hne.
    split; [split; [discriminate | intros E; contradiction]|].
    split; [discriminate|]. split; [intros _ Hn; contradiction|]. repeat split; discriminate.
  - destruct H as [[-> Hb]|[[-> [Hb Hn]]|[-> [Hb _]]]].
    + split; [split; [intros _; assumption | reflexivity]|].
      split; [discriminate|]. split; [intros Hne; contradiction|]. repeat split; discriminate.
    + split; [split; [discriminate | intros E; contradiction]|].
      split; [intros _; split; assumption|]. split; [intros _ _; left; reflexivity|]. repeat split; discriminate.
    + split; [split; [discriminate | intros E; contradiction]|].
      split; [discriminate|]. split; [intros _ _; right; reflexivity|]. repeat split; discriminate.
  - contradiction.
Qed.

Theorem parse_unsupported_radix_panics n r s : r < 2 \/ 36 < r -> uint_from_str_radix n s r = PanicV.
Proof. intros Hr. unfold uint_from_str_radix. rewrite radix_decode_unsupported by assumption. reflexivity. Qed.

(** the table entry against its specification; the only deviation is the F31 class *)
Lemma uint_parse_table n r s : bytes_ok s = true ->
  uint_from_str_radix n s r = sp_parse r s (fun _ => n) (Bn n) (Bn n) \/
  (uint_from_str_radix n s r = ErrV E_InputSize /\ sp_parse r s (fun _ => n) (Bn n) (Bn n) = ErrV E_InvalidDigit /\
   2 <= r <= 36 /\ sp_body s <> [] /\ ~ well_formed r s).
Proof.
  intros Hb. destruct (sp_radix_ok r) eqn:Er.
  - apply radix_ok_range in Er. rewrite sp_parse_fixed by assumption.
    destruct (uint_parse_cases n r s Er) as [H|(H1 & H2 & H3)]; [left; exact H | right].
    rewrite fixed_parse_invalid by assumption. auto.
  - left. unfold sp_parse. rewrite Hb, Er. apply parse_unsupported_radix_panics, radix_not_ok, Er.
Qed.

Lemma boxed_minimal o : wf o -> minimal o -> vec_into_boxed o = to_limbs (sp_nlimbs (eval o)) (eval o).
Proof.
  intros Hw Hm. destruct o as [|l o'] eqn:Eo.
  - reflexivity.
  - rewrite <- Eo in *. assert (Hne : o <> []) by (rewrite Eo; discriminate).
    specialize (Hm Hne). pose proof (eval_bounds o Hw) as Hb.
    pose proof (Bn_pos (length o - 1)).
    assert (Hlen : (1 <= length o)%nat) by (rewrite Eo; cbn [length]; lia).
    assert (Hn : nlimbs (eval o) = length o) by (apply nlimbs_unique; lia).
    unfold sp_nlimbs. fold (nlimbs (eval o)). rewrite Hn. rewrite Nat.max_r by lia.
    rewrite to_limbs_eval by assumption. rewrite Eo. reflexivity.
Qed.

Theorem boxed_parse_correct r s x : 2 <= r <= 36 ->
  boxed_from_str_radix s r = Val [x] <->
  well_formed r s /\ x = to_limbs (sp_nlimbs (value r s)) (value r s).
Proof.
  intros Hr. pose proof (radix_decode_str_spec r s None Hr) as H. unfold boxed_from_str_radix.
  destruct (radix_decode_str s r None) as [o|c|].
  - destruct H as (Hwf & Hw & _ & Hm & He). rewrite boxed_minimal, He by assumption. split.
    + intros E. inversion E. split; [assumption | reflexivity].
    + intros (_ & ->). reflexivity.
  - split; [discriminate|]. intros (Hwf & _). exfalso.
    destruct H as [[_ Hb]|[[_ [_ Hn]]|[_ [_ (n0 & Hn0 & _)]]]].
    + apply (well_formed_body r s Hwf Hb).
    + contradiction.
    + discriminate.
  - contradiction.
Qed.

Lemma boxed_parse_table r s : bytes_ok s = true ->
  boxed_from_str_radix s r = sp_parse r s sp_nlimbs (value r s + 1) (value r s + 1).
Proof.
  intros Hb. unfold sp_parse. rewrite Hb. cbn [negb].
  destruct (sp_radix_ok r) eqn:Er; cbn [negb].
  2:{ unfold boxed_from_str_radix. rewrite radix_decode_unsupported by (apply radix_not_ok, Er). reflexivity. }
  apply radix_ok_range in Er.
  pose proof (radix_decode_str_spec r s None Er) as H. unfold boxed_from_str_radix.
  destruct (radix_decode_str s r None) as [o|c|].
  - destruct H as (Hwf & Hw & _ & Hm & He).
    pose proof (well_formed_body r s Hwf) as Hne. destruct (sp_body s) as [|c0 b']; [contradiction|].
    unfold well_formed in Hwf. rewrite Hwf. cbn [negb].
    destruct (Z.leb_spec (value r s + 1) (value r s)); [lia|].
    rewrite boxed_minimal, He by assumption. reflexivity.
  - destruct H as [[-> Hbd]|[[-> [Hbd Hn]]|[-> [Hbd (n0 & Hn0 & _)]]]].
    + rewrite Hbd. reflexivity.
    + destruct (sp_body s); [contradiction|]. unfold well_formed in Hn.
      destruct (well_formedb r s); [contradiction | reflexivity].
    + discriminate.
  - contradiction.
Qed.

Lemma prec_limbs p : 0 <= p -> length (zero_with_precision p) = sp_prec_limbs p.
Proof.
  intros Hp. unfold zero_with_precision, sp_prec_limbs. rewrite limbs_for_precision_eq.
  destruct (Z.to_nat ((p + 63) / 64)) as [|k] eqn:E; [reflexivity|].
  cbn [zeros repeat vec_into_boxed]. cbn [length]. rewrite repeat_length. lia.
Qed.
Lemma prec_le_limbs p : 0 <= p -> 2 ^ p <= Bn (sp_prec_limbs p).
Proof.
  intros Hp. unfold sp_prec_limbs. rewrite Bn_2. apply Z.pow_le_mono_r; [lia|].
  pose proof (Z.div_mod (p + 63) 64 ltac:(lia)). pose proof (Z.mod_pos_bound (p + 63) 64 ltac:(lia)).
  assert (0 <= (p + 63) / 64) by (apply Z.div_pos; lia). lia.
Qed.
Lemma value_nonneg r s : 2 <= r -> 0 <= value r s.
Proof. intros Hr. rewrite value_hv. apply (hv_mono r (sp_body s) ltac:(lia) 0). lia. Qed.

(* the parse with precision is the parse into the limbs of the precision, followed by the test of the bit length *)
Lemma prec_as_uint s r p : boxed_from_str_radix_prec s r p =
  match uint_from_str_radix (length (zero_with_precision p)) s r with
  | Val [ret] => if p <? boxed_bits ret then ErrV E_Precision else Val [ret]
  | o => o
  end.
Proof. unfold boxed_from_str_radix_prec, uint_from_str_radix. destruct (radix_decode_str _ _ _); reflexivity. Qed.

Lemma prec_parse_cases r s p : 2 <= r <= 36 -> 0 <= p ->
  boxed_from_str_radix_prec s r p = fixed_parse r s (sp_prec_limbs p) (2 ^ p) \/
  (boxed_from_str_radix_prec s r p = ErrV E_InputSize /\ sp_body s <> [] /\ ~ well_formed r s).
Proof.
  intros Hr Hp. rewrite prec_as_uint, prec_limbs by assumption. set (n := sp_prec_limbs p).
  destruct (uint_parse_cases n r s Hr) as [->|(-> & H)]; [left | right; split; [reflexivity | exact H]].
  unfold fixed_parse. destruct (sp_body s); [reflexivity|]. destruct (negb (well_formedb r s)); [reflexivity|]. cbv zeta.
  destruct (Z.leb_spec (Bn n) (value r s)) as [|Hlt]; [reflexivity|].
  destruct (Z.leb_spec (Bn n) (value r s)); [lia|]. pose proof (value_nonneg r s ltac:(lia)).
  rewrite bits_spec by (apply wf_to_limbs || assumption). rewrite eval_to_limbs, Z.mod_small by lia. reflexivity.
Qed.

Theorem boxed_prec_parse_correct r s p x : 2 <= r <= 36 -> 0 <= p ->
  boxed_from_str_radix_prec s r p = Val [x] <->
  well_formed r s /\ value r s < 2 ^ p /\ x = to_limbs (sp_prec_limbs p) (value r s).
Proof.
  intros Hr Hp. pose proof (prec_le_limbs p Hp). destruct (prec_parse_cases r s p Hr Hp) as [->|(-> & _ & Hn)].
  - rewrite fixed_parse_val. intuition lia.
  - split; [discriminate | intros (Hwf & _); contradiction].
Qed.

Lemma boxed_prec_parse_table r s p : bytes_ok s = true -> 0 <= p ->
  let n := sp_prec_limbs p in
  boxed_from_str_radix_prec s r p = sp_parse r s (fun _ => n) (Bn n) (2 ^ p) \/
  (boxed_from_str_radix_prec s r p = ErrV E_InputSize /\ sp_parse r s (fun _ => n) (Bn n) (2 ^ p) = ErrV E_InvalidDigit /\
   2 <= r <= 36 /\ sp_body s <> [] /\ ~ well_formed r s).
Proof.
  intros Hb Hp n. destruct (sp_radix_ok r) eqn:Er.
  - apply radix_ok_range in Er. rewrite sp_parse_fixed by assumption.
    destruct (prec_parse_cases r s p Er Hp) as [H|(H1 & H2 & H3)]; [left; exact H | right].
    unfold n. rewrite fixed_parse_invalid by assumption. auto.
  - left. unfold sp_parse. rewrite Hb, Er. rewrite prec_as_uint, parse_unsupported_radix_panics by (apply radix_not_ok, Er). reflexivity.
Qed.
