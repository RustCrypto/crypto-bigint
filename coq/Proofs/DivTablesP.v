(** C02 (tables): the model table and the spec table of Model/Div.v (area div, 26 keys) and of Model/DivL0.v (area
    divl0, 2 keys) agree on EVERY key, for all well-formed argument lists that satisfy the typing side condition of the
    key, in both profiles, wherever the spec entry is defined (a non-zero divisor).
    [run_tab t k dbg a] is the table lookup of Model/Api.v (Proofs/TotalityP.v). *)
From CB Require Import Model.Limbs Model.Div Model.DivL0 Proofs.WordP Proofs.LimbsP Proofs.DivP Proofs.DivShiftP
  Proofs.Rem2kP Proofs.DivFinalP Proofs.DivL0P Proofs.TotalityP Proofs.TotalityDivP.
From Coq Require Import ZArith Lia List String Bool.
Open Scope Z_scope.
Notation length := List.length.

Definition btyping := list (string * (list (list Z) -> bool)).
Definition typedb (t : btyping) (k : string) (a : list (list Z)) : bool :=
  match lookup k t with Some P => P a | None => true end.

(* the divisor is a Limb / NonZero<Limb>: one word *)
Definition ty_limb_divisor (a : list (list Z)) : bool := (ln 1 a =? 1)%nat.
(* Uint<N> by (NonZero<)Uint<N>(>): one N *)
Definition ty_same2 (a : list (list Z)) : bool := (ln 0 a =? ln 1 a)%nat.
(* (lo, hi) : (Uint<N>, Uint<N>) by NonZero<Uint<N>> *)
Definition ty_same3 (a : list (list Z)) : bool := (ln 1 a =? ln 0 a)%nat && (ln 2 a =? ln 0 a)%nat.
(* at least one limb *)
Definition ty_some_limb (a : list (list Z)) : bool := negb (ln 0 a =? 0)%nat.
(* one N, and Uint::BITS = 64 N is a u32 *)
Definition ty_same2_u32 (a : list (list Z)) : bool := (ln 0 a =? ln 1 a)%nat && (64 * Z.of_nat (ln 0 a) <? 2 ^ 32).

Open Scope string_scope.
Definition div_tbl_ty : btyping :=
  [("uint.div_rem_limb", ty_limb_divisor); ("uint.rem_limb", ty_limb_divisor); ("uint.div_limb", ty_limb_divisor);
   ("boxed.div_rem_limb", ty_limb_divisor); ("boxed.rem_limb", ty_limb_divisor);
   ("uint.div_rem", ty_same2); ("uint.rem", ty_same2); ("uint.div", ty_same2); ("uint.div_plain", ty_same2);
   ("uint.rem_plain", ty_same2); ("uint.checked_div", ty_same2); ("uint.checked_rem", ty_same2);
   ("uint.wrapping_rem_vartime", ty_same2);
   ("uint.rem_wide_vartime", ty_same3); ("uint.rem2k_vartime", ty_some_limb)].
Definition divl0_tbl_ty : btyping := [("uint.div_rem_l0", ty_same2_u32)].
Open Scope Z_scope.

Definition tbl_ok (M S : list (string * opfn)) (ty : btyping) (k : string) : Prop :=
  forall dbg a, wf_args a -> typedb ty k a = true ->
    run_tab S k dbg a <> Unsupported -> run_tab M k dbg a = run_tab S k dbg a.
Definition div_ok := tbl_ok ops_div_model ops_div_spec div_tbl_ty.
Definition divl0_ok := tbl_ok ops_divl0_model ops_divl0_spec divl0_tbl_ty.

(** a value returned by the spec entry on concrete well-formed arguments is the value of the model entry *)
Lemma tbl_ok_val M S ty k a v : tbl_ok M S ty k -> forallb wfb a = true -> typedb ty k a = true ->
  run_tab S k false a = Val v -> run_tab M k false a = Val v.
Proof.
  intros Hk Ha Ht Hs. rewrite (Hk false a); [exact Hs | | exact Ht | rewrite Hs; discriminate].
  apply Forall_forall. intros l Hl. rewrite forallb_forall in Ha. apply wfb_wf, Ha, Hl.
Qed.

Ltac open_typedb ty H :=
  unfold typedb in H;
  lazy beta iota delta [lookup ty String.eqb Ascii.eqb Bool.eqb] in H.
Ltac start_gen M S ty :=
  let dbg := fresh "dbg" in let a := fresh "a" in
  let Hwf := fresh "Hwf" in let Hty := fresh "Hty" in let Hdom := fresh "Hdom" in
  intros dbg a Hwf Hty Hdom; open_typedb ty Hty; revert Hdom; open_tabs M S; intros Hdom.
Ltac start_tbl := unfold div_ok; start_gen ops_div_model ops_div_spec div_tbl_ty.
Ltac start_l0 := unfold divl0_ok; start_gen ops_divl0_model ops_divl0_spec divl0_tbl_ty.

(** quotient / remainder limb lists from the division identity *)
Lemma qr_limbs q r nq nr x d : wf q -> wf r -> length q = nq -> length r = nr ->
  x = eval q * d + eval r -> 0 <= eval r < d ->
  q = to_limbs nq (x / d) /\ r = to_limbs nr (x mod d).
Proof.
  intros Hq Hr Hlq Hlr He Hb.
  destruct (div_mod_unique_pos d (eval q) (eval r) x Hb He) as [E1 E2].
  split; apply limbs_of_val; auto.
Qed.

Lemma ty_limb_divisor_inv a : ty_limb_divisor a = true -> arg 1 a = [sarg 1 a].
Proof. unfold ty_limb_divisor, ln. intros H. apply Nat.eqb_eq in H. apply arg_single. exact H. Qed.
Lemma ty_same2_inv a : ty_same2 a = true -> length (arg 0 a) = length (arg 1 a).
Proof. unfold ty_same2, ln. intros H. apply Nat.eqb_eq in H. exact H. Qed.

(* the routines as functions of the values *)
Lemma recip_new_entry d : 0 < d < B ->
  r_shift (recip_new d) = 63 - Z.log2 d /\
  r_d (recip_new d) = d * 2 ^ (63 - Z.log2 d) /\
  r_v (recip_new d) = (B * B - 1) / (d * 2 ^ (63 - Z.log2 d)) - B.
Proof.
  intros Hd. pose proof (recip_new_correct d Hd) as (_ & Hdn & _ & Hr).
  assert (Hs : r_shift (recip_new d) = 63 - Z.log2 d).
  { unfold recip_new. cbn [r_shift]. unfold leading_zeros_word, bits_of.
    assert (d <=? 0 = false) as -> by (apply Z.leb_gt; lia). lia. }
  unfold recip_ok in Hr. rewrite Hs in Hdn. rewrite Hdn in Hr. auto.
Qed.

Lemma limb_entry u d : wf u -> 0 < d < B ->
  div_rem_limb_with_reciprocal u (recip_new d) = (to_limbs (length u) (eval u / d), (eval u mod d) mod B).
Proof.
  intros Hu Hd. pose proof (div_rem_limb_total u d Hu Hd) as H.
  destruct (div_rem_limb_with_reciprocal u (recip_new d)) as [q r]. destruct H as (He & Hr & Hq & Hl).
  destruct (div_mod_unique_pos d (eval q) r (eval u) Hr He) as [E1 E2].
  f_equal.
  - apply limbs_of_val; auto.
  - rewrite E2. symmetry. apply Z.mod_small. lia.
Qed.

Lemma uint_div_rem_entry x y : wf x -> wf y -> length x = length y -> eval y <> 0 ->
  uint_div_rem x y = Some (to_limbs (length x) (eval x / eval y), to_limbs (length x) (eval x mod eval y)).
Proof.
  intros Hx Hy Hl Hnz.
  destruct (uint_div_rem_total x y Hx Hy (eq_sym Hl) Hnz) as (q & r & E & He & Hb & Hlq & Hlr & Hq & Hr).
  rewrite E. destruct (qr_limbs q r (length x) (length x) (eval x) (eval y) Hq Hr Hlq Hlr He Hb) as [<- <-].
  reflexivity.
Qed.

(** BoxedUint::div_rem: the same routine behind the equal-precision assertion *)
Lemma boxed_div_rem_entry x y : wf x -> wf y -> length x = length y -> eval y <> 0 ->
  boxed_div_rem x y = Some (to_limbs (length x) (eval x / eval y), to_limbs (length x) (eval x mod eval y)).
Proof.
  intros Hx Hy Hl Hnz. unfold boxed_div_rem. rewrite Hl, Nat.eqb_refl. cbn [negb]. rewrite <- Hl.
  apply uint_div_rem_entry; assumption.
Qed.
Lemma boxed_div_rem_mismatch x y : length x <> length y -> boxed_div_rem x y = None.
Proof. intros Hl. unfold boxed_div_rem. apply Nat.eqb_neq in Hl. rewrite Hl. reflexivity. Qed.

Lemma div_rem_vartime_entry x y : wf x -> wf y -> eval y <> 0 ->
  div_rem_vartime x y = (to_limbs (length x) (eval x / eval y), to_limbs (length y) (eval x mod eval y)).
Proof.
  intros Hx Hy Hnz. destruct (div_rem_vartime x y) as [q r] eqn:E.
  destruct (div_rem_vartime_total x y q r Hx Hy Hnz E) as (He & Hb & Hlq & Hlr & Hq & Hr).
  destruct (qr_limbs q r (length x) (length y) (eval x) (eval y) Hq Hr Hlq Hlr He Hb) as [<- <-].
  reflexivity.
Qed.

Lemma boxed_div_rem_vartime_entry x y : wf x -> wf y -> eval y <> 0 ->
  boxed_div_rem_vartime x y = Some (to_limbs (length x) (eval x / eval y), to_limbs (length y) (eval x mod eval y)).
Proof.
  intros Hx Hy Hnz.
  destruct (boxed_div_rem_vartime_total x y Hx Hy Hnz) as (q & r & E & He & Hb & Hlq & Hlr & Hq & Hr).
  rewrite E. destruct (qr_limbs q r (length x) (length y) (eval x) (eval y) Hq Hr Hlq Hlr He Hb) as [<- <-].
  reflexivity.
Qed.
Lemma boxed_rem_vartime_entry x y : wf x -> wf y -> eval y <> 0 ->
  boxed_rem_vartime x y = Some (to_limbs (length y) (eval x mod eval y)).
Proof.
  intros Hx Hy Hnz. destruct (boxed_rem_vartime_total x y Hx Hy Hnz) as (r & E & He & Hl & Hr).
  rewrite E. f_equal. apply limbs_of_val; assumption.
Qed.

Lemma rem_wide_vartime_entry lo hi y : wf lo -> wf hi -> wf y -> length hi = length lo -> length y = length lo ->
  eval y <> 0 ->
  rem_wide_vartime lo hi y = to_limbs (length lo) ((eval lo + Bn (length lo) * eval hi) mod eval y).
Proof.
  intros Hlo Hhi Hy H1 H2 Hnz. pose proof (rem_wide_vartime_total lo hi y Hlo Hhi Hy H1 H2 Hnz) as H.
  cbv zeta in H. destruct H as (He & Hl & Hw). apply limbs_of_val; assumption.
Qed.

Lemma rem2k_vartime_entry x k : wf x -> x <> [] -> 0 <= k ->
  rem2k_vartime x k = to_limbs (length x) (if 64 * Z.of_nat (length x) <=? k then eval x else eval x mod 2 ^ k).
Proof.
  intros Hx Hne Hk. destruct (rem2k_vartime_correct x k Hx Hne Hk) as (He & Hw & Hl).
  apply limbs_of_val; assumption.
Qed.

(** the limb-level twins of Model/DivL0.v *)
Lemma uint_div_rem_l0_entry x y : wf x -> wf y -> length x = length y -> 64 * Z.of_nat (length x) < 2 ^ 32 ->
  eval y <> 0 ->
  uint_div_rem_l0 x y = Some (to_limbs (length x) (eval x / eval y), to_limbs (length x) (eval x mod eval y)).
Proof.
  intros Hx Hy Hl Hb Hnz.
  rewrite uint_div_rem_l0_eq; try assumption; [apply uint_div_rem_entry; assumption | symmetry; exact Hl |].
  eapply l0_nonzero_ne; [symmetry; exact Hl | exact Hnz].
Qed.
Lemma boxed_div_rem_l0_entry x y : wf x -> wf y -> length x = length y -> eval y <> 0 ->
  boxed_div_rem_l0 x y = Some (to_limbs (length x) (eval x / eval y), to_limbs (length x) (eval x mod eval y)).
Proof.
  intros Hx Hy Hl Hnz.
  rewrite boxed_div_rem_l0_eq; try assumption; [apply boxed_div_rem_entry; assumption |].
  eapply l0_nonzero_ne; [symmetry; exact Hl | exact Hnz].
Qed.
Lemma boxed_div_rem_l0_mismatch x y : length x <> length y -> boxed_div_rem_l0 x y = None.
Proof. intros Hl. unfold boxed_div_rem_l0. apply Nat.eqb_neq in Hl. rewrite Hl. reflexivity. Qed.

(* the spec's domain test [nz_dom]: keeps [Enz : eval (arg 1 a) <> 0] *)
Ltac in_dom :=
  unfold nz_dom, ev in *;
  match goal with Hdom : (if ?c then _ else _) <> Unsupported |- _ =>
    let E := fresh "Enz" in destruct c eqn:E; [contradiction Hdom; reflexivity|]; apply Z.eqb_neq in E end.
Ltac wfa := apply wf_arg; assumption.
(* the model entry is the routine of the entry lemma L, the spec entry q / r of the values; [key_by]: behind [nz_dom] *)
Ltac by_entry L := rewrite L by (try wfa; assumption); unfold sp_qr, sp_q, sp_r, spec_div_rem, ev, ln; reflexivity.
Ltac key_by L := in_dom; by_entry L.

Lemma tbl_recip_new : div_ok "recip.new".
Proof.
  start_tbl. cbv zeta in *. pose proof (sarg_word 0 a Hwf) as Hd. set (d := sarg 0 a) in *.
  destruct (Z.leb_spec d 0) as [Hle|Hpos]; [contradiction Hdom; reflexivity|].
  destruct (recip_new_entry d ltac:(lia)) as (-> & -> & ->). reflexivity.
Qed.

(* division by a Limb: Uint and BoxedUint forms *)
Ltac limb_key :=
  match goal with Hty : ty_limb_divisor _ = true |- _ => apply ty_limb_divisor_inv in Hty end;
  match goal with Hwf : wf_args ?a |- _ => pose proof (sarg_word 1 a Hwf) as Hd end;
  unfold nz_dom, sp_qr, sp_q, sp_r, spec_div_rem, ev, ln, rem_limb_with_reciprocal in *;
  match goal with Hty : arg 1 ?a = [sarg 1 ?a] |- _ =>
    set (d := sarg 1 a) in *; rewrite Hty in *; rewrite eval_one in * end;
  match goal with Hdom : (if ?c then _ else _) <> Unsupported |- _ =>
    let E := fresh "Enz" in destruct c eqn:E; [contradiction Hdom; reflexivity|]; apply Z.eqb_neq in E end;
  rewrite limb_entry by (try wfa; lia); cbn [fst snd]; rewrite ?to_limbs_1; reflexivity.

Lemma tbl_uint_div_rem_limb : div_ok "uint.div_rem_limb".
Proof. start_tbl. limb_key. Qed.
Lemma tbl_uint_rem_limb : div_ok "uint.rem_limb".
Proof. start_tbl. limb_key. Qed.
Lemma tbl_uint_div_limb : div_ok "uint.div_limb".
Proof. start_tbl. limb_key. Qed.
Lemma tbl_boxed_div_rem_limb : div_ok "boxed.div_rem_limb".
Proof. start_tbl. limb_key. Qed.
Lemma tbl_boxed_rem_limb : div_ok "boxed.rem_limb".
Proof. start_tbl. limb_key. Qed.

(* Uint::div_rem, constant time, NonZero divisor *)
Lemma tbl_uint_div_rem : div_ok "uint.div_rem".
Proof. start_tbl. apply ty_same2_inv in Hty. key_by uint_div_rem_entry. Qed.
Lemma tbl_uint_rem : div_ok "uint.rem".
Proof. start_tbl. apply ty_same2_inv in Hty. key_by uint_div_rem_entry. Qed.
Lemma tbl_uint_div : div_ok "uint.div".
Proof. start_tbl. apply ty_same2_inv in Hty. key_by uint_div_rem_entry. Qed.

(* the operator / checked forms with their own zero test *)
Ltac zero_test_key :=
  match goal with Hty : ty_same2 _ = true |- _ => apply ty_same2_inv in Hty end;
  rewrite is_zero_l_eqb by wfa; unfold ev;
  match goal with |- context[eval (arg 1 ?a) =? 0] => destruct (Z.eqb_spec (eval (arg 1 a)) 0) as [E|E] end;
  [reflexivity|]; by_entry uint_div_rem_entry.
Lemma tbl_uint_div_plain : div_ok "uint.div_plain".
Proof. start_tbl. zero_test_key. Qed.
Lemma tbl_uint_rem_plain : div_ok "uint.rem_plain".
Proof. start_tbl. zero_test_key. Qed.
Lemma tbl_uint_checked_div : div_ok "uint.checked_div".
Proof. start_tbl. zero_test_key. Qed.
Lemma tbl_uint_checked_rem : div_ok "uint.checked_rem".
Proof. start_tbl. zero_test_key. Qed.

(* Uint::div_rem_vartime: any pair of widths *)
Lemma tbl_uint_div_rem_vartime : div_ok "uint.div_rem_vartime".
Proof. start_tbl. key_by div_rem_vartime_entry. Qed.
Lemma tbl_uint_rem_vartime : div_ok "uint.rem_vartime".
Proof. start_tbl. key_by div_rem_vartime_entry. Qed.
Lemma tbl_uint_div_vartime : div_ok "uint.div_vartime".
Proof. start_tbl. key_by div_rem_vartime_entry. Qed.
Lemma tbl_uint_wrapping_rem_vartime : div_ok "uint.wrapping_rem_vartime".
Proof.
  start_tbl. apply ty_same2_inv in Hty.
  rewrite is_zero_l_eqb by wfa. unfold ev.
  destruct (Z.eqb_spec (eval (arg 1 a)) 0) as [E|E]; [reflexivity|].
  rewrite div_rem_vartime_entry by (try wfa; assumption).
  unfold sp_r, ev, ln. cbn [snd]. rewrite Hty. reflexivity.
Qed.

Lemma tbl_uint_rem_wide_vartime : div_ok "uint.rem_wide_vartime".
Proof.
  start_tbl. unfold ty_same3, ln in Hty. apply andb_prop in Hty. destruct Hty as [H1 H2].
  apply Nat.eqb_eq in H1, H2. unfold ev, ln in *.
  destruct (Z.eqb_spec (eval (arg 2 a)) 0) as [E|E]; [contradiction Hdom; reflexivity|].
  rewrite rem_wide_vartime_entry by (try wfa; assumption). reflexivity.
Qed.

Lemma tbl_uint_rem2k_vartime : div_ok "uint.rem2k_vartime".
Proof.
  start_tbl. unfold ty_some_limb, ln in Hty. apply negb_true_iff, Nat.eqb_neq in Hty. unfold ev, ln.
  pose proof (sarg_word 1 a Hwf) as Hk.
  rewrite rem2k_vartime_entry; [reflexivity | wfa | | lia].
  intros E. rewrite E in Hty. apply Hty. reflexivity.
Qed.

(* BoxedUint constant-time forms: the precision assertion first *)
Ltac boxed_ct_key :=
  in_dom; unfold ln in *;
  match goal with |- context[(length ?x =? length ?y)%nat] =>
    destruct (Nat.eqb_spec (length x) (length y)) as [Hl|Hl] end; cbn [negb];
  [ by_entry boxed_div_rem_entry | rewrite boxed_div_rem_mismatch by assumption; reflexivity ].
Lemma tbl_boxed_div_rem : div_ok "boxed.div_rem".
Proof. start_tbl. boxed_ct_key. Qed.
Lemma tbl_boxed_rem : div_ok "boxed.rem".
Proof. start_tbl. boxed_ct_key. Qed.
Lemma tbl_boxed_div : div_ok "boxed.div".
Proof. start_tbl. boxed_ct_key. Qed.
Lemma tbl_boxed_checked_div : div_ok "boxed.checked_div".
Proof.
  start_tbl. unfold ln in *.
  destruct (Nat.eqb_spec (length (arg 0 a)) (length (arg 1 a))) as [Hl|Hl]; cbn [negb] in *;
    [|contradiction Hdom; reflexivity].
  rewrite is_zero_l_eqb by wfa. unfold ev.
  destruct (Z.eqb_spec (eval (arg 1 a)) 0) as [E|E]; [reflexivity|].
  by_entry boxed_div_rem_entry.
Qed.

(* BoxedUint variable-time forms: any pair of precisions *)
Lemma tbl_boxed_div_rem_vartime : div_ok "boxed.div_rem_vartime".
Proof. start_tbl. key_by boxed_div_rem_vartime_entry. Qed.
Lemma tbl_boxed_rem_vartime : div_ok "boxed.rem_vartime".
Proof. start_tbl. key_by boxed_rem_vartime_entry. Qed.
Lemma tbl_boxed_div_vartime : div_ok "boxed.div_vartime".
Proof. start_tbl. key_by boxed_div_rem_vartime_entry. Qed.

(** the list of keys IS the key set of the table (in table order) *)
Definition div_table_keys : list string := map fst ops_div_model.
Lemma div_table_keys_spec : map fst ops_div_spec = div_table_keys.
Proof. reflexivity. Qed.
Lemma div_table_keys_count : length div_table_keys = 26%nat.
Proof. reflexivity. Qed.

(* the lemmas of all keys, in table order *)
Lemma div_all_keys_ok : forall k, In k div_table_keys -> div_ok k.
Proof.
  exact (all_of_sigs div_ok
    [exist _ _ tbl_recip_new; exist _ _ tbl_uint_div_rem_limb; exist _ _ tbl_uint_rem_limb; exist _ _ tbl_uint_div_limb;
     exist _ _ tbl_uint_div_rem; exist _ _ tbl_uint_rem; exist _ _ tbl_uint_div; exist _ _ tbl_uint_div_plain;
     exist _ _ tbl_uint_rem_plain; exist _ _ tbl_uint_checked_div; exist _ _ tbl_uint_checked_rem;
     exist _ _ tbl_uint_div_rem_vartime; exist _ _ tbl_uint_rem_vartime; exist _ _ tbl_uint_div_vartime;
     exist _ _ tbl_uint_wrapping_rem_vartime; exist _ _ tbl_uint_rem_wide_vartime; exist _ _ tbl_uint_rem2k_vartime;
     exist _ _ tbl_boxed_div_rem_limb; exist _ _ tbl_boxed_rem_limb; exist _ _ tbl_boxed_div_rem; exist _ _ tbl_boxed_rem;
     exist _ _ tbl_boxed_div; exist _ _ tbl_boxed_checked_div; exist _ _ tbl_boxed_div_rem_vartime;
     exist _ _ tbl_boxed_rem_vartime; exist _ _ tbl_boxed_div_vartime]).
Qed.

Theorem div_tables_agree : forall k dbg a,
  In k (map fst ops_div_model) -> wf_args a -> typedb div_tbl_ty k a = true ->
  run_tab ops_div_spec k dbg a <> Unsupported ->
  run_tab ops_div_model k dbg a = run_tab ops_div_spec k dbg a.
Proof. intros k dbg a Hin. exact (div_all_keys_ok k Hin dbg a). Qed.

(** the same over the key list of C11 (Proofs/TotalityP.v), which is the same set of 26 keys *)
Lemma div_keys_in_table : forall k, In k div_keys -> In k (map fst ops_div_model).
Proof. apply sublist_In. vm_compute. reflexivity. Qed.
Lemma table_in_div_keys : forall k, In k (map fst ops_div_model) -> In k div_keys.
Proof. apply sublist_In. vm_compute. reflexivity. Qed.

(** where the spec table is defined: the domain hypothesis of the theorem excludes ONLY the zero divisor (for
    "recip.new" the zero limb, for "uint.rem_wide_vartime" the third argument) and, for "boxed.checked_div", operands
    of two precisions *)
Definition div_in_domain (k : string) (a : list (list Z)) : bool :=
  if String.eqb k "recip.new" then 0 <? sarg 0 a
  else if String.eqb k "uint.rem_wide_vartime" then negb (ev 2 a =? 0)
  else if String.eqb k "uint.rem2k_vartime" then true
  else if String.eqb k "uint.div_plain" then true
  else if String.eqb k "uint.rem_plain" then true
  else if String.eqb k "uint.checked_div" then true
  else if String.eqb k "uint.checked_rem" then true
  else if String.eqb k "uint.wrapping_rem_vartime" then true
  else if String.eqb k "boxed.checked_div" then (ln 0 a =? ln 1 a)%nat
  else negb (ev 1 a =? 0).

Theorem div_spec_defined : forall k dbg a,
  In k (map fst ops_div_model) -> div_in_domain k a = true -> run_tab ops_div_spec k dbg a <> Unsupported.
Proof.
  (* one pass over the rows of the spec table; a lookup then finds one of them *)
  assert (F : Forall (fun kv : string * opfn =>
                forall dbg a, div_in_domain (fst kv) a = true -> snd kv dbg a <> Unsupported) ops_div_spec).
  { unfold ops_div_spec. repeat apply Forall_cons; [..| apply Forall_nil];
      cbn [fst snd]; intros dbg a; unfold div_in_domain; lazy beta iota delta [String.eqb Ascii.eqb Bool.eqb];
      intros Hd; unfold nz_dom; cbv zeta;
      try (apply negb_true_iff in Hd; rewrite Hd);
      try (apply Z.ltb_lt in Hd; apply Z.leb_gt in Hd; rewrite Hd);
      try (rewrite Hd; cbn [negb]);
      nu. }
  intros k dbg a Hin. fold div_table_keys in Hin. rewrite <- div_table_keys_spec in Hin.
  destruct (lookup_keyed (fun k (f : opfn) => forall dbg a, div_in_domain k a = true -> f dbg a <> Unsupported)
              _ k F Hin) as (f & E & Hf).
  unfold run_tab. rewrite E. apply Hf.
Qed.

Lemma tbl_uint_div_rem_l0 : divl0_ok "uint.div_rem_l0".
Proof.
  start_l0. unfold ty_same2_u32, ln in Hty. apply andb_prop in Hty. destruct Hty as [H1 H2].
  apply Nat.eqb_eq in H1. apply Z.ltb_lt in H2.
  key_by uint_div_rem_l0_entry.
Qed.
Lemma tbl_boxed_div_rem_l0 : divl0_ok "boxed.div_rem_l0".
Proof.
  start_l0. in_dom. unfold ln in *.
  destruct (Nat.eqb_spec (length (arg 0 a)) (length (arg 1 a))) as [Hl|Hl]; cbn [negb].
  - by_entry boxed_div_rem_l0_entry.
  - rewrite boxed_div_rem_l0_mismatch by assumption. reflexivity.
Qed.

Open Scope string_scope.
Definition divl0_keys : list string := ["uint.div_rem_l0"; "boxed.div_rem_l0"].
Open Scope Z_scope.
Lemma divl0_keys_model : map fst ops_divl0_model = divl0_keys.
Proof. reflexivity. Qed.
Lemma divl0_keys_spec : map fst ops_divl0_spec = divl0_keys.
Proof. reflexivity. Qed.

(** the two areas against each other: on the typed domain the limb-level entries return what "uint.div_rem" /
    "boxed.div_rem" of area div return *)
Theorem divl0_same_spec_entries : forall dbg a,
  run_tab ops_divl0_spec "uint.div_rem_l0" dbg a = run_tab ops_div_spec "uint.div_rem" dbg a /\
  run_tab ops_divl0_spec "boxed.div_rem_l0" dbg a = run_tab ops_div_spec "boxed.div_rem" dbg a.
Proof. intros. split; reflexivity. Qed.
