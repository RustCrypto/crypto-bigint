(** C10: correctness of the bit-repacking loop [limb_convert] (impl_limb_convert!),
    hence of [from_uint] (64 -> 62 bit limbs) and [to_uint] (62 -> 64 bit limbs). *)
From CB Require Import Model.Limbs Model.AddSub Model.SafeGcd Proofs.WordP Proofs.LimbsP Proofs.BitsP
  Proofs.SafeGcdArithP Proofs.SafeGcdUnsatP.
From Coq Require Import ZArith Lia List Bool.
Import ListNotations.
Open Scope Z_scope.

Lemma rem_pow2_split x a b : 0 <= a -> 0 <= b ->
  x mod 2 ^ (a + b) = x mod 2 ^ a + 2 ^ a * ((x / 2 ^ a) mod 2 ^ b).
Proof.
  intros. rewrite Z.pow_add_r by lia. apply Z.rem_mul_r.
  - apply Z.pow_nonzero; lia.
  - apply pow2_pos; lia.
Qed.

Lemma div_div_pow2 x a b : 0 <= a -> 0 <= b -> x / 2 ^ (a + b) = x / 2 ^ a / 2 ^ b.
Proof.
  intros. rewrite Z.pow_add_r by lia. symmetry. apply Z.div_div.
  - apply Z.pow_nonzero; lia.
  - apply pow2_pos; lia.
Qed.

Lemma div_mod_pow2 a i n : 0 <= i <= n -> (a / 2 ^ i) mod 2 ^ (n - i) = (a mod 2 ^ n) / 2 ^ i.
Proof.
  intros H. assert (E : 2 ^ n = 2 ^ (i + (n - i))) by (f_equal; lia).
  rewrite E, rem_pow2_split by lia.
  pose proof (pow2_pos i ltac:(lia)) as P. pose proof (Z.mod_pos_bound a (2 ^ i) P) as R.
  apply Z.div_unique_pos with (r := a mod 2 ^ i); lia.
Qed.

Lemma mul_pow2_mod d o n : 0 <= o <= n -> (d * 2 ^ o) mod 2 ^ n = (d mod 2 ^ (n - o)) * 2 ^ o.
Proof.
  intros H. assert (E : 2 ^ n = 2 ^ (n - o) * 2 ^ o) by (rewrite <- Z.pow_add_r by lia; f_equal; lia).
  rewrite E. apply Z.mul_mod_distr_r; apply Z.pow_nonzero; lia.
Qed.

(* advancing a bit position by c <= distance to the next multiple of b *)
Lemma pos_adv b bits c : 0 < b -> 0 <= bits -> 0 < c <= b - bits mod b ->
  (c = b - bits mod b /\ (bits + c) / b = bits / b + 1 /\ (bits + c) mod b = 0) \/
  (c < b - bits mod b /\ (bits + c) / b = bits / b /\ (bits + c) mod b = bits mod b + c).
Proof.
  intros Hb Hbits Hc. pose proof (Z.div_mod bits b ltac:(lia)) as E.
  pose proof (Z.mod_pos_bound bits b Hb) as R.
  destruct (Z.eq_dec c (b - bits mod b)) as [e|ne]; [left|right]; (split; [lia|]).
  - apply (div_mod_unique_pos b (bits / b + 1) 0); lia.
  - apply (div_mod_unique_pos b (bits / b) (bits mod b + c)); lia.
Qed.

Fixpoint valb (b : Z) (ls : list Z) : Z :=
  match ls with [] => 0 | x :: r => x + 2 ^ b * valb b r end.
Definition inr (b : Z) (ls : list Z) : Prop := Forall (fun x => 0 <= x < 2 ^ b) ls.
(* value of the low b bits of every limb (bits above b are garbage) *)
Fixpoint W (b : Z) (ls : list Z) : Z :=
  match ls with [] => 0 | x :: r => x mod 2 ^ b + 2 ^ b * W b r end.

Lemma nthz_nil k : nthz [] k = 0.
Proof. destruct k; reflexivity. Qed.

Lemma valb_nth b ls : 0 < b -> inr b ls ->
  forall k : nat, (valb b ls / 2 ^ (b * Z.of_nat k)) mod 2 ^ b = nthz ls k.
Proof.
  intros Hb H. induction H as [|x r Hx Hr IH]; intros k.
  - cbn [valb]. rewrite Z.div_0_l, Z.mod_0_l, nthz_nil; try reflexivity; apply Z.pow_nonzero; nia.
  - pose proof (pow2_pos b ltac:(lia)) as P. destruct k as [|k].
    + cbn [valb nthz nth]. change (Z.of_nat 0) with 0. rewrite Z.mul_0_r, Z.pow_0_r, Z.div_1_r.
      rewrite Z.mul_comm, Z_mod_plus_full. apply Z.mod_small; lia.
    + change (nthz (x :: r) (S k)) with (nthz r k).
      replace (b * Z.of_nat (S k)) with (b + b * Z.of_nat k) by lia.
      rewrite div_div_pow2 by nia. cbn [valb].
      replace ((x + 2 ^ b * valb b r) / 2 ^ b) with (valb b r); [apply IH|].
      apply Z.div_unique_pos with (r := x); lia.
Qed.

(* the bits of the input that start at position [bits], up to the end of the current input limb *)
Lemma chunk b ls bits : 0 < b -> inr b ls -> 0 <= bits ->
  (valb b ls / 2 ^ bits) mod 2 ^ (b - bits mod b) = nthz ls (Z.to_nat (bits / b)) / 2 ^ (bits mod b).
Proof.
  intros Hb H Hbits.
  pose proof (Z.div_mod bits b ltac:(lia)) as E. pose proof (Z.mod_pos_bound bits b Hb) as R.
  pose proof (Z.div_pos bits b Hbits Hb) as K.
  pose proof (valb_nth b ls Hb H (Z.to_nat (bits / b))) as N. rewrite Z2Nat.id in N by assumption.
  rewrite <- N. rewrite E at 1. rewrite div_div_pow2 by nia. apply div_mod_pow2. lia.
Qed.

Lemma length_upd f : forall ls k, length (upd k f ls) = length ls.
Proof. induction ls as [|x r IH]; intros k; [destruct k; reflexivity|]. destruct k; cbn [upd length]; [reflexivity|]. rewrite IH. reflexivity. Qed.

Lemma nthz_upd_same f : forall ls k, (k < length ls)%nat -> nthz (upd k f ls) k = f (nthz ls k).
Proof.
  induction ls as [|x r IH]; intros k Hk; cbn [length] in Hk; [lia|].
  destruct k; cbn [upd nthz nth]; [reflexivity|]. apply IH. lia.
Qed.

Lemma nthz_upd_other f : forall ls k j, j <> k -> nthz (upd k f ls) j = nthz ls j.
Proof.
  induction ls as [|x r IH]; intros k j Hj; [destruct k; reflexivity|].
  destruct k; destruct j; cbn [upd nthz nth]; try reflexivity; try lia.
  apply IH. lia.
Qed.

Lemma W_upd b f : 0 <= b -> forall ls k, (k < length ls)%nat ->
  W b (upd k f ls) = W b ls + (f (nthz ls k) mod 2 ^ b - nthz ls k mod 2 ^ b) * 2 ^ (b * Z.of_nat k).
Proof.
  intros Hb. induction ls as [|x r IH]; intros k Hk; cbn [length] in Hk; [lia|].
  destruct k.
  - cbn [upd W nthz nth]. change (Z.of_nat 0) with 0. rewrite Z.mul_0_r, Z.pow_0_r. ring.
  - cbn [upd W]. change (nthz (x :: r) (S k)) with (nthz r k). rewrite IH by lia.
    replace (b * Z.of_nat (S k)) with (b + b * Z.of_nat k) by lia.
    rewrite Z.pow_add_r by nia. ring.
Qed.

Lemma nthz_zeros n : forall k, nthz (zeros n) k = 0.
Proof. induction n as [|n IH]; intros k; [apply nthz_nil|]. destruct k; [reflexivity|]. apply IH. Qed.

Lemma W_zeros b n : W b (zeros n) = 0.
Proof.
  induction n as [|n IH]; [reflexivity|]. change (zeros (S n)) with (0 :: zeros n).
  cbn [W]. rewrite IH, Zmod_0_l. lia.
Qed.

Lemma limb_upd d o ob x : 0 < ob <= 64 -> 0 <= o < ob -> 0 <= x < 2 ^ o -> 0 <= d ->
  (Z.lor x (u64 (d * 2 ^ o))) mod 2 ^ ob = x + (d mod 2 ^ (ob - o)) * 2 ^ o /\
  (forall c, 0 <= c -> o + c <= ob -> d < 2 ^ c -> 0 <= Z.lor x (u64 (d * 2 ^ o)) < 2 ^ (o + c)).
Proof.
  intros Hob Ho Hx Hd.
  assert (Ev : u64 (d * 2 ^ o) = (d mod 2 ^ (64 - o)) * 2 ^ o).
  { unfold u64. rewrite P64_pow. apply mul_pow2_mod. lia. }
  assert (Ey : Z.lor x (u64 (d * 2 ^ o)) = (d mod 2 ^ (64 - o)) * 2 ^ o + x).
  { rewrite Ev, Z.lor_comm. apply lor_disjoint; lia. }
  pose proof (pow2_pos o ltac:(lia)) as Po.
  split.
  - rewrite Ey. rewrite <- Z.add_mod_idemp_l by (apply Z.pow_nonzero; lia).
    rewrite <- Ev. unfold u64. rewrite P64_pow, mod_pow2_mod_pow2 by lia. rewrite mul_pow2_mod by lia.
    pose proof (Z.mod_pos_bound d (2 ^ (ob - o)) (pow2_pos (ob - o) ltac:(lia))) as R.
    assert (E2 : 2 ^ ob = 2 ^ (ob - o) * 2 ^ o) by (rewrite <- Z.pow_add_r by lia; f_equal; lia).
    set (q := d mod 2 ^ (ob - o)) in *.
    pose proof (Z.mul_le_mono_nonneg_r q (2 ^ (ob - o) - 1) (2 ^ o) ltac:(lia) ltac:(lia)) as M.
    pose proof (Z.mul_nonneg_nonneg q (2 ^ o) ltac:(lia) ltac:(lia)) as M0.
    rewrite Z.mod_small; lia.
  - intros c Hc Hoc Hdc. rewrite Ey.
    assert (2 ^ c <= 2 ^ (64 - o)) by (apply Z.pow_le_mono_r; lia).
    rewrite (Z.mod_small d) by lia.
    assert (E2 : 2 ^ (o + c) = 2 ^ c * 2 ^ o) by (rewrite <- Z.pow_add_r by lia; f_equal; lia).
    pose proof (Z.mul_le_mono_nonneg_r d (2 ^ c - 1) (2 ^ o) ltac:(lia) ltac:(lia)) as M.
    pose proof (Z.mul_nonneg_nonneg d (2 ^ o) ltac:(lia) ltac:(lia)) as M0.
    lia.
Qed.

Lemma mask_first_spec b : 0 <= b -> forall ls k, (forall j, (k <= j)%nat -> nthz ls j = 0) ->
  valb b (mask_first k (2 ^ b - 1) ls) = W b ls /\ inr b (mask_first k (2 ^ b - 1) ls) /\
  length (mask_first k (2 ^ b - 1) ls) = length ls.
Proof.
  intros Hb. pose proof (pow2_pos b Hb) as P.
  induction ls as [|x r IH]; intros k H.
  - destruct k; cbn [mask_first valb W]; repeat split; constructor.
  - destruct k.
    + assert (x = 0) as -> by (apply (H 0%nat); lia).
      destruct (IH 0%nat) as (I1 & I2 & I3). { intros j _. apply (H (S j)). lia. }
      assert (E : mask_first 0 (2 ^ b - 1) r = r) by (destruct r; reflexivity). rewrite E in *.
      cbn [mask_first valb W length]. rewrite I1, Zmod_0_l. repeat split; try lia.
      constructor; [lia | assumption].
    + destruct (IH k) as (I1 & I2 & I3). { intros j Hj. apply (H (S j)). lia. }
      cbn [mask_first valb W length].
      assert (E : Z.land x (2 ^ b - 1) = x mod 2 ^ b).
      { rewrite <- Z.land_ones by assumption. f_equal. rewrite Z.ones_equiv. lia. }
      rewrite E, I1, I3. repeat split.
      constructor; [apply Z.mod_pos_bound; lia | assumption].
Qed.

Section LC.
Variables (ib ob : Z) (inp : list Z) (olen : nat) (total : Z).
Hypothesis Hib : 0 < ib <= 64.
Hypothesis Hob : 0 < ob <= 64.
Hypothesis Hinp : inr ib inp.
Hypothesis Htotal : total = Z.min (lenZ inp * ib) (Z.of_nat olen * ob).

Definition INV (bits : Z) (out : list Z) : Prop :=
  length out = olen /\ 0 <= bits <= total /\
  W ob out = valb ib inp mod 2 ^ bits /\
  0 <= nthz out (Z.to_nat (bits / ob)) < 2 ^ (bits mod ob) /\
  (forall j : nat, bits / ob < Z.of_nat j -> nthz out j = 0).

Definition meas (bits : Z) : Z := (lenZ inp - bits / ib) + (Z.of_nat olen - bits / ob).

Lemma total_nonneg : 0 <= total.
Proof. unfold lenZ in Htotal. nia. Qed.

Lemma meas_nonneg bits : 0 <= bits <= total -> 0 <= meas bits.
Proof.
  intros H. unfold meas.
  assert (bits / ib <= lenZ inp) by (apply Z.div_le_upper_bound; lia).
  assert (bits / ob <= Z.of_nat olen) by (apply Z.div_le_upper_bound; lia).
  lia.
Qed.

Lemma step bits out : INV bits out -> bits < total ->
  INV (bits + Z.min (ib - bits mod ib) (ob - bits mod ob))
      (upd (Z.to_nat (bits / ob))
           (fun x => Z.lor x (u64 ((nthz inp (Z.to_nat (bits / ib)) / 2 ^ (bits mod ib)) * 2 ^ (bits mod ob)))) out) /\
  meas (bits + Z.min (ib - bits mod ib) (ob - bits mod ob)) < meas bits.
Proof.
  (* One round moves c = min (bits left in the input limb, room left in the output limb) bits.  d is the input from
     position [bits] to the end of its limb ([chunk]); it is or-ed into the output limb at offset o ([limb_upd]), which
     takes W of the output from valb mod 2^bits to valb mod 2^(bits + c).  At least one of the two limb indices
     advances ([pos_adv]), so the measure drops. *)
  intros (Hlen & Hb & HW & Hc & Hd) Hlt.
  assert (Hib0 : 0 < ib) by lia. assert (Hob0 : 0 < ob) by lia. assert (Hbits : 0 <= bits) by lia.
  pose proof (Z.mod_pos_bound bits ib Hib0) as Ri. pose proof (Z.mod_pos_bound bits ob Hob0) as Ro.
  pose proof (Z.div_mod bits ib ltac:(lia)) as Ei. pose proof (Z.div_mod bits ob ltac:(lia)) as Eo.
  pose proof (Z.div_pos bits ib Hbits Hib0) as Ki. pose proof (Z.div_pos bits ob Hbits Hob0) as Ko.
  assert (Hk : bits / ib < lenZ inp) by (apply Z.div_lt_upper_bound; lia).
  assert (Hj : bits / ob < Z.of_nat olen) by (apply Z.div_lt_upper_bound; lia).
  pose proof (chunk ib inp bits Hib0 Hinp Hbits) as Hch.
  set (k := bits / ib) in *. set (i := bits mod ib) in *.
  set (jc := bits / ob) in *. set (o := bits mod ob) in *.
  set (d := nthz inp (Z.to_nat k) / 2 ^ i) in *.
  set (c := Z.min (ib - i) (ob - o)).
  assert (Hcr : 0 < c /\ c <= ib - i /\ c <= ob - o /\ (c = ib - i \/ c = ob - o)) by (unfold c; lia).
  clearbody c.
  assert (Hdr : 0 <= d < 2 ^ (ib - i)).
  { rewrite <- Hch. apply Z.mod_pos_bound. apply pow2_pos. lia. }
  set (x := nthz out (Z.to_nat jc)) in *.
  destruct (limb_upd d o ob x Hob Ro Hc ltac:(lia)) as [Hy1 Hy2].
  set (y := Z.lor x (u64 (d * 2 ^ o))) in *.
  assert (Hjn : (Z.to_nat jc < length out)%nat) by lia.
  assert (Ejn : Z.of_nat (Z.to_nat jc) = jc) by (apply Z2Nat.id; lia).
  assert (Hle : bits + c <= total).
  { pose proof (Z.mul_le_mono_nonneg_l (k + 1) (lenZ inp) ib ltac:(lia) ltac:(lia)).
    pose proof (Z.mul_le_mono_nonneg_l (jc + 1) (Z.of_nat olen) ob ltac:(lia) ltac:(lia)).
    lia. }
  assert (HW' : W ob (upd (Z.to_nat jc) (fun x0 => Z.lor x0 (u64 (d * 2 ^ o))) out)
                = valb ib inp mod 2 ^ (bits + c)).
  { rewrite W_upd by lia. fold x. fold y. rewrite Hy1, HW.
    assert (2 ^ o <= 2 ^ ob) by (apply Z.pow_le_mono_r; lia).
    rewrite (Z.mod_small x) by lia.
    rewrite rem_pow2_split by lia.
    assert (Ed : (valb ib inp / 2 ^ bits) mod 2 ^ c = d mod 2 ^ (ob - o)).
    { rewrite <- (mod_pow2_mod_pow2 _ c (ib - i)) by lia. rewrite Hch.
      destruct (Z.eq_dec c (ob - o)) as [->|ne]; [reflexivity|].
      assert (c = ib - i) as -> by lia.
      assert (2 ^ (ib - i) <= 2 ^ (ob - o)) by (apply Z.pow_le_mono_r; lia).
      rewrite !Z.mod_small by lia. reflexivity. }
    rewrite Ed, Ejn.
    assert (Ep : 2 ^ bits = 2 ^ o * 2 ^ (ob * jc)).
    { rewrite <- Z.pow_add_r by (try apply Z.mul_nonneg_nonneg; lia). f_equal. lia. }
    rewrite Ep. ring. }
  split.
  - split; [rewrite length_upd; assumption|]. split; [lia|]. split; [exact HW'|].
    destruct (pos_adv ob bits c Hob0 Hbits ltac:(lia)) as [(Ec & Ediv & Emod) | (Ec & Ediv & Emod)];
      fold jc in Ediv; fold o in Emod, Ec; rewrite Ediv, Emod.
    + (* the output limb is complete *)
      assert (Z.to_nat (jc + 1) <> Z.to_nat jc) by lia.
      split.
      * rewrite nthz_upd_other by assumption. rewrite Hd by lia. change (2 ^ 0) with 1. lia.
      * intros j Hjj. rewrite nthz_upd_other by lia. apply Hd. lia.
    + (* the input limb is exhausted first *)
      assert (Eci : c = ib - i) by lia.
      split.
      * rewrite nthz_upd_same by assumption. fold x. fold y. apply Hy2; try lia. rewrite Eci. apply Hdr.
      * intros j Hjj. rewrite nthz_upd_other by lia. apply Hd. lia.
  - unfold meas. fold k. fold jc. clear - Hcr Hob0 Hib0 Hbits.
    destruct (pos_adv ob bits c Hob0 Hbits ltac:(lia)) as [(Ec & Ediv & Emod) | (Ec & Ediv & Emod)];
    destruct (pos_adv ib bits c Hib0 Hbits ltac:(lia)) as [(Fc & Fdiv & Fmod) | (Fc & Fdiv & Fmod)];
      fold jc in Ediv; fold k in Fdiv; fold o in Ec; fold i in Fc; lia.
Qed.

Lemma loop_inv : forall fuel bits out, INV bits out -> meas bits < Z.of_nat fuel ->
  INV total (lc_loop fuel ib ob total bits inp out).
Proof.
  induction fuel as [|fuel IH]; intros bits out HI Hm.
  - exfalso. destruct HI as (_ & Hb & _). pose proof (meas_nonneg bits Hb). lia.
  - cbn [lc_loop]. destruct (Z.ltb_spec bits total) as [Hlt|Hge].
    + cbv zeta. destruct (step bits out HI Hlt) as [HI' Hm']. apply IH; [exact HI'|lia].
    + assert (bits = total) as <- by (destruct HI as (_ & Hb & _); lia). exact HI.
Qed.

Lemma inv_init : INV 0 (zeros olen).
Proof.
  pose proof total_nonneg.
  split; [apply length_zeros|]. split; [lia|]. split; [|split].
  - rewrite W_zeros. change (2 ^ 0) with 1. rewrite Z.mod_1_r. reflexivity.
  - rewrite nthz_zeros. rewrite Z.mod_0_l by lia. change (2 ^ 0) with 1. lia.
  - intros j _. apply nthz_zeros.
Qed.

Theorem limb_convert_spec :
  inr ob (limb_convert ib ob inp olen) /\ length (limb_convert ib ob inp olen) = olen /\
  valb ob (limb_convert ib ob inp olen) = valb ib inp mod 2 ^ total.
Proof.
  unfold limb_convert. cbv zeta. rewrite <- Htotal.
  assert (HI : INV total (lc_loop (length inp + olen + 1) ib ob total 0 inp (zeros olen))).
  { apply loop_inv; [apply inv_init|]. unfold meas, lenZ. rewrite !Z.div_0_l by lia. lia. }
  set (out := lc_loop (length inp + olen + 1) ib ob total 0 inp (zeros olen)) in *.
  destruct HI as (Hlen & Hb & HW & Hc & Hd).
  assert (Hob0 : 0 < ob) by lia.
  pose proof (Z.mod_pos_bound total ob Hob0) as Ro.
  pose proof (Z.div_pos total ob ltac:(lia) Hob0) as Ko.
  destruct (mask_first_spec ob ltac:(lia) out
              (Z.to_nat (total / ob + (if 0 <? total mod ob then 1 else 0)))) as (M1 & M2 & M3).
  { intros j Hj. destruct (Z.ltb_spec 0 (total mod ob)) as [Hpos|Hz].
    - apply Hd. lia.
    - assert (E0 : total mod ob = 0) by lia. rewrite E0 in Hc. change (2 ^ 0) with 1 in Hc.
      destruct (Z.eq_dec (Z.of_nat j) (total / ob)) as [e|ne].
      + rewrite <- e, Nat2Z.id in Hc. lia.
      + apply Hd. lia. }
  split; [exact M2|]. split; [lia|]. rewrite M1. exact HW.
Qed.
End LC.

Lemma valb62_uval ls : valb 62 ls = uval ls.
Proof. induction ls as [|x r IH]; [reflexivity|]. cbn [valb uval]. rewrite IH, P62_pow. reflexivity. Qed.

Lemma valb64_eval ls : valb 64 ls = eval ls.
Proof. induction ls as [|x r IH]; [reflexivity|]. cbn [valb eval]. rewrite IH, B_val. reflexivity. Qed.

Lemma inr62_wf62 ls : inr 62 ls <-> wf62 ls.
Proof. unfold inr, wf62. rewrite P62_pow. reflexivity. Qed.

Lemma inr64_wf ls : inr 64 ls <-> wf ls.
Proof.
  unfold inr, wf. split; apply Forall_impl; intros a; unfold is_word; rewrite B_val; trivial.
Qed.

Theorem from_uint_spec L x : wf x -> 64 * lenZ x <= 62 * Z.of_nat L ->
  wf62 (from_uint L x) /\ length (from_uint L x) = L /\ uval (from_uint L x) = eval x.
Proof.
  intros Hx Hlen. unfold from_uint.
  destruct (limb_convert_spec 64 62 x L (64 * lenZ x) ltac:(lia) ltac:(lia)) as (H1 & H2 & H3).
  - apply inr64_wf. exact Hx.
  - lia.
  - split; [apply inr62_wf62; exact H1|]. split; [exact H2|].
    rewrite <- valb62_uval, H3, valb64_eval.
    pose proof (eval_bounds x Hx) as Hb. rewrite Bn_pow2 in Hb. fold (lenZ x) in Hb.
    apply Z.mod_small. exact Hb.
Qed.

Theorem to_uint_spec n u : wf62 u -> 64 * Z.of_nat n <= 62 * lenZ u ->
  wf (to_uint n u) /\ length (to_uint n u) = n /\ eval (to_uint n u) = uval u mod Bn n.
Proof.
  intros Hu Hlen. unfold to_uint.
  destruct (limb_convert_spec 62 64 u n (64 * Z.of_nat n) ltac:(lia) ltac:(lia)) as (H1 & H2 & H3).
  - apply inr62_wf62. exact Hu.
  - lia.
  - split; [apply inr64_wf; exact H1|]. split; [exact H2|].
    rewrite <- valb64_eval, H3, valb62_uval, Bn_pow2. reflexivity.
Qed.

