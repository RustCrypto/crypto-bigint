(** C08: the model table and the spec table of Model/Monty.v agree, key by key, wherever the spec is defined
    (spec entry <> Unsupported), for all well-formed argument lists: what the correspondence runs compare the crate
    with (the model entries, limb level) is, on the documented domain, plain arithmetic in Z/mZ (the spec entries). *)
From CB Require Import Model.Limbs Model.AddSub Model.Mul Model.Div Model.ModArith Model.Monty
  Proofs.WordP Proofs.LimbsP Proofs.TotalityP Proofs.AddSubP Proofs.ModArithP
  Proofs.MontyRedP Proofs.MontyAmmP Proofs.MontyNumP Proofs.MontyFormP Proofs.MontyHistP.
From Coq Require Import ZArith Znumtheory Lia List Bool String.
Open Scope Z_scope.
Notation length := List.length.

Definition run_op8 (t : list (string * opfn)) (k : string) (dbg : bool) (args : list (list Z)) : outcome :=
  match lookup k t with Some f => f dbg args | None => Unsupported end.
Local Notation M8 := (run_op8 ops_monty_model).
Local Notation S8 := (run_op8 ops_monty_spec).

Definition monty_keys : list string :=
  ["monty.reduction"; "monty.params"; "monty.boxed_params"; "monty.history"; "monty.boxed_history";
   "monty.uint_mul_mod"; "monty.boxed_mul_mod"]%string.
Lemma monty_keys_model : map fst ops_monty_model = monty_keys. Proof. reflexivity. Qed.
Lemma monty_keys_spec : map fst ops_monty_spec = monty_keys. Proof. reflexivity. Qed.

Definition wf_args8 (a : list (list Z)) : Prop := Forall wf a.

Lemma sarg_word8 i a : wf_args8 a -> is_word (sarg i a).
Proof. exact (sarg_word i a). Qed.
Lemma Forall_skipn8 {A} (P : A -> Prop) k l : Forall P l -> Forall P (skipn k l).
Proof. revert l. induction k; intros l H; [exact H|]. destruct H; [constructor | cbn [skipn]; apply IHk; assumption]. Qed.

Lemma odd_modulus_facts m : odd_modulus m = true -> Z.odd (eval m) = true /\ length m <> 0%nat.
Proof.
  unfold odd_modulus. intros H. apply andb_prop in H. destruct H as [H1 H2]. split; [exact H1|].
  apply negb_true_iff in H2. apply Nat.eqb_neq in H2. exact H2.
Qed.

Ltac table_open8 :=
  unfold run_op8;
  lazy beta iota zeta delta [lookup ops_monty_model ops_monty_spec String.eqb Ascii.eqb Bool.eqb].

Lemma backend_fixed_params_ok m : wf m -> length m <> 0%nat -> Z.odd (eval m) = true ->
  backend_ok m (backend_fixed (params_fixed m)).
Proof.
  intros Hm Hn Hodd. pose proof (params_fixed_good m Hm Hn Hodd) as G.
  pose proof G as (Em & _ & _ & Hk). destruct (good_r2 m Hm Hn Hodd _ G) as (C2 & E2).
  apply (backend_fixed_ok m (mp_k (params_fixed m)) Hm Hn Hodd Hk _ Em eq_refl C2 E2).
Qed.
Lemma backend_boxed_params_ok m : wf m -> length m <> 0%nat -> Z.odd (eval m) = true ->
  backend_ok m (backend_boxed (params_boxed m)).
Proof.
  intros Hm Hn Hodd. pose proof (params_boxed_good m Hm Hn Hodd) as G.
  pose proof G as (Em & _ & _ & Hk). destruct (good_r2 m Hm Hn Hodd _ G) as (C2 & E2).
  apply (backend_boxed_ok m (mp_k (params_boxed m)) Hm Hn Hodd Hk _ Em eq_refl C2 E2).
Qed.

(** mul_mod through any correct representation: new, new, mul, retrieve = x * y mod m *)
Lemma mul_mod_backend m be x y : wf m -> length m <> 0%nat -> Z.odd (eval m) = true -> backend_ok m be ->
  wf x -> wf y -> length x = length m -> length y = length m ->
  be_retrieve be (be_mul be (be_new be x) (be_new be y)) = to_limbs (length m) ((eval x * eval y) mod eval m).
Proof.
  intros Hm Hn Hodd Hbe Wx Wy Lx Ly. pose proof (M_pos m Hm Hn Hodd) as HM.
  pose proof (ok_new m be Hbe x Wx Lx) as Rx. pose proof (ok_new m be Hbe y Wy Ly) as Ry.
  pose proof (ok_mul m be Hbe _ _ _ _ Rx Ry) as Rp.
  rewrite (ok_retrieve m be Hbe _ _ Rp). f_equal. symmetry. apply Zmult_mod.
Qed.

Section Entries.
Variable a : list (list Z).
Hypothesis Hwf : wf_args8 a.

Lemma tbl_reduction dbg : S8 "monty.reduction" dbg a <> Unsupported ->
  M8 "monty.reduction" dbg a = S8 "monty.reduction" dbg a.
Proof.
  table_open8. unfold ev, ln.
  destruct (odd_modulus (arg 2 a)) eqn:D1; cbn [negb]; [|intros H; contradiction H; reflexivity].
  destruct ((length (arg 0 a) =? length (arg 2 a))%nat && (length (arg 1 a) =? length (arg 2 a))%nat)%bool eqn:D2;
    cbn [negb]; [|intros H; contradiction H; reflexivity].
  destruct (_ =? 0) eqn:D3; cbn [negb]; [|intros H; contradiction H; reflexivity].
  destruct (_ <? _) eqn:D4; cbn [negb]; [intros _|intros H; contradiction H; reflexivity].
  apply odd_modulus_facts in D1. destruct D1 as [Hodd Hn].
  apply andb_prop in D2. destruct D2 as [L0 L1]. apply Nat.eqb_eq in L0, L1.
  apply Z.eqb_eq in D3. apply Z.ltb_lt in D4.
  pose proof (wf_arg 0 a Hwf) as W0. pose proof (wf_arg 1 a Hwf) as W1. pose proof (wf_arg 2 a Hwf) as W2.
  pose proof (M_pos _ W2 Hn Hodd) as HM.
  rewrite <- (hd_eval_mod _ W2) in D3.
  destruct (mont_red_correct (arg 0 a) (arg 1 a) (arg 2 a) (sarg 3 a) W0 W1 W2 L0 L1 Hn D3 D4) as (Wr & Lr & Br & Er).
  do 2 f_equal. apply limbs_of_val; try assumption. apply redc_spec_unique; assumption.
Qed.

(** both constructors build the same record (params_constructors_agree) *)
Lemma params_entry (mk : list Z -> mparams) :
  (forall m, wf m -> length m <> 0%nat -> Z.odd (eval m) = true -> mk m = params_fixed m) ->
  sp_params a <> Unsupported -> params_out (mk (arg 0 a)) = sp_params a.
Proof.
  intros Hmk. unfold sp_params, ev, ln.
  destruct (odd_modulus (arg 0 a)) eqn:D1; cbn [negb]; [intros _|intros H; contradiction H; reflexivity].
  apply odd_modulus_facts in D1. destruct D1 as [Hodd Hn]. pose proof (wf_arg 0 a Hwf) as W.
  rewrite (Hmk _ W Hn Hodd). destruct (params_fixed_correct (arg 0 a) W Hn Hodd) as (E & _). cbv zeta in E.
  unfold params_out. rewrite E. cbn [mp_one mp_r2 mp_r3 mp_k mp_lz]. reflexivity.
Qed.
Lemma tbl_params dbg : S8 "monty.params" dbg a <> Unsupported ->
  M8 "monty.params" dbg a = S8 "monty.params" dbg a.
Proof. table_open8. apply params_entry. reflexivity. Qed.
Lemma tbl_boxed_params dbg : S8 "monty.boxed_params" dbg a <> Unsupported ->
  M8 "monty.boxed_params" dbg a = S8 "monty.boxed_params" dbg a.
Proof. table_open8. apply params_entry. intros m Hm Hn Ho. symmetry. apply params_constructors_agree; assumption. Qed.

Lemma hist_inputs_ok : forallb (fun x => (length x =? length (arg 0 a))%nat) (hist_inputs a) = true ->
  Forall (fun x => wf x /\ length x = length (arg 0 a)) (hist_inputs a).
Proof.
  intros H. rewrite forallb_forall in H. apply Forall_forall. intros x Hx. split.
  - assert (F : Forall wf (hist_inputs a)) by (apply Forall_skipn8; exact Hwf).
    rewrite Forall_forall in F. apply F. exact Hx.
  - apply Nat.eqb_eq. apply H. exact Hx.
Qed.

Lemma hist_entry (be : mparams -> backend) (mk : list Z -> mparams) :
  (forall m inputs ops, wf m -> length m <> 0%nat -> Z.odd (eval m) = true ->
     Forall (fun x => wf x /\ length x = length m) inputs -> ops_ok (length inputs) 0 ops = true ->
     let h := history (be (mk m)) (mk m) inputs ops in
     let s := sp_history (eval m) (length m) inputs ops in
     Forall2 (repr m) (fst h) (fst s) /\ snd h = snd s) ->
  sp_hist a <> Unsupported -> hist_out be (mk (arg 0 a)) a = sp_hist a.
Proof.
  intros Hh. unfold sp_hist, ev, ln.
  destruct (odd_modulus (arg 0 a)) eqn:D1; cbn [negb]; [|intros H; contradiction H; reflexivity].
  destruct (forallb _ (hist_inputs a)) eqn:D2; cbn [negb]; [|intros H; contradiction H; reflexivity].
  destruct (Nat.eqb _ _) eqn:D3; cbn [negb]; [|intros H; contradiction H; reflexivity].
  destruct (ops_ok _ 0 _) eqn:D4; cbn [negb]; [intros _|intros H; contradiction H; reflexivity].
  apply odd_modulus_facts in D1. destruct D1 as [Hodd Hn]. pose proof (wf_arg 0 a Hwf) as W.
  unfold hist_out. f_equal.
  apply (Hh (arg 0 a) (hist_inputs a) _ W Hn Hodd (hist_inputs_ok D2) D4).
Qed.
Lemma tbl_history dbg : S8 "monty.history" dbg a <> Unsupported ->
  M8 "monty.history" dbg a = S8 "monty.history" dbg a.
Proof. table_open8. apply hist_entry. exact history_fixed_correct. Qed.
Lemma tbl_boxed_history dbg : S8 "monty.boxed_history" dbg a <> Unsupported ->
  M8 "monty.boxed_history" dbg a = S8 "monty.boxed_history" dbg a.
Proof. table_open8. apply hist_entry. exact history_boxed_correct. Qed.

(** Uint::mul_mod / BoxedUint::mul_mod: panic exactly on an even modulus, otherwise x * y mod m *)
Lemma mul_mod_entry be mk :
  (forall m, wf m -> length m <> 0%nat -> Z.odd (eval m) = true -> backend_ok m (be (mk m))) ->
  sp_mul_mod a <> Unsupported -> mul_mod_via be mk (arg 0 a) (arg 1 a) (arg 2 a) = sp_mul_mod a.
Proof.
  intros Hbe. unfold sp_mul_mod, mul_mod_via, ev, ln.
  destruct (_ && _ && _)%bool eqn:D; cbn [negb]; [intros _|intros H; contradiction H; reflexivity].
  apply andb_prop in D. destruct D as [D Hn]. apply andb_prop in D. destruct D as [L1 L2].
  apply Nat.eqb_eq in L1, L2. apply negb_true_iff in Hn. apply Nat.eqb_neq in Hn.
  pose proof (wf_arg 0 a Hwf) as W0. pose proof (wf_arg 1 a Hwf) as W1. pose proof (wf_arg 2 a Hwf) as W2.
  rewrite <- !Z.negb_odd, (hd_odd _ W2).
  destruct (Z.odd (eval (arg 2 a))) eqn:Ho; cbn [negb]; [|reflexivity].
  assert (Hn2 : length (arg 2 a) <> 0%nat) by congruence.
  do 2 f_equal. rewrite <- L2.
  apply (mul_mod_backend (arg 2 a)); try assumption; try congruence. apply Hbe; assumption.
Qed.
Lemma tbl_uint_mul_mod dbg : S8 "monty.uint_mul_mod" dbg a <> Unsupported ->
  M8 "monty.uint_mul_mod" dbg a = S8 "monty.uint_mul_mod" dbg a.
Proof. table_open8. apply mul_mod_entry. exact backend_fixed_params_ok. Qed.
Lemma tbl_boxed_mul_mod dbg : S8 "monty.boxed_mul_mod" dbg a <> Unsupported ->
  M8 "monty.boxed_mul_mod" dbg a = S8 "monty.boxed_mul_mod" dbg a.
Proof. table_open8. apply mul_mod_entry. exact backend_boxed_params_ok. Qed.
End Entries.

