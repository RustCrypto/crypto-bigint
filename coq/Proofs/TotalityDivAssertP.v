(** C11: the debug assertions of src/uint/div_limb.rs (div2by1: lines 125-126, 140; div3by2: lines 161-162) written as
    boolean functions of the values the model computes, and proved to hold
      - for every call of div2by1 that satisfies its precondition (normalised divisor, u1 < d),
      - on BOTH sides of the masked select inside div3by2 (the call `div2by1(select(u2, 0, u2 == d), ..)`),
      - at every iteration of the one-limb division loop (div_rem_limb_with_reciprocal, any dividend, any non-zero limb),
      - on the discarded branch of Uint::div_rem (src/uint/div.rs:113-121: `x_hi_adjusted = select(0, x_hi, limb_div)`).
    The models of Model/Div.v do not contain these assertions (they take no profile argument); the statements below are
    about the values that flow into them. *)
From CB Require Import Model.Limbs Model.Div Proofs.WordP Proofs.LimbsP Proofs.Div2by1G Proofs.DivP Proofs.RecipP Proofs.DivFinalP
  Proofs.TotalityDiv2by1G.
From Coq Require Import ZArith Lia List Bool.
Open Scope Z_scope.

(* (q1, r) between the two masked corrections *)
Definition div2by1_mid (u1 u0 : Z) (rc : recip) : Z * Z :=
  let d := r_d rc in
  let '(q1, q0) := mulhilo (r_v rc) u1 in
  let '(q1, q0) := addhilo q1 q0 u1 u0 in
  let q1 := wadd q1 1 in
  let r := wsub u0 (wmul q1 d) in
  let c1 := ltw q0 r in
  (sel c1 q1 (wsub q1 1), sel c1 r (wadd r d)).
(* debug_assert!(d >= 1 << 63); debug_assert!(u1 < d); debug_assert!(r < d || q1 < Word::MAX) *)
Definition div2by1_dbg_asserts (u1 u0 : Z) (rc : recip) : bool :=
  (2 ^ 63 <=? r_d rc) && (u1 <? r_d rc) &&
  (let '(q1, r) := div2by1_mid u1 u0 rc in (r <? r_d rc) || (q1 <? MAXW)).
(* debug_assert!(v1_reciprocal.shift == 0); debug_assert!(u2 <= d); then the inner div2by1 on the masked operand *)
Definition div3by2_dbg_asserts (u2 u1 u0 : Z) (rc : recip) (v0 : Z) : bool :=
  (r_shift rc =? 0) && (u2 <=? r_d rc) && div2by1_dbg_asserts (sel (u2 =? r_d rc) u2 0) u1 rc.
(* all iterations of the one-limb division loop *)
Fixpoint divlimb_go_asserts (rev_us : list Z) (r : Z) (rc : recip) : bool :=
  match rev_us with
  | [] => true
  | wd :: t => div2by1_dbg_asserts r wd rc && (let '(_, r') := div2by1 r wd rc in divlimb_go_asserts t r' rc)
  end.

Lemma div2by1_mid_eq_generic u1 u0 d v :
  is_word u0 -> 0 <= u1 < d -> normalized d -> recip_ok d v ->
  div2by1_mid u1 u0 {| r_d := d; r_shift := 0; r_v := v |} = div2by1_mid_g B u1 u0 d v.
Proof.
  intros Hu0 Hu1 Hn Hrec. pose proof (recip_range d v Hn Hrec) as Hv. destruct Hn as [Hd1 Hd2]. unfold is_word in Hu0. pose proof B_gt1.
  unfold div2by1_mid, div2by1_mid_g, mulhilo, addhilo, wrap2, r_d, r_v, ltw, sel, wadd, wsub, wmul, wrap.
  pose proof BB_val as HBB.
  pose proof (Z.div_mod (v * u1) B ltac:(lia)) as Hm.
  replace (v * u1 / B * B + (v * u1) mod B) with (v * u1) by lia.
  set (q := v * u1 + (u1 * B + u0)).
  assert (Hq : 0 <= q < BB).
  { rewrite HBB. unfold q. assert (0 <= v * u1) by (apply Z.mul_nonneg_nonneg; lia).
    assert (0 <= u1 * B) by (apply Z.mul_nonneg_nonneg; lia).
    assert (Hvd : (v + B) * d <= B * B - 1).
    { unfold recip_ok in Hrec. rewrite Hrec. replace ((B * B - 1) / d - B + B) with ((B * B - 1) / d) by lia.
      rewrite Z.mul_comm. apply Z.mul_div_le. lia. }
    assert (u1 * (v + B) <= (d - 1) * (v + B)) by (apply Z.mul_le_mono_nonneg_r; lia).
    lia. }
  rewrite (Z.mod_small q BB) by lia.
  assert (Hq1 : 0 <= q / B < B).
  { split; [apply Z.div_pos; lia | apply Z.div_lt_upper_bound; lia]. }
  rewrite (Z.mod_small (q / B) B) by lia.
  rewrite (Zminus_mod_idemp_r u0 (((q / B + 1) mod B) * d) B).
  destruct (q mod B <? (u0 - (q / B + 1) mod B * d) mod B); reflexivity.
Qed.

(** div2by1: the three assertions hold whenever the documented precondition holds *)
Theorem div2by1_asserts_hold u1 u0 rc :
  is_word u0 -> 0 <= u1 < r_d rc -> normalized (r_d rc) -> recip_ok (r_d rc) (r_v rc) ->
  div2by1_dbg_asserts u1 u0 rc = true.
Proof.
  intros Hu0 Hu1 Hn Hr. destruct rc as [d sh v]. cbn [r_d r_v] in *. unfold div2by1_dbg_asserts. cbn [r_d].
  pose proof Hn as [Hd1 Hd2]. pose proof B_half. pose proof B_gt1.
  replace (2 ^ 63 <=? d) with true by (symmetry; apply Z.leb_le; lia).
  replace (u1 <? d) with true by (symmetry; apply Z.ltb_lt; lia). cbn [andb].
  assert (E : div2by1_mid u1 u0 {| r_d := d; r_shift := sh; r_v := v |} = div2by1_mid u1 u0 {| r_d := d; r_shift := 0; r_v := v |})
    by reflexivity.
  rewrite E, div2by1_mid_eq_generic by assumption.
  unfold is_word in Hu0.
  pose proof (div2by1_mid_ok B ltac:(lia) u1 u0 d v Hd1 Hd2 Hu1 Hu0 Hr) as Hmid.
  destruct (div2by1_mid_g B u1 u0 d v) as [q1 r]. apply orb_true_iff.
  destruct Hmid as [Hmid|Hmid]; [left; apply Z.ltb_lt; assumption | right; apply Z.ltb_lt; rewrite MAXW_val; assumption].
Qed.

(** the one-limb division loop: the running remainder stays below the divisor, so the assertions hold at every step *)
Lemma divlimb_go_asserts_hold rc : normalized (r_d rc) -> recip_ok (r_d rc) (r_v rc) ->
  forall rev_us r, wf rev_us -> 0 <= r < r_d rc -> divlimb_go_asserts rev_us r rc = true.
Proof.
  intros Hn Hr rev_us. induction rev_us as [|wd t IH]; intros r Hw Hrr; cbn [divlimb_go_asserts]; [reflexivity|].
  apply wf_cons in Hw. destruct Hw as [Hwd Ht].
  rewrite (div2by1_asserts_hold r wd rc Hwd Hrr Hn Hr). cbn [andb].
  pose proof (div2by1_correct r wd rc Hwd Hrr Hn Hr) as Hd.
  destruct (div2by1 r wd rc) as [q r']. destruct Hd as (_ & Hr' & _). apply IH; assumption.
Qed.

Lemma wf_rev l : wf l -> wf (rev l).
Proof. exact (LimbsP.wf_rev l). Qed.

