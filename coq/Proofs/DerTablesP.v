(** C18: the model table and the spec table of Model/Der.v agree, key by key, wherever the spec is defined
    (spec entry <> Unsupported), for every argument list. The `*_orig` entries (the code before the repairs) are
    diagnostics and are not part of the statement. *)
From CB Require Import Model.Limbs Model.Conv Model.Der Proofs.WordP Proofs.LimbsP Proofs.ConvDigitsP Proofs.ConvBytesP
  Proofs.CmpBoxedP Proofs.DerSpecP Proofs.DerCodecP Proofs.DerRoutesP Proofs.RlpCodecP.
From Coq Require Import ZArith Lia List Bool String.
Import ListNotations.
Open Scope Z_scope.
Notation length := List.length.

Definition run_op18 (t : list (string * opfn)) (k : string) (dbg : bool) (args : list (list Z)) : outcome :=
  match lookup k t with Some f => f dbg args | None => Unsupported end.
Local Notation M18 := (run_op18 ops_der_model).
Local Notation S18 := (run_op18 ops_der_spec).
Ltac table_open :=
  unfold run_op18;
  lazy beta iota zeta delta [lookup ops_der_model ops_der_spec String.eqb Ascii.eqb Bool.eqb].

Lemma bytes_ok_wfd bs : bytes_ok bs = true -> wfd 256 bs.
Proof.
  unfold bytes_ok, wfd. intros H. apply Forall_forall. intros x Hx. rewrite forallb_forall in H. specialize (H x Hx).
  apply andb_prop in H. destruct H as [H1 H2]. apply Z.leb_le in H1. apply Z.ltb_lt in H2. lia.
Qed.

Lemma dec_entry (m : res (list Z)) (o : option Z) n :
  m <> Pn -> (forall v, o = Some v -> m = Ok (to_limbs n v)) -> (forall w, m = Ok w -> exists v, o = Some v) ->
  out_limbs m = sp_dec o n (out_limbs m).
Proof.
  intros Hp Hs Hn. unfold sp_dec. destruct o as [v|].
  - rewrite (Hs v eq_refl). reflexivity.
  - destruct m as [w|e|]; [destruct (Hn w eq_refl) as (v & E); discriminate | reflexivity | contradiction].
Qed.
Lemma try_from_mag0_fits n x v : uint_try_from_uintref true n (mag0 x) = Ok v -> 0 <= x -> v = to_limbs n x /\ 0 <= x < Bn n.
Proof.
  intros H Hx. apply try_from_ok in H; [|apply wfd_mag0]. rewrite bev_mag0 in H by assumption. tauto.
Qed.
Lemma try_from_mag0_run n x : (1 <= n)%nat -> 0 <= x < Bn n -> uint_try_from_uintref true n (mag0 x) = Ok (to_limbs n x).
Proof.
  intros Hn Hx. destruct (try_from_fits true n (mag0 x) (wfd_mag0 x) (length_mag0_fits n x Hx Hn)) as [E _].
  rewrite E, bev_mag0 by lia. reflexivity.
Qed.

Section Entries.
Variable a : list (list Z).

Lemma enc_dom (f : Z -> outcome) ok : sp_enc ok a f <> Unsupported ->
  wf (arg 0 a) /\ (1 <= ln 0 a)%nat /\ ok = true /\ sp_enc ok a f = f (ev 0 a).
Proof.
  unfold sp_enc. destruct (wfb (arg 0 a)) eqn:E1; [|intros H; contradiction H; reflexivity].
  destruct (Nat.eqb_spec (ln 0 a) 0); [intros H; contradiction H; reflexivity|].
  destruct ok; [|intros H; contradiction H; reflexivity]. cbn [negb andb]. intros _.
  repeat split; try reflexivity; [apply wfb_wf; assumption | lia].
Qed.
Lemma der_width (n : nat) : sp_der_width_ok n = true -> 8 * Z.of_nat n + 7 <= LEN_MAX.
Proof. unfold sp_der_width_ok. intros H. apply Z.leb_le in H. assumption. Qed.

(** the four DER encoder entries: a model function that meets its specification on every width the crate can frame *)
Lemma entry_der_enc {A} (m : list Z -> res A) (sp : Z -> A) (out : res A -> outcome) (f : Z -> outcome) :
  (forall ls, wf ls -> (1 <= length ls)%nat -> lenZ (sp_der_encode (eval ls)) <= LEN_MAX -> m ls = Ok (sp (eval ls))) ->
  (forall x, out (Ok (sp x)) = f x) ->
  let s := sp_enc (sp_der_width_ok (ln 0 a)) a f in s <> Unsupported -> out (m (arg 0 a)) = s.
Proof.
  cbv zeta. intros Hm Hout H. destruct (enc_dom _ _ H) as (Hw & Hn & Hk & ->). apply der_width in Hk. unfold ln, ev in *.
  rewrite Hm by (try assumption; apply width_total_len; assumption). apply Hout.
Qed.
Lemma entry_rlp_encode : let s := sp_enc (sp_rlp_width_ok (ln 0 a)) a (fun x => Val [sp_rlp_encode x]) in
  s <> Unsupported -> Val [rlp_encode (arg 0 a)] = s.
Proof.
  cbv zeta. intros H. destruct (enc_dom _ _ H) as (Hw & Hn & Hk & ->). unfold sp_rlp_width_ok in Hk. apply Z.ltb_lt in Hk.
  unfold ln, ev in *. rewrite rlp_encode_spec by assumption. reflexivity.
Qed.

(** from_der and TryFrom<AnyRef>: any route that never panics and accepts what from_der accepts, with the same result *)
Lemma entry_from_der_like (m : nat -> list Z -> res (list Z)) :
  (forall n bs, m n bs <> Pn) ->
  (forall n bs v, wfd 256 bs -> (m n bs = Ok v <-> der_decode true n bs = Ok v)) ->
  let s := sp_from_der m a in s <> Unsupported -> out_limbs (m (cv_nat 1 a) (arg 0 a)) = s.
Proof.
  cbv zeta. intros Hp Hsame. unfold sp_from_der, sp_bytes_arg. set (n := cv_nat 1 a). set (bs := arg 0 a).
  destruct (bytes_ok bs) eqn:Eb; [|intros H; contradiction H; reflexivity]. apply bytes_ok_wfd in Eb.
  destruct (sp_len_ok bs) eqn:El; [|intros H; contradiction H; reflexivity]. apply Z.leb_le in El.
  unfold sp_n_ok. destruct (Nat.eqb_spec n 0) as [|Hn]; [intros H; contradiction H; reflexivity|]. cbn [negb andb]. intros _.
  apply dec_entry.
  - apply Hp.
  - intros v E. apply (sp_der_decode_iff n bs v Eb) in E. destruct E as [Hv E]. apply Hsame; [assumption|].
    rewrite E in El |- *. apply der_decode_complete; [lia | assumption | assumption].
  - intros w E. apply Hsame in E; [|assumption]. destruct (der_decode_sound true n bs w Eb E) as (_ & _ & Hv & _ & Ee & _).
    exists (eval w). apply (sp_der_decode_iff n bs (eval w) Eb). auto.
Qed.
Lemma entry_from_any_parts : let s := sp_from_any_parts true a in
  s <> Unsupported -> out_limbs (der_from_any_parts true (cv_nat 2 a) (sarg 0 a) (arg 1 a)) = s.
Proof.
  cbv zeta. unfold sp_from_any_parts, sp_bytes_arg. set (n := cv_nat 2 a). set (tb := sarg 0 a). set (c := arg 1 a).
  destruct (bytes_ok c) eqn:Eb; [|intros H; contradiction H; reflexivity]. apply bytes_ok_wfd in Eb.
  destruct ((0 <=? tb) && (tb <? 256) && sp_len_ok c && sp_n_ok n) eqn:Ed; [|intros H; contradiction H; reflexivity].
  cbn [negb]. intros _. apply andb_prop in Ed. destruct Ed as [Ed Hn]. apply andb_prop in Ed. destruct Ed as [_ El].
  apply Z.leb_le in El. unfold sp_n_ok in Hn. destruct (Nat.eqb_spec n 0); [discriminate|].
  rewrite horner_bev. assert (Hx : 0 <= bev c) by (apply bev_bounds; assumption).
  apply dec_entry.
  - apply der_from_any_parts_nopn.
  - intros v E. destruct (Z.eqb_spec tb 2) as [->|]; [|discriminate].
    destruct (list_eqb (sp_der_content (bev c)) c) eqn:Ec; [|discriminate]. apply list_eqb_eq in Ec.
    destruct (Z.ltb_spec (bev c) (Bn n)); [|discriminate]. cbn [andb] in E. apply some_inj in E. subst v.
    assert (Hc : der_canonb c = true) by (rewrite <- Ec; apply content_canon; assumption).
    change 2 with TAG_INTEGER. rewrite der_from_any_parts_run by assumption. apply try_from_mag0_run; [lia | lia].
  - intros w E. apply der_from_any_parts_ok in E; [|assumption]. destruct E as (-> & Hc & _ & Ht).
    apply try_from_mag0_fits in Ht; [|assumption]. exists (bev c).
    change (TAG_INTEGER =? 2) with true. rewrite canon_unique by assumption. rewrite list_eqb_refl. rewrite ltb_true by lia. reflexivity.
Qed.
Lemma entry_from_uintref : let s := sp_from_uintref true a in
  s <> Unsupported -> out_limbs (der_from_uintref true (cv_nat 1 a) (arg 0 a)) = s.
Proof.
  cbv zeta. unfold sp_from_uintref, sp_bytes_arg. set (n := cv_nat 1 a). set (bs := arg 0 a).
  destruct (bytes_ok bs) eqn:Eb; [|intros H; contradiction H; reflexivity]. apply bytes_ok_wfd in Eb.
  destruct (sp_len_ok bs && sp_n_ok n) eqn:Ed; [|intros H; contradiction H; reflexivity].
  cbn [negb]. intros _. apply andb_prop in Ed. destruct Ed as [El Hn]. apply Z.leb_le in El.
  unfold sp_n_ok in Hn. destruct (Nat.eqb_spec n 0); [discriminate|].
  rewrite horner_bev. assert (Hx : 0 <= bev bs) by (apply bev_bounds; assumption).
  destruct bs as [|b r] eqn:Ebs.
  { rewrite der_from_uintref_nil. rewrite bev_nil. pose proof (Bn_pos n). rewrite ltb_true by lia. reflexivity. }
  rewrite <- Ebs in *. assert (Hne : bs <> []) by (rewrite Ebs; discriminate).
  rewrite der_from_uintref_spec by assumption.
  apply dec_entry.
  - apply try_from_nopn.
  - intros v E. destruct (Z.ltb_spec (bev bs) (Bn n)); [|discriminate]. apply some_inj in E. subst v.
    apply try_from_mag0_run; lia.
  - intros w E. apply try_from_mag0_fits in E; [|assumption]. exists (bev bs). rewrite ltb_true by lia. reflexivity.
Qed.
Lemma entry_decode_value : let s := sp_decode_value true a in
  s <> Unsupported -> out_pair (der_decode_value true (cv_nat 2 a) (sarg 0 a) (arg 1 a)) = s.
Proof.
  cbv zeta. unfold sp_decode_value, sp_bytes_arg. set (n := cv_nat 2 a). set (hlen := sarg 0 a). set (bs := arg 1 a).
  destruct (bytes_ok bs) eqn:Eb; [|intros H; contradiction H; reflexivity]. apply bytes_ok_wfd in Eb.
  destruct ((0 <=? hlen) && (hlen <=? LEN_MAX) && sp_len_ok bs && sp_n_ok n) eqn:Ed; [|intros H; contradiction H; reflexivity].
  cbn [negb]. intros _. apply andb_prop in Ed. destruct Ed as [Ed Hn]. apply andb_prop in Ed. destruct Ed as [Ed El].
  apply andb_prop in Ed. destruct Ed as [H0 H1]. apply Z.leb_le in El, H0, H1.
  unfold sp_n_ok in Hn. destruct (Nat.eqb_spec n 0); [discriminate|].
  pose proof (der_decode_value_nopn n hlen bs) as Hp.
  destruct (Z.ltb_spec (lenZ bs) hlen) as [Hs|Hs].
  - (* not enough input *)
    destruct (der_decode_value true n hlen bs) as [[v rem]|e|] eqn:E; [|reflexivity|contradiction].
    exfalso. apply der_decode_value_ok in E; [|assumption|assumption]. destruct E as (c & rest & E & Lc & _).
    rewrite E, lenZ_app in Hs. pose proof (lenZ_nonneg rest). lia.
  - set (c := firstn (Z.to_nat hlen) bs). set (rest := skipn (Z.to_nat hlen) bs).
    assert (Es : bs = c ++ rest) by (symmetry; apply firstn_skipn).
    assert (Lc : lenZ c = hlen) by (apply lenZ_firstn; lia).
    assert (Hwc : wfd 256 c) by (apply wfd_firstn; assumption).
    assert (Lr : lenZ rest = lenZ bs - hlen) by (apply lenZ_skipn; lia).
    rewrite horner_bev. assert (Hx : 0 <= bev c) by (apply bev_bounds; assumption).
    destruct (list_eqb (sp_der_content (bev c)) c && (bev c <? Bn n)) eqn:Ec.
    + apply andb_prop in Ec. destruct Ec as [Ec Hv]. apply list_eqb_eq in Ec. apply Z.ltb_lt in Hv.
      assert (Hc : der_canonb c = true) by (rewrite <- Ec; apply content_canon; assumption).
      rewrite Es at 1. rewrite <- Lc at 1. rewrite der_decode_value_run by (try assumption; rewrite <- Es; assumption).
      rewrite try_from_mag0_run by lia. cbn [bind out_pair fst snd]. rewrite Lr. reflexivity.
    + destruct (der_decode_value true n hlen bs) as [[v rem]|e|] eqn:E; [|reflexivity|contradiction].
      exfalso. apply der_decode_value_ok in E; [|assumption|assumption]. destruct E as (c' & rest' & E & Lc' & Hwc' & Hcc & _ & Ht).
      assert (c' = c). { unfold c. rewrite E. rewrite <- Lc'. unfold lenZ. rewrite Nat2Z.id. symmetry. apply firstn_app_len. reflexivity. }
      subst c'. apply try_from_mag0_fits in Ht; [|assumption].
      rewrite canon_unique, list_eqb_refl in Ec by assumption. rewrite ltb_true in Ec by lia. discriminate.
Qed.
Lemma entry_rlp_decode : let s := sp_rlp_dec true a in
  s <> Unsupported -> out_limbs (rlp_decode true (cv_nat 1 a) (arg 0 a)) = s.
Proof.
  cbv zeta. unfold sp_rlp_dec, sp_bytes_arg. set (n := cv_nat 1 a). set (bs := arg 0 a).
  destruct (bytes_ok bs) eqn:Eb; [|intros H; contradiction H; reflexivity]. apply bytes_ok_wfd in Eb.
  destruct (Z.ltb_spec (lenZ bs) USIZE) as [Hu|Hu]; [|intros Hc; contradiction Hc; reflexivity]. intros _.
  apply dec_entry.
  - apply rlp_decode_nopn.
  - intros v E. apply (sp_rlp_decode_iff n bs v Eb) in E. destruct E as [Hv ->]. apply rlp_decode_complete; assumption.
  - intros w E. destruct (rlp_decode_sound n bs w Eb E) as (_ & _ & Hv & _ & Ee).
    exists (eval w). apply (sp_rlp_decode_iff n bs (eval w) Eb). auto.
Qed.
Lemma entry_rlp_decode_item : let s := sp_rlp_dec_item true a in
  s <> Unsupported -> out_limbs (rlp_decode_item true (cv_nat 1 a) (arg 0 a)) = s.
Proof.
  cbv zeta. unfold sp_rlp_dec_item, sp_bytes_arg. set (n := cv_nat 1 a). set (bs := arg 0 a).
  destruct (bytes_ok bs) eqn:Eb; [|intros H; contradiction H; reflexivity]. apply bytes_ok_wfd in Eb.
  destruct (Z.ltb_spec (lenZ bs) USIZE) as [Hu|Hu]; [|intros Hc; contradiction Hc; reflexivity]. intros _.
  apply dec_entry.
  - apply rlp_decode_item_nopn.
  - intros v E. unfold sp_rlp_decode_item in E.
    destruct (find _ _) as [k|] eqn:Ef; [|discriminate]. clear Ef.
    apply (sp_rlp_decode_iff n (firstn k bs) v (wfd_firstn 256 k bs Eb)) in E. destruct E as [Hv Ek].
    rewrite <- (firstn_skipn k bs) in Hu |- *. rewrite Ek in Hu |- *.
    rewrite rlp_decode_item_run by (assumption || lia). apply rlp_decode_complete; [assumption|].
    rewrite lenZ_app in Hu. pose proof (lenZ_nonneg (skipn k bs)). lia.
  - intros w E. unfold rlp_decode_item in E. inv_bind E. destruct a0 as [hl vl]. cbn [fst snd] in E.
    pose proof (payload_info_total _ _ _ Ha) as Ht. set (k0 := Z.to_nat (hl + vl)) in *.
    destruct (rlp_decode_sound n (firstn k0 bs) w (wfd_firstn 256 k0 bs Eb) E) as (_ & _ & Hv & _ & Ee).
    assert (Hs : sp_rlp_decode n (firstn k0 bs) = Some (eval w)).
    { apply (sp_rlp_decode_iff n (firstn k0 bs) (eval w) (wfd_firstn 256 k0 bs Eb)). auto. }
    unfold sp_rlp_decode_item.
    destruct (find _ _) as [k|] eqn:Ef.
    + apply find_some in Ef. destruct Ef as [_ Ef]. destruct (sp_rlp_decode n (firstn k bs)) as [v'|]; [exists v'; reflexivity | discriminate].
    + exfalso. pose proof (find_none _ _ Ef k0) as Hn. cbv beta in Hn. rewrite Hs in Hn.
      assert (In k0 (seq 0 (S (length bs)))); [|specialize (Hn H); discriminate].
      apply in_seq. unfold k0, lenZ in *. lia.
Qed.
End Entries.

Definition der_keys : list string :=
  ["der.encode"; "der.encoded_len"; "der.value_len"; "der.encode_value"; "der.from_der"; "der.from_any";
   "der.from_any_parts"; "der.from_uintref"; "der.decode_value"; "rlp.encode"; "rlp.decode"; "rlp.decode_item"]%string.

Theorem tables_agree_der : forall dbg a k, In k der_keys -> S18 k dbg a <> Unsupported -> M18 k dbg a = S18 k dbg a.
Proof.
  intros dbg a k Hin. unfold der_keys in Hin. cbn [In] in Hin.
  repeat (destruct Hin as [<- | Hin]); try contradiction; table_open.
  - apply (entry_der_enc a der_encode sp_der_encode); [apply der_encode_spec | reflexivity].
  - apply (entry_der_enc a der_encoded_len (fun x => lenZ (sp_der_encode x))); [apply der_encoded_len_spec | reflexivity].
  - apply (entry_der_enc a der_value_len sp_der_content_len); [apply der_value_len_spec | reflexivity].
  - apply (entry_der_enc a der_encode_value sp_der_content); [apply der_encode_value_spec | reflexivity].
  - apply (entry_from_der_like a (der_decode true)); [apply der_decode_nopn | reflexivity].
  - apply (entry_from_der_like a (der_from_any true)); [apply der_from_any_nopn | apply der_from_any_same].
  - apply entry_from_any_parts.
  - apply entry_from_uintref.
  - apply entry_decode_value.
  - apply entry_rlp_encode.
  - apply entry_rlp_decode.
  - apply entry_rlp_decode_item.
Qed.
