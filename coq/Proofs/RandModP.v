(** C19, part 2: RandomMod for Uint / BoxedUint (random_mod_core): model = specification, range,
    fixed = boxed, the all-ones stream, and the counting theorem for one acceptance round. *)
From CB Require Import Model.Limbs Model.AddSub Model.Rand Proofs.BitsP Proofs.WordP Proofs.LimbsP Proofs.AddSubP Proofs.PowMathP Proofs.RandBaseP.
From Coq Require Import ZArith Lia List Bool.
Open Scope Z_scope. Open Scope list_scope.

(** A model result agrees with a specification result: same value (as [n] limbs), the counters advanced
    by the specification's word / byte counts (the specification counted from [base] at the stream [ws0]),
    and the RNG left at the right position of the stream. *)
Definition rnd_agrees (n : nat) (ws0 : list Z) (base nw0 nb0 : Z) (o : option (list Z * rnd_rng)) (s : rnd_sp) : Prop :=
  match o, s with
  | Some (v, Rng rest nw nb), SpOk x k b =>
      v = to_limbs n x /\ 0 <= x < Bn n /\ nw = nw0 + k /\ nb = nb0 + b /\ base < k /\
      rest = skipn (Z.to_nat (k - base)) ws0
  | None, SpExhausted => True
  | _, _ => False
  end.

Lemma rnd_agrees_shift n pre ws base nw0 nb0 o s :
  rnd_agrees n ws (base + Z.of_nat (length pre)) nw0 nb0 o s -> rnd_agrees n (pre ++ ws) base nw0 nb0 o s.
Proof.
  unfold rnd_agrees. destruct o as [[v [rest nw nb]]|], s as [x k b|]; auto.
  intros (Hv & Hx & Hnw & Hnb & Hk & Hr). repeat split; try assumption; try lia.
  rewrite Hr. replace (Z.to_nat (k - base)) with (length pre + Z.to_nat (k - (base + Z.of_nat (length pre))))%nat by lia.
  symmetry. apply rnd_skipn_app_plus.
Qed.

(** a rejected attempt of k words: agreement on the rest of the stream, counted from base + k *)
Lemma rnd_agrees_skip n ws k base nw0 nb0 o s : (k <= length ws)%nat ->
  rnd_agrees n (skipn k ws) (base + Z.of_nat k) nw0 nb0 o s -> rnd_agrees n ws base nw0 nb0 o s.
Proof.
  intros Hk H. rewrite <- (firstn_skipn k ws). apply rnd_agrees_shift. rewrite firstn_length, Nat.min_l by assumption. exact H.
Qed.

Lemma rnd_agrees_some n ws0 base nw0 nb0 v r' s : rnd_agrees n ws0 base nw0 nb0 (Some (v, r')) s ->
  exists x k b, s = SpOk x k b /\ wf v /\ length v = n /\ eval v = x /\ 0 <= x < Bn n /\ base < k /\
                r' = Rng (skipn (Z.to_nat (k - base)) ws0) (nw0 + k) (nb0 + b).
Proof.
  unfold rnd_agrees. destruct r' as [rest nw nb], s as [x k b|]; [|contradiction].
  intros (-> & Hx & -> & -> & Hk & ->). exists x, k, b.
  repeat split; try assumption; try lia; [apply wf_to_limbs | apply length_to_limbs | apply to_limbs_small; assumption].
Qed.
(** [p + 1] significant limbs, top limb [h] with [tb] bits *)
Record rnd_shape (m : list Z) (p : nat) (h tb : Z) : Prop := {
  sh_len : (S p <= length m)%nat;
  sh_lo : Bn p <= eval m;
  sh_hi : eval m < Bn (S p);
  sh_h : h = eval m / Bn p;
  sh_hw : 0 < h < B;
  sh_nth : nthz m p = h;
  sh_tb : tb = rnd_bitlen h;
  sh_tbr : 1 <= tb <= 64;
  sh_bits : rnd_bitlen (eval m) = 64 * Z.of_nat p + tb
}.

Lemma rnd_shape_of m : wf m -> 0 < eval m ->
  exists p h tb, Z.to_nat ((rnd_bitlen (eval m) + 63) / 64) = S p /\ rnd_shape m p h tb.
Proof.
  intros Hw Hpos. set (M := eval m) in *. set (k := rnd_bitlen M).
  pose proof (rnd_bitlen_spec M Hpos) as (Hk & Hlo & Hhi). fold k in Hk, Hlo, Hhi.
  destruct (rnd_ceil64 k Hk) as [Hq1 Hq2]. set (q := (k + 63) / 64) in *.
  exists (Z.to_nat (q - 1)), (M / Bn (Z.to_nat (q - 1))), (k - 64 * (q - 1)).
  split; [lia|].
  set (p := Z.to_nat (q - 1)). assert (Hp : Z.of_nat p = q - 1) by lia.
  assert (HBp : Bn p <= M).
  { rewrite Bn_pow2, Hp. eapply Z.le_trans; [|exact Hlo]. apply pow2_le. lia. }
  assert (HBS : M < Bn (S p)).
  { rewrite Bn_pow2, Nat2Z.inj_succ, Hp. eapply Z.lt_le_trans; [exact Hhi|]. apply pow2_le. lia. }
  pose proof (Bn_pos p) as HBpos. pose proof B_pos.
  assert (Hh : 0 < M / Bn p < B).
  { split; [apply Z.div_str_pos; lia | apply Z.div_lt_upper_bound; [lia | rewrite Bn_S in HBS; lia]]. }
  assert (Hlen : (S p <= length m)%nat).
  { destruct (Nat.le_gt_cases (S p) (length m)) as [|Hc]; [assumption|exfalso].
    pose proof (eval_bounds m Hw) as Hb. fold M in Hb.
    assert (Bn (length m) <= Bn p) by (apply Bn_le; lia). lia. }
  assert (Hbits : k = 64 * Z.of_nat p + rnd_bitlen (M / Bn p)).
  { pose proof (Z.div_mod M (Bn p) ltac:(lia)) as Hdm. pose proof (Z.mod_pos_bound M (Bn p) ltac:(lia)) as Hmb.
    unfold k. rewrite Bn_pow2 in *.
    replace (rnd_bitlen M) with (rnd_bitlen (M mod 2 ^ (64 * Z.of_nat p) + 2 ^ (64 * Z.of_nat p) * (M / 2 ^ (64 * Z.of_nat p))))
      by (f_equal; lia).
    apply rnd_bitlen_shift; lia. }
  assert (Hs64 : 1 <= rnd_bitlen (M / Bn p) <= 64).
  { pose proof (rnd_bitlen_spec (M / Bn p) ltac:(lia)) as [? _].
    assert (rnd_bitlen (M / Bn p) <= 64) by (apply rnd_bitlen_lt; rewrite <- B_val; lia). lia. }
  assert (Hnth : nthz m p = M / Bn p).
  { rewrite nthz_eval by assumption. fold M. apply Z.mod_small. lia. }
  constructor; try assumption; try reflexivity; fold M; fold k; lia.
Qed.
Section Loop.
  Variables (m : list Z) (p : nat) (h tb : Z).
  Hypothesis Hwm : wf m.
  Hypothesis Hsh : rnd_shape m p h tb.
  Let mask := 2 ^ tb - 1.

  Lemma rnd_candidate_limbs hi lows :
    is_word hi -> wf lows -> length lows = p ->
    let n := lows ++ hi :: zeros (length m - S p) in
    wf n /\ length n = length m /\ eval n = hi * Bn p + eval lows.
  Proof.
    intros Hhi Hl Hlen n. destruct Hsh. subst n. split; [|split].
    - apply wf_app. split; [assumption|]. apply wf_cons. split; [assumption | apply wf_zeros].
    - rewrite app_length. cbn [length]. rewrite length_zeros. lia.
    - rewrite eval_app. cbn [eval]. rewrite eval_zeros, Hlen. ring.
  Qed.

  Lemma rnd_mod_loop_agrees nw0 nb0 : forall f1 f2 ws w cnt nw nb,
    is_word w -> wf ws -> (length ws < f1)%nat -> (length ws < f2)%nat ->
    nw = nw0 + (cnt + 1) -> nb = nb0 + 8 * (cnt + 1) ->
    rnd_agrees (length m) (w :: ws) cnt nw0 nb0
      (rnd_mod_loop f1 m (S p) h mask (w mod 2 ^ tb) (Rng ws nw nb))
      (sp_mod_loop f2 (eval m) (S p) tb (w :: ws) cnt).
  Proof.
    pose proof Hsh as Hsh'. destruct Hsh' as [Hlen Hlo Hhi Hh Hhw Hnth Htb Htbr Hbits].
    induction f1 as [|f1 IH]; intros f2 ws w cnt nw nb Hw Hws Hf1 Hf2 -> ->; [lia|].
    destruct f2 as [|f2]; [lia|].
    cbn [rnd_mod_loop sp_mod_loop].
    replace (S p - 1)%nat with p by lia. rewrite <- Hh.
    set (hi := w mod 2 ^ tb).
    assert (Hhiw : is_word hi) by (apply rnd_mod_pow_word; lia).
    (* after a rejection that consumed j further words: draw the next top word *)
    assert (Hnext : forall j nw nb, (j <= length ws)%nat ->
              nw = nw0 + (cnt + 1 + Z.of_nat j) -> nb = nb0 + 8 * (cnt + 1 + Z.of_nat j) ->
              rnd_agrees (length m) (w :: ws) cnt nw0 nb0
                match rnd_u64 (Rng (skipn j ws) nw nb) with
                | None => None
                | Some (w1, r1) => rnd_mod_loop f1 m (S p) h mask (wand w1 mask) r1
                end
                (sp_mod_loop f2 (eval m) (S p) tb (skipn j ws) (cnt + 1 + Z.of_nat j))).
    { intros j nw nb Hj -> ->. apply (rnd_agrees_skip _ (w :: ws) (S j)); [cbn [length]; lia|]. cbn [skipn].
      pose proof (wf_skipn j ws Hws) as Hw1. pose proof (skipn_length j ws) as Hl1.
      destruct (skipn j ws) as [|w1 ws1]; [destruct f2; exact I|].
      apply wf_cons in Hw1. destruct Hw1 as [Hw1 Hws1]. cbn [length] in Hl1.
      cbn [rnd_u64]. unfold mask. rewrite rnd_land_ones by lia.
      replace (cnt + Z.of_nat (S j)) with (cnt + 1 + Z.of_nat j) by lia.
      apply IH; try assumption; lia. }
    destruct (Z.gtb_spec hi h) as [Hgt|Hle].
    - (* early rejection *)
      replace (cnt + 1) with (cnt + 1 + Z.of_nat 0) by lia. apply (Hnext 0%nat); lia.
    - rewrite rnd_words_spec.
      destruct (Nat.ltb_spec (length ws) p) as [Hshort|Hlong]; [exact I|].
      destruct (rnd_firstn_block p ws Hws Hlong) as (Hlw & Hll & _ & Hlb).
      destruct (rnd_candidate_limbs hi (firstn p ws) Hhiw Hlw Hll) as (Hnw & Hnl & Hne).
      rewrite rnd_ct_lt_spec by (try assumption; lia). rewrite Hne.
      destruct (Z.ltb_spec (hi * Bn p + eval (firstn p ws)) (eval m)) as [Hacc|Hrej].
      + (* accepted *)
        unfold rnd_agrees. pose proof (Bn_pos p). unfold is_word in Hhiw.
        assert (0 <= hi * Bn p) by (apply Z.mul_nonneg_nonneg; lia).
        pose proof (eval_bounds m Hwm) as HbM.
        repeat split; try lia.
        * apply to_limbs_unique; try assumption. rewrite Hne. symmetry. apply Z.mod_small. lia.
        * replace (Z.to_nat (cnt + Z.of_nat (S p) - cnt)) with (S p) by lia. reflexivity.
      + (* rejected after the low words *)
        replace (cnt + Z.of_nat (S p)) with (cnt + 1 + Z.of_nat p) by lia. apply (Hnext p); lia.
  Qed.
End Loop.

(** random_mod_core, given the modulus' true bit length, is the specified rejection sampler *)
Theorem rnd_mod_core_spec m ws nw0 nb0 :
  wf m -> wf ws -> 0 < eval m ->
  rnd_agrees (length m) ws 0 nw0 nb0 (rnd_mod_core m (rnd_bitlen (eval m)) (Rng ws nw0 nb0)) (sp_random_mod (eval m) ws).
Proof.
  intros Hwm Hws Hpos. destruct (rnd_shape_of m Hwm Hpos) as (p & h & tb & Hnl & Hsh).
  unfold rnd_mod_core, sp_random_mod. rewrite Hnl.
  replace ((rnd_bitlen (eval m) + 64 - 1) / 64) with ((rnd_bitlen (eval m) + 63) / 64) by (f_equal; lia).
  unfold rnd_ceil. replace (rnd_bitlen (eval m) + 64 - 1) with (rnd_bitlen (eval m) + 63) by lia. rewrite Hnl.
  replace (S p - 1)%nat with p by lia.
  pose proof Hsh as Hsh'. destruct Hsh' as [Hlen Hlo Hhi Hh Hhw Hnth Htb Htbr Hbits].
  rewrite Hnth. rewrite rnd_mask_spec by assumption. rewrite <- Htb.
  replace (rnd_bitlen (eval m) - 64 * (Z.of_nat (S p) - 1)) with tb by lia.
  destruct ws as [|w ws]; [exact I|].
  apply wf_cons in Hws. destruct Hws as [Hw Hws].
  cbn [rnd_u64 rnd_left]. rewrite rnd_land_ones by lia.
  apply (rnd_mod_loop_agrees m p h tb Hwm Hsh); try assumption; cbn [length]; lia.
Qed.
Lemma rnd_front_nonzero m : 0 < eval m -> length m <> 0%nat.
Proof. intros H. destruct m; [cbn in H; lia | discriminate]. Qed.

(** Uint::random_mod and BoxedUint::random_mod are the same function of (modulus limbs, stream) *)
Theorem rnd_mod_fixed_eq_boxed m r : wf m -> 0 < eval m -> boxed_random_mod m r = uint_random_mod m r.
Proof.
  intros Hw Hp. unfold boxed_random_mod, uint_random_mod.
  rewrite rnd_bits_ct_spec, rnd_bits_vartime_spec by (try assumption; apply rnd_front_nonzero; assumption).
  reflexivity.
Qed.

Theorem uint_random_mod_spec m ws nw0 nb0 :
  wf m -> wf ws -> 0 < eval m ->
  rnd_agrees (length m) ws 0 nw0 nb0 (uint_random_mod m (Rng ws nw0 nb0)) (sp_random_mod (eval m) ws).
Proof.
  intros Hw Hws Hp. unfold uint_random_mod.
  rewrite rnd_bits_vartime_spec by (try assumption; apply rnd_front_nonzero; assumption).
  apply rnd_mod_core_spec; assumption.
Qed.

Theorem boxed_random_mod_spec m ws nw0 nb0 :
  wf m -> wf ws -> 0 < eval m ->
  rnd_agrees (length m) ws 0 nw0 nb0 (boxed_random_mod m (Rng ws nw0 nb0)) (sp_random_mod (eval m) ws).
Proof. intros. rewrite rnd_mod_fixed_eq_boxed by assumption. apply uint_random_mod_spec; assumption. Qed.

Lemma sp_mod_loop_range f : forall M nl tb ws cnt x k b,
  (0 < nl)%nat -> sp_mod_loop f M nl tb ws cnt = SpOk x k b ->
  x < M /\ b = 8 * k /\ cnt < k <= cnt + Z.of_nat (length ws).
Proof.
  induction f as [|f IH]; intros M nl tb ws cnt x k b Hnl E; [discriminate|].
  cbn [sp_mod_loop] in E. destruct ws as [|w ws]; [discriminate|]. cbn [length].
  destruct (w mod 2 ^ tb >? M / Bn (nl - 1)).
  - apply IH in E; [lia | assumption].
  - destruct (Nat.ltb_spec (length ws) (nl - 1)); [discriminate|].
    destruct (Z.ltb_spec (w mod 2 ^ tb * Bn (nl - 1) + eval (firstn (nl - 1) ws)) M).
    + injection E as E1 E2 E3. subst x k b. split; [assumption|]. split; [reflexivity|lia].
    + apply IH in E; [|assumption]. rewrite skipn_length in E. lia.
Qed.

Lemma rnd_nl_pos M : 0 < M -> (0 < Z.to_nat (rnd_ceil (rnd_bitlen M) 64))%nat.
Proof.
  intros H. unfold rnd_ceil. replace (rnd_bitlen M + 64 - 1) with (rnd_bitlen M + 63) by lia.
  pose proof (rnd_bitlen_spec M H) as [Hk _].
  pose proof (rnd_ceil64 _ Hk) as [H1 _]. lia.
Qed.

(** RANGE, for every stream: whatever the RNG outputs, a returned value is a well-formed integer of the
    modulus' width that is strictly below the modulus; [k] words (8 k bytes) were consumed *)
Theorem uint_random_mod_range m ws nw0 nb0 v r' :
  wf m -> wf ws -> 0 < eval m -> uint_random_mod m (Rng ws nw0 nb0) = Some (v, r') ->
  wf v /\ length v = length m /\ 0 <= eval v < eval m /\
  exists k, 0 < k /\ r' = Rng (skipn (Z.to_nat k) ws) (nw0 + k) (nb0 + 8 * k).
Proof.
  intros Hwm Hws Hpos E. pose proof (uint_random_mod_spec m ws nw0 nb0 Hwm Hws Hpos) as H. rewrite E in H.
  apply rnd_agrees_some in H. destruct H as (x & k & b & Es & Hw & Hl & He & Hx & Hk & ->).
  unfold sp_random_mod in Es. apply sp_mod_loop_range in Es; [|apply rnd_nl_pos; assumption]. destruct Es as (Hlt & -> & _).
  rewrite Z.sub_0_r. repeat split; try assumption; try lia. exists k. split; [lia | reflexivity].
Qed.
Lemma rnd_firstn_repeat (x : Z) p j : (p <= j)%nat -> firstn p (repeat x j) = repeat x p.
Proof. revert j. induction p as [|p IH]; intros j H; [reflexivity|]. destruct j; [lia|]. cbn. f_equal. apply IH. lia. Qed.
Lemma rnd_skipn_repeat (x : Z) p j : skipn p (repeat x j) = repeat x (j - p).
Proof. revert j. induction p as [|p IH]; intros j; [rewrite Nat.sub_0_r; reflexivity|]. destruct j; [reflexivity|]. cbn. apply IH. Qed.

Lemma rnd_MAXW_mod tb : 0 <= tb <= 64 -> MAXW mod 2 ^ tb = 2 ^ tb - 1.
Proof. intros H. rewrite MAXW_val, B_val. apply rnd_ones_mod. assumption. Qed.

Lemma sp_mod_loop_allones m p h tb : rnd_shape m p h tb ->
  forall f j cnt, sp_mod_loop f (eval m) (S p) tb (repeat MAXW j) cnt = SpExhausted.
Proof.
  intros [Hlen Hlo Hhi Hh Hhw Hnth Htb Htbr Hbits].
  induction f as [|f IH]; intros j cnt; [reflexivity|].
  cbn [sp_mod_loop]. destruct j as [|j]; [reflexivity|]. cbn [repeat].
  replace (S p - 1)%nat with p by lia. rewrite <- Hh, rnd_MAXW_mod by lia.
  destruct (Z.gtb_spec (2 ^ tb - 1) h); [apply IH|].
  rewrite repeat_length. destruct (Nat.ltb_spec j p); [reflexivity|].
  rewrite rnd_firstn_repeat by assumption. fold (maxs p). rewrite eval_maxs.
  pose proof (rnd_bitlen_spec h ltac:(lia)) as (_ & _ & Hub). rewrite <- Htb in Hub.
  pose proof (Bn_pos p). pose proof (Z.div_mod (eval m) (Bn p) ltac:(lia)) as Hdm.
  pose proof (Z.mod_pos_bound (eval m) (Bn p) ltac:(lia)). rewrite <- Hh in Hdm.
  assert (Heq : h = 2 ^ tb - 1) by lia.
  destruct (Z.ltb_spec ((2 ^ tb - 1) * Bn p + (Bn p - 1)) (eval m)) as [Hc|_]; [exfalso; rewrite <- Heq in Hc; nia|].
  rewrite rnd_skipn_repeat. apply IH.
Qed.
