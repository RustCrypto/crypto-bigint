(** C05 proofs, part 2: the constant-time shift ladder (Uint::overflowing_shl / shr, BoxedUint::overflowing_shl / shr)
    and the wrapping / panicking forms derived from it. *)
From CB Require Import Model.Limbs Model.AddSub Model.Bits Proofs.WordP Proofs.LimbsP Proofs.AddSubP
  Proofs.BitsWordP Proofs.ShiftP.
From Coq Require Import ZArith Lia List Bool.
Open Scope Z_scope.

Lemma ct_expect_some v : ct_expect (v, MAXW) = Some v.
Proof. unfold ct_expect. cbn [fst snd]. rewrite Z.eqb_refl. reflexivity. Qed.

Lemma ct_expect_choice v b : ct_expect (v, choice_of_bool b) = if b then Some v else None.
Proof. unfold ct_expect. cbn [fst snd]. rewrite choice_MAXW_iff. reflexivity. Qed.

Lemma ct_unwrap_or_choice v b def : wf v -> wf def -> length def = length v ->
  ct_unwrap_or (v, choice_of_bool b) def = if b then v else def.
Proof. intros. unfold ct_unwrap_or. cbn [fst snd]. apply select_limbs_choice; auto. Qed.

Lemma select_zeros_choice b r n : wf r -> length r = n ->
  select_limbs (choice_of_bool b) r (zeros n) = if b then zeros n else r.
Proof. intros. apply select_limbs_choice; auto using wf_zeros. rewrite length_zeros. assumption. Qed.

Lemma bits_ge_64 a : a <> [] -> 64 <= bitsZ' a.
Proof. unfold bitsZ'. destruct a; [congruence|]. simpl length. lia. Qed.

Section Ladder.
  Variable step : list Z -> Z -> ctopt.
  Variable n : nat.
  Variable bits : Z.
  Variable P : Z -> list Z -> Prop.    (* [P acc r]: r is the input shifted by acc *)
  Hypothesis P_wf : forall acc r, P acc r -> wf r /\ length r = n.
  Hypothesis step_ok : forall acc r d, P acc r -> 0 <= acc -> 0 <= d < bits ->
    exists v, ct_expect (step r d) = Some v /\ P (acc + d) v.

  (** k rounds from bit i on add the k bits of [shift] at positions i .. i+k-1 to the distance already shifted *)
  Lemma ladder_correct k : forall i shift acc r,
    0 <= i -> 0 <= shift -> 0 <= acc -> P acc r ->
    (k = O \/ 2 ^ (i + Z.of_nat k - 1) < bits) ->
    exists r', ladder step k i shift r = Some r' /\
               P (acc + ((shift / 2 ^ i) mod 2 ^ Z.of_nat k) * 2 ^ i) r'.
  Proof.
    induction k as [|k IH]; intros i shift acc r Hi Hs Hacc HP Hb.
    - exists r. split; [reflexivity|]. simpl. rewrite Z.mod_1_r, Z.mul_0_l, Z.add_0_r. exact HP.
    - destruct Hb as [Hb|Hb]; [discriminate|].
      rewrite Nat2Z.inj_succ in *. replace (i + Z.succ (Z.of_nat k) - 1) with (i + Z.of_nat k) in Hb by lia.
      pose proof (pow2_pos i Hi) as Hpi.
      assert (Hd : 0 <= 2 ^ i < bits).
      { pose proof (pow2_le i (i + Z.of_nat k) ltac:(lia)). lia. }
      destruct (step_ok acc r (2 ^ i) HP Hacc Hd) as (v & Ev & Pv).
      cbn [ladder]. rewrite Ev.
      set (X := shift / 2 ^ i).
      assert (HX : 0 <= X) by (apply Z.div_pos; lia).
      rewrite land_1_mod2.
      pose proof (Z.mod_pos_bound X 2 ltac:(lia)) as Hb2.
      assert (Eb : from_u32_lsb (X mod 2) = choice_of_bool (X mod 2 =? 1)).
      { rewrite <- from_u32_lsb_bool. f_equal.
        destruct (Z.eqb_spec (X mod 2) 1) as [->|]; simpl; lia. }
      rewrite Eb.
      destruct (P_wf _ _ HP) as [Wr Lr]. destruct (P_wf _ _ Pv) as [Wv Lv].
      rewrite select_limbs_choice by (auto; lia).
      set (b := X mod 2) in *.
      assert (HPn : P (acc + b * 2 ^ i) (if b =? 1 then v else r)).
      { destruct (Z.eqb_spec b 1) as [->|Hne].
        - rewrite Z.mul_1_l. exact Pv.
        - replace b with 0 by lia. rewrite Z.mul_0_l, Z.add_0_r. exact HP. }
      assert (Hacc' : 0 <= acc + b * 2 ^ i) by (assert (0 <= b * 2 ^ i) by (apply Z.mul_nonneg_nonneg; lia); lia).
      destruct (IH (i + 1) shift (acc + b * 2 ^ i) _ ltac:(lia) Hs Hacc' HPn) as (r' & Er & Pr).
      { destruct k; [left; reflexivity|right].
        replace (i + 1 + Z.of_nat (S k) - 1) with (i + Z.of_nat (S k)) by lia. exact Hb. }
      exists r'. split; [exact Er|].
      assert (E2 : shift / 2 ^ (i + 1) = X / 2).
      { unfold X. rewrite pow2_split by lia. rewrite Z.pow_1_r. symmetry. apply Z.div_div; lia. }
      assert (E3 : X mod 2 ^ Z.succ (Z.of_nat k) = b + 2 * ((X / 2) mod 2 ^ Z.of_nat k)).
      { rewrite Z.pow_succ_r by lia. pose proof (pow2_pos (Z.of_nat k) ltac:(lia)).
        rewrite Z.rem_mul_r by lia. reflexivity. }
      rewrite E2 in Pr. rewrite E3.
      replace (acc + (b + 2 * ((X / 2) mod 2 ^ Z.of_nat k)) * 2 ^ i)
        with (acc + b * 2 ^ i + (X / 2) mod 2 ^ Z.of_nat k * 2 ^ (i + 1)); [exact Pr|].
      rewrite pow2_split by lia. rewrite Z.pow_1_r. ring.
  Qed.

  (** the whole ladder: k = shift_bits, starting from the unshifted input *)
  Lemma ladder_full a sh : 64 <= bits -> P 0 a -> 0 <= sh < bits ->
    exists r', ladder step (Z.to_nat (shift_bits bits)) 0 sh a = Some r' /\ P sh r'.
  Proof.
    intros Hbits HP Hsh.
    unfold shift_bits, u32_lz. replace (32 - (32 - bitlen (bits - 1))) with (bitlen (bits - 1)) by lia.
    pose proof (bitlen_spec (bits - 1) ltac:(lia)) as [[K1 K2] K3].
    set (kz := bitlen (bits - 1)) in *.
    destruct (ladder_correct (Z.to_nat kz) 0 sh 0 a ltac:(lia) ltac:(lia) ltac:(lia) HP) as (r' & Er & Pr).
    { right. rewrite Z2Nat.id by lia. replace (0 + kz - 1) with (kz - 1) by lia. lia. }
    exists r'. split; [exact Er|].
    rewrite Z2Nat.id in Pr by lia. rewrite Z.pow_0_r, Z.div_1_r, Z.mul_1_r, Z.add_0_l in Pr.
    rewrite Z.mod_small in Pr by lia. exact Pr.
  Qed.
End Ladder.

(** Uint::overflowing_shl and overflowing_shr are one function of the variable-time shift they iterate *)
Definition ct_shift (step : list Z -> Z -> ctopt) (a : list Z) (shift : Z) : option ctopt :=
  let bits := 64 * lenZ a in
  let overflow := choice_not (from_u32_lt shift bits) in
  match ladder step (Z.to_nat (shift_bits bits)) 0 (shift mod bits) a with
  | None => None
  | Some r => Some (select_limbs overflow r (zeros (length a)), choice_not overflow)
  end.

(** Everything below the limb loops is shared by the left and the right shift: [val n x s] is the value of the
    n-limb number x shifted by s, and all that is used of it is that shifts compose. *)
Record shift_kernel (step : list Z -> Z -> ctopt) (val : nat -> Z -> Z -> Z) : Prop := {
  val_0 : forall n x, 0 <= x < Bn n -> val n x 0 = x;
  val_add : forall n x s d, 0 <= s -> 0 <= d -> val n (val n x s) d = val n x (s + d);
  val_range : forall n x s, 0 <= x < Bn n -> 0 <= s -> 0 <= val n x s < Bn n;
  step_correct : forall a s, wf a -> 0 <= s ->
    let r := step a s in
    snd r = choice_of_bool (s <? bitsZ' a) /\ wf (fst r) /\ length (fst r) = length a /\
    eval (fst r) = if s <? bitsZ' a then val (length a) (eval a) s else 0 }.

Section Shift.
  Variable step : list Z -> Z -> ctopt.
  Variable val : nat -> Z -> Z -> Z.
  Hypothesis K : shift_kernel step val.

  Lemma step_res a s : wf a -> 0 <= s ->
    exists v, step a s = (v, choice_of_bool (s <? bitsZ' a)) /\ wf v /\ length v = length a /\
              eval v = if s <? bitsZ' a then val (length a) (eval a) s else 0.
  Proof.
    intros Hw Hs. pose proof (step_correct _ _ K a s Hw Hs) as H. cbn zeta in H.
    destruct (step a s) as [v c]. cbn [fst snd] in H. destruct H as (-> & H). exists v. auto.
  Qed.

  Lemma step_some a d : wf a -> 0 <= d < bitsZ' a ->
    exists v, ct_expect (step a d) = Some v /\ wf v /\ length v = length a /\
              eval v = val (length a) (eval a) d.
  Proof.
    intros Hw Hd. destruct (step_res a d Hw ltac:(lia)) as (v & -> & H). exists v.
    rewrite ct_expect_choice. destruct (Z.ltb_spec d (bitsZ' a)); [auto|lia].
  Qed.

  Lemma step_none a d : wf a -> bitsZ' a <= d -> ct_expect (step a d) = None.
  Proof.
    intros Hw Hd. destruct (step_res a d Hw ltac:(unfold bitsZ' in Hd; lia)) as (v & -> & _).
    rewrite ct_expect_choice. destruct (Z.ltb_spec d (bitsZ' a)); [lia|reflexivity].
  Qed.

  (** the ladder applied to [a] holds [a] shifted by [acc] *)
  Definition shifted (a : list Z) (acc : Z) (r : list Z) : Prop :=
    wf r /\ length r = length a /\ eval r = val (length a) (eval a) acc.

  Lemma ladder_shift a sh : wf a -> a <> [] -> 0 <= sh < bitsZ' a ->
    exists r, ladder step (Z.to_nat (shift_bits (bitsZ' a))) 0 sh a = Some r /\ shifted a sh r.
  Proof.
    intros Hw Hne Hsh.
    apply (ladder_full step (length a) (bitsZ' a) (shifted a)); [| | apply bits_ge_64, Hne | | exact Hsh].
    - intros acc r (W & L & _). auto.
    - intros acc r d (Wr & Lr & Er) Hacc Hd.
      destruct (step_some r d Wr ltac:(unfold bitsZ' in *; rewrite Lr; exact Hd)) as (v & Ev & Wv & Lv & Vv).
      exists v. split; [exact Ev|]. split; [exact Wv|]. split; [congruence|].
      rewrite Vv, Lr, Er. apply (val_add _ _ K); lia.
    - split; [exact Hw|]. split; [reflexivity|]. symmetry. apply (val_0 _ _ K), eval_bounds, Hw.
  Qed.

  (** the result of the ladder with everything beyond the width zeroed *)
  Lemma ladder_masked a s : wf a -> a <> [] -> 0 <= s ->
    exists r, ladder step (Z.to_nat (shift_bits (bitsZ' a))) 0 (s mod bitsZ' a) a = Some r /\
      let v := select_limbs (choice_of_bool (negb (s <? bitsZ' a))) r (zeros (length a)) in
      wf v /\ length v = length a /\ eval v = if s <? bitsZ' a then val (length a) (eval a) s else 0.
  Proof.
    intros Hw Hne Hs. pose proof (bits_ge_64 a Hne).
    destruct (ladder_shift a (s mod bitsZ' a) Hw Hne ltac:(apply Z.mod_pos_bound; lia)) as (r & Er & Wr & Lr & Vr).
    exists r. split; [exact Er|]. cbn zeta. rewrite select_zeros_choice by assumption.
    destruct (Z.ltb_spec s (bitsZ' a)); cbn [negb].
    - rewrite Z.mod_small in Vr by lia. auto.
    - rewrite eval_zeros, length_zeros. auto using wf_zeros.
  Qed.

  Theorem ct_shift_correct a s : wf a -> a <> [] -> bitsZ' a < U32 -> 0 <= s < U32 ->
    exists v, ct_shift step a s = Some (v, choice_of_bool (s <? bitsZ' a)) /\
              wf v /\ length v = length a /\
              eval v = if s <? bitsZ' a then val (length a) (eval a) s else 0.
  Proof.
    intros Hw Hne Hbits Hs. pose proof (bits_ge_64 a Hne).
    destruct (ladder_masked a s Hw Hne ltac:(lia)) as (r & Er & Hv).
    unfold ct_shift, lenZ, choice_not. fold (bitsZ' a). rewrite Er, from_u32_lt_bool, !wnot_choice, negb_involutive by lia.
    eexists. split; [reflexivity | exact Hv].
  Qed.

  (** the constant-time and the variable-time forms return identical results *)
  Theorem ct_shift_eq_vartime a s : wf a -> a <> [] -> bitsZ' a < U32 -> 0 <= s < U32 ->
    ct_shift step a s = Some (step a s).
  Proof.
    intros Hw Hne Hb Hs.
    destruct (ct_shift_correct a s Hw Hne Hb Hs) as (v & -> & Wv & Lv & Ev).
    destruct (step_res a s Hw ltac:(lia)) as (v' & -> & Wv' & Lv' & Ev').
    replace v' with v by (apply eval_inj; congruence). reflexivity.
  Qed.

  Theorem boxed_shift_correct a s : wf a -> a <> [] -> 0 <= s ->
    exists v, boxed_overflowing_shift step a s = Some (v, negb (s <? bitsZ' a)) /\ wf v /\ length v = length a /\
              eval v = if s <? bitsZ' a then val (length a) (eval a) s else 0.
  Proof.
    intros Hw Hne Hs. destruct (ladder_masked a s Hw Hne Hs) as (r & Er & Hv).
    unfold boxed_overflowing_shift, lenZ. fold (bitsZ' a). rewrite Er.
    eexists. split; [reflexivity | exact Hv].
  Qed.

  (** wrapping_*_vartime: zero when s >= BITS *)
  Theorem wrapping_vartime_correct a s : wf a -> 0 <= s ->
    let r := ct_unwrap_or (step a s) (zeros (length a)) in
    wf r /\ length r = length a /\
    eval r = if s <? bitsZ' a then val (length a) (eval a) s else 0.
  Proof.
    intros Hw Hs. cbn zeta. destruct (step_res a s Hw Hs) as (v & -> & Wv & Lv & Ev).
    rewrite ct_unwrap_or_choice by (auto using wf_zeros; rewrite length_zeros; lia).
    destruct (s <? bitsZ' a); [auto|]. rewrite eval_zeros, length_zeros. auto using wf_zeros.
  Qed.

  (** what the API forms return (Some / None / panic), cf. the op table of Model/Bits.v *)
  Theorem shift_forms a s : wf a -> a <> [] -> bitsZ' a < U32 -> 0 <= s < U32 ->
    let spec := to_limbs (length a) (val (length a) (eval a) s) in
    let inr := s <? bitsZ' a in
    out_ctopt (ct_shift step a s) = (if inr then Val [spec] else NoneV) /\
    out_ctopt (Some (step a s)) = (if inr then Val [spec] else NoneV) /\
    out_expect (ct_shift step a s) = (if inr then Val [spec] else PanicV) /\
    out_expect (Some (step a s)) = (if inr then Val [spec] else PanicV) /\
    out_unwrap_or (ct_shift step a s) (zeros (length a)) = Val [if inr then spec else zeros (length a)] /\
    out_unwrap_or (Some (step a s)) (zeros (length a)) = Val [if inr then spec else zeros (length a)].
  Proof.
    intros Hw Hne Hb Hs. cbn zeta. rewrite (ct_shift_eq_vartime a s Hw Hne Hb Hs).
    destruct (step_res a s Hw ltac:(lia)) as (v & -> & Wv & Lv & Ev).
    unfold out_ctopt, out_expect, out_unwrap_or, ct_is_some. cbn [fst snd].
    rewrite ct_expect_choice, choice_to_bool_choice.
    rewrite ct_unwrap_or_choice by (auto using wf_zeros; rewrite length_zeros; lia).
    destruct (s <? bitsZ' a); [|repeat split; reflexivity].
    replace v with (to_limbs (length a) (val (length a) (eval a) s)); [repeat split; reflexivity|].
    symmetry. apply to_limbs_unique; auto. rewrite Ev. symmetry.
    apply Z.mod_small, (val_range _ _ K); [apply eval_bounds, Hw | lia].
  Qed.
End Shift.

Lemma shl_kernel : shift_kernel uint_overflowing_shl_vartime spec_shl.
Proof.
  split; unfold spec_shl.
  - intros n x Hx. rewrite Z.pow_0_r, Z.mul_1_r. apply Z.mod_small, Hx.
  - intros n x s d Hs Hd. pose proof (Bn_pos n). rewrite Z.mul_mod_idemp_l, pow2_split by lia. f_equal. ring.
  - intros n x s _ _. apply Z.mod_pos_bound, Bn_pos.
  - exact shl_vartime_correct.
Qed.

Lemma shr_kernel : shift_kernel uint_overflowing_shr_vartime (fun _ => spec_shr).
Proof.
  split; unfold spec_shr.
  - intros _ x _. apply Z.div_1_r.
  - intros _ x s d Hs Hd. rewrite pow2_split by lia.
    pose proof (pow2_pos s Hs). pose proof (pow2_pos d Hd). apply Z.div_div; lia.
  - intros n x s Hx Hs. pose proof (pow2_pos s Hs).
    split; [apply Z.div_pos; lia|]. apply Z.le_lt_trans with x; [|lia]. apply Z.div_le_upper_bound; nia.
  - exact shr_vartime_correct.
Qed.

Lemma boxed_shr_kernel : shift_kernel boxed_shr_vartime_into (fun _ => spec_shr).
Proof.
  destruct shr_kernel as [H0 Ha Hr Hs]. split; try assumption.
  intros a s. rewrite boxed_shr_vartime_into_eq. apply Hs.
Qed.

Theorem uint_overflowing_shl_correct a s :
  wf a -> a <> [] -> bitsZ' a < U32 -> 0 <= s < U32 ->
  exists v, uint_overflowing_shl a s = Some (v, choice_of_bool (s <? bitsZ' a)) /\
            wf v /\ length v = length a /\
            eval v = if s <? bitsZ' a then (eval a * 2 ^ s) mod Bn (length a) else 0.
Proof. exact (ct_shift_correct _ _ shl_kernel a s). Qed.

Theorem uint_overflowing_shr_correct a s :
  wf a -> a <> [] -> bitsZ' a < U32 -> 0 <= s < U32 ->
  exists v, uint_overflowing_shr a s = Some (v, choice_of_bool (s <? bitsZ' a)) /\
            wf v /\ length v = length a /\
            eval v = if s <? bitsZ' a then eval a / 2 ^ s else 0.
Proof. exact (ct_shift_correct _ _ shr_kernel a s). Qed.

Theorem uint_shl_ct_eq_vartime a s :
  wf a -> a <> [] -> bitsZ' a < U32 -> 0 <= s < U32 ->
  uint_overflowing_shl a s = Some (uint_overflowing_shl_vartime a s).
Proof. exact (ct_shift_eq_vartime _ _ shl_kernel a s). Qed.

Theorem uint_shr_ct_eq_vartime a s :
  wf a -> a <> [] -> bitsZ' a < U32 -> 0 <= s < U32 ->
  uint_overflowing_shr a s = Some (uint_overflowing_shr_vartime a s).
Proof. exact (ct_shift_eq_vartime _ _ shr_kernel a s). Qed.

Theorem uint_wrapping_shl_vartime_correct a s : wf a -> 0 <= s ->
  let r := ct_unwrap_or (uint_overflowing_shl_vartime a s) (zeros (length a)) in
  wf r /\ length r = length a /\
  eval r = if s <? bitsZ' a then (eval a * 2 ^ s) mod Bn (length a) else 0.
Proof. exact (wrapping_vartime_correct _ _ shl_kernel a s). Qed.

Theorem uint_wrapping_shr_vartime_correct a s : wf a -> 0 <= s ->
  let r := ct_unwrap_or (uint_overflowing_shr_vartime a s) (zeros (length a)) in
  wf r /\ length r = length a /\
  eval r = if s <? bitsZ' a then eval a / 2 ^ s else 0.
Proof. exact (wrapping_vartime_correct _ _ shr_kernel a s). Qed.

Theorem uint_shl_forms a s : wf a -> a <> [] -> bitsZ' a < U32 -> 0 <= s < U32 ->
  let spec := to_limbs (length a) ((eval a * 2 ^ s) mod Bn (length a)) in
  let inr := s <? bitsZ' a in
  out_ctopt (uint_overflowing_shl a s) = (if inr then Val [spec] else NoneV) /\
  out_ctopt (Some (uint_overflowing_shl_vartime a s)) = (if inr then Val [spec] else NoneV) /\
  out_expect (uint_overflowing_shl a s) = (if inr then Val [spec] else PanicV) /\
  out_expect (Some (uint_overflowing_shl_vartime a s)) = (if inr then Val [spec] else PanicV) /\
  out_unwrap_or (uint_overflowing_shl a s) (zeros (length a)) = Val [if inr then spec else zeros (length a)] /\
  out_unwrap_or (Some (uint_overflowing_shl_vartime a s)) (zeros (length a)) = Val [if inr then spec else zeros (length a)].
Proof. exact (shift_forms _ _ shl_kernel a s). Qed.

Theorem uint_shr_forms a s : wf a -> a <> [] -> bitsZ' a < U32 -> 0 <= s < U32 ->
  let spec := to_limbs (length a) (eval a / 2 ^ s) in
  let inr := s <? bitsZ' a in
  out_ctopt (uint_overflowing_shr a s) = (if inr then Val [spec] else NoneV) /\
  out_ctopt (Some (uint_overflowing_shr_vartime a s)) = (if inr then Val [spec] else NoneV) /\
  out_expect (uint_overflowing_shr a s) = (if inr then Val [spec] else PanicV) /\
  out_expect (Some (uint_overflowing_shr_vartime a s)) = (if inr then Val [spec] else PanicV) /\
  out_unwrap_or (uint_overflowing_shr a s) (zeros (length a)) = Val [if inr then spec else zeros (length a)] /\
  out_unwrap_or (Some (uint_overflowing_shr_vartime a s)) (zeros (length a)) = Val [if inr then spec else zeros (length a)].
Proof. exact (shift_forms _ _ shr_kernel a s). Qed.

Theorem boxed_overflowing_shl_correct a s : wf a -> a <> [] -> 0 <= s ->
  exists v, boxed_overflowing_shl a s = Some (v, negb (s <? bitsZ' a)) /\ wf v /\ length v = length a /\
            eval v = if s <? bitsZ' a then (eval a * 2 ^ s) mod Bn (length a) else 0.
Proof. exact (boxed_shift_correct _ _ shl_kernel a s). Qed.

Theorem boxed_overflowing_shr_correct a s : wf a -> a <> [] -> 0 <= s ->
  exists v, boxed_overflowing_shr a s = Some (v, negb (s <? bitsZ' a)) /\ wf v /\ length v = length a /\
            eval v = if s <? bitsZ' a then eval a / 2 ^ s else 0.
Proof. exact (boxed_shift_correct _ _ boxed_shr_kernel a s). Qed.
