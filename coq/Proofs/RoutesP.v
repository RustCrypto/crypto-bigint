(** C15 — where two DIFFERENT algorithms of the crate serve the same mathematical operation, they return the same limbs:
    a corollary of the two algorithms' model = spec theorems (C02, C03, C05, C06, C20) plus uniqueness of the canonical
    limb representation ([eval_inj]).  Here: the uniqueness lemmas, [div_ct_eq_vartime] and [boxed_mul_eq_fixed]; the other
    routes are proved in Props/C15.v. *)
From CB Require Import Model.Limbs Model.AddSub Model.Mul Model.Div Model.Sqrt Model.Cmp
  Proofs.WordP Proofs.LimbsP Proofs.AddSubP
  Proofs.MulBaseP Proofs.MulSqP Proofs.MulKaraP Proofs.MulBoxedP Proofs.MulApiP
  Proofs.DivP Proofs.DivFinalP Proofs.SqrtP Proofs.CmpP Proofs.CmpBoxedP Proofs.CmpAllP.
From Coq Require Import ZArith List Lia.
Open Scope Z_scope.
Notation length := List.length.

(** what every division routine is proved to return: quotient and remainder of x by y as canonical limb lists of the
    widths nq and nr; there is only one such pair *)
Definition divmod_at (x y : list Z) (nq nr : nat) (q r : list Z) : Prop :=
  eval x = eval q * eval y + eval r /\ 0 <= eval r < eval y /\ length q = nq /\ length r = nr /\ wf q /\ wf r.
Lemma divmod_at_unique x y nq nr q r q' r' : divmod_at x y nq nr q r -> divmod_at x y nq nr q' r' -> q = q' /\ r = r'.
Proof.
  intros (E1 & R1 & Lq & Lr & Wq & Wr) (E2 & R2 & Lq2 & Lr2 & Wq2 & Wr2).
  destruct (div_mod_unique_pos (eval y) (eval q) (eval r) (eval x) R1 E1) as [Q1 M1].
  destruct (div_mod_unique_pos (eval y) (eval q') (eval r') (eval x) R2 E2) as [Q2 M2].
  split; apply eval_inj; auto; congruence.
Qed.

(* ------------------------------------------------------------------ division *)

(** Uint::div_rem (constant time: fixed trip count, masked steps) = Uint::div_rem_vartime (Knuth D with early exits) *)
Lemma div_ct_eq_vartime x y : wf x -> wf y -> length y = length x -> eval y <> 0 ->
  uint_div_rem x y = Some (div_rem_vartime x y).
Proof.
  intros Hx Hy Hl Hn. destruct (uint_div_rem_total x y Hx Hy Hl Hn) as (q & r & -> & D).
  destruct (div_rem_vartime x y) as [q2 r2] eqn:E2.
  pose proof (div_rem_vartime_total x y q2 r2 Hx Hy Hn E2) as D2. rewrite Hl in D2.
  destruct (divmod_at_unique _ _ _ _ _ _ _ _ D D2) as [-> ->]. reflexivity.
Qed.

(* ------------------------------------------------------------------ multiplication *)

(** the (lo, hi) halves of a wide value are determined by the value *)
Lemma halves_unique n v lo hi lo2 hi2 :
  eval lo + Bn n * eval hi = v -> eval lo2 + Bn n * eval hi2 = v ->
  wf lo -> wf hi -> wf lo2 -> wf hi2 -> length lo = n -> length lo2 = n -> length hi = length hi2 ->
  (lo, hi) = (lo2, hi2).
Proof.
  intros E1 E2 Wlo Whi Wlo2 Whi2 Llo Llo2 Lhi.
  pose proof (eval_bounds lo Wlo) as B1. pose proof (eval_bounds lo2 Wlo2) as B2. rewrite Llo in B1. rewrite Llo2 in B2.
  destruct (div_mod_unique_pos (Bn n) (eval hi) (eval lo) v B1 ltac:(lia)) as [Q1 M1].
  destruct (div_mod_unique_pos (Bn n) (eval hi2) (eval lo2) v B2 ltac:(lia)) as [Q2 M2].
  f_equal; apply eval_inj; auto; congruence.
Qed.

(** BoxedUint::mul = Uint::split_mul glued, i.e. fixed and boxed products are limb-for-limb equal *)
Lemma boxed_mul_eq_fixed x y lo hi : wf x -> wf y -> uint_split_mul x y = (lo, hi) ->
  boxed_mul x y = lo ++ hi.
Proof.
  intros Hx Hy E.
  destruct (boxed_mul_correct x y Hx Hy) as (E1 & W1 & L1).
  destruct (uint_split_mul_eval x y lo hi Hx Hy E) as (Ev & Wlo & Whi & Llo & Lhi).
  apply eval_inj; auto.
  - apply wf_app; auto.
  - rewrite app_length. lia.
  - rewrite eval_app, Llo. lia.
Qed.
