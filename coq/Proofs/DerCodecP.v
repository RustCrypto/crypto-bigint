(** C18 proofs, part 2: the DER model (reader, tag, length, header, content, glue) against the specification. *)
From CB Require Import Model.Limbs Model.Conv Model.Der Proofs.WordP Proofs.LimbsP Proofs.ConvDigitsP Proofs.ConvBytesP
  Proofs.BitsP Proofs.DerSpecP.
From Coq Require Import ZArith Lia List Bool.
Import ListNotations.
Open Scope Z_scope.
Open Scope list_scope.
Lemma bind_ok {A C} (r : res A) (f : A -> res C) y : bind r f = Ok y -> exists a, r = Ok a /\ f a = Ok y.
Proof. destruct r; cbn [bind]; intros H; try discriminate. exists a. split; [reflexivity | assumption]. Qed.
Lemma bind_nopn {A C} (r : res A) (f : A -> res C) : r <> Pn -> (forall a, r = Ok a -> f a <> Pn) -> bind r f <> Pn.
Proof. destruct r; cbn [bind]; intros H1 H2; [apply H2; reflexivity | discriminate | contradiction]. Qed.
Lemma bind_noOk {A C} (r : res A) (f : A -> res C) y : bind r f = Ok y -> r <> Pn.
Proof. destruct r; cbn [bind]; intros H; discriminate. Qed.
Lemma ok_inj {A} (a b : A) : Ok a = Ok b -> a = b. Proof. intros H. injection H. auto. Qed.
Lemma some_inj {A} (a b : A) : Some a = Some b -> a = b. Proof. intros H. injection H. auto. Qed.
Lemma pair_inj {A C} (a c : A) (b d : C) : (a, b) = (c, d) -> a = c /\ b = d. Proof. intros H. injection H. auto. Qed.
Lemma cons_inj {A} (x y : A) (a b : list A) : x :: a = y :: b -> x = y /\ a = b. Proof. intros H. injection H. auto. Qed.
Ltac inv_bind H := let a := fresh "a" in let Ha := fresh "Ha" in
  apply bind_ok in H; destruct H as (a & Ha & H).
Lemma read_slice_app a r pos : read_slice (a ++ r, pos) (lenZ a) = Ok (a, (r, pos + lenZ a)).
Proof.
  unfold read_slice. rewrite lenZ_app. pose proof (lenZ_nonneg r). rewrite ltb_false by lia.
  unfold lenZ. rewrite Nat2Z.id, firstn_app_len, skipn_app_len by reflexivity. reflexivity.
Qed.
Lemma read_slice_ok rest pos k a r' : 0 <= k -> read_slice (rest, pos) k = Ok (a, r') ->
  rest = a ++ fst r' /\ lenZ a = k /\ snd r' = pos + k.
Proof.
  intros Hk. unfold read_slice. destruct (Z.ltb_spec (lenZ rest) k); [discriminate|].
  intros E. injection E as <- <-. cbn [fst snd]. repeat split.
  - symmetry. apply firstn_skipn.
  - unfold lenZ in *. rewrite firstn_length. lia.
Qed.
Lemma read_slice_nopn r k : read_slice r k <> Pn.
Proof. destruct r as [rest pos]. unfold read_slice. destruct (lenZ rest <? k); discriminate. Qed.
Lemma read_byte_cons b r pos : read_byte (b :: r, pos) = Ok (b, (r, pos + 1)).
Proof.
  unfold read_byte. change (b :: r) with ([b] ++ r). change 1 with (lenZ [b]) at 1.
  rewrite read_slice_app. reflexivity.
Qed.
Lemma read_byte_nil pos : exists e, read_byte ([], pos) = Er e.
Proof. unfold read_byte, read_slice. cbn. eexists. reflexivity. Qed.
Lemma read_byte_ok rest pos b r' : read_byte (rest, pos) = Ok (b, r') -> rest = b :: fst r' /\ snd r' = pos + 1.
Proof.
  destruct rest as [|c r]; [destruct (read_byte_nil pos) as (e & ->); discriminate|].
  rewrite read_byte_cons. intros E. injection E as <- <-. split; reflexivity.
Qed.
Lemma read_byte_nopn r : read_byte r <> Pn.
Proof. unfold read_byte. apply bind_nopn; [apply read_slice_nopn | discriminate]. Qed.
Lemma tag_try_from_cases b : tag_try_from b = Ok b \/ exists e, tag_try_from b = Er e.
Proof.
  unfold tag_try_from. destruct (30 <? Z.land b 31); [right; eexists; reflexivity|].
  destruct (existsb (Z.eqb b) tag_universal); [left; reflexivity|].
  destruct ((64 <=? b) && (b <=? 126)); [left; reflexivity|]. destruct ((128 <=? b) && (b <=? 190)); [left; reflexivity|].
  destruct ((192 <=? b) && (b <=? 254)); [left; reflexivity | right; eexists; reflexivity].
Qed.
Lemma tag_try_from_ok b t : tag_try_from b = Ok t -> t = b.
Proof. destruct (tag_try_from_cases b) as [E|[e E]]; rewrite E; congruence. Qed.
Lemma tag_try_from_nopn b : tag_try_from b <> Pn.
Proof. destruct (tag_try_from_cases b) as [E|[e E]]; rewrite E; discriminate. Qed.
Lemma tag_integer : tag_try_from 2 = Ok 2. Proof. reflexivity. Qed.
Lemma sp_octets_long_form k : 128 <= k <= LEN_MAX ->
  sp_octets k = if k <=? 255 then 1 else if k <=? 65535 then 2 else if k <=? 16777215 then 3 else 4.
Proof.
  unfold LEN_MAX. intros Hk.
  destruct (Z.leb_spec k 255); [apply sp_octets_unique; simpl; lia|].
  destruct (Z.leb_spec k 65535); [apply sp_octets_unique; simpl; lia|].
  destruct (Z.leb_spec k 16777215); apply sp_octets_unique; simpl; lia.
Qed.
Lemma initial_octet_spec k : 128 <= k <= LEN_MAX -> initial_octet k = Some (128 + sp_octets k).
Proof.
  intros Hk. rewrite sp_octets_long_form by assumption. unfold initial_octet. rewrite ltb_false, (leb_true k LEN_MAX) by lia.
  destruct (k <=? 255); [reflexivity|]. destruct (k <=? 65535); [reflexivity|]. destruct (k <=? 16777215); reflexivity.
Qed.
Lemma initial_octet_some k t : initial_octet k = Some t -> 128 <= k <= LEN_MAX.
Proof.
  unfold initial_octet, LEN_MAX. destruct (Z.ltb_spec k 128); [discriminate|].
  destruct (Z.leb_spec k 255); [lia|]. destruct (Z.leb_spec k 65535); [lia|]. destruct (Z.leb_spec k 16777215); [lia|].
  destruct (Z.leb_spec k 268435455); [lia | discriminate].
Qed.

Lemma read_be_app ds rest pos acc : wfd 256 ds -> 0 <= acc -> (acc + 1) * 256 ^ Z.of_nat (length ds) <= 4294967296 ->
  read_be (length ds) (ds ++ rest, pos) acc = Ok (acc * 256 ^ Z.of_nat (length ds) + bev ds, (rest, pos + lenZ ds)).
Proof.
  revert pos acc. induction ds as [|d ds IH]; intros pos acc Hw Ha Hb.
  - cbn [length read_be app]. change (Z.of_nat 0) with 0. rewrite Z.pow_0_r, bev_nil. unfold lenZ. cbn [length].
    do 2 f_equal; [lia | f_equal; lia].
  - apply wfd_cons in Hw. destruct Hw as [Hd Hw].
    cbn [length read_be app]. rewrite read_byte_cons. cbn [bind fst snd].
    cbn [length] in Hb. rewrite Nat2Z.inj_succ, Z.pow_succ_r in Hb by lia.
    pose proof (pow256_pos (length ds)) as HP. set (P := 256 ^ Z.of_nat (length ds)) in *.
    assert (acc * 256 < 4294967296). { assert ((acc + 1) * 256 * 1 <= (acc + 1) * 256 * P) by (apply Z.mul_le_mono_nonneg_l; lia). lia. }
    rewrite Z.mod_small by lia. change 256 with (2 ^ 8) at 1. rewrite lor_disjoint by (change (2 ^ 8) with 256; lia).
    change (2 ^ 8) with 256. rewrite IH; try assumption; try lia.
    + rewrite bev_cons, Nat2Z.inj_succ, Z.pow_succ_r by lia. rewrite lenZ_cons. fold P.
      do 2 f_equal; [ring | f_equal; lia].
    + fold P. assert ((acc * 256 + d + 1) * P <= (acc + 1) * 256 * P) by (apply Z.mul_le_mono_nonneg_r; lia). lia.
Qed.
Lemma read_be_ok m bs pos acc v r' : read_be m (bs, pos) acc = Ok (v, r') ->
  exists ds, bs = ds ++ fst r' /\ length ds = m /\ snd r' = pos + Z.of_nat m.
Proof.
  revert bs pos acc. induction m as [|m IH]; intros bs pos acc H.
  - cbn [read_be] in H. injection H as <- <-. exists []. repeat split. cbn [snd]. lia.
  - cbn [read_be] in H. inv_bind H. destruct a as [b q]. destruct q as [bs1 p1].
    apply read_byte_ok in Ha. cbn [fst snd] in Ha, H. destruct Ha as [-> ->].
    apply IH in H. destruct H as (ds & E & L & Ps). exists (b :: ds). cbn [app length]. rewrite E at 1. repeat split; try lia.
Qed.
Lemma read_be_nopn m r acc : read_be m r acc <> Pn.
Proof. revert r acc. induction m as [|m IH]; intros r acc; cbn [read_be]; [discriminate|]. apply bind_nopn; [apply read_byte_nopn | intros; apply IH]. Qed.

Lemma length_decode_complete k rest pos : 0 <= k <= LEN_MAX ->
  length_decode (sp_der_length k ++ rest, pos) = Ok (k, (rest, pos + lenZ (sp_der_length k))).
Proof.
  intros Hk. unfold length_decode, sp_der_length. destruct (Z.ltb_spec k 128) as [Hs|Hs].
  - cbn [app]. rewrite read_byte_cons. cbn [bind fst snd].
    rewrite ltb_true by assumption. reflexivity.
  - pose proof (octets_ge128 k Hs) as Ho1. pose proof (octets_lenmax k Hk) as Ho4. set (o := sp_octets k) in *.
    cbn [app]. rewrite read_byte_cons. cbn [bind fst snd].
    rewrite ltb_false, eqb_false, leb_true by lia. replace (128 + o - 128) with o by lia.
    pose proof (length_sp_be o k) as Hl. rewrite <- Hl.
    rewrite read_be_app.
    + cbn [bind fst snd]. rewrite Z.mul_0_l, Z.add_0_l. unfold o. rewrite bev_minimal by lia.
      rewrite ltb_false, initial_octet_spec, Z.eqb_refl by lia. rewrite lenZ_cons. do 3 f_equal. lia.
    + apply wfd_sp_be.
    + lia.
    + rewrite Hl, Z2Nat.id by lia. assert (256 ^ o <= 256 ^ 4) by (apply Z.pow_le_mono_r; lia). change (256 ^ 4) with 4294967296 in *. lia.
Qed.
Lemma length_decode_ok bs pos k r' : wfd 256 bs -> length_decode (bs, pos) = Ok (k, r') ->
  bs = sp_der_length k ++ fst r' /\ 0 <= k <= LEN_MAX /\ snd r' = pos + lenZ (sp_der_length k).
Proof.
  intros Hw H. unfold length_decode in H. inv_bind H. destruct a as [b q]. destruct q as [bs1 p1].
  apply read_byte_ok in Ha. cbn [fst snd] in Ha, H. destruct Ha as [-> ->].
  apply wfd_cons in Hw. destruct Hw as [Hb Hw].
  destruct (Z.ltb_spec b 128) as [Hs|Hs].
  - injection H as <- <-. cbn [fst snd]. unfold sp_der_length, LEN_MAX.
    rewrite ltb_true by assumption. cbn [app]. repeat split; try lia.
  - destruct (Z.eqb_spec b 128); [discriminate|]. destruct (Z.leb_spec b 132); [|discriminate].
    inv_bind H. destruct a as [len q]. cbn [fst snd] in H.
    destruct (Z.ltb_spec LEN_MAX len); [discriminate|].
    destruct (initial_octet len) as [t|] eqn:Ei; [|discriminate].
    destruct (Z.eqb_spec t b) as [->|]; [|discriminate]. injection H as <- <-.
    pose proof (initial_octet_some _ _ Ei) as Hr. rewrite initial_octet_spec in Ei by assumption. apply some_inj in Ei. rename Ei into Eb.
    pose proof Ha as Ha'. apply read_be_ok in Ha'. destruct Ha' as (ds & E & Ld & Ps).
    assert (Hwd : wfd 256 ds). { rewrite E in Hw. apply wfd_app in Hw. tauto. }
    rewrite E in Ha. rewrite <- Ld in Ha.
    rewrite read_be_app in Ha; [|assumption|lia|].
    + apply ok_inj, pair_inj in Ha. destruct Ha as [Ev _]. rewrite Z.mul_0_l, Z.add_0_l in Ev.
      assert (Eo : sp_octets len = lenZ ds). { unfold lenZ. rewrite Ld. lia. }
      unfold sp_der_length. rewrite ltb_false by lia.
      subst len. rewrite Eo. rewrite (sp_be_bev ds Hwd). cbn [app]. rewrite E at 1.
      assert (128 + lenZ ds = b) by lia. repeat split; try lia; try congruence.
      rewrite Ps, lenZ_cons. unfold lenZ. rewrite Ld. lia.
    + rewrite Ld. assert (256 ^ Z.of_nat (Z.to_nat (b - 128)) <= 256 ^ 4) by (apply Z.pow_le_mono_r; lia).
      change (256 ^ 4) with 4294967296 in *. lia.
Qed.
Lemma length_decode_nopn r : length_decode r <> Pn.
Proof.
  unfold length_decode. apply bind_nopn; [apply read_byte_nopn|]. intros [b q] _. cbn [fst snd].
  destruct (b <? 128); [discriminate|]. destruct (b =? 128); [discriminate|]. destruct (b <=? 132); [|discriminate].
  apply bind_nopn; [apply read_be_nopn|]. intros [len q'] _. cbn [fst snd].
  destruct (LEN_MAX <? len); [discriminate|]. destruct (initial_octet len); [|discriminate]. destruct (z =? b); discriminate.
Qed.
Lemma header_decode_complete t k rest pos : tag_try_from t = Ok t -> 0 <= k <= LEN_MAX ->
  header_decode (t :: sp_der_length k ++ rest, pos) = Ok (t, k, (rest, pos + 1 + lenZ (sp_der_length k))).
Proof.
  intros Ht Hk. unfold header_decode. rewrite read_byte_cons. cbn [bind fst snd]. rewrite Ht. cbn [bind].
  rewrite length_decode_complete by assumption. cbn [fst snd]. reflexivity.
Qed.
Lemma header_decode_ok bs pos t k r' : wfd 256 bs -> header_decode (bs, pos) = Ok (t, k, r') ->
  bs = t :: sp_der_length k ++ fst r' /\ 0 <= k <= LEN_MAX /\ tag_try_from t = Ok t /\
  snd r' = pos + 1 + lenZ (sp_der_length k).
Proof.
  intros Hw H. unfold header_decode in H. inv_bind H. destruct a as [b q]. destruct q as [bs1 p1].
  apply read_byte_ok in Ha. cbn [fst snd] in Ha, H. destruct Ha as [-> ->].
  apply wfd_cons in Hw. destruct Hw as [Hb Hw].
  inv_bind H. pose proof (tag_try_from_ok _ _ Ha) as ->.
  destruct (length_decode (bs1, pos + 1)) as [[len q]| |] eqn:El; try discriminate.
  injection H as <- <- <-. apply length_decode_ok in El; [|assumption]. cbn [fst snd] in El. destruct El as (E & Hk & Ps).
  repeat split; try tauto; try lia. rewrite E at 1. reflexivity.
Qed.
Lemma header_decode_nopn r : header_decode r <> Pn.
Proof.
  unfold header_decode. apply bind_nopn; [apply read_byte_nopn|]. intros [b q] _. cbn [fst snd].
  apply bind_nopn; [apply tag_try_from_nopn|]. intros t _.
  pose proof (length_decode_nopn q). destruct (length_decode q); [discriminate | discriminate | contradiction].
Qed.
(* the magnitude a canonical content denotes: without the sign pad *)
Definition unpad (c : list Z) : list Z :=
  match c with
  | b :: d :: r => if b =? 0 then d :: r else c
  | _ => c
  end.
Definition content_chain (c : list Z) (hlen : Z) : res (list Z) :=
  bind (decode_to_slice c) (fun sl =>
  bind (uintref_new sl) (fun u =>
  bind (uint_encoded_len u) (fun vl => if vl =? hlen then Ok u else Er E_Noncanonical))).
Lemma uintref_decode_value_eq r hlen :
  uintref_decode_value r hlen =
  bind (read_slice r hlen) (fun p => bind (content_chain (fst p) hlen) (fun u => Ok (u, snd p))).
Proof.
  unfold uintref_decode_value, content_chain. destruct (read_slice r hlen) as [p| |]; cbn [bind]; try reflexivity.
  destruct (decode_to_slice (fst p)); cbn [bind]; try reflexivity.
  destruct (uintref_new a); cbn [bind]; try reflexivity.
  destruct (uint_encoded_len a0); cbn [bind]; try reflexivity.
  destruct (a1 =? hlen); reflexivity.
Qed.

Lemma strip0_nz b r : b <> 0 -> strip_leading_zeroes (b :: r) = b :: r.
Proof. intros H. cbn [strip_leading_zeroes]. rewrite eqb_false by assumption. reflexivity. Qed.

(* a string that starts with a non-zero octet goes through UintRef::new and encoded_len unchanged *)
Lemma uintref_chain_nz b r hlen : b <> 0 -> lenZ (b :: r) + b2z (128 <=? b) <= LEN_MAX ->
  bind (uintref_new (b :: r)) (fun u => bind (uint_encoded_len u) (fun vl => if vl =? hlen then Ok u else Er E_Noncanonical))
  = if lenZ (b :: r) + b2z (128 <=? b) =? hlen then Ok (b :: r) else Er E_Noncanonical.
Proof.
  intros Hb Hl. assert (0 <= b2z (128 <=? b)) by (destruct (128 <=? b); cbn [b2z]; lia).
  unfold uintref_new, uint_encoded_len, len_add. rewrite strip0_nz, ltb_false by (assumption || lia). cbn [bind].
  rewrite strip0_nz by assumption. cbn [needs_leading_zero]. rewrite !ltb_false by lia. reflexivity.
Qed.

Lemma content_chain_spec c : wfd 256 c -> lenZ c <= LEN_MAX ->
  if der_canonb c then content_chain c (lenZ c) = Ok (unpad c) else exists e, content_chain c (lenZ c) = Er e.
Proof.
  intros Hw Hl. destruct c as [|b rest].
  - cbn. eexists. reflexivity.
  - pose proof Hw as Hw'. apply wfd_cons in Hw'. destruct Hw' as [Hb Hwr].
    unfold content_chain. cbn [decode_to_slice der_canonb].
    destruct (Z.eqb_spec b 0) as [->|Hnz].
    + destruct rest as [|d r].
      * reflexivity.
      * apply wfd_cons in Hwr. destruct Hwr as [Hd Hwr]. cbn [negb orb andb unpad]. rewrite Z.eqb_refl.
        change (0 <? 128) with true. cbn [andb].
        destruct (Z.ltb_spec d 128) as [Hs|Hs].
        -- rewrite leb_false by lia. cbn [bind]. eexists. reflexivity.
        -- rewrite leb_true by lia. cbn [bind]. rewrite lenZ_cons in Hl.
           rewrite uintref_chain_nz, leb_true by (rewrite ?leb_true by lia; cbn [b2z]; lia). cbn [b2z].
           rewrite (lenZ_cons 0), Z.add_comm, Z.eqb_refl. reflexivity.
    + destruct (Z.leb_spec 128 b) as [Hs|Hs].
      * rewrite ltb_false by lia. cbn [andb bind]. eexists. reflexivity.
      * rewrite ltb_true by lia. cbn [andb bind].
        assert (Hc : forall (T : Type) (x y : T),
                  (if match rest with [] => true | d :: _ => negb false || (128 <=? d) end then x else y) = x).
        { intros. destruct rest; reflexivity. }
        rewrite Hc.
        assert (Hu : unpad (b :: rest) = b :: rest).
        { unfold unpad. destruct rest; [reflexivity|]. rewrite eqb_false by assumption. reflexivity. }
        rewrite Hu.
        (* the pad bit is 0: a content of exactly Length::MAX octets is still accepted *)
        rewrite uintref_chain_nz, leb_false by (rewrite ?leb_false by lia; cbn [b2z]; lia). cbn [b2z].
        rewrite Z.add_0_r, Z.eqb_refl. reflexivity.
Qed.
Lemma content_chain_nopn c hlen : content_chain c hlen <> Pn.
Proof.
  unfold content_chain. apply bind_nopn.
  { unfold decode_to_slice. destruct c as [|b rest]; [discriminate|]. destruct (b =? 0); [destruct rest; [discriminate|]; destruct (z <? 128); discriminate|].
    destruct (128 <=? b); discriminate. }
  intros sl _. apply bind_nopn. { unfold uintref_new. destruct (LEN_MAX <? _); discriminate. }
  intros u _. apply bind_nopn. { unfold uint_encoded_len, len_add. destruct (LEN_MAX <? _); [discriminate|]. destruct (LEN_MAX <? _); discriminate. }
  intros vl _. destruct (vl =? hlen); discriminate.
Qed.

Lemma unpad_spec c : wfd 256 c -> der_canonb c = true ->
  wfd 256 (unpad c) /\ bev (unpad c) = bev c /\ unpad c = mag0 (bev c).
Proof.
  intros Hw Hc. assert (Hx : 0 <= bev c) by (apply bev_bounds; assumption).
  pose proof (canon_unique c Hw Hc) as E. rewrite content_struct in E by assumption.
  (* c = der_pad (mag0 x) *)
  set (x := bev c) in *. pose proof (wfd_mag0 x) as Hm.
  assert (Hu : unpad (der_pad (mag0 x)) = mag0 x).
  { unfold mag0 in *. destruct (Z.eqb_spec x 0) as [E0|N0]; [reflexivity|].
    pose proof (minimal_no_lead0 x Hx) as Hn. destruct (sp_be (sp_octets x) x) as [|b r] eqn:Em.
    - reflexivity.
    - cbn [no_lead0] in Hn. unfold der_pad. cbn [needs_leading_zero]. destruct (128 <=? b).
      + cbn [unpad]. reflexivity.
      + unfold unpad. destruct r; [reflexivity|]. rewrite eqb_false by assumption. reflexivity. }
  rewrite <- E. rewrite Hu. repeat split; [assumption | apply bev_mag0; assumption].
Qed.
Lemma uintref_decode_value_complete c rest pos : wfd 256 c -> der_canonb c = true -> lenZ c <= LEN_MAX ->
  uintref_decode_value (c ++ rest, pos) (lenZ c) = Ok (unpad c, (rest, pos + lenZ c)).
Proof.
  intros Hw Hc Hl. rewrite uintref_decode_value_eq, read_slice_app. cbn [bind fst snd].
  pose proof (content_chain_spec c Hw Hl) as H. rewrite Hc in H. rewrite H. reflexivity.
Qed.
Lemma uintref_decode_value_ok rest pos hlen u r' : wfd 256 rest -> 0 <= hlen <= LEN_MAX ->
  uintref_decode_value (rest, pos) hlen = Ok (u, r') ->
  exists c, rest = c ++ fst r' /\ lenZ c = hlen /\ wfd 256 c /\ der_canonb c = true /\ u = unpad c /\ snd r' = pos + hlen.
Proof.
  intros Hw Hh H. rewrite uintref_decode_value_eq in H. inv_bind H. destruct a as [c q].
  apply read_slice_ok in Ha; [|lia]. cbn [fst snd] in *. destruct Ha as (E & Lc & Ps).
  assert (Hwc : wfd 256 c). { rewrite E in Hw. apply wfd_app in Hw. tauto. }
  inv_bind H. apply ok_inj, pair_inj in H. destruct H as [<- <-].
  pose proof (content_chain_spec c Hwc ltac:(lia)) as Hs. rewrite Lc in Hs.
  destruct (der_canonb c) eqn:Ec.
  - rewrite Hs in Ha. apply ok_inj in Ha. exists c. repeat split; auto; try lia.
  - destruct Hs as (e & Hs). rewrite Hs in Ha. discriminate.
Qed.
Lemma uintref_decode_value_nopn r hlen : uintref_decode_value r hlen <> Pn.
Proof.
  rewrite uintref_decode_value_eq. apply bind_nopn; [apply read_slice_nopn|]. intros p _.
  apply bind_nopn; [apply content_chain_nopn | discriminate].
Qed.
Lemma from_be_pad n u : wfd 256 u -> (length u <= 8 * n)%nat ->
  from_be_array n (zeros (8 * n - length u) ++ u) = Ok (to_limbs n (bev u)) /\ 0 <= bev u < Bn n.
Proof.
  intros Hw Hl. set (arr := zeros (8 * n - length u) ++ u).
  assert (Hla : length arr = (8 * n)%nat) by (unfold arr; rewrite app_length, length_zeros; lia).
  assert (Hwa : wfd 256 arr) by (unfold arr; apply wfd_app; split; [apply wfd_zeros | assumption]).
  unfold from_be_array. destruct (uint_from_be_slice n arr) as [r|] eqn:E.
  - destruct (from_be_slice_spec n arr r Hwa E) as (_ & Hwr & Hlr & Her).
    change (evalb 256 (rev arr)) with (bev arr) in Her. unfold arr in Her. rewrite bev_zeros_app in Her.
    pose proof (eval_bounds r Hwr) as Hb. rewrite Hlr, Her in Hb. split; [|assumption].
    f_equal. apply to_limbs_unique; try assumption. rewrite Z.mod_small by assumption. assumption.
  - apply from_be_slice_len in E. contradiction.
Qed.
Lemma from_be_pad_nopn n u : (length u <= 8 * n)%nat -> from_be_array n (zeros (8 * n - length u) ++ u) <> Pn.
Proof.
  intros Hl. unfold from_be_array. destruct (uint_from_be_slice n _) eqn:E; [discriminate|].
  apply from_be_slice_len in E. exfalso. apply E. rewrite app_length, length_zeros. lia.
Qed.
Lemma try_from_fits fx n u : wfd 256 u -> (length u <= 8 * n)%nat ->
  uint_try_from_uintref fx n u = Ok (to_limbs n (bev u)) /\ 0 <= bev u < Bn n.
Proof.
  intros Hw Hl. unfold uint_try_from_uintref.
  rewrite (proj2 (Nat.ltb_ge _ _) Hl), andb_false_r, (proj2 (Nat.eqb_eq _ _)) by lia. apply from_be_pad; assumption.
Qed.
Lemma try_from_over n u : (8 * n < length u)%nat ->
  uint_try_from_uintref true n u = Er E_Length /\ uint_try_from_uintref false n u = Pn.
Proof.
  intros Hl. unfold uint_try_from_uintref.
  rewrite (proj2 (Nat.ltb_lt _ _) Hl), (proj2 (Nat.eqb_neq _ _)) by lia. split; reflexivity.
Qed.
Lemma try_from_ok fx n u v : wfd 256 u -> uint_try_from_uintref fx n u = Ok v ->
  (length u <= 8 * n)%nat /\ v = to_limbs n (bev u) /\ 0 <= bev u < Bn n.
Proof.
  intros Hw H. destruct (Nat.le_gt_cases (length u) (8 * n)) as [Hl|Hl].
  - destruct (try_from_fits fx n u Hw Hl) as [E Hb]. rewrite E in H. apply ok_inj in H. auto.
  - destruct (try_from_over n u Hl) as [E1 E2]. destruct fx; [rewrite E1 in H | rewrite E2 in H]; discriminate.
Qed.
Lemma try_from_nopn n u : uint_try_from_uintref true n u <> Pn.
Proof.
  unfold uint_try_from_uintref. cbn [andb]. destruct (Nat.ltb_spec (8 * n) (length u)); [discriminate|].
  rewrite (proj2 (Nat.eqb_eq _ _)) by lia. apply from_be_pad_nopn. assumption.
Qed.
(** the repair only turns the panic into an error *)
Lemma try_from_fix_conservative n u : uint_try_from_uintref false n u <> Pn ->
  uint_try_from_uintref true n u = uint_try_from_uintref false n u.
Proof.
  intros H. destruct (Nat.le_gt_cases (length u) (8 * n)) as [Hl|Hl].
  - unfold uint_try_from_uintref. rewrite (proj2 (Nat.ltb_ge _ _) Hl), andb_false_r. reflexivity.
  - destruct (try_from_over n u Hl) as [_ E2]. contradiction.
Qed.

Lemma length_mag0_fits n x : 0 <= x < Bn n -> (1 <= n)%nat -> (length (mag0 x) <= 8 * n)%nat.
Proof. intros Hx Hn. pose proof (lenZ_mag0 x). pose proof (sp_octets_Bn n x Hx). unfold lenZ in *. lia. Qed.
Lemma length_mag0_over n x : Bn n <= x -> (8 * n < length (mag0 x))%nat.
Proof.
  intros Hx. pose proof (Bn_pos n). rewrite Bn_256 in Hx. pose proof (lenZ_mag0 x).
  pose proof (sp_octets_le_iff x (Z.of_nat (8 * n))). unfold lenZ in *. lia.
Qed.
Lemma finish_nil {A} pos (v : A) : finish ([], pos) v = Ok v. Proof. reflexivity. Qed.
Lemma finish_ok {A} r (v w : A) : finish r v = Ok w -> fst r = [] /\ w = v.
Proof. unfold finish. destruct (fst r); cbn [is_nil]; intros H; [apply ok_inj in H; auto | discriminate]. Qed.
Lemma finish_nopn {A} r (v : A) : finish r v <> Pn.
Proof. unfold finish. destruct (is_nil (fst r)); discriminate. Qed.
Lemma reader_new_ok bs : lenZ bs <= LEN_MAX -> reader_new bs = Ok (bs, 0).
Proof. intros. unfold reader_new. rewrite ltb_false by lia. reflexivity. Qed.
Lemma reader_new_inv bs r : reader_new bs = Ok r -> lenZ bs <= LEN_MAX /\ r = (bs, 0).
Proof. unfold reader_new. destruct (Z.ltb_spec LEN_MAX (lenZ bs)) as [Hc|Hc]; intros E; [discriminate|]. apply ok_inj in E. auto. Qed.
Lemma reader_new_nopn bs : reader_new bs <> Pn.
Proof. unfold reader_new. destruct (LEN_MAX <? lenZ bs); discriminate. Qed.

Lemma content_len_le_encode x : 0 <= x -> 1 <= sp_der_content_len x <= lenZ (sp_der_encode x).
Proof.
  intros Hx. pose proof (content_len_pos x). rewrite lenZ_sp_der_encode by assumption.
  pose proof (lenZ_sp_der_length_pos (sp_der_content_len x)). lia.
Qed.

(** on a canonical encoding every decoding route ends in the glue, applied to the minimal magnitude *)
Theorem der_decode_run fx n x : 0 <= x -> lenZ (sp_der_encode x) <= LEN_MAX ->
  der_decode fx n (sp_der_encode x) = uint_try_from_uintref fx n (mag0 x).
Proof.
  intros Hx Hl. pose proof (content_len_le_encode x Hx) as Hk.
  destruct (content_canon x Hx) as (Hwc & Hcc & Hbc & Hlc).
  unfold der_decode. rewrite reader_new_ok by assumption. cbn [bind]. unfold uint_decode.
  unfold sp_der_encode, sp_der_header. cbn [app].
  rewrite header_decode_complete by (apply tag_integer || lia). cbn [bind].
  change (2 =? TAG_INTEGER) with true. cbn iota. unfold uint_decode_value.
  rewrite <- (app_nil_r (sp_der_content x)) at 1. rewrite <- Hlc.
  rewrite uintref_decode_value_complete by (assumption || lia). cbn [bind fst snd].
  destruct (unpad_spec _ Hwc Hcc) as (_ & _ & ->). rewrite Hbc.
  destruct (uint_try_from_uintref fx n (mag0 x)); reflexivity.
Qed.
Theorem der_decode_ok fx n bs v : wfd 256 bs -> der_decode fx n bs = Ok v ->
  exists x, 0 <= x /\ bs = sp_der_encode x /\ lenZ bs <= LEN_MAX /\ uint_try_from_uintref fx n (mag0 x) = Ok v.
Proof.
  intros Hw H. unfold der_decode in H. inv_bind H. apply reader_new_inv in Ha. destruct Ha as [Hl ->].
  inv_bind H. destruct a as [v' r1]. cbn [fst snd] in H. apply finish_ok in H. destruct H as [Hr1 ->].
  unfold uint_decode in Ha. inv_bind Ha. destruct a as [[tag len] r2].
  apply header_decode_ok in Ha0; [|assumption]. destruct Ha0 as (E & Hk & _ & _).
  destruct (Z.eqb_spec tag TAG_INTEGER) as [->|]; [|discriminate].
  unfold uint_decode_value in Ha. inv_bind Ha. destruct a as [u r3]. destruct r2 as [rest2 pos2]. cbn [fst snd] in *.
  assert (Hw2 : wfd 256 rest2). { rewrite E in Hw. apply wfd_cons in Hw. destruct Hw as [_ Hw]. apply wfd_app in Hw. tauto. }
  apply uintref_decode_value_ok in Ha0; [|assumption|assumption].
  destruct Ha0 as (c & E2 & Lc & Hwc & Hcc & -> & _).
  inv_bind Ha. apply ok_inj, pair_inj in Ha. destruct Ha as [<- <-]. rewrite Hr1, app_nil_r in E2. subst rest2.
  destruct (unpad_spec c Hwc Hcc) as (_ & _ & Eu). rewrite Eu in Ha0.
  exists (bev c). assert (Hx : 0 <= bev c) by (apply bev_bounds; assumption).
  repeat split; try assumption.
  rewrite E. unfold sp_der_encode, sp_der_header. rewrite content_len_canon, canon_unique by assumption. rewrite Lc. reflexivity.
Qed.
Theorem der_decode_nopn n bs : der_decode true n bs <> Pn.
Proof.
  unfold der_decode. apply bind_nopn; [apply reader_new_nopn|]. intros r _.
  apply bind_nopn; [|intros; apply finish_nopn].
  unfold uint_decode. apply bind_nopn; [apply header_decode_nopn|]. intros [[tag len] r1] _.
  destruct (tag =? TAG_INTEGER); [|discriminate].
  unfold uint_decode_value. apply bind_nopn; [apply uintref_decode_value_nopn|]. intros p _.
  apply bind_nopn; [apply try_from_nopn | discriminate].
Qed.
Theorem der_decode_complete fx n x : (1 <= n)%nat -> 0 <= x < Bn n -> lenZ (sp_der_encode x) <= LEN_MAX ->
  der_decode fx n (sp_der_encode x) = Ok (to_limbs n x).
Proof.
  intros Hn Hx Hl. rewrite der_decode_run by (assumption || lia).
  destruct (try_from_fits fx n (mag0 x) (wfd_mag0 x) (length_mag0_fits n x Hx Hn)) as [E _].
  rewrite E, bev_mag0 by lia. reflexivity.
Qed.
Theorem der_decode_oversize n x : Bn n <= x -> lenZ (sp_der_encode x) <= LEN_MAX ->
  der_decode true n (sp_der_encode x) = Er E_Length /\ der_decode false n (sp_der_encode x) = Pn.
Proof.
  intros Hx Hl. pose proof (Bn_pos n). rewrite !der_decode_run by (assumption || lia).
  apply try_from_over. apply length_mag0_over. assumption.
Qed.
Theorem der_decode_sound fx n bs v : wfd 256 bs -> der_decode fx n bs = Ok v ->
  wf v /\ length v = n /\ 0 <= eval v < Bn n /\ v = to_limbs n (eval v) /\ bs = sp_der_encode (eval v) /\ lenZ bs <= LEN_MAX.
Proof.
  intros Hw H. destruct (der_decode_ok fx n bs v Hw H) as (x & Hx & E & Hl & Ht).
  apply try_from_ok in Ht; [|apply wfd_mag0]. destruct Ht as (_ & -> & Hb). rewrite bev_mag0 in * by assumption.
  rewrite to_limbs_small by assumption. repeat split; try assumption; try lia.
  - apply wf_to_limbs.
  - apply length_to_limbs.
Qed.
(** fail closed (repaired code): a canonical encoding of a value that fits, or an error -- never a panic *)
Theorem der_fail_closed n bs : wfd 256 bs ->
  (exists v, der_decode true n bs = Ok v /\ wf v /\ length v = n /\ bs = sp_der_encode (eval v)) \/
  (exists e, der_decode true n bs = Er e).
Proof.
  intros Hw. destruct (der_decode true n bs) as [v|e|] eqn:E.
  - left. exists v. destruct (der_decode_sound true n bs v Hw E) as (A & B' & _ & _ & D & _). auto.
  - right. exists e. reflexivity.
  - exfalso. exact (der_decode_nopn n bs E).
Qed.
Lemma uint_to_be_bytes_sp ls : wf ls -> uint_to_be_bytes ls = sp_be (Z.of_nat (8 * length ls)) (eval ls).
Proof. intros Hw. rewrite uint_to_be_bytes_rev, uint_to_le_bytes_digits by assumption. unfold sp_be. rewrite Nat2Z.id. reflexivity. Qed.
Lemma content_len_struct x : 0 <= x -> sp_der_content_len x = lenZ (mag0 x) + b2z (needs_leading_zero (mag0 x)).
Proof. intros Hx. destruct (content_canon x Hx) as (_ & _ & _ & <-). rewrite content_struct by assumption. apply lenZ_der_pad. Qed.

Lemma strip4 d0 d1 d2 d3 : ~ (d0 = 0 /\ d1 = 0 /\ d2 = 0 /\ d3 = 0) ->
  (if d0 =? 0 then if d1 =? 0 then if d2 =? 0 then [d3] else [d2; d3] else [d1; d2; d3] else [d0; d1; d2; d3])
  = strip_all_zeros [d0; d1; d2; d3].
Proof.
  intros H. cbn [strip_all_zeros]. destruct (Z.eqb_spec d0 0); [|reflexivity]. destruct (Z.eqb_spec d1 0); [|reflexivity].
  destruct (Z.eqb_spec d2 0); [|reflexivity]. destruct (Z.eqb_spec d3 0); [exfalso; auto | reflexivity].
Qed.
Lemma length_encode_spec k : 0 <= k <= LEN_MAX -> length_encode k = sp_der_length k.
Proof.
  intros Hk. unfold length_encode, sp_der_length. destruct (Z.ltb_spec k 128) as [Hs|Hs].
  - unfold initial_octet. rewrite ltb_true by assumption. rewrite Z.mod_small by lia. reflexivity.
  - rewrite initial_octet_spec by lia. f_equal.
    assert (Hr : 0 <= k < 256 ^ 4) by (unfold LEN_MAX in Hk; change (256 ^ 4) with 4294967296; lia).
    rewrite <- (strip_all_sp_be 4 k) by (lia || assumption). change (rev (digits 256 4 k)) with (sp_be 4 k).
    pose proof (length_sp_be 4 k) as Hl. pose proof (bev_sp_be_small 4 k ltac:(lia) Hr) as Hb. pose proof (wfd_sp_be 4 k) as Hw.
    destruct (sp_be 4 k) as [|d0 [|d1 [|d2 [|d3 [|]]]]]; try discriminate.
    cbn [nthz nth skipn]. 
    apply strip4. intros (-> & -> & -> & ->). vm_compute in Hb. lia.
Qed.

(** <Length as Encode>::encoded_len and Length::for_tlv *)
Lemma length_encoded_len_spec k : 0 <= k <= LEN_MAX -> length_encoded_len k = Ok (lenZ (sp_der_length k)).
Proof.
  intros Hk. unfold length_encoded_len. rewrite lenZ_sp_der_length. destruct (Z.ltb_spec k 128).
  - rewrite leb_true by lia. reflexivity.
  - rewrite sp_octets_long_form, leb_false, (leb_true k LEN_MAX) by lia.
    destruct (k <=? 255); [reflexivity|]. destruct (k <=? 65535); [reflexivity|]. destruct (k <=? 16777215); reflexivity.
Qed.
Lemma for_tlv_spec k : 0 <= k -> 1 + lenZ (sp_der_length k) + k <= LEN_MAX -> for_tlv k = Ok (1 + lenZ (sp_der_length k) + k).
Proof.
  intros Hk Hl. pose proof (lenZ_sp_der_length_pos k). unfold for_tlv, len_add.
  rewrite length_encoded_len_spec by lia. cbn [bind]. rewrite ltb_false by lia. cbn [bind]. rewrite ltb_false by lia. reflexivity.
Qed.

Section Encoder.
Variable ls : list Z.
Hypothesis Hw : wf ls.
Hypothesis Hn : (1 <= length ls)%nat.
(* the whole encoding is shorter than der's Length::MAX *)
Hypothesis Hb : lenZ (sp_der_encode (eval ls)) <= LEN_MAX.
Let x := eval ls.
Let K := Z.of_nat (8 * length ls).

Lemma enc_range : 0 <= x < 256 ^ K /\ 1 <= K.
Proof. unfold x, K. pose proof (eval_bounds ls Hw) as H. rewrite Bn_256 in H. repeat split; lia. Qed.
Lemma enc_lens : 1 <= lenZ (mag0 x) <= sp_der_content_len x /\ sp_der_content_len x + 2 <= LEN_MAX.
Proof.
  destruct enc_range as (Hx & HK). pose proof (lenZ_mag0 x (proj1 Hx)). pose proof (sp_octets_le x K). fold x in Hb.
  rewrite lenZ_sp_der_encode in Hb by lia. pose proof (lenZ_sp_der_length_pos (sp_der_content_len x)).
  rewrite content_len_struct in * by lia. destruct (needs_leading_zero (mag0 x)); cbn [b2z] in *; lia.
Qed.
Lemma enc_uintref_new : uintref_new (uint_to_be_bytes ls) = Ok (mag0 x).
Proof.
  destruct enc_range as (Hx & HK). destruct enc_lens as (Hm & Hc). unfold uintref_new. rewrite uint_to_be_bytes_sp by assumption. fold K x.
  rewrite strip0_be by assumption. rewrite ltb_false by lia. reflexivity.
Qed.
Lemma enc_encoded_len : uint_encoded_len (mag0 x) = Ok (sp_der_content_len x).
Proof.
  destruct enc_range as (Hx & HK). destruct enc_lens as (Hm & Hc). unfold uint_encoded_len. rewrite strip0_mag0 by lia.
  rewrite ltb_false by lia. unfold len_add. rewrite <- content_len_struct by lia. rewrite ltb_false by lia. reflexivity.
Qed.
Lemma der_value_len_spec : der_value_len ls = Ok (sp_der_content_len x).
Proof. unfold der_value_len. rewrite enc_uintref_new. cbn [bind]. apply enc_encoded_len. Qed.
Lemma der_encode_value_spec : der_encode_value ls = Ok (sp_der_content x).
Proof.
  destruct enc_range as (Hx & HK). unfold der_encode_value. rewrite enc_uintref_new. cbn [bind]. rewrite enc_encoded_len. cbn [bind].
  rewrite content_struct, content_len_struct by lia. unfold der_pad.
  destruct (needs_leading_zero (mag0 x)); cbn [b2z]; [rewrite ltb_true by lia | rewrite ltb_false by lia]; reflexivity.
Qed.
Lemma der_encoded_len_spec : der_encoded_len ls = Ok (lenZ (sp_der_encode x)).
Proof.
  destruct enc_range as (Hx & HK). fold x in Hb. pose proof (content_len_pos x).
  unfold der_encoded_len. rewrite der_value_len_spec. cbn [bind]. rewrite lenZ_sp_der_encode in * by lia.
  apply for_tlv_spec; lia.
Qed.
Lemma der_encode_tlv_spec : der_encode_tlv ls = Ok (sp_der_encode x).
Proof.
  destruct enc_lens as (Hm & Hc). destruct enc_range as (Hx & HK).
  unfold der_encode_tlv. rewrite der_value_len_spec. cbn [bind]. rewrite der_encode_value_spec. cbn [bind].
  rewrite length_encode_spec by lia. reflexivity.
Qed.
Theorem der_encode_spec : der_encode ls = Ok (sp_der_encode x).
Proof.
  unfold der_encode. rewrite der_encoded_len_spec. cbn [bind]. rewrite der_encode_tlv_spec. cbn [bind].
  rewrite Z.ltb_irrefl. reflexivity.
Qed.
Theorem der_roundtrip fx : der_decode fx (length ls) (sp_der_encode x) = Ok ls.
Proof.
  rewrite der_decode_complete; [|assumption| |assumption].
  - unfold x. rewrite to_limbs_eval by assumption. reflexivity.
  - unfold x. apply eval_bounds. assumption.
Qed.
End Encoder.

(** every width the der crate can frame at all: 1 + 5 + (8 N + 1) <= Length::MAX *)
Lemma width_total_len ls : wf ls -> 8 * Z.of_nat (length ls) + 7 <= LEN_MAX -> lenZ (sp_der_encode (eval ls)) <= LEN_MAX.
Proof.
  intros Hw Hb. pose proof (eval_bounds ls Hw) as Hx. rewrite Bn_256 in Hx.
  rewrite lenZ_sp_der_encode, lenZ_sp_der_length by lia. set (k := sp_der_content_len (eval ls)).
  assert (Hc : 1 <= k <= 8 * Z.of_nat (length ls) + 1).
  { split; [apply content_len_pos|]. unfold k. destruct (Z.eq_dec (eval ls) 0) as [->|]; [change (sp_der_content_len 0) with 1; lia|].
    rewrite content_len_struct, lenZ_mag0 by lia. pose proof (sp_octets_le (eval ls) (Z.of_nat (8 * length ls))).
    pose proof (sp_octets_range (eval ls)). destruct (needs_leading_zero _); cbn [b2z]; lia. }
  destruct (Z.ltb_spec k 128); [lia|]. pose proof (octets_lenmax k). lia.
Qed.

(** decode bs = Ok v  ->  bs is THE encoding the encoder produces for v *)
Theorem der_canonical fx n bs v : wfd 256 bs -> der_decode fx n bs = Ok v -> der_encode v = Ok bs.
Proof.
  intros Hw H. pose proof (der_decode_ok fx n bs v Hw H) as (x & Hx & E & Hl & Ht).
  destruct (der_decode_sound fx n bs v Hw H) as (Hwv & Hlv & Hev & _ & Eb & _).
  assert (Hn : (1 <= n)%nat).
  { apply try_from_ok in Ht; [|apply wfd_mag0]. destruct Ht as (Hlm & _). pose proof (lenZ_mag0 x Hx). unfold lenZ in *. lia. }
  rewrite Eb. apply der_encode_spec; try assumption; try lia. rewrite <- Eb. assumption.
Qed.
