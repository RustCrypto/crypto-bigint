(** C07, tables without foreign hypotheses: the four keys that Proofs/ModArithTablesP.v ties to the spec GIVEN facts of
    other areas ([split_mul_ok]: the multiplication routine returns the double-width product; [recip_ok]: the 64-bit
    Newton reciprocal is exact; [rem_wide_ok]: the wide Knuth remainder is exact), with those facts plugged in:
      - C03  Proofs/MulApiP.v    [uint_split_mul_correct] (schoolbook + fixed Karatsuba), [boxed_mul_wide] (boxed Karatsuba)
      - C02  Proofs/RecipP.v     [reciprocal_correct]  via  Proofs/DivFinalP.v [recip_ok_top64], DivShiftP.v [recip_new_top64]
      - C02  Proofs/RemWideP.v   [rem_wide_vartime_correct]  via  Proofs/DivFinalP.v [rem_wide_vartime_total]
    What remains in the statements is only the spec-domain hypothesis (spec entry <> Unsupported) and, for the two keys
    whose spec does not test it, the typing side condition "the three Uint<N> operands have one N" (boolean); then the
    whole table, all 19 keys. *)
From CB Require Import Model.Limbs Model.AddSub Model.Mul Model.Div Model.ModArith
  Proofs.WordP Proofs.LimbsP Proofs.AddSubP Proofs.DivP Proofs.DivShiftP Proofs.DivFinalP Proofs.ModArithP
  Proofs.MulApiP Proofs.ModArithTablesP.
From Coq Require Import ZArith Lia List Bool String.
Open Scope Z_scope.
Notation length := List.length.

(* ------------------------------------------------------------------ the three facts, in the form the table lemmas ask for *)

(** C03: Uint::split_mul (schoolbook or Karatsuba, by width) returns the double-width product *)
Lemma uint_split_mul_ok x y : wf x -> wf y -> length x = length y -> split_mul_ok uint_split_mul x y.
Proof.
  intros Hx Hy Hl lo hi E. destruct (uint_split_mul_correct x y lo hi Hx Hy E) as (A & C & D & F & G).
  repeat split; auto. lia.
Qed.

(** C03: BoxedUint::mul (schoolbook or boxed Karatsuba) split at the receiver's precision *)
Lemma boxed_split_mul_ok x y : wf x -> wf y -> length x = length y -> split_mul_ok boxed_split_mul x y.
Proof.
  intros Hx Hy Hl lo hi E. unfold boxed_split_mul, split_at in E. inv_pair E.
  destruct (boxed_mul_wide x y Hx Hy) as (A & C & D & F & G).
  repeat split; auto. lia.
Qed.

(** C02: the reciprocal that mul_mod_special builds for d = 2^64 - c (one-limb branch) is exact *)
Lemma recip_new_special_ok c : 1 <= c < B ->
  recip_ok (r_d (recip_new (B - c))) (reciprocal (r_d (recip_new (B - c)))).
Proof. intros Hc. rewrite recip_new_top64 by lia. apply recip_ok_top64. lia. Qed.

(** C02: Uint::rem_wide_vartime is exact for every non-zero modulus *)
Lemma rem_wide_ok_nonzero p : wf p -> eval p <> 0 -> rem_wide_ok p.
Proof.
  intros Hp Hnz lo hi Hlo Hhi Ll Lh. cbv zeta.
  destruct (rem_wide_vartime_total lo hi p Hlo Hhi Hp ltac:(lia) ltac:(lia) Hnz) as (E & L & W).
  rewrite Ll in E, L. auto.
Qed.

(* ------------------------------------------------------------------ typing side condition (boolean) *)
(** self, rhs and p of Uint::mul_mod_vartime / MulMod::mul_mod are three Uint<LIMBS> of one LIMBS *)
Definition ty_same3 (a : list (list Z)) : bool := (ln 0 a =? ln 1 a)%nat && (ln 0 a =? ln 2 a)%nat.
Lemma ty_same3_inv a : ty_same3 a = true -> ln 0 a = ln 1 a /\ ln 0 a = ln 2 a.
Proof. unfold ty_same3. intros H. apply andb_prop in H. destruct H as [H0 H1]. apply Nat.eqb_eq in H0, H1. auto. Qed.

(** what the spec domain of a binary special-modulus form contains *)
Lemma doms_binary_defined a c o : doms a true c o <> Unsupported -> 1 <= c < B /\ ln 0 a = ln 1 a.
Proof. intros H. destruct (doms_inv _ _ _ _ H) as (_ & Hc & _ & _ & Hb). destruct (Hb eq_refl). auto. Qed.

(* ------------------------------------------------------------------ the four keys, hypothesis-free *)
Section Keys.
Variables (dbg : bool) (a : list (list Z)).
Hypothesis Hwf : wf_args a.

(** mul_mod_special with any multiplication routine that returns the double-width product *)
Lemma entry_mul_mod_special_full mulf :
  (forall x y, wf x -> wf y -> length x = length y -> split_mul_ok mulf x y) ->
  let s := doms a true (sarg 2 a) (rmod (ln 0 a) (ev 0 a * ev 1 a) (psp (ln 0 a) (sarg 2 a))) in
  s <> Unsupported -> vpanic_none (mul_mod_special dbg mulf (arg 0 a) (arg 1 a) (sarg 2 a)) = s.
Proof.
  cbv zeta. intros Hm H. destruct (doms_binary_defined _ _ _ H) as [Hc Hl].
  apply (entry_mul_mod_special_given_mul_recip a Hwf); auto using recip_new_special_ok, wf_arg.
Qed.

Lemma tbl_uint_mul_mod_special_full :
  S7 "uint.mul_mod_special" dbg a <> Unsupported ->
  M7 "uint.mul_mod_special" dbg a = S7 "uint.mul_mod_special" dbg a.
Proof. table_open. apply entry_mul_mod_special_full, uint_split_mul_ok. Qed.

Lemma tbl_boxed_mul_mod_special_full :
  S7 "boxed.mul_mod_special" dbg a <> Unsupported ->
  M7 "boxed.mul_mod_special" dbg a = S7 "boxed.mul_mod_special" dbg a.
Proof. table_open. apply entry_mul_mod_special_full, boxed_split_mul_ok. Qed.

Lemma tbl_uint_mul_mod_vartime_full : ty_same3 a = true ->
  S7 "uint.mul_mod_vartime" dbg a <> Unsupported ->
  M7 "uint.mul_mod_vartime" dbg a = S7 "uint.mul_mod_vartime" dbg a.
Proof.
  intros Hty Hdom. destruct (ty_same3_inv a Hty) as [L1 L2].
  assert (Hnz : ev 2 a <> 0).
  { revert Hdom. table_open. destruct (ev 2 a =? 0) eqn:E; [intros H; contradiction H; reflexivity | intros _].
    apply Z.eqb_neq. exact E. }
  unfold ln in L1. unfold ev in Hnz.
  apply tbl_uint_mul_mod_vartime_given_mul_rem; auto.
  - apply uint_split_mul_ok; auto using wf_arg.
  - apply rem_wide_ok_nonzero; auto using wf_arg.
Qed.

(** the MulMod trait: panics exactly on p = 0, otherwise the canonical residue; no domain hypothesis at all *)
Lemma tbl_uint_mul_mod_trait_full : ty_same3 a = true ->
  M7 "uint.mul_mod_trait" dbg a = S7 "uint.mul_mod_trait" dbg a.
Proof.
  intros Hty. destruct (ty_same3_inv a Hty) as [L1 L2].
  destruct (Z.eq_dec (ev 2 a) 0) as [Hz | Hnz].
  - table_open. rewrite forallb_zero_eval by (apply wf_arg; assumption). fold (ev 2 a). rewrite Hz. reflexivity.
  - unfold ln in L1. unfold ev in Hnz.
    apply tbl_uint_mul_mod_trait_given_mul_rem; auto.
    + apply uint_split_mul_ok; auto using wf_arg.
    + apply rem_wide_ok_nonzero; auto using wf_arg.
Qed.
End Keys.

(* ------------------------------------------------------------------ the whole table of Model/ModArith.v *)
Definition btyping7 := list (string * (list (list Z) -> bool)).
Definition typedb7 (t : btyping7) (k : string) (a : list (list Z)) : bool :=
  match lookup k t with Some P => P a | None => true end.
Open Scope string_scope.
(** only the two keys whose spec entry does not itself test the widths carry a side condition *)
Definition modarith_tbl_ty : btyping7 := [("uint.mul_mod_vartime", ty_same3); ("uint.mul_mod_trait", ty_same3)].
Open Scope Z_scope.

Definition tbl7_ok (k : string) : Prop :=
  forall dbg a, wf_args a -> typedb7 modarith_tbl_ty k a = true ->
    S7 k dbg a <> Unsupported -> M7 k dbg a = S7 k dbg a.

Lemma modarith_table_keys_spec : map fst ops_modarith_spec = map fst ops_modarith_model.
Proof. reflexivity. Qed.
Lemma modarith_table_keys_count : length (map fst ops_modarith_model) = 19%nat.
Proof. reflexivity. Qed.

Lemma modarith_all_keys_ok : forall k, In k (map fst ops_modarith_model) -> tbl7_ok k.
Proof.
  intros k Hin dbg a Hwf Hty Hdom. cbn [map fst ops_modarith_model In] in Hin.
  repeat (destruct Hin as [<- | Hin];
    [first [ apply tables_agree_addsubneg; [assumption | apply In_keys; reflexivity | assumption]
           | apply tbl_uint_mul_mod_special_full | apply tbl_uint_mul_mod_vartime_full | apply tbl_uint_mul_mod_trait_full
           | apply tbl_uint_mul_mod_value_level | apply tbl_boxed_mul_mod_special_full
           | apply tbl_boxed_mul_mod_value_level]; assumption |]).
  contradiction.
Qed.

(** every key of ops_modarith_model / ops_modarith_spec (19 of 19).  For "uint.mul_mod" / "boxed.mul_mod" the MODEL
    entry is value-level by design (the Montgomery route is C08's), so for these two keys the statement only says
    that the panic / unsupported split of the two tables is consistent. *)
Theorem modarith_tables_agree : forall k dbg a,
  In k (map fst ops_modarith_model) -> wf_args a -> typedb7 modarith_tbl_ty k a = true ->
  S7 k dbg a <> Unsupported -> M7 k dbg a = S7 k dbg a.
Proof. intros k dbg a Hin. exact (modarith_all_keys_ok k Hin dbg a). Qed.
