(** C18 proofs, part 3: the other DER entry points (TryFrom<AnyRef>, AnyRef::new + TryFrom, TryFrom<UintRef>,
    DecodeValue::decode_value) accept exactly what Decode::from_der accepts; then the statements of Props/C18.v that
    combine encoder and decoder. *)
From CB Require Import Model.Limbs Model.Conv Model.Der Proofs.WordP Proofs.LimbsP Proofs.ConvDigitsP Proofs.ConvBytesP
  Proofs.DerSpecP Proofs.DerCodecP.
From Coq Require Import ZArith Lia List Bool.
Import ListNotations.
Open Scope Z_scope.
Open Scope list_scope.
Lemma anyref_decode_uintref_run c : wfd 256 c -> der_canonb c = true -> lenZ c <= LEN_MAX ->
  anyref_decode_uintref (TAG_INTEGER, c) = Ok (unpad c).
Proof.
  intros Hw Hc Hl. unfold anyref_decode_uintref. rewrite Z.eqb_refl. rewrite reader_new_ok by assumption. cbn [bind].
  rewrite <- (app_nil_r c) at 1. rewrite uintref_decode_value_complete by assumption. cbn [bind fst snd]. reflexivity.
Qed.
Lemma anyref_decode_uintref_ok t c u : wfd 256 c -> anyref_decode_uintref (t, c) = Ok u ->
  t = TAG_INTEGER /\ der_canonb c = true /\ u = unpad c /\ lenZ c <= LEN_MAX.
Proof.
  intros Hw H. unfold anyref_decode_uintref in H. destruct (Z.eqb_spec t TAG_INTEGER) as [->|]; [|discriminate].
  inv_bind H. apply reader_new_inv in Ha. destruct Ha as [Hl ->].
  inv_bind H. destruct a as [u' r']. cbn [fst snd] in H. apply finish_ok in H. destruct H as [Hr ->].
  apply uintref_decode_value_ok in Ha; [|assumption|pose proof (lenZ_nonneg c); lia].
  destruct Ha as (c' & E & Lc & Hwc & Hcc & -> & _). rewrite Hr, app_nil_r in E. subst c'. auto.
Qed.
Lemma anyref_decode_uintref_nopn any : anyref_decode_uintref any <> Pn.
Proof.
  destruct any as [t c]. unfold anyref_decode_uintref. destruct (t =? TAG_INTEGER); [|discriminate].
  apply bind_nopn; [apply reader_new_nopn|]. intros r _. apply bind_nopn; [apply uintref_decode_value_nopn|].
  intros; apply finish_nopn.
Qed.
Lemma anyref_from_der_run t k c : tag_try_from t = Ok t -> lenZ c = k -> lenZ (t :: sp_der_length k ++ c) <= LEN_MAX ->
  anyref_from_der (t :: sp_der_length k ++ c) = Ok (t, c).
Proof.
  intros Ht Hk Hl. unfold anyref_from_der. rewrite reader_new_ok by assumption. cbn [bind].
  assert (0 <= k <= LEN_MAX). { rewrite lenZ_cons, lenZ_app in Hl. pose proof (lenZ_nonneg c). pose proof (lenZ_nonneg (sp_der_length k)). lia. }
  rewrite header_decode_complete by assumption. cbn [bind].
  rewrite <- (app_nil_r c) at 1. rewrite <- Hk. rewrite read_slice_app. cbn [bind fst snd]. reflexivity.
Qed.
Lemma anyref_from_der_ok bs t c : wfd 256 bs -> anyref_from_der bs = Ok (t, c) ->
  bs = t :: sp_der_length (lenZ c) ++ c /\ lenZ bs <= LEN_MAX /\ wfd 256 c.
Proof.
  intros Hw H. unfold anyref_from_der in H. inv_bind H. apply reader_new_inv in Ha. destruct Ha as [Hl ->].
  inv_bind H. destruct a as [[tag len] r1]. apply header_decode_ok in Ha; [|assumption]. destruct Ha as (E & Hk & _ & _).
  inv_bind H. destruct a as [c' r2]. destruct r1 as [rest1 pos1]. apply read_slice_ok in Ha; [|lia]. cbn [fst snd] in *.
  destruct Ha as (E2 & Lc & _). apply finish_ok in H. destruct H as [Hr E3]. apply pair_inj in E3. destruct E3 as [-> ->].
  rewrite Hr, app_nil_r in E2. subst rest1. rewrite Lc. repeat split; try assumption.
  rewrite E in Hw. apply wfd_cons in Hw. destruct Hw as [_ Hw]. apply wfd_app in Hw. tauto.
Qed.
Lemma anyref_from_der_nopn bs : anyref_from_der bs <> Pn.
Proof.
  unfold anyref_from_der. apply bind_nopn; [apply reader_new_nopn|]. intros r _.
  apply bind_nopn; [apply header_decode_nopn|]. intros [[t l] r1] _.
  apply bind_nopn; [apply read_slice_nopn|]. intros; apply finish_nopn.
Qed.

Theorem der_from_any_run fx n x : 0 <= x -> lenZ (sp_der_encode x) <= LEN_MAX ->
  der_from_any fx n (sp_der_encode x) = uint_try_from_uintref fx n (mag0 x).
Proof.
  intros Hx Hl. destruct (content_canon x Hx) as (Hwc & Hcc & Hbc & Hlc). pose proof (content_len_le_encode x Hx).
  unfold der_from_any. unfold sp_der_encode, sp_der_header in *. cbn [app] in *.
  rewrite anyref_from_der_run by (apply tag_integer || assumption). cbn [bind].
  rewrite anyref_decode_uintref_run by (assumption || lia). cbn [bind].
  destruct (unpad_spec _ Hwc Hcc) as (_ & _ & ->). rewrite Hbc. reflexivity.
Qed.
Theorem der_from_any_ok fx n bs v : wfd 256 bs -> der_from_any fx n bs = Ok v ->
  exists x, 0 <= x /\ bs = sp_der_encode x /\ lenZ bs <= LEN_MAX /\ uint_try_from_uintref fx n (mag0 x) = Ok v.
Proof.
  intros Hw H. unfold der_from_any in H. inv_bind H. destruct a as [t c].
  apply anyref_from_der_ok in Ha; [|assumption]. destruct Ha as (E & Hl & Hwc).
  inv_bind H. apply anyref_decode_uintref_ok in Ha; [|assumption]. destruct Ha as (-> & Hcc & -> & _).
  destruct (unpad_spec c Hwc Hcc) as (_ & _ & Eu). rewrite Eu in H.
  exists (bev c). assert (0 <= bev c) by (apply bev_bounds; assumption). repeat split; try assumption.
  rewrite E. unfold sp_der_encode, sp_der_header. rewrite content_len_canon, canon_unique by assumption. reflexivity.
Qed.
Theorem der_from_any_nopn n bs : der_from_any true n bs <> Pn.
Proof.
  unfold der_from_any. apply bind_nopn; [apply anyref_from_der_nopn|]. intros any _.
  apply bind_nopn; [apply anyref_decode_uintref_nopn|]. intros; apply try_from_nopn.
Qed.
Theorem der_from_any_parts_run fx n c : wfd 256 c -> der_canonb c = true -> lenZ c <= LEN_MAX ->
  der_from_any_parts fx n TAG_INTEGER c = uint_try_from_uintref fx n (mag0 (bev c)).
Proof.
  intros Hw Hc Hl. unfold der_from_any_parts. change (tag_try_from TAG_INTEGER) with (@Ok Z 2). cbn [bind].
  rewrite ltb_false by lia. change 2 with TAG_INTEGER. rewrite anyref_decode_uintref_run by assumption. cbn [bind].
  destruct (unpad_spec c Hw Hc) as (_ & _ & ->). reflexivity.
Qed.
Theorem der_from_any_parts_ok fx n tb c v : wfd 256 c -> der_from_any_parts fx n tb c = Ok v ->
  tb = TAG_INTEGER /\ der_canonb c = true /\ lenZ c <= LEN_MAX /\ uint_try_from_uintref fx n (mag0 (bev c)) = Ok v.
Proof.
  intros Hw H. unfold der_from_any_parts in H. inv_bind H. apply tag_try_from_ok in Ha. subst a.
  destruct (Z.ltb_spec LEN_MAX (lenZ c)); [discriminate|]. inv_bind H.
  apply anyref_decode_uintref_ok in Ha; [|assumption]. destruct Ha as (-> & Hcc & -> & _).
  destruct (unpad_spec c Hw Hcc) as (_ & _ & Eu). rewrite Eu in H. auto.
Qed.
Theorem der_from_any_parts_nopn n tb c : der_from_any_parts true n tb c <> Pn.
Proof.
  unfold der_from_any_parts. apply bind_nopn; [apply tag_try_from_nopn|]. intros t _.
  destruct (LEN_MAX <? lenZ c); [discriminate|].
  apply bind_nopn; [apply anyref_decode_uintref_nopn|]. intros; apply try_from_nopn.
Qed.
Lemma length_strip0_le bs : (length (strip_leading_zeroes bs) <= length bs)%nat.
Proof.
  induction bs as [|b r IH]; [cbn; lia|]. cbn [strip_leading_zeroes]. destruct ((b =? 0) && negb (is_nil r)); cbn [length] in *; lia.
Qed.
Theorem der_from_uintref_spec fx n bs : wfd 256 bs -> lenZ bs <= LEN_MAX -> bs <> [] ->
  der_from_uintref fx n bs = uint_try_from_uintref fx n (mag0 (bev bs)).
Proof.
  intros Hw Hl Hn. unfold der_from_uintref, uintref_new. pose proof (length_strip0_le bs). rewrite ltb_false by (unfold lenZ in *; lia).
  cbn [bind]. rewrite strip0_general by assumption. reflexivity.
Qed.
Theorem der_from_uintref_nil fx n : der_from_uintref fx n [] = Ok (to_limbs n 0).
Proof.
  unfold der_from_uintref. change (uintref_new []) with (@Ok (list Z) []). cbn [bind].
  destruct (try_from_fits fx n [] (wfd_nil 256) ltac:(cbn [length]; lia)) as [E _]. rewrite E, bev_nil. reflexivity.
Qed.
Theorem der_from_uintref_nopn n bs : der_from_uintref true n bs <> Pn.
Proof. unfold der_from_uintref. apply bind_nopn; [unfold uintref_new; destruct (LEN_MAX <? _); discriminate | intros; apply try_from_nopn]. Qed.
Theorem der_decode_value_run fx n c rest : wfd 256 c -> der_canonb c = true -> lenZ (c ++ rest) <= LEN_MAX ->
  der_decode_value fx n (lenZ c) (c ++ rest) =
  bind (uint_try_from_uintref fx n (mag0 (bev c))) (fun v => Ok (v, lenZ rest)).
Proof.
  intros Hw Hc Hl. unfold der_decode_value. rewrite lenZ_app in Hl. pose proof (lenZ_nonneg rest). pose proof (lenZ_nonneg c).
  rewrite ltb_false by lia. rewrite reader_new_ok by (rewrite lenZ_app; lia). cbn [bind]. unfold uint_decode_value.
  rewrite uintref_decode_value_complete by (assumption || lia). cbn [bind fst snd].
  destruct (unpad_spec c Hw Hc) as (_ & _ & ->). destruct (uint_try_from_uintref fx n (mag0 (bev c))); reflexivity.
Qed.
Theorem der_decode_value_ok fx n hlen bs v rem : wfd 256 bs -> 0 <= hlen ->
  der_decode_value fx n hlen bs = Ok (v, rem) ->
  exists c rest, bs = c ++ rest /\ lenZ c = hlen /\ wfd 256 c /\ der_canonb c = true /\ rem = lenZ rest /\
                 uint_try_from_uintref fx n (mag0 (bev c)) = Ok v.
Proof.
  intros Hw Hh H. unfold der_decode_value in H. destruct (Z.ltb_spec LEN_MAX hlen); [discriminate|].
  inv_bind H. apply reader_new_inv in Ha. destruct Ha as [Hl ->].
  inv_bind H. destruct a as [v' r']. cbn [fst snd] in H. apply ok_inj, pair_inj in H. destruct H as [-> <-].
  unfold uint_decode_value in Ha. inv_bind Ha. destruct a as [u r3].
  apply uintref_decode_value_ok in Ha0; [|assumption|lia]. destruct Ha0 as (c & E & Lc & Hwc & Hcc & -> & _).
  inv_bind Ha. apply ok_inj, pair_inj in Ha. destruct Ha as [<- <-]. cbn [fst snd] in *.
  destruct (unpad_spec c Hwc Hcc) as (_ & _ & Eu). rewrite Eu in Ha0.
  exists c, (fst r3). repeat split; assumption.
Qed.
Theorem der_decode_value_nopn n hlen bs : der_decode_value true n hlen bs <> Pn.
Proof.
  unfold der_decode_value. destruct (LEN_MAX <? hlen); [discriminate|].
  apply bind_nopn; [apply reader_new_nopn|]. intros r _. apply bind_nopn; [|discriminate].
  unfold uint_decode_value. apply bind_nopn; [apply uintref_decode_value_nopn|]. intros p _.
  apply bind_nopn; [apply try_from_nopn | discriminate].
Qed.
Theorem der_encode_ok ls : wf ls -> (1 <= length ls)%nat -> 8 * Z.of_nat (length ls) + 7 <= LEN_MAX ->
  der_encode ls = Ok (sp_der_encode (eval ls)).
Proof. intros Hw Hn Hb. apply der_encode_spec; try assumption. apply width_total_len; assumption. Qed.

(** the other DER routes accept exactly the same octet strings (repaired code) *)
Theorem der_from_any_same n bs v : wfd 256 bs -> (der_from_any true n bs = Ok v <-> der_decode true n bs = Ok v).
Proof.
  intros Hw. split; intros H.
  - destruct (der_from_any_ok true n bs v Hw H) as (x & Hx & -> & Hl & Ht). rewrite der_decode_run by assumption. assumption.
  - destruct (der_decode_ok true n bs v Hw H) as (x & Hx & -> & Hl & Ht). rewrite der_from_any_run by assumption. assumption.
Qed.
