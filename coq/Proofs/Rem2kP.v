(** C02 proofs: rem2k_vartime (x mod 2^k on a limb list, for every list length). *)
From CB Require Import Model.Limbs Model.Div Proofs.WordP Proofs.LimbsP Proofs.BitsP.
From Coq Require Import ZArith Lia List.
Open Scope Z_scope.

(** splitting a list around position i *)
Lemma split_nth (x : list Z) i : (i < length x)%nat ->
  x = firstn i x ++ nth i x 0 :: skipn (S i) x.
Proof.
  revert i. induction x as [|a x IH]; intros i Hi; cbn [length] in Hi; [lia|].
  destruct i as [|i]; cbn [firstn nth skipn app]; [reflexivity|].
  f_equal. apply IH. lia.
Qed.

Lemma upd_self x i : (i < length x)%nat -> upd x i (nthz x i) = x.
Proof. intros Hi. unfold upd, nthz. symmetry. apply split_nth. assumption. Qed.

Lemma firstn_S_app (a : list Z) m r : firstn (S (length a)) (a ++ m :: r) = a ++ [m].
Proof.
  induction a as [|y a IH]; cbn [length app].
  - reflexivity.
  - change (firstn (S (S (length a))) (y :: a ++ m :: r)) with (y :: firstn (S (length a)) (a ++ m :: r)).
    rewrite IH. reflexivity.
Qed.

Lemma firstn_S_upd x i v : (i < length x)%nat -> firstn (S i) (upd x i v) = firstn i x ++ [v].
Proof.
  intros Hi. unfold upd.
  assert (Hl : length (firstn i x) = i) by (apply firstn_length_le; lia).
  rewrite <- Hl at 1. apply firstn_S_app.
Qed.

(** the case k >= 64 * length x : nothing changes *)
Lemma rem2k_vartime_ge x k : x <> [] -> 64 * Z.of_nat (length x) <= k -> rem2k_vartime x k = x.
Proof.
  intros Hne Hk. unfold rem2k_vartime.
  assert (Hlen : (0 < length x)%nat) by (destruct x; [congruence | cbn [length]; lia]).
  assert (Hq : Z.of_nat (length x) <= k / 64) by (apply Z.div_le_lower_bound; lia).
  assert (Hle : (k / 64 <=? Z.of_nat (length x - 1)) = false) by (apply Z.leb_gt; lia).
  rewrite Hle. rewrite Nat2Z.id. unfold sel.
  rewrite upd_self by lia.
  replace (S (length x - 1)) with (length x) by lia.
  rewrite firstn_all, Nat.sub_diag. apply app_nil_r.
Qed.

(** low limb: masking with 2^b - 1 is reduction modulo 2^b *)
Lemma land_mask a b : 0 <= b -> Z.land a (2 ^ b - 1) = a mod 2 ^ b.
Proof.
  intros Hb. replace (2 ^ b - 1) with (Z.ones b) by (rewrite Z.ones_equiv; lia).
  apply Z.land_ones. assumption.
Qed.

Lemma mod_pow2_word xi hi b : 0 <= b < 64 -> (xi + B * hi) mod 2 ^ b = xi mod 2 ^ b.
Proof.
  intros Hb. rewrite B_val.
  replace 64 with (b + (64 - b)) by lia. rewrite Z.pow_add_r by lia.
  assert (0 < 2 ^ b) by (apply pow2_pos; lia).
  replace (xi + 2 ^ b * 2 ^ (64 - b) * hi) with (xi + (2 ^ (64 - b) * hi) * 2 ^ b) by ring.
  apply Z.mod_add. lia.
Qed.

Lemma rem2k_vartime_lt x k : wf x -> 0 <= k -> k < 64 * Z.of_nat (length x) ->
  eval (rem2k_vartime x k) = eval x mod 2 ^ k
  /\ wf (rem2k_vartime x k) /\ length (rem2k_vartime x k) = length x.
Proof.
  intros Hw Hk0 Hk. unfold rem2k_vartime.
  assert (Hq0 : 0 <= k / 64) by (apply Z.div_pos; lia).
  assert (Hq : k / 64 < Z.of_nat (length x)) by (apply Z.div_lt_upper_bound; lia).
  assert (Hle : (k / 64 <=? Z.of_nat (length x - 1)) = true) by (apply Z.leb_le; lia).
  rewrite Hle. unfold sel.
  pose proof (Z.div_mod k 64 ltac:(lia)) as Hdm.
  pose proof (Z.mod_pos_bound k 64 ltac:(lia)) as Hb.
  set (i := Z.to_nat (k / 64)).
  set (b := k mod 64) in *.
  assert (Hi : (i < length x)%nat) by (unfold i; lia).
  assert (HiZ : Z.of_nat i = k / 64) by (unfold i; lia).
  rewrite land_mask by lia.
  rewrite firstn_S_upd by assumption.
  assert (Hl : length (firstn i x) = i) by (apply firstn_length_le; lia).
  assert (Hpb : 0 < 2 ^ b) by (apply Z.pow_pos_nonneg; lia).
  assert (Hpb64 : 2 ^ b <= B).
  { rewrite B_val. apply Z.pow_le_mono_r; lia. }
  pose proof (Z.mod_pos_bound (nthz x i) (2 ^ b) Hpb) as Hm.
  split; [|split].
  - (* value *)
    rewrite !eval_app, eval_zeros, Z.mul_0_r, Z.add_0_r, Hl.
    cbn [eval]. rewrite Z.mul_0_r, Z.add_0_r.
    assert (H2k : 2 ^ k = Bn i * 2 ^ b).
    { rewrite Bn_pow2, HiZ, <- Z.pow_add_r by lia. f_equal. lia. }
    rewrite H2k. pose proof (Bn_pos i) as HBi.
    rewrite Z.rem_mul_r by lia.
    rewrite <- (eval_firstn i x Hw) by lia.
    f_equal. f_equal.
    (* eval x / Bn i = x_i + B * hi *)
    pose proof (split_nth x i Hi) as Hs.
    assert (Hd : eval x / Bn i = nthz x i + B * eval (skipn (S i) x)).
    { rewrite Hs at 1. rewrite eval_app, Hl. cbn [eval]. fold (nthz x i).
      pose proof (eval_bounds _ (wf_firstn i x Hw)) as Hfb. rewrite Hl in Hfb.
      apply (div_mod_unique_pos (Bn i) _ (eval (firstn i x))); [assumption | ring]. }
    rewrite Hd. symmetry. apply mod_pow2_word. lia.
  - (* wf *)
    apply wf_app. split; [|apply wf_zeros].
    apply wf_app. split; [apply wf_firstn; assumption|].
    apply wf_one. unfold is_word. lia.
  - rewrite !app_length, Hl, length_zeros. cbn [length]. lia.
Qed.

Theorem rem2k_vartime_correct x k : wf x -> x <> [] -> 0 <= k ->
  eval (rem2k_vartime x k) = (if 64 * Z.of_nat (length x) <=? k then eval x else eval x mod 2 ^ k)
  /\ wf (rem2k_vartime x k) /\ length (rem2k_vartime x k) = length x.
Proof.
  intros Hw Hne Hk.
  destruct (64 * Z.of_nat (length x) <=? k) eqn:E.
  - apply Z.leb_le in E. rewrite rem2k_vartime_ge by assumption. auto.
  - apply Z.leb_gt in E. apply rem2k_vartime_lt; assumption.
Qed.

Print Assumptions rem2k_vartime_correct.
