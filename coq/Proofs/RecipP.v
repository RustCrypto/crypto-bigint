(** C02: exactness of the 64-bit Newton reciprocal (Moeller & Granlund 2011, Algorithm 3). *)
From CB Require Import Model.Limbs Model.Div Proofs.WordP Proofs.LimbsP Proofs.BitsP Proofs.DivP Proofs.RecipTableP.
From Coq Require Import ZArith Lia List.
Open Scope Z_scope.

(** * Pure integer error analysis *)

Lemma square_bound c m : - m <= c <= m -> 0 <= c * c <= m * m.
Proof.
  intros H. split; [apply Z.square_nonneg|].
  destruct (Z_le_gt_dec 0 c); [apply Z.mul_le_mono_nonneg; lia|].
  replace (c * c) with (- c * - c) by ring. apply Z.mul_le_mono_nonneg; lia.
Qed.


(** Stage 0/1: table seed [v0] and first Newton step.  x = d40. *)
Lemma recip_stage1 d9 v0 x q rm :
  256 <= d9 <= 511 ->
  v0 * d9 <= 2 ^ 19 - 3 * 2 ^ 8 < v0 * d9 + d9 ->
  d9 * 2 ^ 31 < x <= (d9 + 1) * 2 ^ 31 ->
  v0 * v0 * x = q * 2 ^ 40 + rm -> 0 <= rm < 2 ^ 40 ->
  let v1 := 2 ^ 11 * v0 - q - 1 in
  let T1 := 2 ^ 60 - v1 * x in
  0 < v0 <= 2045 /\ 0 <= q < 2 ^ 22 /\ 0 < v1 < 2 ^ 21 /\ 0 < T1 < 2 ^ 43.
Proof.
  intros Hd9 Hv0 Hx Ha Hrm v1 T1.
  assert (Hv0r : 0 < v0 <= 2045).
  { split.
    - destruct (Z_lt_le_dec 0 v0); [assumption|].
      assert (v0 * d9 <= 0) by (apply Z.mul_nonpos_nonneg; lia). lia.
    - destruct (Z_le_gt_dec v0 2045); [assumption|].
      assert (2046 * 256 <= v0 * d9) by (apply Z.mul_le_mono_nonneg; lia). lia. }
  (* the error of v0 against 2^50 / x *)
  set (C := 2 ^ 50 - v0 * x).
  assert (HC : - (1279 * 2 ^ 31) <= C <= 1279 * 2 ^ 31).
  { assert (v0 * (d9 * 2 ^ 31) <= v0 * x) by (apply Z.mul_le_mono_nonneg_l; lia).
    assert (v0 * x <= v0 * ((d9 + 1) * 2 ^ 31)) by (apply Z.mul_le_mono_nonneg_l; lia).
    unfold C. lia. }
  apply square_bound in HC.
  assert (Hid : 2 ^ 40 * T1 = C * C + (2 ^ 40 - rm) * x).
  { unfold T1, v1, C. replace rm with (v0 * v0 * x - q * 2 ^ 40) by lia. ring. }
  assert (Hrx : 0 < (2 ^ 40 - rm) * x <= 2 ^ 40 * 2 ^ 40).
  { split; [apply Z.mul_pos_pos; lia | apply Z.mul_le_mono_nonneg; lia]. }
  assert (HT1 : 0 < T1 < 2 ^ 43) by lia.
  assert (Hvx : 0 <= v0 * x <= 2045 * 2 ^ 40).
  { split; [apply Z.mul_nonneg_nonneg; lia | apply Z.mul_le_mono_nonneg; lia]. }
  assert (Hvvx : 0 <= v0 * (v0 * x) <= v0 * (2045 * 2 ^ 40)).
  { split; [apply Z.mul_nonneg_nonneg; lia | apply Z.mul_le_mono_nonneg_l; lia]. }
  rewrite <- Z.mul_assoc in Ha.
  assert (Hv1u : v1 < 2 ^ 21).
  { destruct (Z_lt_ge_dec v1 (2 ^ 21)); [assumption|].
    assert (2 ^ 21 * x <= v1 * x) by (apply Z.mul_le_mono_nonneg_r; lia).
    unfold T1 in HT1. lia. }
  unfold v1 in *. lia.
Qed.

(** Stage 2: second Newton step (still on the truncated divisor x = d40). *)
Lemma recip_stage2 v1 x q2 rm2 :
  2 ^ 39 < x <= 2 ^ 40 -> 0 < v1 < 2 ^ 21 ->
  let T1 := 2 ^ 60 - v1 * x in
  0 < T1 < 2 ^ 43 ->
  v1 * T1 = q2 * 2 ^ 47 + rm2 -> 0 <= rm2 < 2 ^ 47 ->
  let v2 := 2 ^ 13 * v1 + q2 in
  let U2 := 2 ^ 73 - v2 * x in
  0 <= v1 * T1 < 2 ^ 64 /\ 0 <= q2 < 2 ^ 17 /\ 0 < v2 < 2 ^ 35 /\ 0 <= U2 < 2 ^ 39 + x.
Proof.
  intros Hx Hv1 T1 HT1 Hq2 Hrm2 v2 U2.
  assert (Hp : 0 <= v1 * T1 < 2 ^ 21 * 2 ^ 43).
  { split; [apply Z.mul_nonneg_nonneg; lia | apply Z.mul_lt_mono_nonneg; lia]. }
  assert (Hq2r : 0 <= q2 < 2 ^ 17) by lia.
  assert (Hid : 2 ^ 47 * U2 = T1 * T1 + rm2 * x).
  { unfold U2, v2. replace rm2 with (v1 * T1 - q2 * 2 ^ 47) by lia. unfold T1. ring. }
  assert (HTT : 0 < T1 * T1 < 2 ^ 43 * 2 ^ 43).
  { split; [apply Z.mul_pos_pos; lia | apply Z.mul_lt_mono_nonneg; lia]. }
  assert (Hrx : 0 <= rm2 * x < 2 ^ 47 * x).
  { split; [apply Z.mul_nonneg_nonneg; lia | apply Z.mul_lt_mono_pos_r; lia]. }
  repeat split; try lia; unfold v2; lia.
Qed.

(** Stage 3: passing from the truncated divisor d40 to the full divisor d. *)
Lemma recip_stage3 d x dl v2 :
  2 ^ 63 <= d < 2 ^ 64 -> d = 2 ^ 24 * (x - 1) + dl -> 0 <= dl < 2 ^ 24 ->
  0 < v2 < 2 ^ 35 -> 0 <= 2 ^ 73 - v2 * x < 2 ^ 39 + x ->
  0 < 2 ^ 97 - v2 * d < d + 2 ^ 63 + 2 ^ 60.
Proof.
  intros Hd Hdx Hdl Hv2 HU.
  assert (Hid : 2 ^ 97 - v2 * d = 2 ^ 24 * (2 ^ 73 - v2 * x) + v2 * (2 ^ 24 - dl)).
  { rewrite Hdx. ring. }
  assert (Hp : 0 < v2 * (2 ^ 24 - dl) <= 2 ^ 35 * 2 ^ 24).
  { split; [apply Z.mul_pos_pos; lia | apply Z.mul_le_mono_nonneg; lia]. }
  lia.
Qed.

(** Stage 4: the Newton step on the full divisor; V = v3 + 2^64 under-estimates 2^128/d by at most 2. *)
Lemma recip_stage4 d v2 e s q3 rm3 :
  2 ^ 63 <= d < 2 ^ 64 -> 0 < v2 < 2 ^ 35 ->
  let W := 2 ^ 97 - v2 * d in
  0 < W < d + 2 ^ 63 + 2 ^ 60 ->
  2 * e = W - s -> 0 <= s <= 1 ->
  v2 * e = q3 * 2 ^ 65 + rm3 -> 0 <= rm3 < 2 ^ 65 ->
  let V := 2 ^ 31 * v2 + q3 in
  0 <= e < 2 ^ 64 /\ 0 < 2 ^ 128 - V * d <= 2 * d.
Proof.
  intros Hd Hv2 W HW He Hs Hq3 Hrm3 V.
  split; [lia|].
  assert (Hid : 2 ^ 66 * (2 ^ 128 - V * d) = W * W + (v2 * s + 2 * rm3) * d).
  { unfold V. replace rm3 with (v2 * e - q3 * 2 ^ 65) by lia.
    replace s with (W - 2 * e) by lia. unfold W. ring. }
  assert (HWW : 0 < W * W <= (d + 2 ^ 63 + 2 ^ 60) * (d + 2 ^ 63 + 2 ^ 60)).
  { split; [apply Z.mul_pos_pos; lia | apply Z.mul_le_mono_nonneg; lia]. }
  assert (Hdd : d * d <= 2 ^ 64 * d) by (apply Z.mul_le_mono_nonneg_r; lia).
  assert (Hvs : 0 <= v2 * s <= 2 ^ 35 * 1).
  { split; [apply Z.mul_nonneg_nonneg; lia | apply Z.mul_le_mono_nonneg; lia]. }
  assert (Hsd : 0 <= (v2 * s + 2 * rm3) * d <= (2 ^ 35 + 2 ^ 66) * d).
  { split; [apply Z.mul_nonneg_nonneg; lia | apply Z.mul_le_mono_nonneg_r; lia]. }
  clearbody W. lia.
Qed.

(** Final adjustment step: an under-estimate within 2 is corrected to the exact floor. *)
Lemma recip_final_step d V :
  2 ^ 63 <= d < 2 ^ 64 -> 0 < 2 ^ 128 - V * d <= 2 * d ->
  2 ^ 64 <= V < 2 ^ 65 /\
  (V - 2 ^ 64 - ((V - 2 ^ 64 + 1) * d) / 2 ^ 64 - d) mod 2 ^ 64 = (2 ^ 128 - 1) / d - 2 ^ 64.
Proof.
  intros Hd HV.
  assert (HVl : 2 ^ 64 <= V).
  { destruct (Z_lt_ge_dec V (2 ^ 64)) as [Hlt|]; [|lia].
    assert ((V + 2) * d <= (2 ^ 64 + 1) * d) by (apply Z.mul_le_mono_nonneg_r; lia). lia. }
  assert (HVu : V < 2 ^ 65).
  { destruct (Z_lt_ge_dec V (2 ^ 65)) as [|Hge]; [assumption|].
    assert (2 ^ 65 * d <= V * d) by (apply Z.mul_le_mono_nonneg_r; lia). lia. }
  split; [lia|].
  set (r := 2 ^ 128 - (V + 1) * d).
  assert (Hr : - d < r <= d) by (unfold r; lia).
  assert (Hv3 : (V - 2 ^ 64 + 1) * d = 2 ^ 128 - r - 2 ^ 64 * d) by (unfold r; ring).
  destruct (Z_le_gt_dec r 0) as [Hr0|Hr0].
  - assert (HQ : (2 ^ 128 - 1) / d = V).
    { symmetry. apply (Z.div_unique_pos _ _ _ (2 ^ 128 - 1 - V * d)); unfold r in *; lia. }
    assert (Hh : ((V - 2 ^ 64 + 1) * d) / 2 ^ 64 = 2 ^ 64 - d).
    { symmetry. apply (Z.div_unique_pos _ _ _ (- r)); lia. }
    rewrite HQ, Hh.
    replace (V - 2 ^ 64 - (2 ^ 64 - d) - d) with (V - 2 ^ 64 + (-1) * 2 ^ 64) by ring.
    rewrite Z_mod_plus_full. apply Z.mod_small. lia.
  - assert (HVu' : V + 1 < 2 ^ 65).
    { destruct (Z_lt_ge_dec (V + 1) (2 ^ 65)) as [|Hge]; [assumption|].
      assert (2 ^ 65 * d <= (V + 1) * d) by (apply Z.mul_le_mono_nonneg_r; lia). unfold r in *; lia. }
    assert (HQ : (2 ^ 128 - 1) / d = V + 1).
    { symmetry. apply (Z.div_unique_pos _ _ _ (r - 1)); unfold r in *; lia. }
    assert (Hh : ((V - 2 ^ 64 + 1) * d) / 2 ^ 64 = 2 ^ 64 - d - 1).
    { symmetry. apply (Z.div_unique_pos _ _ _ (2 ^ 64 - r)); lia. }
    rewrite HQ, Hh.
    replace (V - 2 ^ 64 - (2 ^ 64 - d - 1) - d) with (V + 1 - 2 ^ 64 + (-1) * 2 ^ 64) by ring.
    rewrite Z_mod_plus_full. apply Z.mod_small. lia.
Qed.

(** * The model computes the exact-integer algorithm, hence the exact reciprocal *)

Lemma div_mod_eq a b : 0 < b -> a = a / b * b + a mod b /\ 0 <= a mod b < b.
Proof. intros Hb. split; [rewrite Z.mul_comm; apply Z.div_mod; lia | apply Z.mod_pos_bound; assumption]. Qed.

Lemma wrap_small x : 0 <= x < 2 ^ 64 -> wrap x = x.
Proof. intros H. unfold wrap. rewrite B_val. apply Z.mod_small, H. Qed.

(** a value that left the word range by k wrap-arounds *)
Lemma wrap_shift x k : 0 <= x < 2 ^ 64 -> wrap (x + k * 2 ^ 64) = x.
Proof. intros H. unfold wrap. rewrite B_val, Z_mod_plus_full. apply Z.mod_small, H. Qed.

Theorem reciprocal_correct d : 2 ^ 63 <= d < 2 ^ 64 -> recip_ok d (reciprocal d).
Proof.
  intros Hd. unfold recip_ok.
  cbv beta zeta delta [reciprocal].
  rewrite (Z.land_ones d 1 ltac:(lia) : Z.land d 1 = d mod 2).
  (* d = 2 dh + d0 = 2^24 (x - 1) + dl = 2^55 d9 + r9 *)
  destruct (div_mod_eq d 2 ltac:(lia)) as [Hdm2 Hd0]. set (d0 := d mod 2) in *. set (dh := d / 2) in *.
  destruct (div_mod_eq d (2 ^ 24) ltac:(lia)) as [Hdm24 Hdl]. set (dl := d mod 2 ^ 24) in *.
  set (x := d / 2 ^ 24 + 1) in *.
  destruct (div_mod_eq d (2 ^ 55) ltac:(lia)) as [Hdm55 Hr9]. set (d9 := d / 2 ^ 55) in *.
  assert (Hd9 : 256 <= d9 <= 511) by lia.
  assert (Hx9 : d9 * 2 ^ 31 < x <= (d9 + 1) * 2 ^ 31) by (unfold x; lia).
  (* v0, v1 *)
  rewrite (short_div_v0 d9 Hd9).
  destruct (div_mod_eq (2 ^ 19 - 3 * 2 ^ 8) d9 ltac:(lia)) as [Hv0dm Hv0r].
  set (v0 := (2 ^ 19 - 3 * 2 ^ 8) / d9) in *.
  destruct (div_mod_eq (v0 * v0 * x) (2 ^ 40) ltac:(lia)) as [Hq1 Hrm1].
  destruct (recip_stage1 d9 v0 x _ _ Hd9 ltac:(lia) Hx9 Hq1 Hrm1) as (Hv0b & Hq1r & Hv1r & HT1r).
  clear Hv0dm Hv0r.
  set (q1 := v0 * v0 * x / 2 ^ 40) in *. set (v1 := 2 ^ 11 * v0 - q1 - 1) in *.
  assert (Hxr : 2 ^ 39 < x <= 2 ^ 40) by lia.
  rewrite (wrap_small (v0 * 2 ^ 11)), (wrap_small (v0 * v0 * x)) by lia. fold q1.
  replace (v0 * 2 ^ 11 - q1 - 1) with v1 by (unfold v1; ring). rewrite (wrap_small v1) by lia.
  clear Hq1 Hrm1.
  (* v2 *)
  set (T1 := 2 ^ 60 - v1 * x) in *.
  destruct (div_mod_eq (v1 * T1) (2 ^ 47) ltac:(lia)) as [Hq2 Hrm2].
  destruct (recip_stage2 v1 x _ _ Hxr Hv1r HT1r Hq2 Hrm2) as (Hp2 & Hq2r & Hv2r & HU2).
  set (q2 := v1 * T1 / 2 ^ 47) in *. set (v2 := 2 ^ 13 * v1 + q2) in *.
  rewrite (wrap_small (v1 * 2 ^ 13)), (wrap_small (v1 * x)) by (unfold T1 in HT1r; lia). fold T1.
  rewrite (wrap_small T1), (wrap_small (v1 * T1)) by lia. fold q2.
  replace (v1 * 2 ^ 13 + q2) with v2 by (unfold v2; ring). rewrite (wrap_small v2) by lia.
  clear Hq2 Hrm2.
  (* e: half of W = 2^97 - v2 d, computed from the halves dh + d0 of d and vh of v2 *)
  pose proof (recip_stage3 d x dl v2 Hd ltac:(unfold x; lia) Hdl Hv2r HU2) as HW.
  destruct (div_mod_eq v2 2 ltac:(lia)) as [Hvdm Hvl]. set (vl := v2 mod 2) in *. set (vh := v2 / 2) in *.
  set (e := 2 ^ 96 - v2 * (dh + d0) + vh * d0).
  assert (Hs : 0 <= vl * d0 <= 1 * 1) by (split; [apply Z.mul_nonneg_nonneg | apply Z.mul_le_mono_nonneg]; lia).
  assert (Hvhd : 0 <= vh * d0 <= vh * 1) by (split; [apply Z.mul_nonneg_nonneg | apply Z.mul_le_mono_nonneg_l]; lia).
  assert (He2 : 2 * e = (2 ^ 97 - v2 * d) - vl * d0).
  { assert (X1 : v2 * d = v2 * (dh * 2 + d0)) by (f_equal; exact Hdm2).
    assert (X2 : v2 * d0 = (vh * 2 + vl) * d0) by (f_equal; exact Hvdm).
    unfold e. lia. }
  destruct (div_mod_eq (v2 * e) (2 ^ 65) ltac:(lia)) as [Hq3 Hrm3].
  destruct (recip_stage4 d v2 e _ _ _ Hd Hv2r HW He2 ltac:(lia) Hq3 Hrm3) as (Her & HV).
  set (q3 := v2 * e / 2 ^ 65) in *. set (V := 2 ^ 31 * v2 + q3) in *.
  rewrite (wrap_small (vh * d0)) by lia. unfold wmul. rewrite MAXW_val, B_val.
  destruct (div_mod_eq (v2 * (dh + d0)) B B_pos) as [Hm _]. fold (wrap (v2 * (dh + d0))) in Hm.
  set (k := v2 * (dh + d0) / B) in *. rewrite B_val in Hm.
  replace (2 ^ 64 - 1 - wrap (v2 * (dh + d0)) + 1 + vh * d0) with (e + (k + 1 - 2 ^ 32) * 2 ^ 64) by (unfold e; lia).
  rewrite (wrap_shift e) by lia.
  (* v3 = V - 2^64 and the final adjustment *)
  unfold mulhilo. cbv beta iota zeta.
  destruct (recip_final_step d V Hd HV) as (HVr & Hfin).
  assert (Ev3 : wadd (wshl v2 31) (v2 * e / B / 2) = V - 2 ^ 64).
  { unfold wadd, wshl. rewrite Z.div_div by (rewrite ?B_val; lia). unfold wrap. rewrite Zplus_mod_idemp_l, B_val.
    change (2 ^ 64 * 2) with (2 ^ 65). fold q3.
    replace (v2 * 2 ^ 31 + q3) with (V - 2 ^ 64 + 1 * 2 ^ 64) by (unfold V; ring).
    rewrite Z_mod_plus_full. apply Z.mod_small. lia. }
  rewrite Ev3. clear Ev3. set (v3 := V - 2 ^ 64) in *.
  assert (Ehi : (if wadd v3 1 =? 0 then d else wadd v3 1 * d / B) = (v3 + 1) * d / 2 ^ 64).
  { unfold wadd. rewrite B_val. destruct (Z.eq_dec v3 (2 ^ 64 - 1)) as [E|NE].
    - rewrite E. replace (2 ^ 64 - 1 + 1) with (0 + 1 * 2 ^ 64) by lia.
      rewrite wrap_shift by lia. cbn [Z.eqb]. rewrite Z.add_0_l, Z.mul_comm, Z.div_mul by lia. reflexivity.
    - rewrite wrap_small by lia. destruct (Z.eqb_spec (v3 + 1) 0); [lia | reflexivity]. }
  rewrite Ehi. clear Ehi.
  unfold wsub, wrap. rewrite Zminus_mod_idemp_l, B_val, Hfin. reflexivity.
Qed.

Print Assumptions reciprocal_correct.
