(** C02: the constant-time Uint::div_rem (fixed trip count, `done` masking, limb_div tail). *)
From CB Require Import Model.Limbs Model.Div Proofs.WordP Proofs.LimbsP Proofs.BitsP Proofs.DivP Proofs.Rem2kP
  Proofs.Div3by2P Proofs.KnuthStepP Proofs.DivShiftP Proofs.DivVtP.
From Coq Require Import ZArith Lia List.
Open Scope Z_scope.

Definition ct_body (xi' n : nat) (dwords : Z) (y : list Z) (rc : recip) (st : ctst) : ctst :=
  let xi := S xi' in
  let x := c_x st in
  let quo := div3by2 (c_xhi st) (c_xlo st) (nthz x xi') rc (nthz y (n - 2)) in
  let done := Z.of_nat xi <? dwords - 1 in
  let quo := sel done quo 0 in
  let '(x2, mask) := knuth_step x y (c_xhi st) 0 (n - xi - 1) (S xi) quo in
  let quo := sel mask quo (if quo =? 0 then 0 else quo - 1) in
  let xhi' := sel done (nthz x2 xi) (c_xhi st) in
  let x3 := upd x2 xi (sel done quo (nthz x2 xi)) in
  let xlo' := sel done (nthz x3 xi') (c_xlo st) in
  {| c_x := x3; c_xhi := xhi'; c_xlo := xlo' |}.

Lemma div_ct_loop_S xi' n dwords y rc st :
  div_ct_loop (S xi') n dwords y rc st = div_ct_loop xi' n dwords y rc (ct_body xi' n dwords y rc st).
Proof.
  cbn [div_ct_loop]. unfold ct_body.
  destruct (knuth_step (c_x st) y (c_xhi st) 0 (n - S xi' - 1) (S (S xi'))
    (sel (Z.of_nat (S xi') <? dwords - 1)
       (div3by2 (c_xhi st) (c_xlo st) (nthz (c_x st) xi') rc (nthz y (n - 2))) 0)) as [x2 mask].
  reflexivity.
Qed.

(** a property kept by every iteration is kept by the loop *)
Lemma div_ct_loop_ind (P : ctst -> Prop) n dwords y rc :
  (forall xi' st, (S xi' < n)%nat -> P st -> P (ct_body xi' n dwords y rc st)) ->
  forall xi st, (xi < n)%nat -> P st -> P (div_ct_loop xi n dwords y rc st).
Proof.
  intros Hstep. induction xi as [|xi IH]; intros st Hxi Hst; [exact Hst|].
  rewrite div_ct_loop_S. apply IH; [lia|]. apply Hstep; assumption.
Qed.

(** to_limbs of a multiple of B^a *)
Lemma to_limbs_shift a b v : to_limbs (a + b) (v * Bn a) = zeros a ++ to_limbs b v.
Proof.
  induction a as [|a IH]; cbn [Nat.add to_limbs zeros repeat app].
  - rewrite Bn_0, Z.mul_1_r. reflexivity.
  - rewrite Bn_S. pose proof B_pos.
    replace (v * (B * Bn a)) with ((v * Bn a) * B) by ring.
    rewrite Z.mod_mul, Z.div_mul by lia. f_equal. exact IH.
Qed.

Lemma skipn_zeros a b : skipn a (zeros b) = zeros (b - a).
Proof.
  revert a. induction b as [|b IH]; intros a; [destruct a; reflexivity|].
  destruct a as [|a]; [reflexivity|]. cbn [zeros repeat skipn Nat.sub]. apply IH.
Qed.

Lemma sel_false a b : sel false a b = a. Proof. reflexivity. Qed.
Lemma sel_true a b : sel true a b = b. Proof. reflexivity. Qed.

(** a masked (`done`) iteration changes nothing *)
Lemma ct_body_done xi' n dwords y rc st :
  wf (c_x st) -> length (c_x st) = n -> wf y -> length y = n -> is_word (c_xhi st) ->
  (S xi' < n)%nat -> Z.of_nat (S xi') < dwords - 1 ->
  ct_body xi' n dwords y rc st = st.
Proof.
  intros Hwx Hlx Hwy Hly Hxhi Hxi Hdone. unfold ct_body.
  assert (Z.of_nat (S xi') <? dwords - 1 = true) as -> by (apply Z.ltb_lt; assumption).
  unfold sel at 1.
  set (x := c_x st) in *.
  rewrite (knuth_step_zero x y (c_xhi st) 0 (n - S xi' - 1) (S (S xi'))
            [] (firstn (S (S xi')) x) (skipn (S (S xi')) x)
            (firstn (n - S xi' - 1) y) (skipn (n - S xi' - 1) y) []).
  - unfold sel. change (0 =? 0) with true. cbv iota.
    rewrite upd_self by lia. subst x. destruct st; reflexivity.
  - cbn [app]. rewrite firstn_skipn. reflexivity.
  - reflexivity.
  - apply firstn_length_le. lia.
  - rewrite app_nil_r, firstn_skipn. reflexivity.
  - apply firstn_length_le. lia.
  - rewrite skipn_length. lia.
  - apply wf_firstn. assumption.
  - apply wf_skipn. assumption.
  - assumption.
Qed.

Lemma div_ct_loop_done : forall c n dwords y rc st,
  wf (c_x st) -> length (c_x st) = n -> wf y -> length y = n -> is_word (c_xhi st) ->
  (c < n)%nat -> Z.of_nat c < dwords - 1 ->
  div_ct_loop c n dwords y rc st = st.
Proof.
  induction c as [|c IH]; intros n dwords y rc st Hwx Hlx Hwy Hly Hxhi Hc Hdone; [reflexivity|].
  rewrite div_ct_loop_S, ct_body_done by assumption. apply IH; auto; lia.
Qed.

Section Ct.
Variables (n dw : nat) (y yn : list Z) (rc : recip) (X' : Z).
Hypothesis Hdw : (1 <= dw <= n)%nat.
Hypothesis Hy : y = zeros (n - dw) ++ yn.
Hypothesis Hlyn : length yn = dw.
Hypothesis Hwyn : wf yn.
Hypothesis Hnorm : normalized (r_d rc).
Hypothesis Hrec : recip_ok (r_d rc) (r_v rc).
Hypothesis Htop : nthz y (n - 1) = r_d rc.
Let Yn := eval yn.
Let dwords := Z.of_nat dw.

(** M c = Yn * B^(c + 2 - dw): the bound on the window of the state at index c *)
Definition ctM (c : nat) : Z := Yn * Bn (c + 2 - dw).

Definition ct_inv (c : nat) (st : ctst) : Prop :=
  exists xw qs, c_x st = xw ++ qs /\ length xw = S c /\ length qs = (n - 1 - c)%nat /\ wf xw /\ wf qs /\
    is_word (c_xhi st) /\ c_xlo st = nthz (c_x st) c /\
    eval xw + Bn (S c) * c_xhi st < ctM c /\
    X' = (eval xw + Bn (S c) * c_xhi st) + ctM c * eval qs.

Lemma wf_y : wf y /\ length y = n.
Proof.
  rewrite Hy. split; [apply wf_app; split; [apply wf_zeros | assumption]|].
  rewrite app_length, length_zeros. lia.
Qed.

(** an active iteration (index S c >= dwords - 1) *)
Lemma ct_iter c st : (dw <= c + 2)%nat -> (S c < n)%nat -> ct_inv (S c) st ->
  ct_inv c (ct_body c n dwords y rc st).
Proof.
  intros Hact Hcn (xw & qs & Hx & Hlx & Hlq & Hwx & Hwq & Hxhi & Hxlo & HWM & HX).
  destruct wf_y as [Hwy Hlny].
  (* the divisor window *)
  set (yoff := (n - S c - 1)%nat).
  set (ya := firstn yoff y). set (yw := skipn yoff y).
  assert (Hya : length ya = yoff) by (unfold ya; apply firstn_length_le; lia).
  assert (Hlyw : length yw = S (S c)) by (unfold yw; rewrite skipn_length; lia).
  assert (Hwyw : wf yw) by (apply wf_skipn; assumption).
  assert (Heyw : eval yw = Yn * Bn (c + 2 - dw)).
  { unfold yw. rewrite Hy, skipn_app, length_zeros.
    replace (yoff - (n - dw))%nat with 0%nat by lia. cbn [skipn].
    rewrite skipn_zeros, eval_app, eval_zeros, length_zeros. fold Yn.
    replace (n - dw - yoff)%nat with (c + 2 - dw)%nat by lia. ring. }
  destruct (wf_snoc2 yw c Hlyw Hwyw) as (yl & v0 & d & Eyw & Hlyl & Hwyl & Hv0 & _).
  assert (Eyall : y = ya ++ (yl ++ [v0; d]) ++ [])
    by (rewrite app_nil_r, <- Eyw; unfold ya, yw; rewrite firstn_skipn; reflexivity).
  assert (Hd : nthz y (n - 1) = d).
  { rewrite Eyall, app_nil_r.
    replace (ya ++ yl ++ [v0; d]) with ((ya ++ yl ++ [v0]) ++ [d]) by (rewrite <- !app_assoc; reflexivity).
    apply nthz_app_mid. rewrite !app_length. simpl. lia. }
  assert (Hv : nthz y (n - 2) = v0).
  { rewrite Eyall, app_nil_r, app_assoc. apply nthz_app_mid. rewrite app_length. lia. }
  rewrite Htop in Hd.
  (* the dividend window *)
  destruct (wf_snoc2 xw c Hlx Hwx) as (xl & u0 & u1 & Exw & Hlxl & Hwxl & Hu0 & Hu1).
  assert (Hn1 : nthz (c_x st) (S c) = u1).
  { rewrite Hx, Exw.
    replace ((xl ++ [u0; u1]) ++ qs) with ((xl ++ [u0]) ++ u1 :: qs) by (rewrite <- !app_assoc; reflexivity).
    apply nthz_app_mid. rewrite app_length. simpl. lia. }
  assert (Hn0 : nthz (c_x st) c = u0) by (rewrite Hx, Exw, <- app_assoc; apply nthz_app_mid; lia).
  unfold ct_body. rewrite Hxlo, Hn1, Hn0, Hv.
  assert (Z.of_nat (S c) <? dwords - 1 = false) as -> by (apply Z.ltb_ge; unfold dwords; lia).
  rewrite !sel_false.
  (* one Knuth iteration on the two windows *)
  assert (HMS : ctM (S c) = eval yw * B).
  { unfold ctM. rewrite Heyw. replace (S c + 2 - dw)%nat with (S (c + 2 - dw)) by lia. rewrite Bn_S. ring. }
  assert (HWY : eval (xl ++ [u0; u1]) + Bn (S (S c)) * c_xhi st < eval (yl ++ [v0; d]) * B)
    by (rewrite <- Exw, <- Eyw, <- HMS; exact HWM).
  destruct (knuth_iter_gen c ya yl v0 d [] rc [] xl u0 u1 qs (c_xhi st) Hlyl Hwyl Hv0 Hd
              ltac:(rewrite <- Hd; assumption) ltac:(rewrite <- Hd; assumption) Hlxl Hwxl Hu0 Hu1 Hxhi HWY)
    as (rl & rh & q & mask & Hk & _ & Hsel & Hlrl & Hwrl & Hrh & Hqw & HWq & Hrem).
  cbn [app length] in Hk. rewrite <- Exw, <- Hx, <- Eyall, Hya in Hk. fold yoff. rewrite Hk, Hsel.
  rewrite (nthz_app_mid rl rh qs (S c)) by assumption. rewrite !sel_false.
  rewrite (upd_app_mid rl rh qs (S c) q) by assumption.
  exists rl, (q :: qs). cbn [c_x c_xhi c_xlo].
  split; [reflexivity|]. split; [assumption|]. split; [simpl; lia|]. split; [assumption|].
  split; [apply wf_cons; split; assumption|]. split; [assumption|]. split; [reflexivity|].
  assert (HMc : ctM c = eval yw) by (unfold ctM; rewrite Heyw; reflexivity).
  rewrite eval_snoc, Hlrl, <- Eyw in HWq, Hrem. rewrite <- Exw in HWq. rewrite HMc. split; [lia|].
  rewrite HX, HMS. cbn [eval]. rewrite HWq. ring.
Qed.

(** the whole loop from index c down to 1 *)
Lemma div_ct_loop_correct : forall c st, (dw <= c + 2)%nat -> (c < n)%nat -> ct_inv c st ->
  ct_inv (dw - 2) (div_ct_loop c n dwords y rc st).
Proof.
  induction c as [|c IH]; intros st Hact Hcn Hinv.
  - cbn [div_ct_loop]. replace (dw - 2)%nat with 0%nat by lia. assumption.
  - destruct (le_lt_dec dw (c + 2)) as [Hle|Hgt].
    + rewrite div_ct_loop_S. apply IH; [assumption | lia|]. apply ct_iter; assumption.
    + (* every remaining iteration is masked *)
      assert (Edw : (dw - 2 = S c)%nat) by lia. rewrite Edw.
      destruct wf_y as [Hwy Hlny].
      destruct Hinv as (xw & qs & Hx & Hlx & Hlq & Hwx & Hwq & Hxhi & Hrest).
      rewrite div_ct_loop_done; try assumption.
      * exists xw, qs. tauto.
      * rewrite Hx. apply wf_app. split; assumption.
      * rewrite Hx, app_length. lia.
      * unfold dwords. lia.
Qed.
(** the state before the first iteration: the shifted dividend with its carry limb *)
Lemma ct_inv_init x x_hi s : (2 <= n)%nat -> wf x -> length x = n -> 0 <= x_hi < 2 ^ s -> 0 <= s < 64 ->
  eval x + Bn n * x_hi = X' -> Bn dw <= 2 * Yn ->
  ct_inv (n - 1) {| c_x := x; c_xhi := x_hi; c_xlo := nthz x (n - 1) |}.
Proof.
  intros Hn2 Hwx Hlx Hxhi Hs Hxe Hnlo. exists x, []. cbn [c_x c_xhi c_xlo]. rewrite app_nil_r.
  split; [reflexivity|]. split; [lia|]. split; [simpl; lia|]. split; [assumption|]. split; [apply wf_nil|].
  split; [exact (shift_carry_word x_hi s Hxhi Hs)|]. split; [reflexivity|].
  replace (S (n - 1)) with n by lia. cbn [eval]. unfold ctM. split; [|lia].
  replace (n - 1 + 2 - dw)%nat with (S (n - dw)) by lia. rewrite Bn_S.
  replace (Yn * (B * Bn (n - dw))) with (Yn * Bn (n - dw) * B) by ring.
  pose proof (eval_bounds x Hwx) as Hbx. rewrite Hlx in Hbx.
  apply (window_bound _ _ _ s); try assumption.
  replace n with ((n - dw) + dw)%nat at 1 by lia. rewrite Bn_add. pose proof (Bn_pos (n - dw)).
  assert (Bn (n - dw) * Bn dw <= Bn (n - dw) * (2 * Yn)) by (apply Z.mul_le_mono_nonneg_l; lia). lia.
Qed.
End Ct.

Lemma eval_map_zero (f : nat -> Z) l : (forall i, In i l -> f i = 0) -> eval (map f l) = 0.
Proof.
  induction l as [|a l IH]; intros H; [reflexivity|]. cbn [map eval].
  rewrite (H a) by (left; reflexivity). rewrite IH by (intros i Hi; apply H; right; assumption). lia.
Qed.

(** the remainder read-out of the constant-time routine when the divisor has at least two limbs *)
Lemma ct_rem_list (xw qs : list Z) x_hi n dw :
  (2 <= dw <= n)%nat -> length xw = (dw - 1)%nat -> length (xw ++ qs) = n ->
  nthz (xw ++ qs) 0 ::
    map (fun i => sel (Z.of_nat i =? Z.of_nat dw - 1) (sel (Z.of_nat i <? Z.of_nat dw) 0 (nthz (xw ++ qs) i)) x_hi)
        (seq 1 (n - 1))
  = xw ++ [x_hi] ++ zeros (n - dw).
Proof.
  intros Hdw Hlx Hln. apply (nth_ext _ _ 0 0).
  - cbn [length]. rewrite map_length, seq_length, !app_length, length_zeros. simpl. lia.
  - intros i Hi. cbn [length] in Hi. rewrite map_length, seq_length in Hi.
    destruct i as [|i].
    + cbn [nth]. unfold nthz. rewrite !app_nth1 by lia. reflexivity.
    + cbn [nth]. rewrite nth_map_seq_gen by lia. cbv zeta. unfold sel.
      replace (1 + i)%nat with (S i) by lia.
      destruct (Z.of_nat (S i) =? Z.of_nat dw - 1) eqn:E1.
      * apply Z.eqb_eq in E1. rewrite app_nth2 by lia. replace (S i - length xw)%nat with 0%nat by lia. reflexivity.
      * apply Z.eqb_neq in E1. destruct (Z.of_nat (S i) <? Z.of_nat dw) eqn:E2.
        -- apply Z.ltb_lt in E2. unfold nthz. rewrite !app_nth1 by lia. reflexivity.
        -- apply Z.ltb_ge in E2. rewrite app_nth2 by lia. rewrite app_nth2 by (cbn [length]; lia).
           unfold zeros. rewrite nth_repeat. reflexivity.
Qed.

(** the divisor as the loop sees it: shifted to the top of the n limbs, its dw significant limbs yn hold the
    normalised value and the top limb is the normalised word whose reciprocal is used *)
Lemma ct_divisor n y0 : wf y0 -> length y0 = n -> 0 < eval y0 ->
  let dw := nlimbs (eval y0) in
  exists yn d, shl_val n y0 (64 * Z.of_nat n - bits_of (eval y0)) = zeros (n - dw) ++ yn /\
    length yn = dw /\ wf yn /\ eval yn = eval y0 * 2 ^ nshift (eval y0) /\
    nthz (zeros (n - dw) ++ yn) (n - 1) = d /\ normalized d /\ d = top64 (eval y0).
Proof.
  intros Hwy Hlen Hyp dw.
  destruct (nlimbs_spec _ Hyp) as (Hyc1 & Hsh & Hshe & _ & Hnlo & Hnhi).
  pose proof (nlimbs_le_length y0 Hwy Hyp) as Hycm. rewrite Hlen in Hycm. fold dw in Hyc1, Hshe, Hnlo, Hnhi, Hycm.
  set (s := nshift (eval y0)) in *. set (Yn := eval y0 * 2 ^ s) in *.
  assert (H2s : 0 < 2 ^ s) by (apply Z.pow_pos_nonneg; lia).
  set (yn := to_limbs dw Yn).
  assert (Hlyn : length yn = dw) by apply length_to_limbs.
  assert (Hwyn : wf yn) by apply wf_to_limbs.
  assert (Heyn : eval yn = Yn) by (apply to_limbs_small; unfold Yn; lia).
  destruct (wf_snoc yn (dw - 1) ltac:(lia) Hwyn) as (yn' & d & Eyn & Hlyn' & Hwyn' & Hdw').
  exists yn, d. split; [|split; [assumption|split; [assumption|split; [assumption|split; [|split]]]]].
  - unfold shl_val.
    replace (64 * Z.of_nat n - bits_of (eval y0)) with (s + 64 * Z.of_nat (n - dw)) by lia.
    rewrite Z.pow_add_r by lia. rewrite <- Bn_pow2. rewrite Z.mul_assoc. fold Yn.
    assert (HBn : Bn n = Bn (n - dw) * Bn dw) by (rewrite <- Bn_add; f_equal; lia).
    pose proof (Bn_pos (n - dw)). pose proof (Bn_pos dw).
    rewrite Z.mod_small.
    + replace n with ((n - dw) + dw)%nat at 1 by lia. apply to_limbs_shift.
    + split; [apply Z.mul_nonneg_nonneg; lia|]. rewrite HBn, (Z.mul_comm (Bn (n - dw))).
      apply Z.mul_lt_mono_pos_r; lia.
  - rewrite Eyn, app_assoc. apply nthz_app_mid. rewrite app_length, length_zeros. lia.
  - apply (top_limb_normalized yn'); auto. rewrite <- Eyn, Heyn, Hlyn'. replace (S (dw - 1)) with dw by lia. assumption.
  - rewrite <- (top_limb_top64 (eval y0) yn (dw - 1)); try assumption; try (fold dw; lia).
    rewrite Eyn. symmetry. apply nthz_app_mid. assumption.
Qed.

(** The divisor is shifted to the top of its n limbs (ct_divisor), the dividend by the same bit shift (shl_limb);
    X' = x0 * 2^s and Yn = y0 * 2^s.  The loop keeps [ct_inv]: X' = (window with c_xhi on top) + ctM c * (digits
    found so far), window < ctM c; iterations below index dwords - 1 are masked and change nothing.  At the end
    ctM (dw - 2) = Yn, so the digits are the quotient and the window is the shifted remainder: for one divisor limb a
    last div2by1 splits it, otherwise it is read out of the low limbs and c_xhi; [denormalise] undoes the shift. *)
Theorem div_rem_ct_core_correct x0 y0 :
  wf x0 -> wf y0 -> length y0 = length x0 -> (2 <= length x0)%nat -> 0 < eval y0 ->
  recip_ok (top64 (eval y0)) (reciprocal (top64 (eval y0))) ->
  let '(q, r) := div_rem_ct_core x0 y0 (bits_of (eval y0)) in
  eval x0 = eval q * eval y0 + eval r /\ 0 <= eval r < eval y0 /\
  length q = length x0 /\ length r = length x0 /\ wf q /\ wf r.
Proof.
  intros Hwx Hwy Hlen Hn2 Hyp Hrec.
  pose proof (eval_bounds x0 Hwx) as Hbx. pose proof (eval_bounds y0 Hwy) as Hby.
  destruct (nlimbs_spec _ Hyp) as (Hyc1 & Hsh & Hshe & [Hylo Hyhi] & Hnlo & Hnhi).
  pose proof (nlimbs_le_length y0 Hwy Hyp) as Hycm. rewrite Hlen in Hycm, Hby.
  destruct (bits_of_spec _ Hyp) as (Hb1 & _).
  unfold div_rem_ct_core. fold (nshift (eval y0)).
  set (n := length x0) in *. set (dw := nlimbs (eval y0)) in *. set (s := nshift (eval y0)) in *.
  assert (Hdwz : (bits_of (eval y0) + 63) / 64 = Z.of_nat dw).
  { unfold dw, nlimbs. rewrite Z2Nat.id; [reflexivity|]. apply Z.div_pos; lia. }
  rewrite Hdwz. set (dwords := Z.of_nat dw).
  pose proof B_gt1 as HB. pose proof (Bn_pos dw) as HBdw.
  assert (H2s : 0 < 2 ^ s) by (apply Z.pow_pos_nonneg; lia).
  set (Yn := eval y0 * 2 ^ s) in *.
  (* the top-aligned divisor and its reciprocal *)
  destruct (ct_divisor n y0 Hwy Hlen Hyp) as (yn & d & Ey & Hlyn & Hwyn & Heyn & Htopd & Hnd & Hdtop).
  fold dw s Yn in Ey, Hlyn, Heyn, Htopd. rewrite Ey. set (y := zeros (n - dw) ++ yn) in *.
  rewrite Htopd. rewrite (recip_new_normalized d Hnd).
  set (rc := {| r_d := d; r_shift := 0; r_v := reciprocal d |}).
  assert (Hrcd : recip_ok (r_d rc) (r_v rc)) by (cbn [r_d r_v rc]; rewrite Hdtop; assumption).
  (* the dividend *)
  pose proof (shl_limb_correct x0 s Hwx Hsh) as Hx. fold n in Hx.
  destruct (shl_limb x0 s) as [x x_hi]. destruct Hx as (Hxe & Hwxs & Hlxs & Hxhi).
  set (X' := eval x0 * 2 ^ s) in *.
  set (st0 := {| c_x := x; c_xhi := x_hi; c_xlo := nthz x (n - 1) |}).
  assert (Hinv0 : ct_inv n dw yn X' (n - 1) st0)
    by (apply ct_inv_init with (s := s); try assumption; try lia; rewrite Heyn; assumption).
  pose proof (div_ct_loop_correct n dw y yn rc X' ltac:(lia) eq_refl Hlyn Hwyn
                ltac:(cbn [r_d rc]; assumption) Hrcd Htopd (n - 1)%nat st0 ltac:(lia) ltac:(lia) Hinv0) as Hfin.
  fold dwords in Hfin. set (st := div_ct_loop (n - 1) n dwords y rc st0) in *.
  destruct Hfin as (xw & qs & Hx & Hlxw & Hlqs & Hwxw & Hwqs & Hxhif & Hxlo & HWM & HX).
  unfold ctM in HWM, HX. rewrite Heyn in HWM, HX.
  assert (Hlenx : length (c_x st) = n) by (rewrite Hx, app_length; lia).
  pose proof (eval_bounds xw Hwxw) as Hbxw. pose proof (eval_bounds qs Hwqs) as Hbqs.
  unfold is_word in Hxhif.
  destruct (Nat.eq_dec dw 1) as [E1|E1].
  - (* single-limb divisor: the last digit comes from div2by1 *)
    assert (dwords =? 1 = true) as -> by (apply Z.eqb_eq; unfold dwords; lia).
    rewrite sel_true.
    assert (Hd1 : Yn = d).
    { rewrite <- Heyn, <- Htopd. unfold y. destruct yn as [|y1 [|? ?]]; try (simpl in Hlyn; lia).
      rewrite nthz_app_mid by (rewrite length_zeros; lia). cbn [eval]. lia. }
    rewrite E1 in *. replace (1 - 2)%nat with 0%nat in * by lia. replace (0 + 2 - 1)%nat with 1%nat in * by lia.
    rewrite Bn_1 in *.
    destruct xw as [|r0 [|? ?]]; try (simpl in Hlxw; lia). cbn [eval] in *.
    apply wf_cons in Hwxw. destruct Hwxw as [Hr0 _].
    assert (Hx0 : nthz (c_x st) 0 = r0) by (rewrite Hx; reflexivity).
    rewrite Hxlo, Hx0.
    assert (Hxhid : 0 <= c_xhi st < r_d rc).
    { cbn [r_d rc]. rewrite <- Hd1. split; [lia|]. unfold is_word in Hr0.
      destruct (Z_lt_ge_dec (c_xhi st) Yn); [assumption|]. exfalso.
      assert (B * Yn <= B * c_xhi st) by (apply Z.mul_le_mono_nonneg_l; lia). lia. }
    pose proof (div2by1_correct (c_xhi st) r0 rc Hr0 Hxhid ltac:(cbn [r_d rc]; assumption) Hrcd) as H21.
    destruct (div2by1 (c_xhi st) r0 rc) as [quo2 rem2]. cbn [r_d rc] in H21. destruct H21 as (He21 & Hrem2 & Hquo2).
    change (sel true (nthz (c_x st) 0) quo2) with quo2. rewrite !sel_true.
    rewrite Hx. cbn [app]. unfold upd. cbn [firstn skipn app].
    unfold shr_val.
    replace ((dwords - 1) * 64) with 0 by (unfold dwords; lia). rewrite Z.pow_0_r, Z.div_1_r.
    assert (Hwq : wf (quo2 :: qs)) by (apply wf_cons; split; [unfold is_word; lia | assumption]).
    pose proof (eval_bounds _ Hwq) as Hbq. cbn [length] in Hbq. replace (S (length qs)) with n in Hbq by lia.
    assert (Htail : eval (map (fun i : nat =>
               sel (Z.of_nat i =? dwords - 1) (sel (Z.of_nat i <? dwords) 0 (nthz (quo2 :: qs) i)) (c_xhi st))
               (seq 1 (n - 1))) = 0).
    { apply eval_map_zero. intros i Hi. apply in_seq in Hi. cbv zeta. unfold sel.
      assert (Z.of_nat i =? dwords - 1 = false) as -> by (apply Z.eqb_neq; unfold dwords; lia).
      assert (Z.of_nat i <? dwords = false) as -> by (apply Z.ltb_ge; unfold dwords; lia). reflexivity. }
    cbn [eval]. rewrite Htail. replace (rem2 + B * 0) with rem2 by lia.
    rewrite !eval_to_limbs, !length_to_limbs.
    cbn [eval] in Hbq. rewrite (Z.mod_small (quo2 + B * eval qs)) by lia.
    assert (HXn : eval x0 * 2 ^ s = rem2 + (eval y0 * 2 ^ s) * (quo2 + B * eval qs)).
    { fold X' Yn. rewrite HX, Hd1. lia. }
    destruct (denormalise (eval x0) (2 ^ s) rem2 (eval y0) (quo2 + B * eval qs) H2s HXn ltac:(fold Yn; lia)) as [Hf1 Hf2].
    rewrite (Z.mod_small (rem2 / 2 ^ s)) by lia.
    repeat split; auto using wf_to_limbs; lia.
  - (* at least two divisor limbs: the remainder sits in the low limbs and x_hi *)
    assert (dwords =? 1 = false) as -> by (apply Z.eqb_neq; unfold dwords; lia).
    rewrite sel_false.
    destruct (div2by1 0 (c_xlo st) rc) as [quo2 rem2].
    change (sel false (nthz (c_x st) 0) quo2) with (nthz (c_x st) 0). rewrite sel_false.
    replace (upd (c_x st) 0 (nthz (c_x st) 0)) with (c_x st) by (rewrite upd_self; [reflexivity | lia]).
    replace (dw - 2 + 2 - dw)%nat with 0%nat in * by lia. rewrite Bn_0, Z.mul_1_r in *.
    replace (S (dw - 2)) with (dw - 1)%nat in * by lia.
    rewrite Hx. unfold dwords. rewrite (ct_rem_list xw qs (c_xhi st) n dw) by (try rewrite <- Hx; lia).
    unfold shr_val.
    replace ((Z.of_nat dw - 1) * 64) with (64 * Z.of_nat (dw - 1)) by lia. rewrite <- Bn_pow2.
    assert (Hq : eval (xw ++ qs) / Bn (dw - 1) = eval qs).
    { rewrite eval_app, Hlxw. pose proof (Bn_pos (dw - 1)). rewrite Hlxw in Hbxw.
      apply (div_mod_unique_pos (Bn (dw - 1)) (eval qs) (eval xw)); lia. }
    rewrite Hq.
    assert (HeL : eval (xw ++ [c_xhi st] ++ zeros (n - dw)) = eval xw + Bn (dw - 1) * c_xhi st).
    { rewrite !eval_app, eval_zeros, Hlxw. cbn [eval length]. ring. }
    rewrite HeL. set (W := eval xw + Bn (dw - 1) * c_xhi st) in *.
    assert (HW0 : 0 <= W).
    { unfold W. pose proof (Bn_pos (dw - 1)). assert (0 <= Bn (dw - 1) * c_xhi st) by (apply Z.mul_nonneg_nonneg; lia). lia. }
    rewrite !eval_to_limbs, !length_to_limbs.
    assert (Hqs : eval qs < Bn n).
    { assert (Bn (length qs) <= Bn n) by (apply Bn_le; lia). lia. }
    rewrite (Z.mod_small (eval qs)) by lia.
    assert (HXn : eval x0 * 2 ^ s = W + (eval y0 * 2 ^ s) * eval qs) by (fold X' Yn; rewrite HX; ring).
    destruct (denormalise (eval x0) (2 ^ s) W (eval y0) (eval qs) H2s HXn ltac:(fold Yn; lia)) as [Hf1 Hf2].
    rewrite (Z.mod_small (W / 2 ^ s)) by lia.
    repeat split; auto using wf_to_limbs; lia.
Qed.

Theorem uint_div_rem_correct x0 y0 :
  wf x0 -> wf y0 -> length y0 = length x0 -> eval y0 <> 0 ->
  recip_ok (top64 (eval y0)) (reciprocal (top64 (eval y0))) ->
  exists q r, uint_div_rem x0 y0 = Some (q, r) /\
  eval x0 = eval q * eval y0 + eval r /\ 0 <= eval r < eval y0 /\
  length q = length x0 /\ length r = length x0 /\ wf q /\ wf r.
Proof.
  intros Hwx Hwy Hlen Hnz Hrec.
  pose proof (eval_nonneg y0 Hwy) as Hy0. assert (Hyp : 0 < eval y0) by lia.
  unfold uint_div_rem. pose proof B_gt1 as HB.
  destruct (length x0 =? 1)%nat eqn:E1.
  - apply Nat.eqb_eq in E1. destruct y0 as [|d [|? ?]]; try (simpl in Hlen; lia).
    cbn [eval] in *. unfold nthz. cbn [nth]. apply wf_cons in Hwy. destruct Hwy as [Hd _]. unfold is_word in Hd.
    replace (d + B * 0) with d in * by lia.
    assert (d =? 0 = false) as -> by (apply Z.eqb_neq; lia).
    assert (Hfor : recip_for d (recip_new d)).
    { apply recip_new_for; [lia|]. rewrite recip_new_top64 by lia. assumption. }
    pose proof (div_rem_limb_correct x0 d (recip_new d) Hwx ltac:(lia) Hfor) as H.
    destruct (div_rem_limb_with_reciprocal x0 (recip_new d)) as [q1 r1].
    destruct H as (He & Hr & Hwq & Hlq). exists q1, [r1]. split; [reflexivity|].
    cbn [eval length]. repeat split; auto; try lia.
    apply wf_one. unfold is_word. lia.
  - apply Nat.eqb_neq in E1.
    destruct (bits_of_spec _ Hyp) as (Hb1 & _).
    assert (bits_of (eval y0) =? 0 = false) as -> by (apply Z.eqb_neq; lia).
    assert (Hn2 : (2 <= length x0)%nat).
    { destruct x0 as [|a [|b x0]]; cbn [length] in *; try lia.
      destruct y0; [simpl in Hyp; lia | simpl in Hlen; lia]. }
    pose proof (div_rem_ct_core_correct x0 y0 Hwx Hwy Hlen Hn2 Hyp Hrec) as H.
    destruct (div_rem_ct_core x0 y0 (bits_of (eval y0))) as [q r]. exists q, r. split; [reflexivity | exact H].
Qed.

Theorem uint_div_rem_zero x0 y0 : wf y0 -> length y0 = length x0 -> eval y0 = 0 -> uint_div_rem x0 y0 = None.
Proof.
  intros Hwy Hlen Hz. unfold uint_div_rem. destruct (length x0 =? 1)%nat eqn:E1.
  - apply Nat.eqb_eq in E1. destruct y0 as [|d [|? ?]]; try (simpl in Hlen; lia).
    cbn [eval] in Hz. unfold nthz. cbn [nth]. apply wf_cons in Hwy. destruct Hwy as [Hd _]. unfold is_word in Hd.
    assert (d = 0) by lia. subst d. reflexivity.
  - rewrite Hz. reflexivity.
Qed.
