(** C10 proofs: [sg_core] (the two divsteps drivers with their iteration count), the final normalisation
    [sg_norm], on the unsaturated representation. *)
From CB Require Import Model.Limbs Model.AddSub Model.SafeGcd Proofs.WordP Proofs.LimbsP Proofs.BitsP
  Proofs.SafeGcdArithP Proofs.SafeGcdJumpP Proofs.SafeGcdUnsatP Proofs.SafeGcdStepP Proofs.SafeGcdDivstepsP.
From Coq Require Import ZArith Lia List Bool Znumtheory Zdiv Setoid Morphisms.
Open Scope Z_scope.

Lemma bitlen_le62 l : 0 <= l < P62 -> 0 <= bitlen l <= 62.
Proof.
  intros H. unfold bitlen. destruct (Z.leb_spec l 0); [lia|].
  assert (Z.log2 l < 62) by (apply Z.log2_lt_pow2; [lia | rewrite <- P62_pow; lia]).
  pose proof (Z.log2_nonneg l). lia.
Qed.
Lemma lz_scan62_ge ls : wf62 ls -> forall c b, c <= lz_scan62 ls c b.
Proof.
  induction ls as [|l r IH]; intros W c b; cbn [lz_scan62]; [lia|].
  apply wf62_cons in W. destruct W as [Hl Wr]. pose proof (bitlen_le62 l Hl). unfold lz62.
  destruct b; (eapply Z.le_trans; [|apply IH; assumption]); lia.
Qed.
Lemma wf62_rev a : wf62 a -> wf62 (rev a).
Proof. unfold wf62. intros H. apply Forall_rev. assumption. Qed.
Lemma u_bits_le a : wf62 a -> u_bits a <= 62 * lenZ a.
Proof. intros W. unfold u_bits. pose proof (lz_scan62_ge (rev a) (wf62_rev a W) 0 true). lia. Qed.
Lemma bu_bits_le a : wf62 a -> bu_bits a <= 62 * lenZ a.
Proof. intros W. unfold bu_bits. pose proof (lz_scan62_ge a W 0 true). lia. Qed.
Lemma iterations_le fb gb X : fb <= X -> gb <= X -> 0 <= X -> Z.of_nat (iterations fb gb) <= 3 * X + 5.
Proof.
  intros Hf Hg HX. unfold iterations.
  set (d := if fb <? gb then gb else fb). assert (Hd : d <= X) by (unfold d; destruct (fb <? gb); lia).
  set (ad := if d <? 46 then 80 else 57). assert (Ha : ad <= 80) by (unfold ad; destruct (d <? 46); lia).
  assert (Q : (49 * d + ad) / 17 <= 3 * X + 4).
  { apply Z.lt_succ_r. apply Z.div_lt_upper_bound; lia. }
  lia.
Qed.

Lemma u_add_sval a b : wf62 a -> wf62 b -> length a = length b ->
  - M62 (length a) <= 2 * (sval a + sval b) < M62 (length a) ->
  wf62 (u_add a b) /\ length (u_add a b) = length a /\ sval (u_add a b) = sval a + sval b.
Proof.
  intros Wa Wb Hl R. destruct (u_add_spec a b Wa Wb Hl) as (W & Ln & E).
  repeat split; [assumption | assumption |].
  apply sval_unique; [assumption | | rewrite Ln; assumption].
  rewrite Ln, E, cg_mod. pose proof (sval_cg a) as Ca. pose proof (sval_cg b) as Cb. rewrite <- Hl in Cb.
  rewrite Ca, Cb. reflexivity.
Qed.
Lemma u_neg_sval a : wf62 a -> - M62 (length a) <= 2 * (- sval a) < M62 (length a) ->
  wf62 (u_neg a) /\ length (u_neg a) = length a /\ sval (u_neg a) = - sval a.
Proof.
  intros Wa R. destruct (u_neg_spec a Wa) as (W & Ln & E).
  repeat split; [assumption | assumption |].
  apply sval_unique; [assumption | | rewrite Ln; assumption].
  rewrite Ln, E, cg_mod. pose proof (sval_cg a) as Ca. rewrite Ca. reflexivity.
Qed.

Lemma cg_add_m x m : m <> 0 -> cg m (x + m) x.
Proof. intros H. apply cg_divide; [assumption|]. exists 1. ring. Qed.

(** sg_norm: from (-2m, ub] to [0, ub], the sign as requested *)
Lemma add_if_negative mL v m : wf62 mL -> wf62 v -> length v = length mL -> (0 < length mL)%nat ->
  sval mL = m -> 0 < m -> 8 * m <= M62 (length mL) -> - 2 * m < sval v <= m ->
  let r := if u_is_negative v then u_add v mL else v in
  wf62 r /\ length r = length mL /\ sval r = (if sval v <? 0 then sval v + m else sval v).
Proof.
  intros WmL Wv Lv HL Em Hm Fit Rv r. unfold r.
  rewrite u_is_negative_sval by (try apply nonempty_len; (assumption || lia)).
  destruct (Z.ltb_spec (sval v) 0); [|repeat split; assumption].
  destruct (u_add_sval v mL Wv WmL Lv) as (W & Ln & E); [rewrite Lv, Em; lia|].
  rewrite E, Em. repeat split; [assumption | congruence].
Qed.

Lemma sg_norm_spec mL v negate m ub : wf62 mL -> wf62 v -> length v = length mL -> (0 < length mL)%nat ->
  sval mL = m -> 0 < m -> 8 * m <= M62 (length mL) -> m - 1 <= ub <= m -> - 2 * m < sval v <= ub ->
  let r := sg_norm mL v negate in
  wf62 r /\ length r = length mL /\ 0 <= sval r <= ub /\ u_is_negative r = false /\
  cg m (sval r) (if negate then - sval v else sval v).
Proof.
  intros WmL Wv Lv HL Em Hm Fit Hub Rv r. unfold sg_norm in r.
  (* into (-m, ub] *)
  set (v1 := if u_is_negative v then u_add v mL else v) in *.
  destruct (add_if_negative mL v m WmL Wv Lv HL Em Hm Fit ltac:(lia)) as (W1 & L1 & S1). fold v1 in W1, L1, S1.
  assert (R1 : - m < sval v1 <= ub) by (rewrite S1; destruct (Z.ltb_spec (sval v) 0); lia).
  assert (C1 : cg m (sval v1) (sval v)) by (rewrite S1; destruct (sval v <? 0); [apply cg_add_m; lia | reflexivity]).
  set (v2 := if negate then u_neg v1 else v1) in *.
  assert (S2 : wf62 v2 /\ length v2 = length mL /\ - ub <= sval v2 <= ub /\
               cg m (sval v2) (if negate then - sval v else sval v)).
  { unfold v2. destruct negate.
    - destruct (u_neg_sval v1 W1) as (W & Ln & E); [rewrite L1; lia|].
      rewrite E. repeat split; try assumption; try lia. rewrite C1. reflexivity.
    - repeat split; try assumption; try lia. }
  destruct S2 as (W2 & L2 & R2 & C2).
  (* into [0, ub] *)
  destruct (add_if_negative mL v2 m WmL W2 L2 HL Em Hm Fit ltac:(lia)) as (W3 & L3 & S3). fold r in W3, L3, S3.
  assert (R3 : 0 <= sval r <= ub) by (rewrite S3; destruct (Z.ltb_spec (sval v2) 0); lia).
  split; [exact W3|]. split; [exact L3|]. split; [exact R3|]. split.
  - rewrite u_is_negative_sval by (try apply nonempty_len; (assumption || lia)). apply Z.ltb_ge. lia.
  - rewrite <- C2, S3. destruct (sval v2 <? 0); [apply cg_add_m; lia | reflexivity].
Qed.

Definition sg_conv (vartime boxed : bool) (e f0 g : list Z) (inverse : Z) : Prop :=
  exists d f, sg_core vartime boxed e f0 g inverse = Some (d, f, true).

Lemma sg_iter_bound (boxed : bool) f0 g L : wf62 f0 -> wf62 g -> length f0 = L -> length g = L ->
  Z.of_nat (iterations ((if boxed then bu_bits else u_bits) f0) ((if boxed then bu_bits else u_bits) g)) <= 3 * (62 * Z.of_nat L) + 5.
Proof.
  intros Wf Wg Lf Lg. apply iterations_le; [| | lia].
  - destruct boxed; [pose proof (bu_bits_le f0 Wf) | pose proof (u_bits_le f0 Wf)]; unfold lenZ in *; rewrite Lf in *; assumption.
  - destruct boxed; [pose proof (bu_bits_le g Wg) | pose proof (u_bits_le g Wg)]; unfold lenZ in *; rewrite Lg in *; assumption.
Qed.

Definition small_L (L : nat) : Prop := 1 + 62 * (3 * (62 * Z.of_nat L) + 5) <= P62.

(** both drivers return d and f of a state of the fixed-count loop reached within the iteration count; conv says g = 0 there *)
Lemma sg_core_state vartime boxed e f0 g inverse d f conv :
  sg_core vartime boxed e f0 g inverse = Some (d, f, conv) ->
  exists k delta' e' g',
    (k <= iterations ((if boxed then bu_bits else u_bits) f0) ((if boxed then bu_bits else u_bits) g))%nat /\
    divsteps_loop k f0 inverse (1, u_zero (length f0), e, f0, g) = (delta', d, e', f, g') /\ conv = u_is_zero g'.
Proof.
  unfold sg_core. set (n := iterations _ _). destruct vartime.
  - destruct (divsteps_vt_loop n f0 inverse _) as [[[[[delta' d'] e'] f'] g']|] eqn:EL; [|discriminate].
    intros E. injection E as <- <- <-. destruct (divsteps_vt_some _ _ _ _ _ _ _ _ _ EL) as (k & Hk & EK & Z').
    exists k, delta', e', g'. rewrite Z'. split; [exact Hk|]. split; [exact EK | reflexivity].
  - destruct (divsteps_loop n f0 inverse _) as [[[[delta' d'] e'] f'] g'] eqn:EL.
    intros E. injection E as <- <- <-. exists n, delta', e', g'. split; [lia|]. split; [exact EL | reflexivity].
Qed.

Lemma sg_core_fg vartime boxed e f0 g inverse d f conv L Bd :
  wf62 f0 -> wf62 g -> length f0 = L -> length g = L -> (0 < L)%nat -> small_L L ->
  Z.abs (sval f0) <= Bd -> Z.abs (sval g) <= Bd -> 2 * P62 * Bd < M62 L ->
  PRE (sval f0) (sval g) 1 ->
  sg_core vartime boxed e f0 g inverse = Some (d, f, conv) ->
  wf62 f /\ length f = L /\ Z.abs (sval f) <= Bd /\
  exists G', Z.gcd (sval f) G' = Z.gcd (sval f0) (sval g) /\ (conv = true -> G' = 0).
Proof.
  intros Wf Wg Lf Lg HL HS Bf Bg HM Hpre E.
  destruct (sg_core_state _ _ _ _ _ _ _ _ _ E) as (k & delta' & e' & g' & Hk & EL & ->).
  pose proof (sg_iter_bound boxed f0 g L Wf Wg Lf Lg) as HN.
  assert (HK : 1 + 62 * Z.of_nat k <= P62) by (unfold small_L in HS; lia).
  assert (I0 : FGI (Z.gcd (sval f0) (sval g)) Bd 1 L 1 f0 g).
  { unfold FGI. repeat split; try assumption; try lia. }
  destruct (divsteps_loop_fg _ Bd L f0 inverse HL HM k 1 1 (u_zero (length f0)) e f0 g HK I0) as (? & ? & ? & ? & ? & EL' & I').
  rewrite EL in EL'. injection EL' as <- <- <- <- <-.
  destruct I' as (W1 & W2 & L1 & L2 & B1 & B2 & GC & _ & _).
  repeat split; try assumption. exists (sval g'). split; [assumption|]. intros Z'.
  rewrite u_is_zero_sval in Z' by assumption. apply Z.eqb_eq. assumption.
Qed.

Section CoreDe.
  Context (mL : list Z) (inverse m A ub : Z) (L : nat).
  Context (WmL : wf62 mL) (LmL : length mL = L) (HL : (0 < L)%nat) (HS : small_L L) (Em : sval mL = m) (Hm : 0 < m) (Om : Z.odd m = true)
          (Fit : 4 * P62 * m <= M62 L) (Hinv : (hd 0 mL * inverse) mod P62 = 1)
          (Hub : m - 1 <= ub <= m).

  Lemma sg_core_de vartime boxed e g d f conv Bd :
    wf62 g -> length g = L -> wf62 e -> length e = L -> sval e = A -> 0 <= A <= ub ->
    m <= Bd -> Z.abs (sval g) <= Bd -> 2 * P62 * Bd < M62 L ->
    sg_core vartime boxed e mL g inverse = Some (d, f, conv) ->
    wf62 d /\ length d = L /\ - 2 * m < sval d <= ub /\ cg m (sval d * sval g) (sval f * A).
  Proof.
    intros Wg Lg We Le EA HA Bf Bg HM E.
    destruct (sg_core_state _ _ _ _ _ _ _ _ _ E) as (k & delta' & e' & g' & Hk & EL & _).
    pose proof (sg_iter_bound boxed mL g L WmL Wg LmL Lg) as HN.
    assert (HK : 1 + 62 * Z.of_nat k <= P62) by (unfold small_L in HS; lia).
    assert (I0 : FGI (Z.gcd (sval mL) (sval g)) Bd 1 L 1 mL g).
    { unfold FGI. repeat split; try assumption; try lia. unfold PRE. left. rewrite Em. assumption. }
    assert (J0 : DEI m (sval g) A ub L (u_zero (length mL)) e mL g).
    { unfold DEI, u_zero. rewrite sval_zero. repeat split; try assumption; try lia.
      - apply wf62_zeros.
      - rewrite length_zeros. assumption.
      - rewrite Em. apply cg_divide; [lia|]. exists (- A). ring.
      - rewrite EA. apply cg_of_eq. ring. }
    destruct (divsteps_loop_de mL inverse m (sval g) A ub L WmL LmL HL Em Hm Om Fit Hinv Hub _ Bd HM k 1 1 _ e mL g delta' d e' f g' HK I0 J0 EL) as (_ & J').
    destruct J' as (X1 & _ & X3 & _ & X5 & _ & X7 & _). repeat split; try assumption; lia.
  Qed.
End CoreDe.
