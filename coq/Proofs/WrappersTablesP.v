(** C12 proofs, part 3: the table theorem.  For every entry of the producer table, the model and the specification
    agree on every well-formed argument list for which the specification is defined (spec <> Unsupported): so
    impl = model (sampled by the correspondence run) and model = spec (proved here) for all widths and values. *)
From CB Require Import Model.Limbs Model.AddSub Model.Cmp Model.Conv Model.Rand Model.Wrappers
  Proofs.WordP Proofs.LimbsP Proofs.AddSubP Proofs.WordPredP Proofs.CmpWordP Proofs.CmpP Proofs.CmpBoxedP Proofs.CmpIntP
  Proofs.ConvDigitsP Proofs.ConvBytesP Proofs.ConvHexP Proofs.ConvBoxedP Proofs.ConvCopyP Proofs.ConvP
  Proofs.RandBaseP Proofs.RandModP Proofs.RandBitsP Proofs.RandMiscP Proofs.TotalityP Proofs.ConvTablesP
  Proofs.WrappersP Proofs.WrappersValidP.
From Coq Require Import ZArith Lia List Bool String.
Import ListNotations.
Open Scope Z_scope. Open Scope list_scope.
Notation length := List.length.

Definition table_ok (p : pentry) : Prop :=
  forall dbg a, w_wf_args a -> pe_spec p dbg a <> Unsupported -> pe_model p dbg a = pe_spec p dbg a.

Ltac tb_open :=
  intros dbg a Hwf Hs; cbn [pe_model pe_spec] in *.

(* ------------------------------------------------------------------ the spec gates *)
Lemma wsp_nz_eq bad a : wf a -> a <> [] -> wsp_nz bad a = if eval a =? 0 then bad else Val [a].
Proof.
  intros Ha Hn. destruct a as [|x r]; [congruence|]. unfold wsp_nz, wsp_gate, w_nzb.
  rewrite to_limbs_eval by assumption. destruct (eval (x :: r) =? 0); reflexivity.
Qed.
Lemma wsp_od_eq bad a : wf a -> a <> [] -> wsp_od bad a = if Z.odd (eval a) then Val [a] else bad.
Proof.
  intros Ha Hn. destruct a as [|x r]; [congruence|]. unfold wsp_od, wsp_gate, w_oddb.
  rewrite to_limbs_eval by assumption. reflexivity.
Qed.
Lemma wsp_nz_defined bad a : wsp_nz bad a <> Unsupported -> a <> [].
Proof. intros H ->. apply H. reflexivity. Qed.
Lemma wsp_od_defined bad a : wsp_od bad a <> Unsupported -> a <> [].
Proof. intros H ->. apply H. reflexivity. Qed.

Lemma wsp_scalar_inv a i k : wsp_scalar a i k <> Unsupported -> length (arg i a) = 1%nat /\ wsp_scalar a i k = k.
Proof.
  unfold wsp_scalar. destruct (Nat.eqb_spec (length (arg i a)) 1); [auto | intros H; contradiction H; reflexivity].
Qed.

(* ------------------------------------------------------------------ gated constructors *)
Lemma tb_limb_gate (f : Z -> outcome) bad a :
  (forall x, is_word x -> f x = if x =? 0 then bad else Val [[x]]) ->
  w_wf_args a -> w_dom a (wsp_scalar a 0 (wsp_nz bad (arg 0 a))) <> Unsupported ->
  f (sarg 0 a) = w_dom a (wsp_scalar a 0 (wsp_nz bad (arg 0 a))).
Proof.
  intros Hf Hwf Hs. rewrite w_dom_ok in * by assumption.
  destruct (wsp_scalar_inv a 0 _ Hs) as [Hl Hk]. rewrite Hk. clear Hk Hs.
  pose proof (sarg_word 0 a Hwf) as Hx. rewrite (arg_single 0 a Hl).
  rewrite Hf by assumption. rewrite wsp_nz_eq by (try (apply wf_one; assumption); discriminate).
  rewrite eval_one. reflexivity.
Qed.

Lemma tb_nz_new_limb : table_ok pe_w_nz_new_limb.
Proof. unfold pe_w_nz_new_limb. tb_open. apply tb_limb_gate; [exact nz_new_limb_eq | assumption | assumption]. Qed.
Lemma tb_nz_to_nz_limb : table_ok pe_w_nz_to_nz_limb.
Proof. unfold pe_w_nz_to_nz_limb. tb_open. apply tb_limb_gate; [exact nz_to_nz_limb_eq | assumption | assumption]. Qed.
Lemma tb_nz_new_unwrap_limb : table_ok pe_w_nz_new_unwrap_limb.
Proof. unfold pe_w_nz_new_unwrap_limb. tb_open. apply tb_limb_gate; [exact nz_new_unwrap_limb_eq | assumption | assumption]. Qed.

Ltac tb_gate lem slem sdef :=
  tb_open; rewrite w_dom_ok in * by assumption;
  match goal with Hwf : w_wf_args ?a |- _ => pose proof (wf_arg 0 a Hwf) as Ha end;
  match goal with Hs : _ <> Unsupported |- _ => apply sdef in Hs end;
  rewrite lem, slem by assumption; reflexivity.

Lemma tb_nz_new_uint : table_ok pe_w_nz_new_uint.
Proof. unfold pe_w_nz_new_uint. tb_gate nz_new_uint_eq wsp_nz_eq wsp_nz_defined. Qed.
Lemma tb_nz_new_boxed : table_ok pe_w_nz_new_boxed.
Proof. unfold pe_w_nz_new_boxed. tb_gate nz_new_boxed_eq wsp_nz_eq wsp_nz_defined. Qed.
Lemma tb_nz_to_nz_uint : table_ok pe_w_nz_to_nz_uint.
Proof. unfold pe_w_nz_to_nz_uint. tb_gate nz_to_nz_uint_eq wsp_nz_eq wsp_nz_defined. Qed.
Lemma tb_nz_new_unwrap_uint : table_ok pe_w_nz_new_unwrap_uint.
Proof. unfold pe_w_nz_new_unwrap_uint. tb_gate nz_new_unwrap_uint_eq wsp_nz_eq wsp_nz_defined. Qed.
Lemma tb_odd_new : table_ok pe_w_odd_new.
Proof. unfold pe_w_odd_new. tb_gate wodd_new_eq wsp_od_eq wsp_od_defined. Qed.
Lemma tb_odd_to_odd : table_ok pe_w_odd_to_odd.
Proof. unfold pe_w_odd_to_odd. tb_gate wodd_to_odd_eq wsp_od_eq wsp_od_defined. Qed.
Lemma tb_odd_to_odd_unwrap : table_ok pe_w_odd_to_odd_unwrap.
Proof. unfold pe_w_odd_to_odd_unwrap. tb_gate wodd_to_odd_unwrap_eq wsp_od_eq wsp_od_defined. Qed.

(* ------------------------------------------------------------------ constants *)
(* T::ONE and the two Defaults: one model, one spec *)
Lemma tb_one_gen key w ins bytes : table_ok (PE key w 1 ins bytes
  (fun _ a => w_typed (sarg 0 a) (w_n 1 a) (Val [w_one (sarg 0 a) (w_n 1 a)]))
  (fun _ a => match wsp_kind_n (sarg 0 a) (w_n 1 a) with Some n => Val [to_limbs n 1] | None => Unsupported end)).
Proof.
  tb_open. unfold w_typed. destruct (wsp_kind_n (sarg 0 a) (w_n 1 a)) as [m|] eqn:Hk; [|reflexivity].
  rewrite (w_one_eq _ _ m Hk). reflexivity.
Qed.
Lemma tb_nz_one : table_ok pe_w_nz_one.
Proof. apply tb_one_gen. Qed.
Lemma tb_nz_default : table_ok pe_w_nz_default.
Proof. apply tb_one_gen. Qed.
Lemma tb_odd_default : table_ok pe_w_odd_default.
Proof. apply tb_one_gen. Qed.
Lemma tb_nz_max : table_ok pe_w_nz_max.
Proof.
  unfold pe_w_nz_max. tb_open. unfold w_typed. destruct (wsp_kind_n (sarg 0 a) (w_n 1 a)) as [m|] eqn:Hk; [|reflexivity].
  destruct (w_max_facts _ _ m Hk) as (Hw & Hl & He & Hr). do 2 f_equal.
  apply to_limbs_unique; [assumption | assumption|]. rewrite He. symmetry. apply Z.mod_small. lia.
Qed.

(* ------------------------------------------------------------------ From<core::num::NonZeroU*> *)
Lemma wsp_prim_ok_inv bits v : wsp_prim_ok bits v = true ->
  (bits = 8 \/ bits = 16 \/ bits = 32 \/ bits = 64 \/ bits = 128) /\ 0 < v < 2 ^ bits.
Proof.
  unfold wsp_prim_ok. rewrite !andb_true_iff, !orb_true_iff, !Z.eqb_eq, !Z.ltb_lt. tauto.
Qed.

Lemma tb_nz_from_prim_limb : table_ok pe_w_nz_from_prim_limb.
Proof.
  unfold pe_w_nz_from_prim_limb. tb_open. cbv zeta in *.
  destruct (nz_prim_arg 64 (arg 0 a)) as [v|] eqn:Ev; [|reflexivity].
  destruct (nz_prim_arg_spec 64 _ v (wf_arg 0 a Hwf) Ev) as (_ & H0 & Hb). change (64 =? 128) with false in Hb. cbv iota in Hb.
  destruct (wsp_prim_ok (sarg 1 a) v && (sarg 1 a <=? 64)); [|contradiction Hs; reflexivity].
  unfold nz_limb_from_prim. rewrite to_limbs_1_word by (unfold is_word; lia). reflexivity.
Qed.
Lemma tb_nz_from_prim_uint : table_ok pe_w_nz_from_prim_uint.
Proof.
  unfold pe_w_nz_from_prim_uint. tb_open. cbv zeta in *.
  destruct (nz_prim_arg (sarg 1 a) (arg 0 a)) as [v|] eqn:Ev; [|reflexivity].
  destruct (wsp_prim_ok (sarg 1 a) v) eqn:Hok; cbn [negb] in *; [|contradiction Hs; reflexivity].
  destruct (wsp_prim_ok_inv _ _ Hok) as [Hbits Hv].
  apply nz_uint_from_prim_eq; [lia | lia].
Qed.

(* ------------------------------------------------------------------ abs_sign *)
Lemma tb_nz_abs_sign : table_ok pe_w_nz_abs_sign.
Proof.
  unfold pe_w_nz_abs_sign. tb_open. rewrite w_dom_ok in * by assumption. unfold ln.
  pose proof (wf_arg 0 a Hwf) as Ha.
  destruct (arg 0 a) as [|x r] eqn:Ea; [contradiction Hs; reflexivity|]. rewrite <- Ea in *.
  unfold w_nzb in *. destruct (Z.eqb_spec (eval (arg 0 a)) 0) as [|Hnz]; cbn [negb] in *; [contradiction Hs; reflexivity|].
  destruct (nz_int_abs_sign_eq (arg 0 a) Ha ltac:(rewrite Ea; discriminate) Hnz) as (Eq & _). exact Eq.
Qed.

(* ------------------------------------------------------------------ decoders *)
Lemma tb_nz_bytes_gen (le : bool) n bs :
  sp_nonzero le n bs <> Unsupported ->
  (if le then nz_from_le_bytes n bs else nz_from_be_bytes n bs) = sp_nonzero le n bs.
Proof.
  intros Hs. unfold sp_nonzero in *. destruct (bytes_dom _ _ Hs) as [Hw ->]. cbv zeta.
  destruct le.
  - rewrite nz_from_le_bytes_eq, horner_rev by assumption. reflexivity.
  - rewrite nz_from_be_bytes_eq, horner_evalb by assumption. reflexivity.
Qed.
Lemma tb_nz_from_be_bytes : table_ok pe_w_nz_from_be_bytes.
Proof. unfold pe_w_nz_from_be_bytes. tb_open. apply (tb_nz_bytes_gen false); assumption. Qed.
Lemma tb_nz_from_le_bytes : table_ok pe_w_nz_from_le_bytes.
Proof. unfold pe_w_nz_from_le_bytes. tb_open. apply (tb_nz_bytes_gen true); assumption. Qed.
Lemma tb_nz_from_be_byte_array : table_ok pe_w_nz_from_be_byte_array.
Proof. unfold pe_w_nz_from_be_byte_array. tb_open. apply (tb_nz_bytes_gen false); assumption. Qed.
Lemma tb_nz_from_le_byte_array : table_ok pe_w_nz_from_le_byte_array.
Proof. unfold pe_w_nz_from_le_byte_array. tb_open. apply (tb_nz_bytes_gen true); assumption. Qed.

Lemma tb_nz_from_be_bytes_limb : table_ok pe_w_nz_from_be_bytes_limb.
Proof.
  unfold pe_w_nz_from_be_bytes_limb. tb_open. unfold wsp_nz_bytes, sp_nonzero in *.
  destruct (bytes_dom _ _ Hs) as [Hw ->]. cbv zeta.
  rewrite nz_limb_from_be_bytes_eq, horner_evalb by assumption. reflexivity.
Qed.
Lemma tb_nz_from_le_bytes_limb : table_ok pe_w_nz_from_le_bytes_limb.
Proof.
  unfold pe_w_nz_from_le_bytes_limb. tb_open. unfold wsp_nz_bytes, sp_nonzero in *.
  destruct (bytes_dom _ _ Hs) as [Hw ->]. cbv zeta.
  rewrite nz_limb_from_le_bytes_eq, horner_rev by assumption. reflexivity.
Qed.

Lemma tb_odd_hex_gen (le : bool) n cs :
  sp_odd le n cs <> Unsupported ->
  (if le then odd_of_le_hex n cs else odd_of_be_hex n cs) = sp_odd le n cs.
Proof.
  intros Hs. unfold sp_odd in *. destruct (bytes_dom _ _ Hs) as [Hw ->].
  rewrite odd_of_hex_eq by assumption. unfold sp_hex_value, hex_value.
  destruct (Nat.eqb (length cs) (16 * n)); [|reflexivity].
  destruct (hexvals cs) as [ds|]; [|reflexivity].
  destruct le; [rewrite horner_rev | rewrite horner_evalb]; reflexivity.
Qed.
Lemma tb_odd_from_be_hex : table_ok pe_w_odd_from_be_hex.
Proof. unfold pe_w_odd_from_be_hex. tb_open. apply (tb_odd_hex_gen false); assumption. Qed.
Lemma tb_odd_from_le_hex : table_ok pe_w_odd_from_le_hex.
Proof. unfold pe_w_odd_from_le_hex. tb_open. apply (tb_odd_hex_gen true); assumption. Qed.

(* ------------------------------------------------------------------ selection *)
Lemma b2z_eqb0 (c : bool) : (b2z c =? 0) = negb c.
Proof. destruct c; reflexivity. Qed.

Lemma tb_select_gen w a b (c : bool) : wf a -> wf b ->
  wsp_select w a b (b2z c) <> Unsupported ->
  w_same_len a b (w_select a b (b2z c)) = wsp_select w a b (b2z c).
Proof.
  intros Ha Hb Hs. unfold wsp_select, w_same_len in *.
  destruct (Nat.eqb_spec (length a) (length b)) as [Hl|]; cbn [negb orb] in *; [|contradiction Hs; reflexivity].
  destruct (Nat.eqb (length a) 0); [contradiction Hs; reflexivity|].
  destruct (w_validb w a && w_validb w b); [|contradiction Hs; reflexivity].
  rewrite w_select_eq, b2z_eqb0 by assumption. destruct c; reflexivity.
Qed.
Lemma tb_swap_gen w a b (c : bool) : wf a -> wf b ->
  wsp_swap w a b (b2z c) <> Unsupported ->
  w_same_len a b (w_swap a b (b2z c)) = wsp_swap w a b (b2z c).
Proof.
  intros Ha Hb Hs. unfold wsp_swap, w_same_len in *.
  destruct (Nat.eqb_spec (length a) (length b)) as [Hl|]; cbn [negb orb] in *; [|contradiction Hs; reflexivity].
  destruct (Nat.eqb (length a) 0); [contradiction Hs; reflexivity|].
  destruct (w_validb w a && w_validb w b); [|contradiction Hs; reflexivity].
  rewrite w_swap_eq, b2z_eqb0 by assumption. destruct c; reflexivity.
Qed.

Lemma tb_select_key key w nout ins bytes : table_ok (PE key w nout ins bytes
  (fun _ a => w_same_len (arg 0 a) (arg 1 a) (w_select (arg 0 a) (arg 1 a) (carg 2 a)))
  (fun _ a => w_dom a (wsp_select w (arg 0 a) (arg 1 a) (carg 2 a)))).
Proof.
  tb_open. rewrite w_dom_ok in * by assumption. destruct (carg_bool 2 a) as [c Hc]. rewrite Hc in *.
  apply tb_select_gen; auto using wf_arg.
Qed.
Lemma tb_swap_key key w nout ins bytes : table_ok (PE key w nout ins bytes
  (fun _ a => w_same_len (arg 0 a) (arg 1 a) (w_swap (arg 0 a) (arg 1 a) (carg 2 a)))
  (fun _ a => w_dom a (wsp_swap w (arg 0 a) (arg 1 a) (carg 2 a)))).
Proof.
  tb_open. rewrite w_dom_ok in * by assumption. destruct (carg_bool 2 a) as [c Hc]. rewrite Hc in *.
  apply tb_swap_gen; auto using wf_arg.
Qed.
Lemma tb_nz_select : table_ok pe_w_nz_select.
Proof. apply tb_select_key. Qed.
Lemma tb_odd_select : table_ok pe_w_odd_select.
Proof. apply tb_select_key. Qed.
Lemma tb_nz_swap : table_ok pe_w_nz_swap.
Proof. apply tb_swap_key. Qed.
Lemma tb_odd_swap : table_ok pe_w_odd_swap.
Proof. apply tb_swap_key. Qed.

Lemma tb_nz_select_limb : table_ok pe_w_nz_select_limb.
Proof.
  unfold pe_w_nz_select_limb. tb_open. rewrite w_dom_ok in * by assumption.
  destruct (wsp_scalar_inv a 0 _ Hs) as [H0 Hk]. rewrite Hk in *. clear Hk.
  destruct (carg_bool 2 a) as [c Hc]. rewrite Hc in *.
  unfold wsp_select, w_limb_args in *. rewrite H0 in *.
  destruct (Nat.eqb_spec 1 (length (arg 1 a))) as [H1|]; cbn [negb orb Nat.eqb andb] in *; [|contradiction Hs; reflexivity].
  rewrite <- H1. cbn [Nat.eqb andb].
  destruct (w_validb WNonZero (arg 0 a) && w_validb WNonZero (arg 1 a)); [|contradiction Hs; reflexivity].
  rewrite w_select_limb_eq by (apply sarg_word; assumption). rewrite b2z_eqb0.
  rewrite (arg_single 0 a H0), (arg_single 1 a (eq_sym H1)). destruct c; reflexivity.
Qed.

(* ------------------------------------------------------------------ serde *)
(* the model decoder on the spec's domain (payloads that are too short, carry a wrong length field, or are exact) *)
Lemma serde_de_on_domain n bs : wfd 256 bs ->
  uint_serde_de n bs =
    if Nat.ltb (length bs) (8 + 8 * n) then ErrV 0
    else if negb (horner 256 (rev (firstn 8 bs)) =? 8 * Z.of_nat n) then ErrV 0
    else Val [to_limbs n (evalb 256 (firstn (8 * n) (skipn 8 bs)))].
Proof.
  intros Hw. rewrite uint_serde_de_eq by assumption. rewrite horner_rev. cbv zeta.
  destruct (Nat.ltb_spec (length bs) 8) as [H8|H8].
  - destruct (Nat.ltb_spec (length bs) (8 + 8 * n)); [reflexivity | lia].
  - destruct (Z.ltb_spec (Z.of_nat (length bs - 8)) (evalb 256 (firstn 8 bs))) as [Hlt|Hge].
    + destruct (Nat.ltb_spec (length bs) (8 + 8 * n)); [reflexivity|].
      destruct (Z.eqb_spec (evalb 256 (firstn 8 bs)) (8 * Z.of_nat n)); [lia | reflexivity].
    + replace (Z.of_nat (8 * n)) with (8 * Z.of_nat n) by lia.
      destruct (Z.eqb_spec (evalb 256 (firstn 8 bs)) (8 * Z.of_nat n)) as [He|]; cbn [negb].
      * destruct (Nat.ltb_spec (length bs) (8 + 8 * n)); [lia | reflexivity].
      * destruct (Nat.ltb_spec (length bs) (8 + 8 * n)); reflexivity.
Qed.

Lemma tb_serde_gen (w : wrapper) n bs : wsp_serde w n bs <> Unsupported ->
  (match w with WNonZero => nz_serde_uint n bs | WOdd => odd_serde_uint n bs end) = wsp_serde w n bs.
Proof.
  intros Hs. unfold wsp_serde in *. destruct (bytes_dom _ _ Hs) as [Hw Hk]. rewrite Hk in *. clear Hk.
  assert (Hm : (match w with WNonZero => nz_serde_uint n bs | WOdd => odd_serde_uint n bs end) =
               match uint_serde_de n bs with
               | Val [r] => if (match w with WNonZero => negb (eval r =? 0) | WOdd => Z.odd (eval r) end)
                            then Val [r] else ErrV W_E_INVALID
               | o => o end).
  { destruct w; [rewrite nz_serde_uint_eq | rewrite odd_serde_uint_eq]; try assumption;
      destruct (uint_serde_de n bs) as [[|r [|? ?]]| | | |]; try reflexivity.
    destruct (eval r =? 0); reflexivity. }
  rewrite Hm. clear Hm. rewrite serde_de_on_domain by assumption.
  destruct (Nat.ltb_spec (length bs) (8 + 8 * n)) as [|Hlen]; [reflexivity|].
  destruct (negb (horner 256 (rev (firstn 8 bs)) =? 8 * Z.of_nat n)); [reflexivity|].
  destruct (Nat.eqb_spec (length bs) (8 + 8 * n)) as [Hl|]; [|contradiction Hs; reflexivity].
  cbv zeta. rewrite horner_rev.
  assert (Hf : firstn (8 * n) (skipn 8 bs) = skipn 8 bs).
  { apply firstn_all2. rewrite skipn_length. lia. }
  rewrite Hf. set (v := evalb 256 (skipn 8 bs)).
  assert (Hb : 0 <= v < Bn n).
  { apply evalb_bytes_bound; [apply wfd_skipn; assumption | rewrite skipn_length; lia]. }
  rewrite to_limbs_small by assumption. reflexivity.
Qed.
Lemma tb_nz_serde_de : table_ok pe_w_nz_serde_de.
Proof. unfold pe_w_nz_serde_de. tb_open. apply (tb_serde_gen WNonZero); assumption. Qed.
Lemma tb_odd_serde_de : table_ok pe_w_odd_serde_de.
Proof. unfold pe_w_odd_serde_de. tb_open. apply (tb_serde_gen WOdd); assumption. Qed.

Lemma tb_nz_serde_de_limb : table_ok pe_w_nz_serde_de_limb.
Proof.
  unfold pe_w_nz_serde_de_limb. tb_open. destruct (bytes_dom _ _ Hs) as [Hw Hk]. rewrite Hk in *. clear Hk.
  rewrite nz_serde_limb_eq by assumption. unfold ln in *.
  destruct (Nat.ltb (length (arg 0 a)) 8); [reflexivity|].
  destruct (Nat.eqb_spec (length (arg 0 a)) 8) as [Hl|]; [|contradiction Hs; reflexivity].
  cbv zeta. rewrite horner_rev. rewrite firstn_all2 by lia. reflexivity.
Qed.

(* ------------------------------------------------------------------ random *)
Lemma rnd_agrees_out n ws f o s : rnd_agrees n ws 0 0 0 o s -> rnd_out f o = rnd_sp_out n f s.
Proof.
  unfold rnd_agrees, rnd_out, rnd_sp_out. destruct o as [[v [rest nw nb]]|], s as [x k b|]; try contradiction; [|reflexivity].
  intros (-> & _ & -> & -> & _). reflexivity.
Qed.

Lemma tb_nz_random : table_ok pe_w_nz_random.
Proof.
  unfold pe_w_nz_random. tb_open. destruct (Z.ltb_spec 0 (sarg 1 a)) as [Hp|]; [|reflexivity].
  rewrite w_dom_ok by assumption. unfold w_rng. apply (rnd_agrees_out _ (arg 0 a)).
  apply nonzero_uint_random_spec; [apply w_n_pos; assumption | apply (wf_arg 0 a Hwf)].
Qed.
Lemma tb_odd_random : table_ok pe_w_odd_random.
Proof.
  unfold pe_w_odd_random. tb_open. destruct (Z.ltb_spec 0 (sarg 1 a)) as [Hp|]; [|reflexivity].
  rewrite w_dom_ok by assumption. unfold w_rng. apply (rnd_agrees_out _ (arg 0 a)).
  apply odd_uint_random_spec; [apply (wf_arg 0 a Hwf) | apply w_n_pos; assumption].
Qed.

Lemma sp_boxed_limbs_eq bl : sp_boxed_limbs bl = rnd_boxed_limbs bl.
Proof. unfold sp_boxed_limbs, rnd_boxed_limbs. rewrite rnd_sp_ceil64. reflexivity. Qed.

(* Odd<BoxedUint>::random for bit_length >= 1: the RandomBits sample with its lowest bit forced to one *)
Lemma odd_boxed_random_agrees ws bl : wf ws -> 1 <= bl ->
  rnd_out 0 (odd_boxed_random (Rng ws 0 0) bl) = rnd_sp_out (sp_boxed_limbs bl) 0 (sp_odd_sample (sp_random_bits ws bl)).
Proof.
  intros Hws Hbl. destruct (odd_boxed_random (Rng ws 0 0) bl) as [[v r']|] eqn:E.
  - destruct (odd_boxed_random_valid ws 0 0 bl v r' Hws Hbl E) as (Hw & Hl & _ & Hr & He & ->).
    unfold sp_random_bits. unfold odd_boxed_random, boxed_random_bits in E.
    rewrite boxed_random_bits_spec in E by (try assumption; lia). rewrite Z.ltb_irrefl in E.
    unfold rnd_bits_expected, sp_random_bits in E.
    destruct (Z.ltb_spec (Z.of_nat (length ws)) (rnd_ceil bl 64)); [discriminate|].
    cbn [sp_odd_sample rnd_sp_out rnd_out]. destruct (Z.eqb_spec bl 0); [lia|].
    rewrite sp_boxed_limbs_eq, <- He, <- Hl, to_limbs_eval by assumption.
    unfold rnd_tail_bytes. rewrite !Z.add_0_l. reflexivity.
  - unfold odd_boxed_random, boxed_random_bits in E.
    rewrite boxed_random_bits_spec in E by (try assumption; lia). rewrite Z.ltb_irrefl in E.
    unfold rnd_bits_expected in E. destruct (sp_random_bits ws bl) as [x k b|] eqn:Es; [|reflexivity].
    exfalso. destruct (rnd_set_lsb (to_limbs (rnd_boxed_limbs bl) x)) as [v'|] eqn:El; [discriminate|].
    unfold rnd_set_lsb in El. destruct (to_limbs (rnd_boxed_limbs bl) x) as [|y t] eqn:Et; [|discriminate].
    apply (f_equal (@List.length Z)) in Et. rewrite length_to_limbs in Et. cbn [List.length] in Et.
    unfold rnd_boxed_limbs in Et. lia.
Qed.

Lemma tb_odd_random_boxed : table_ok pe_w_odd_random_boxed.
Proof.
  unfold pe_w_odd_random_boxed. tb_open. cbv zeta in *.
  destruct (Z.ltb_spec 0 (sarg 1 a)) as [Hp|]; cbn [andb] in *; [|contradiction Hs; reflexivity].
  destruct (rnd_small (sarg 1 a)); [|contradiction Hs; reflexivity].
  rewrite w_dom_ok by assumption. unfold w_rng. apply odd_boxed_random_agrees; [apply (wf_arg 0 a Hwf) | lia].
Qed.

(* ------------------------------------------------------------------ wrappers made from wrappers *)
Lemma tb_same_gen key wout w nout ins bytes : table_ok (PE key wout nout ins bytes
  (fun _ a => w_same (arg 0 a)) (fun _ a => w_dom a (wsp_same w (arg 0 a)))).
Proof.
  tb_open. rewrite w_dom_ok in * by assumption. revert Hs. unfold wsp_same, w_same.
  destruct (arg 0 a) as [|x r]; [intros H; contradiction H; reflexivity|].
  destruct (w_validb w (x :: r)); [reflexivity | intros H; contradiction H; reflexivity].
Qed.
Lemma tb_nz_same : table_ok pe_w_nz_same.
Proof. apply tb_same_gen. Qed.
Lemma tb_odd_same : table_ok pe_w_odd_same.
Proof. apply tb_same_gen. Qed.
Lemma tb_odd_as_nz_ref : table_ok pe_w_odd_as_nz_ref.
Proof. apply tb_same_gen. Qed.

Lemma tb_nz_widen : table_ok pe_w_nz_widen.
Proof.
  unfold pe_w_nz_widen. tb_open. rewrite w_dom_ok in * by assumption. cbv zeta in *. unfold ln, ev in *.
  pose proof (wf_arg 0 a Hwf) as Ha.
  destruct (arg 0 a) as [|x r] eqn:Ea; [contradiction Hs; reflexivity|]. rewrite <- Ea in *.
  destruct (w_nzb (arg 0 a)); cbn [negb] in *; [|contradiction Hs; reflexivity].
  rewrite nz_boxed_widen_eq by (try assumption; rewrite Ea; discriminate).
  destruct (Z.ltb_spec (sarg 1 a) (64 * Z.of_nat (length (arg 0 a)))) as [|Hp]; [reflexivity|].
  rewrite limbs_for_precision_eq. unfold sp_limbs_for.
  assert (1 <= length (arg 0 a))%nat by (rewrite Ea; cbn [List.length]; lia).
  destruct (Z.eqb_spec (sarg 1 a) 0); [lia | reflexivity].
Qed.

(* ================================================================== the table theorem *)
Theorem producers_table_ok : Forall table_ok producers.
Proof.
  unfold producers. repeat (apply Forall_cons || apply Forall_nil).
  - exact tb_nz_new_limb.
  - exact tb_nz_new_uint.
  - exact tb_nz_new_boxed.
  - exact tb_nz_to_nz_limb.
  - exact tb_nz_to_nz_uint.
  - exact tb_nz_new_unwrap_limb.
  - exact tb_nz_new_unwrap_uint.
  - exact tb_odd_new.
  - exact tb_odd_to_odd.
  - exact tb_odd_to_odd_unwrap.
  - exact tb_nz_one.
  - exact tb_nz_max.
  - exact tb_nz_default.
  - exact tb_odd_default.
  - exact tb_nz_from_prim_limb.
  - exact tb_nz_from_prim_uint.
  - exact tb_nz_abs_sign.
  - exact tb_nz_from_be_bytes.
  - exact tb_nz_from_le_bytes.
  - exact tb_nz_from_be_byte_array.
  - exact tb_nz_from_le_byte_array.
  - exact tb_nz_from_be_bytes_limb.
  - exact tb_nz_from_le_bytes_limb.
  - exact tb_odd_from_be_hex.
  - exact tb_odd_from_le_hex.
  - exact tb_nz_select_limb.
  - exact tb_nz_select.
  - exact tb_nz_swap.
  - exact tb_odd_select.
  - exact tb_odd_swap.
  - exact tb_nz_serde_de.
  - exact tb_odd_serde_de.
  - exact tb_nz_serde_de_limb.
  - exact tb_nz_random.
  - exact tb_odd_random.
  - exact tb_odd_random_boxed.
  - exact tb_nz_same.
  - exact tb_odd_same.
  - exact tb_odd_as_nz_ref.
  - exact tb_nz_widen.
Qed.

Theorem wrappers_model_eq_spec : forall p dbg args, In p producers -> w_wf_args args ->
  pe_spec p dbg args <> Unsupported -> pe_model p dbg args = pe_spec p dbg args.
Proof.
  intros p dbg args Hin. pose proof producers_table_ok as H. rewrite Forall_forall in H. apply (H p Hin).
Qed.

(** the keys of the table are pairwise distinct: looking an op up in [ops_wrappers_model] / [ops_wrappers_spec]
    (what the correspondence driver does) returns exactly the model / spec of that producer *)
Lemma producer_keys_nodup : NoDup (map pe_key producers).
Proof.
  apply (NoDup_nth _ ""%string). rewrite map_length. intros i j Hi Hj E.
  (* decided by computation on the 40 keys *)
  assert (Hd : forallb (fun i => forallb (fun j =>
                 implb (String.eqb (nth i (map pe_key producers) ""%string) (nth j (map pe_key producers) ""%string)) (Nat.eqb i j))
                 (seq 0 (List.length producers))) (seq 0 (List.length producers)) = true) by (vm_compute; reflexivity).
  rewrite forallb_forall in Hd. specialize (Hd i ltac:(apply in_seq; lia)).
  rewrite forallb_forall in Hd. specialize (Hd j ltac:(apply in_seq; lia)).
  rewrite E, String.eqb_refl in Hd. apply Nat.eqb_eq. exact Hd.
Qed.

