(** C20, part 2: the limb-level helpers of the square root models (Model/Sqrt.v): bits / leading_zeros, shr1, is_nonzero,
    gt, cmp_vartime, eq.  Those that Model/Cmp.v has under another name take their specification from Proofs/CmpP.v. *)
From CB Require Import Model.Limbs Model.AddSub Model.Sqrt Proofs.WordP Proofs.BitsP Proofs.WordPredP Proofs.LimbsP Proofs.AddSubP Proofs.SqrtMathP.
From CB Require Model.Cmp Proofs.CmpP.
From Coq Require Import ZArith Lia List.
Open Scope Z_scope.

Lemma is_word_bound x : is_word x <-> 0 <= x < 2 ^ 64.
Proof. unfold is_word. rewrite B_val. tauto. Qed.

Lemma lor_ge_l a b : 0 <= a -> 0 <= b -> a <= Z.lor a b.
Proof.
  intros Ha Hb.
  (* lor a b = a + ldiff b a *)
  assert (H : Z.land a (Z.ldiff b a) = 0).
  { apply Z.bits_inj'. intros i Hi. rewrite Z.land_spec, Z.ldiff_spec, Z.bits_0.
    destruct (Z.testbit a i), (Z.testbit b i); reflexivity. }
  assert (E : Z.lor a b = a + Z.ldiff b a).
  { rewrite Z.add_nocarry_lxor by assumption. rewrite Z.lxor_lor by assumption.
    apply Z.bits_inj'. intros i Hi. rewrite !Z.lor_spec, Z.ldiff_spec.
    destruct (Z.testbit a i), (Z.testbit b i); reflexivity. }
  pose proof (Z.ldiff_nonneg b a). lia.
Qed.

Lemma choice_of_bool_word c : is_word (choice_of_bool c).
Proof. unfold is_word. destruct c; simpl; pose proof MAXW_val; pose proof B_gt1; lia. Qed.

Lemma wnot_0 : wnot 0 = MAXW. Proof. unfold wnot. lia. Qed.
Lemma wnot_MAXW : wnot MAXW = 0. Proof. unfold wnot. lia. Qed.

Lemma wand_choice c d : wand (choice_of_bool c) (choice_of_bool d) = choice_of_bool (c && d).
Proof. destruct c, d; reflexivity. Qed.

Lemma map_wand_MAXW q : wf q -> map (fun w => wand w MAXW) q = q.
Proof.
  induction q as [|y q IH]; intros Hw; [reflexivity|]. apply wf_cons in Hw. destruct Hw as [Hy Hq].
  cbn [map]. rewrite wand_MAXW_r, IH by assumption. reflexivity.
Qed.
Lemma map_wand_0 q : map (fun w => wand w 0) q = zeros (length q).
Proof. induction q as [|y q IH]; [reflexivity|]. cbn [map length]. rewrite wand_0_r, IH. reflexivity. Qed.

Lemma bitlen_shift m l k : 0 <= k -> 0 <= m < 2 ^ k -> 0 < l -> bitlen (m + 2 ^ k * l) = k + bitlen l.
Proof.
  intros Hk Hm Hl. unfold bitlen.
  assert (0 < 2 ^ k) by (apply Z.pow_pos_nonneg; lia).
  assert (2 ^ k * 1 <= 2 ^ k * l) by (apply Z.mul_le_mono_nonneg_l; lia).
  destruct (Z.eqb_spec (m + 2 ^ k * l) 0); [lia|]. destruct (Z.eqb_spec l 0); [lia|].
  pose proof (Z.log2_spec l Hl) as [Hlo Hhi]. pose proof (Z.log2_nonneg l).
  assert (Z.log2 (m + 2 ^ k * l) = k + Z.log2 l); [|lia].
  apply Z.log2_unique; [lia|]. unfold Z.succ in *.
  rewrite !Z.pow_add_r by lia. rewrite Z.pow_add_r in Hhi by lia. change (2 ^ 1) with 2 in *.
  assert (2 ^ k * 2 ^ Z.log2 l <= 2 ^ k * l) by (apply Z.mul_le_mono_nonneg_l; lia).
  assert (2 ^ k * (l + 1) <= 2 ^ k * (2 ^ Z.log2 l * 2)) by (apply Z.mul_le_mono_nonneg_l; lia).
  lia.
Qed.

Lemma word_lz_spec l : is_word l -> word_lz l = 64 - bitlen l /\ 0 <= word_lz l <= 64.
Proof.
  intros Hl. apply (proj1 (is_word_bound l)) in Hl. unfold word_lz, bitlen.
  destruct (Z.eqb_spec l 0); [lia|].
  pose proof (Z.log2_nonneg l). assert (Z.log2 l < 64) by (apply Z.log2_lt_pow2; lia). lia.
Qed.

Lemma lz_loop_spec rl : forall c, wf rl ->
  lz_loop rl c 0 = c /\
  lz_loop rl c MAXW = c + (64 * Z.of_nat (length rl) - bitlen (eval (rev rl))).
Proof.
  induction rl as [|l r IH]; intros c Hw.
  - simpl. split; [reflexivity|]. unfold bitlen. simpl. lia.
  - apply wf_cons in Hw. destruct Hw as [Hl Hr].
    pose proof (word_lz_spec l Hl) as [Hz Hzr].
    assert (Hzw : is_word (word_lz l)). { unfold is_word. pose proof B_val. assert (64 < 2 ^ 64) by reflexivity. lia. }
    cbn [lz_loop]. unfold if_true_word.
    split.
    + rewrite wand_0_r. unfold wand at 1. rewrite Z.land_0_l. rewrite Z.add_0_r. apply IH. assumption.
    + rewrite wand_MAXW_r by assumption.
      rewrite from_word_nonzero_spec by assumption.
      cbn [rev]. rewrite eval_app, rev_length. cbn [eval]. rewrite Z.mul_0_r, Z.add_0_r.
      cbn [length]. rewrite Nat2Z.inj_succ.
      assert (Hwr : wf (rev r)). { unfold wf in *. apply Forall_rev. assumption. }
      pose proof (eval_bounds (rev r) Hwr) as Hb. rewrite rev_length, Bn_pow2 in Hb.
      destruct (Z.eqb_spec l 0) as [->|Hne]; cbn [negb choice_of_bool].
      * rewrite wnot_0. rewrite wand_MAXW_r by apply is_word_MAXW.
        destruct (IH (c + word_lz 0) Hr) as [_ ->]. rewrite Z.mul_0_r, Z.add_0_r.
        replace (word_lz 0) with 64 by reflexivity. lia.
      * rewrite wnot_MAXW, wand_0_r.
        destruct (IH (c + word_lz l) Hr) as [-> _].
        rewrite Bn_pow2, bitlen_shift; try lia. unfold is_word in Hl. lia.
Qed.

Lemma bits_limbs_spec a : wf a -> bits_limbs a = bitlen (eval a).
Proof.
  intros Hw. unfold bits_limbs, leading_zeros_limbs, lenZ.
  assert (Hwr : wf (rev a)). { unfold wf in *. apply Forall_rev. assumption. }
  destruct (lz_loop_spec (rev a) 0 Hwr) as [_ ->]. rewrite rev_involutive, rev_length. lia.
Qed.

Lemma wshl_63 y : wshl y 63 = (y mod 2) * 2 ^ 63.
Proof.
  unfold wshl, wrap. rewrite B_half.
  rewrite Z.mul_mod_distr_r by lia. reflexivity.
Qed.

Lemma eval_mod2 r : wf r -> eval r mod 2 = hd 0 r mod 2.
Proof.
  destruct r as [|y r]; intros H; [reflexivity|]. cbn [eval hd].
  rewrite B_half. replace (y + 2 * 2 ^ 63 * eval r) with (y + (2 ^ 63 * eval r) * 2) by ring.
  apply Z.mod_add. lia.
Qed.

Lemma shr1_limbs_spec a : wf a ->
  eval (shr1_limbs a) = eval a / 2 /\ wf (shr1_limbs a) /\ length (shr1_limbs a) = length a.
Proof.
  induction a as [|x r IH]; intros Hw.
  - simpl. repeat split; auto using wf_nil.
  - apply wf_cons in Hw. destruct Hw as [Hx Hr]. destruct (IH Hr) as (He & Hwf & Hlen).
    cbn [shr1_limbs eval length]. rewrite He.
    unfold wor, wshr. change (2 ^ 1) with 2. rewrite wshl_63.
    assert (Hx2 : 0 <= x / 2 < 2 ^ 63).
    { unfold is_word in Hx. rewrite B_half in Hx. split; [apply Z.div_pos; lia|apply Z.div_lt_upper_bound; lia]. }
    pose proof (Z.mod_pos_bound (hd 0 r) 2 ltac:(lia)) as Hm.
    rewrite Z.lor_comm, lor_disjoint by lia.
    split; [|split].
    + rewrite <- (eval_mod2 r Hr).
      pose proof (Z.div_mod (eval r) 2 ltac:(lia)) as Hd.
      pose proof (Z.div_mod x 2 ltac:(lia)) as Hdx. pose proof (Z.mod_pos_bound x 2 ltac:(lia)).
      pose proof (Z.mod_pos_bound (eval r) 2 ltac:(lia)).
      symmetry. rewrite B_half.
      destruct (div_mod_unique_pos 2 (eval r mod 2 * 2 ^ 63 + x / 2 + 2 * 2 ^ 63 * (eval r / 2)) (x mod 2)
                  (x + 2 * 2 ^ 63 * eval r)) as [Hq _]; try lia.
    + apply wf_cons. split; [|assumption]. unfold is_word. rewrite B_half. lia.
    + lia.
Qed.

Lemma eval_zero_all a : wf a -> (eval a = 0 <-> forall x, In x a -> x = 0).
Proof.
  induction a as [|y a IH]; intros Hw.
  - simpl. split; [intros _ x []|reflexivity].
  - apply wf_cons in Hw. destruct Hw as [Hy Ha]. cbn [eval].
    pose proof (eval_nonneg a Ha). unfold is_word in Hy. pose proof B_pos.
    assert (0 <= B * eval a) by (apply Z.mul_nonneg_nonneg; lia).
    split.
    + intros Hsum. assert (Hy0 : y = 0) by lia. assert (Hea : eval a = 0) by nia.
      intros x [<-|Hx]; [assumption|]. apply IH; assumption.
    + intros Hall. rewrite (Hall y) by (left; reflexivity).
      rewrite (proj2 (IH Ha)); [lia|]. intros; apply Hall; right; assumption.
Qed.

Lemma is_nonzero_limbs_spec a : wf a -> is_nonzero_limbs a = choice_of_bool (negb (eval a =? 0)).
Proof. exact (CmpP.uint_is_nonzero_spec a). Qed.

Lemma boxed_is_nonzero_fold a : forall c : bool, wf a ->
  fold_left (fun acc l => wand acc (wnot (from_word_nonzero l))) a (choice_of_bool c)
  = choice_of_bool (c && (eval a =? 0)).
Proof.
  induction a as [|y a IH]; intros c Hw; cbn [fold_left].
  - simpl. rewrite andb_true_r. reflexivity.
  - apply wf_cons in Hw. destruct Hw as [Hy Ha].
    rewrite from_word_nonzero_spec by assumption.
    rewrite wnot_choice, Bool.negb_involutive, wand_choice, IH by assumption. f_equal. cbn [eval].
    pose proof (eval_nonneg a Ha). unfold is_word in Hy. pose proof B_pos.
    assert (0 <= B * eval a) by (apply Z.mul_nonneg_nonneg; lia).
    destruct c; cbn [andb]; [|reflexivity].
    destruct (Z.eqb_spec y 0), (Z.eqb_spec (eval a) 0), (Z.eqb_spec (y + B * eval a) 0); cbn [andb]; try reflexivity; try lia; nia.
Qed.

Lemma boxed_is_nonzero_limbs_spec a : wf a ->
  boxed_is_nonzero_limbs a = choice_of_bool (negb (eval a =? 0)).
Proof.
  intros Hw. unfold boxed_is_nonzero_limbs. change MAXW with (choice_of_bool true).
  rewrite boxed_is_nonzero_fold by assumption. apply wnot_choice.
Qed.

Lemma gt_limbs_spec a b : wf a -> wf b -> length a = length b ->
  gt_limbs a b = choice_of_bool (eval b <? eval a).
Proof. exact (CmpP.uint_gt_spec a b). Qed.

Definition cmp_code (x y : Z) : Z := match x ?= y with Lt => 0 | Eq => 1 | Gt => 2 end.

(* the codes 0 / 1 / 2 are those of Model/Cmp.v (-1 / 0 / 1) shifted by one *)
Lemma cmp_vartime_rev_code ra : forall rb, cmp_vartime_rev ra rb = Cmp.cmp_vartime_rev ra rb + 1.
Proof.
  induction ra as [|x ra IH]; intros [|y rb]; try reflexivity. cbn [cmp_vartime_rev Cmp.cmp_vartime_rev].
  destruct (sbb x y 0) as [v bo]. rewrite IH. destruct (v =? 0), (bo =? 0); reflexivity.
Qed.

Lemma cmp_vartime_rev_spec ra : forall rb, wf ra -> wf rb -> length ra = length rb ->
  cmp_vartime_rev ra rb = cmp_code (eval (rev ra)) (eval (rev rb)).
Proof.
  intros rb Ha Hb Hl. rewrite cmp_vartime_rev_code, CmpP.cmp_vartime_rev_spec by assumption.
  unfold Cmp.ordz, cmp_code. set (u := eval (rev ra)). set (w := eval (rev rb)).
  destruct (Z.compare_spec u w), (Z.ltb_spec u w), (Z.eqb_spec u w); try reflexivity; lia.
Qed.

Lemma cmp_vartime_limbs_spec a b : wf a -> wf b -> length a = length b ->
  cmp_vartime_limbs a b = cmp_code (eval a) (eval b).
Proof.
  intros Ha Hb Hl. unfold cmp_vartime_limbs.
  rewrite cmp_vartime_rev_spec by (auto using wf_rev; rewrite !rev_length; assumption).
  rewrite !rev_involutive. reflexivity.
Qed.

Lemma cmp_code_eq x y : (cmp_code x y =? 1) = (x =? y).
Proof. unfold cmp_code. destruct (Z.compare_spec x y), (Z.eqb_spec x y); try reflexivity; lia. Qed.
Lemma cmp_code_gt x y : (cmp_code x y =? 2) = (y <? x).
Proof. unfold cmp_code. destruct (Z.compare_spec x y), (Z.ltb_spec y x); try reflexivity; lia. Qed.

Lemma lxor_zero_iff x y : Z.lxor x y = 0 <-> x = y.
Proof. split; [apply Z.lxor_eq|intros ->; apply Z.lxor_nilpotent]. Qed.

Lemma eq_limbs_spec a : forall b, wf a -> wf b -> length a = length b ->
  eq_limbs a b = choice_of_bool (eval a =? eval b).
Proof.
  intros b Ha Hb Hl. unfold eq_limbs.
  set (xs := map (fun p => wxor (fst p) (snd p)) (combine a b)).
  assert (Hxs : wf xs /\ ((forall x, In x xs -> x = 0) <-> a = b)).
  { subst xs. clear - Ha Hb Hl. revert b Hb Hl. induction a as [|x a IH]; intros b Hb Hl.
    - destruct b; [|discriminate]. simpl. split; [apply wf_nil|]. split; [reflexivity|intros _ x []].
    - destruct b as [|y b]; [discriminate|]. simpl in Hl.
      apply wf_cons in Ha. destruct Ha as [Hx Ha]. apply wf_cons in Hb. destruct Hb as [Hy Hb].
      destruct (IH Ha b Hb ltac:(lia)) as [Hw Hiff]. cbn [combine map fst snd].
      split; [apply wf_cons; split; [apply is_word_lxor; assumption|assumption]|].
      split.
      + intros H. f_equal.
        * apply lxor_zero_iff. apply H. left. reflexivity.
        * apply Hiff. intros; apply H; right; assumption.
      + intros E. injection E as -> ->. intros z [<-|Hz]; [apply Z.lxor_nilpotent|]. apply (proj2 Hiff eq_refl). assumption. }
  destruct Hxs as [Hw Hiff]. fold (is_nonzero_limbs xs). rewrite is_nonzero_limbs_spec by assumption.
  pose proof (eval_zero_all xs Hw) as H1.
  destruct (Z.eqb_spec (eval xs) 0) as [E|E], (Z.eqb_spec (eval a) (eval b)) as [E2|E2];
    cbn [negb choice_of_bool]; rewrite ?wnot_0, ?wnot_MAXW; try reflexivity; exfalso.
  - apply E2. f_equal. apply Hiff, H1, E.
  - apply E, H1, Hiff. apply eval_inj; assumption.
Qed.

Lemma boxed_eq_fold a : forall b (c : bool), wf a -> wf b -> length a = length b ->
  fold_left (fun acc p => wand acc (from_word_eq (fst p) (snd p))) (combine a b) (choice_of_bool c)
  = choice_of_bool (c && (eval a =? eval b)).
Proof.
  induction a as [|x a IH]; intros b c Ha Hb Hl.
  - destruct b; [|discriminate]. simpl. rewrite andb_true_r. reflexivity.
  - destruct b as [|y b]; [discriminate|]. simpl in Hl.
    apply wf_cons in Ha. destruct Ha as [Hx Ha]. apply wf_cons in Hb. destruct Hb as [Hy Hb].
    cbn [combine fold_left fst snd]. rewrite from_word_eq_spec by assumption.
    rewrite wand_choice, IH by (auto; lia). f_equal. cbn [eval].
    pose proof (eval_bounds a Ha). pose proof (eval_bounds b Hb). replace (length b) with (length a) in * by lia.
    unfold is_word in *. pose proof B_pos.
    destruct c; cbn [andb]; [|reflexivity].
    destruct (Z.eqb_spec x y) as [->|Hne]; cbn [andb].
    + destruct (Z.eqb_spec (eval a) (eval b)), (Z.eqb_spec (y + B * eval a) (y + B * eval b)); try reflexivity; nia.
    + destruct (Z.eqb_spec (x + B * eval a) (y + B * eval b)) as [E2|]; [exfalso|reflexivity].
      assert (x mod B = y mod B).
      { replace (x + B * eval a) with (x + eval a * B) in E2 by ring. replace (y + B * eval b) with (y + eval b * B) in E2 by ring.
        rewrite <- (Z.mod_add x (eval a) B), <- (Z.mod_add y (eval b) B) by lia. rewrite E2. reflexivity. }
      rewrite !Z.mod_small in * by lia. lia.
Qed.

Lemma boxed_eq_limbs_spec a b : wf a -> wf b -> length a = length b ->
  boxed_eq_limbs a b = choice_of_bool (eval a =? eval b).
Proof.
  intros. unfold boxed_eq_limbs. change MAXW with (choice_of_bool true). rewrite boxed_eq_fold by assumption. reflexivity.
Qed.

Lemma firstn_length_le' {A} n (l : list A) : (n <= length l)%nat -> length (firstn n l) = n.
Proof. apply firstn_length_le. Qed.
