(** C04 proofs: carry chains over limb lists of any length. *)
From CB Require Import Model.Limbs Model.AddSub Proofs.WordP Proofs.LimbsP.
From Coq Require Import ZArith Lia List.
Open Scope Z_scope.

Lemma adc_limbs_correct a : forall b c r co,
  wf a -> wf b -> length a = length b -> is_word c ->
  adc_limbs a b c = (r, co) ->
  eval r + Bn (length a) * co = eval a + eval b + c /\ wf r /\ length r = length a /\ is_word co
  /\ (c <= 1 -> co <= 1).
Proof.
  induction a as [|x a IH]; intros b c r co Ha Hb Hl Hc E.
  - destruct b; [|discriminate]. simpl in E. inv_pair E. simpl. rewrite Bn_0.
    unfold is_word in *. pose proof B_gt1. repeat split; try lia. apply wf_nil.
  - destruct b as [|y b]; [discriminate|]. simpl in Hl.
    apply wf_cons in Ha. destruct Ha as [Hx Ha]. apply wf_cons in Hb. destruct Hb as [Hy Hb].
    cbn [adc_limbs] in E.
    destruct (adc x y c) as [wd c1] eqn:E1.
    destruct (adc_limbs a b c1) as [r' c2] eqn:E2.
    inv_pair E.
    pose proof (adc_exact _ _ _ _ _ Hx Hy Hc E1) as (H1 & Hwd & Hc1).
    assert (Hc1w : is_word c1) by (unfold is_word; pose proof B_gt4; lia).
    specialize (IH b c1 r' c2 Ha Hb ltac:(lia) Hc1w E2). destruct IH as (H2 & Hwr & Hlr & Hc2 & Hsm).
    cbn [eval length]. rewrite Bn_S. unfold is_word in Hc2.
    repeat split; try lia.
    + apply wf_cons. split; assumption.
    + intros Hle. apply Hsm.
      assert (0 <= c <= 1) by (unfold is_word in Hc; lia).
      pose proof (adc_carry_small _ _ _ _ _ Hx Hy H E1). lia.
Qed.

Definition is_borrow (b : Z) : Prop := b = 0 \/ b = MAXW.
Definition bout (b : Z) : Z := if b =? 0 then 0 else 1.
Lemma bout_0 : bout 0 = 0. Proof. reflexivity. Qed.
Lemma bout_MAXW : bout MAXW = 1. Proof. vm_compute. reflexivity. Qed.
Lemma is_borrow_word b : is_borrow b -> is_word b.
Proof. intros [-> | ->]; unfold is_word; pose proof B_gt1; pose proof MAXW_val; lia. Qed.
Lemma bin_bout b : is_borrow b -> bin b = bout b.
Proof. intros [-> | ->]; reflexivity. Qed.
Lemma bout_range b : 0 <= bout b <= 1.
Proof. unfold bout. destruct (b =? 0); lia. Qed.

Lemma sbb_limbs_correct a : forall b bw r bo,
  wf a -> wf b -> length a = length b -> is_word bw ->
  sbb_limbs a b bw = (r, bo) ->
  wf r /\ length r = length a /\
  ((length a = 0%nat /\ bo = bw /\ r = []) \/
   (length a <> 0%nat /\ is_borrow bo /\ eval r - Bn (length a) * bout bo = eval a - eval b - bin bw)).
Proof.
  induction a as [|x a IH]; intros b bw r bo Ha Hb Hl Hbw E.
  - destruct b; [|discriminate]. simpl in E. inv_pair E. repeat split; auto using wf_nil.
  - destruct b as [|y b]; [discriminate|]. simpl in Hl.
    apply wf_cons in Ha. destruct Ha as [Hx Ha]. apply wf_cons in Hb. destruct Hb as [Hy Hb].
    cbn [sbb_limbs] in E.
    destruct (sbb x y bw) as [wd b1] eqn:E1.
    destruct (sbb_limbs a b b1) as [r' b2] eqn:E2.
    inv_pair E.
    pose proof (sbb_exact _ _ _ _ _ Hx Hy Hbw E1) as (Hwd & Hcase).
    assert (Hb1w : is_word b1).
    { unfold is_word. pose proof B_gt1. pose proof MAXW_val. destruct Hcase as [[-> _]|[-> _]]; lia. }
    specialize (IH b b1 r' b2 Ha Hb ltac:(lia) Hb1w E2). destruct IH as (Hwr & Hlr & IH).
    split; [apply wf_cons; split; assumption|]. split; [simpl; lia|].
    right. split; [simpl; lia|].
    cbn [eval length]. rewrite Bn_S.
    assert (Hb1 : bin b1 = bout b1 /\ is_borrow b1).
    { destruct Hcase as [[-> _]|[-> _]]; split; try reflexivity; [left|right]; reflexivity. }
    destruct Hb1 as [Hbb Hib].
    destruct IH as [(Hz & -> & ->)|(Hnz & Hib2 & IH)].
    + 
      destruct a; [|discriminate]. destruct b; [|discriminate]. simpl.
      rewrite Bn_0. split; [assumption|].
      destruct Hcase as [[-> Hv]|[-> Hv]]; rewrite ?bout_0, ?bout_MAXW; lia.
    + split; [assumption|].
      rewrite Hbb in IH.
      destruct Hcase as [[-> Hv]|[-> Hv]]; rewrite ?bout_0, ?bout_MAXW in *; pose proof B_gt1; nia.
Qed.

Lemma neg_limbs_correct a : forall c r co,
  wf a -> 0 <= c <= 1 -> neg_limbs a c = (r, co) ->
  eval r + Bn (length a) * co = Bn (length a) - 1 - eval a + c /\ wf r /\ length r = length a /\ 0 <= co <= 1.
Proof.
  induction a as [|x a IH]; intros c r co Ha Hc E.
  - simpl in E. inv_pair E. simpl. rewrite Bn_0. repeat split; try lia. apply wf_nil.
  - apply wf_cons in Ha. destruct Ha as [Hx Ha]. cbn [neg_limbs] in E.
    destruct (neg_limbs a ((wnot x + c) / B)) as [rs c2] eqn:E2. inv_pair E.
    unfold wnot in *. pose proof MAXW_val. pose proof B_gt1. unfold is_word in Hx.
    set (s := MAXW - x + c) in *.
    pose proof (Z.div_mod s B ltac:(lia)). pose proof (Z.mod_pos_bound s B ltac:(lia)).
    assert (Hq : 0 <= s / B <= 1).
    { split; [apply Z.div_pos; unfold s; lia | apply Z.lt_succ_r; apply Z.div_lt_upper_bound; unfold s; lia]. }
    specialize (IH (s / B) rs c2 Ha Hq E2). destruct IH as (IHe & Hwr & Hlr & Hc2).
    cbn [eval length]. rewrite Bn_S. repeat split; try lia.
    apply wf_cons. split; [apply is_word_mod | assumption].
Qed.

Lemma select_limbs_choice c a b :
  wf a -> wf b -> length a = length b ->
  select_limbs (choice_of_bool c) a b = if c then b else a.
Proof.
  unfold select_limbs. revert b. induction a as [|x a IH]; intros b Ha Hb Hl.
  - destruct b; [|discriminate]. destruct c; reflexivity.
  - destruct b as [|y b]; [discriminate|].
    apply wf_cons in Ha. destruct Ha as [Hx Ha]. apply wf_cons in Hb. destruct Hb as [Hy Hb].
    simpl. rewrite select_word_choice by assumption. simpl in Hl.
    rewrite IH by (auto; lia). destruct c; reflexivity.
Qed.

Lemma wf_maxs n : wf (maxs n).
Proof. unfold wf, maxs. apply Forall_forall. intros x Hx. apply repeat_spec in Hx. subst. unfold is_word. pose proof MAXW_val. pose proof B_gt1. lia. Qed.
Lemma eval_maxs n : eval (maxs n) = Bn n - 1.
Proof.
  induction n; [reflexivity|]. unfold maxs in *. simpl. rewrite IHn, Bn_S. pose proof MAXW_val. lia.
Qed.
Lemma length_maxs n : length (maxs n) = n. Proof. apply repeat_length. Qed.
Lemma maxs_to_limbs n : maxs n = to_limbs n (Bn n - 1).
Proof. apply limbs_of_val; auto using wf_maxs, length_maxs, eval_maxs. Qed.


Lemma adc0_cases a b r co : wf a -> wf b -> length a = length b -> adc_limbs a b 0 = (r, co) ->
  wf r /\ length r = length a /\ 0 <= eval r < Bn (length a) /\
  ((co = 0 /\ eval r = eval a + eval b) \/ (co = 1 /\ eval r = eval a + eval b - Bn (length a))).
Proof.
  intros Ha Hb Hl E.
  pose proof (adc_limbs_correct a b 0 r co Ha Hb Hl is_word_0 E) as (He & Hw & Hlr & Hco & Hsm).
  specialize (Hsm ltac:(lia)). unfold is_word in Hco.
  pose proof (eval_bounds r Hw) as Hbr. rewrite Hlr in Hbr.
  repeat split; auto; try lia.
  assert (co = 0 \/ co = 1) as [-> | ->] by lia; [left | right]; split; lia.
Qed.

Lemma sbb0_cases a b r bo : wf a -> wf b -> length a = length b -> sbb_limbs a b 0 = (r, bo) ->
  wf r /\ length r = length a /\ 0 <= eval r < Bn (length a) /\
  ((bo = 0 /\ eval r = eval a - eval b) \/ (bo = MAXW /\ eval r = eval a - eval b + Bn (length a))).
Proof.
  intros Ha Hb Hl E.
  pose proof (sbb_limbs_correct a b 0 r bo Ha Hb Hl is_word_0 E) as (Hw & Hlr & Hcase).
  pose proof (eval_bounds r Hw) as Hbr. rewrite Hlr in Hbr.
  repeat split; auto; try lia.
  destruct Hcase as [(Hz & -> & ->)|(_ & Hib & He)].
  - left. split; [reflexivity|]. destruct a; [|discriminate]. destruct b; [|discriminate]. reflexivity.
  - rewrite bin_0 in He. destruct Hib as [-> | ->]; [rewrite bout_0 in He; left | rewrite bout_MAXW in He; right];
      split; auto; lia.
Qed.

Lemma wrapping_add_spec a b :
  wf a -> wf b -> length a = length b ->
  eval (uint_wrapping_add a b) = (eval a + eval b) mod Bn (length a) /\ wf (uint_wrapping_add a b)
  /\ length (uint_wrapping_add a b) = length a.
Proof.
  intros Ha Hb Hl. unfold uint_wrapping_add. destruct (adc_limbs a b 0) as [r co] eqn:E. cbn [fst].
  destruct (adc0_cases a b r co Ha Hb Hl E) as (Hw & Hlr & Hbr & Hc). repeat split; auto.
  destruct Hc as [[_ He]|[_ He]]; [apply (Z.mod_unique_pos _ _ 0) | apply (Z.mod_unique_pos _ _ 1)]; lia.
Qed.

Lemma wrapping_sub_spec a b :
  wf a -> wf b -> length a = length b ->
  eval (uint_wrapping_sub a b) = (eval a - eval b) mod Bn (length a) /\ wf (uint_wrapping_sub a b)
  /\ length (uint_wrapping_sub a b) = length a.
Proof.
  intros Ha Hb Hl. unfold uint_wrapping_sub. destruct (sbb_limbs a b 0) as [r bo] eqn:E. cbn [fst].
  destruct (sbb0_cases a b r bo Ha Hb Hl E) as (Hw & Hlr & Hbr & Hc). repeat split; auto.
  destruct Hc as [[_ He]|[_ He]]; [apply (Z.mod_unique_pos _ _ 0) | apply (Z.mod_unique_pos _ _ (-1))]; lia.
Qed.

Lemma checked_add_spec a b :
  wf a -> wf b -> length a = length b ->
  match uint_checked_add a b with
  | Some r => eval r = eval a + eval b /\ wf r /\ length r = length a
  | None => Bn (length a) <= eval a + eval b
  end.
Proof.
  intros Ha Hb Hl. unfold uint_checked_add. destruct (adc_limbs a b 0) as [r co] eqn:E.
  destruct (adc0_cases a b r co Ha Hb Hl E) as (Hw & Hlr & Hbr & [[-> He]|[-> He]]); cbn; [auto | lia].
Qed.

Lemma checked_sub_spec a b :
  wf a -> wf b -> length a = length b ->
  match uint_checked_sub a b with
  | Some r => eval r = eval a - eval b /\ wf r /\ length r = length a
  | None => eval a < eval b
  end.
Proof.
  intros Ha Hb Hl. unfold uint_checked_sub. destruct (sbb_limbs a b 0) as [r bo] eqn:E.
  destruct (sbb0_cases a b r bo Ha Hb Hl E) as (Hw & Hlr & Hbr & [[-> He]|[-> He]]).
  - cbn. auto.
  - rewrite MAXW_nonzero. lia.
Qed.

Lemma from_word_lsb_01 c : 0 <= c <= 1 -> from_word_lsb c = choice_of_bool (c =? 1).
Proof. intros H. assert (c = 0 \/ c = 1) as [-> | ->] by lia; reflexivity. Qed.

Lemma carrying_neg_spec a r c :
  wf a -> uint_carrying_neg a = (r, c) ->
  eval r = (- eval a) mod Bn (length a) /\ wf r /\ length r = length a /\
  choice_to_bool c = (eval a =? 0).
Proof.
  intros Ha E. unfold uint_carrying_neg in E. destruct (neg_limbs a 1) as [r' co] eqn:E1. inv_pair E.
  pose proof (neg_limbs_correct a 1 r' co Ha ltac:(lia) E1) as (He & Hw & Hlr & Hco).
  pose proof (eval_bounds r' Hw) as Hb'. rewrite Hlr in Hb'. pose proof (eval_bounds a Ha).
  pose proof (Bn_pos (length a)).
  repeat split; auto.
  - assert (co = 0 \/ co = 1) as [-> | ->] by lia.
    + apply (Z.mod_unique_pos _ _ (-1)); lia.
    + apply (Z.mod_unique_pos _ _ 0); lia.
  - rewrite from_word_lsb_01 by lia.
    assert (co = 0 \/ co = 1) as [-> | ->] by lia.
    + change (choice_to_bool (choice_of_bool (0 =? 1))) with false. symmetry. apply Z.eqb_neq. lia.
    + change (choice_to_bool (choice_of_bool (1 =? 1))) with true. symmetry. apply Z.eqb_eq. lia.
Qed.

Lemma wrapping_neg_spec a : wf a ->
  eval (uint_wrapping_neg a) = (- eval a) mod Bn (length a) /\ wf (uint_wrapping_neg a) /\
  length (uint_wrapping_neg a) = length a.
Proof.
  intros Ha. pose proof (carrying_neg_spec a) as H. unfold uint_carrying_neg in H. unfold uint_wrapping_neg.
  destruct (neg_limbs a 1) as [r co]. destruct (H r (from_word_lsb co) Ha eq_refl) as (He & Hw & Hl & _). auto.
Qed.

Lemma boxed_adc_spec a b c r co :
  wf a -> wf b -> is_word c -> boxed_adc a b c = (r, co) ->
  let n := Nat.max (length a) (length b) in
  eval r + Bn n * co = eval a + eval b + c /\ wf r /\ length r = n /\ is_word co.
Proof.
  intros Ha Hb Hc E n. destruct (resize_max a b Ha Hb) as (Wa & Wb & L & Ea & Eb). unfold boxed_adc in E.
  fold n in E, Wa, Wb, L, Ea, Eb.
  pose proof (adc_limbs_correct (resize n a) (resize n b) c r co Wa Wb L Hc E) as (He & Hw & Hlr & Hco & _).
  rewrite length_resize, Ea, Eb in *. tauto.
Qed.

Lemma boxed_sbb_spec a b bw r bo :
  wf a -> wf b -> is_word bw -> (length a <> 0 \/ length b <> 0)%nat -> boxed_sbb a b bw = (r, bo) ->
  let n := Nat.max (length a) (length b) in
  eval r - Bn n * bout bo = eval a - eval b - bin bw /\ wf r /\ length r = n /\ is_borrow bo.
Proof.
  intros Ha Hb Hc Hnz E n. destruct (resize_max a b Ha Hb) as (Wa & Wb & L & Ea & Eb). unfold boxed_sbb in E.
  fold n in E, Wa, Wb, L, Ea, Eb.
  pose proof (sbb_limbs_correct (resize n a) (resize n b) bw r bo Wa Wb L Hc E) as (Hw & Hlr & Hcase).
  rewrite length_resize, Ea, Eb in *.
  destruct Hcase as [(Hz & _)|(_ & Hib & He)]; [unfold n in Hz; lia | tauto].
Qed.
