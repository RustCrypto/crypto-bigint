(** C08 proofs, part 4: one operation on values in Montgomery form.
    [repr m a v] : the limb list a is the canonical (< m) Montgomery form of the residue v, eval a = v * R mod m.
    Every operation of the fixed-width forms (MontyForm / ConstMontyForm) and of BoxedMontyForm maps representatives
    to the representative of the Z/mZ result ([backend_ok]); the parameter constructors produce the defined values. *)
From CB Require Import Model.Limbs Model.AddSub Model.Mul Model.Div Model.ModArith Model.Monty
  Proofs.WordP Proofs.LimbsP Proofs.AddSubP Proofs.ModArithP Proofs.MulApiP Proofs.CmpP
  Proofs.MontyRedP Proofs.MontyAmmP Proofs.MontyNumP.
From Coq Require Import ZArith Znumtheory Lia List Bool.
Open Scope Z_scope.

Definition canon (m a : list Z) : Prop := wf a /\ length a = length m /\ 0 <= eval a < eval m.
Definition repr (m a : list Z) (v : Z) : Prop :=
  canon m a /\ 0 <= v < eval m /\ eval a = (v * Bn (length m)) mod eval m.

(** what a representation has to provide; [be_select] is applied to the low bit of the route word *)
Record backend_ok (m : list Z) (be : backend) : Prop := {
  ok_new : forall x, wf x -> length x = length m -> repr m (be_new be x) (eval x mod eval m);
  ok_retrieve : forall a v, repr m a v -> be_retrieve be a = to_limbs (length m) v;
  ok_mul : forall a b va vb, repr m a va -> repr m b vb -> repr m (be_mul be a b) ((va * vb) mod eval m);
  ok_square : forall a va, repr m a va -> repr m (be_square be a) ((va * va) mod eval m);
  ok_sub_assign : forall a b va vb, repr m a va -> repr m b vb -> repr m (be_sub_assign be a b) ((va - vb) mod eval m);
  ok_half : forall a va, repr m a va -> repr m (be_half be a) (half_mod (eval m) va);
  ok_select : forall c a b va vb, repr m a va -> repr m b vb -> repr m (be_select be c a b) (if c =? 0 then va else vb)
}.

Lemma hd_eval_mod l : wf l -> hd 0 l = eval l mod B.
Proof.
  intros H. rewrite (eval_hd_tl l). pose proof B_pos. rewrite Z.mul_comm, Z.mod_add by lia.
  symmetry. apply Z.mod_small. apply (wf_hd l H).
Qed.
Lemma B_even : B mod 2 = 0. Proof. rewrite B_val. reflexivity. Qed.
Lemma hd_parity l : wf l -> hd 0 l mod 2 = eval l mod 2.
Proof.
  intros H. rewrite (eval_hd_tl l). rewrite (Zplus_mod (hd 0 l)), Zmult_mod, B_even, Z.mul_0_l, Zmod_0_l, Z.add_0_r, Z.mod_mod by lia.
  reflexivity.
Qed.
Lemma hd_odd l : wf l -> Z.odd (hd 0 l) = Z.odd (eval l).
Proof.
  intros H. pose proof (hd_parity l H) as E. rewrite !Zmod_odd in E.
  destruct (Z.odd (hd 0 l)), (Z.odd (eval l)); try reflexivity; discriminate.
Qed.
Lemma land_1 x : Z.land x 1 = x mod 2.
Proof. change 1 with (Z.ones 1) at 1. rewrite Z.land_ones by lia. reflexivity. Qed.
Lemma Bn_even n : n <> 0%nat -> Bn n = 2 * top_bit n.
Proof.
  intros Hn. unfold top_bit. destruct n as [|n']; [contradiction|]. rewrite Bn_S, B_half.
  replace (2 * 2 ^ 63 * Bn n') with ((2 ^ 63 * Bn n') * 2) by ring. rewrite Z.div_mul by lia. ring.
Qed.

Section Forms.
Variables (m : list Z) (k : Z).
Hypothesis Hm : wf m.
Hypothesis Hn : length m <> 0%nat.
Hypothesis Hodd : Z.odd (eval m) = true.
Hypothesis Hk : (hd 0 m * k + 1) mod B = 0.
Let n := length m.
Let N := Bn (length m).
Let M := eval m.
Ltac nrm := repeat match goal with
  | H : context [Bn n] |- _ => progress change (Bn n) with N in H
  | H : context [Bn (length m)] |- _ => progress change (Bn (length m)) with N in H
  | H : context [eval m] |- _ => progress change (eval m) with M in H
  | H : context [length m] |- _ => progress change (length m) with n in H
  end; try change (Bn n) with N; try change (Bn (length m)) with N; try change (eval m) with M;
  try change (length m) with n.

Lemma M_pos : 0 < M.
Proof.
  pose proof (eval_nonneg m Hm) as H. fold M in H. destruct (Z.eq_dec M 0) as [E|]; [|lia].
  subst M. rewrite E in Hodd. discriminate.
Qed.
Lemma M_lt_N : M < N.
Proof. pose proof (eval_bounds m Hm). nrm. lia. Qed.
Lemma N_pos : 0 < N. Proof. apply Bn_pos. Qed.
Lemma rp_MN : rel_prime M N. Proof. apply odd_rel_prime_Bn. exact Hodd. Qed.
Lemma rp_M2 : rel_prime M 2. Proof. apply odd_rel_prime_2. exact Hodd. Qed.

Lemma repr_intro a v : canon m a -> eval a mod M = (v * N) mod M -> repr m a (v mod M).
Proof.
  intros Hc E. pose proof M_pos. split; [assumption|]. split; [apply Z.mod_pos_bound; assumption|].
  destruct Hc as (_ & _ & Hb). nrm. rewrite Zmult_mod_idemp_l. rewrite <- E. symmetry. apply Z.mod_small. assumption.
Qed.
Lemma repr_small a v : repr m a v -> v mod M = v.
Proof. intros (_ & Hv & _). apply Z.mod_small. exact Hv. Qed.
Lemma repr_canon a v : repr m a v -> canon m a. Proof. intros H. apply H. Qed.

(** a canonical r with r * R = a * b (mod m) represents the product *)
Lemma mul_repr r a b va vb : repr m a va -> repr m b vb -> canon m r ->
  (eval r * N) mod M = (eval a * eval b) mod M -> repr m r ((va * vb) mod M).
Proof.
  intros (Ca & Hva & Ea) (Cb & Hvb & Eb) Cr E. pose proof M_pos. apply repr_intro; [assumption|].
  apply (cancel_mod_r N M); [assumption | apply rp_MN|]. rewrite E. nrm. rewrite Ea, Eb, <- Zmult_mod. f_equal. ring.
Qed.
Lemma new_repr r x r2 : canon m r -> eval r2 = (N * N) mod M ->
  (eval r * N) mod M = (eval x * eval r2) mod M -> repr m r (eval x mod M).
Proof.
  intros Cr E2 E. pose proof M_pos. apply repr_intro; [assumption|].
  apply (cancel_mod_r N M); [assumption | apply rp_MN|]. rewrite E, E2, Zmult_mod_idemp_r. f_equal. ring.
Qed.
Lemma retrieve_val r a v : repr m a v -> 0 <= eval r < M -> (eval r * N) mod M = eval a mod M -> eval r = v.
Proof.
  intros (Ca & Hv & Ea) Hr E. pose proof M_pos. apply (residue_unique M); try assumption.
  apply (cancel_mod_r N M); [assumption | apply rp_MN|]. rewrite E. nrm. rewrite Ea. apply Z.mod_mod. lia.
Qed.

(** a result known as eval r = e mod M, with e = v * N (mod M) *)
Lemma mod_repr r e v : wf r -> length r = n -> eval r = e mod M -> e mod M = (v * N) mod M -> repr m r (v mod M).
Proof.
  intros W L E Ev. pose proof M_pos. apply repr_intro.
  - split; [assumption|]. split; [assumption|]. rewrite E. apply Z.mod_pos_bound. assumption.
  - rewrite E, Z.mod_mod by lia. exact Ev.
Qed.

(** additive operations (C07 lemmas) on representatives *)
Lemma add_repr a b va vb : repr m a va -> repr m b vb -> repr m (add_mod a b m) ((va + vb) mod M).
Proof.
  intros ((Wa & La & Ba) & Hva & Ea) ((Wb & Lb & Bb) & Hvb & Eb).
  destruct (add_mod_correct a b m Wa Wb Hm ltac:(lia) ltac:(lia) ltac:(lia) ltac:(lia)) as (He & Hw & Hl).
  apply (mod_repr _ _ _ Hw ltac:(lia) He). nrm. rewrite Ea, Eb, <- Zplus_mod. f_equal. ring.
Qed.
Lemma sub_repr a b va vb : repr m a va -> repr m b vb -> repr m (sub_mod a b m) ((va - vb) mod M).
Proof.
  intros ((Wa & La & Ba) & Hva & Ea) ((Wb & Lb & Bb) & Hvb & Eb).
  destruct (sub_mod_correct a b m Wa Wb Hm ltac:(lia) ltac:(lia) ltac:(lia) ltac:(lia)) as (He & Hw & Hl).
  apply (mod_repr _ _ _ Hw ltac:(lia) He). nrm. rewrite Ea, Eb, <- Zminus_mod. f_equal. ring.
Qed.
Lemma neg_repr a va : repr m a va -> repr m (neg_mod a m) ((- va) mod M).
Proof.
  intros ((Wa & La & Ba) & Hva & Ea). pose proof M_pos.
  destruct (neg_mod_correct a m Wa Hm ltac:(lia) ltac:(lia)) as (He & Hw & Hl).
  apply (mod_repr _ _ _ Hw ltac:(lia) He). nrm. rewrite Ea.
  replace (- ((va * N) mod M)) with (0 - (va * N) mod M) by lia.
  rewrite <- (Z.mod_0_l M) at 1 by lia. rewrite <- Zminus_mod. f_equal. ring.
Qed.
Lemma double_repr a va : repr m a va -> repr m (double_mod a m) ((2 * va) mod M).
Proof.
  intros ((Wa & La & Ba) & Hva & Ea).
  destruct (double_mod_correct a m Wa Hm ltac:(lia) ltac:(lia)) as (He & Hw & Hl).
  apply (mod_repr _ _ _ Hw ltac:(lia) He). nrm. rewrite Ea, Zmult_mod_idemp_r. f_equal. ring.
Qed.

(** halving: any canonical h with 2h = a (mod m) represents half of the value *)
Lemma half_repr h a va : repr m a va -> canon m h -> eval h = half_mod M (eval a) -> repr m h (half_mod M va).
Proof.
  intros (Ca & Hva & Ea) Ch Eh. pose proof M_pos as HM. destruct Ca as (Wa & La & Ba). nrm.
  destruct (half_mod_correct M va Hodd HM Hva) as (Hb & _).
  rewrite <- (Z.mod_small (half_mod M va) M) by assumption. apply repr_intro; [assumption|].
  apply (cancel_mod 2 M); [assumption | apply rp_M2|].
  rewrite Eh, (half_mod_congr M (eval a) Hodd HM Ba).
  replace (2 * (half_mod M va * N)) with ((2 * half_mod M va) * N) by ring.
  rewrite Zmult_mod, (half_mod_congr M va Hodd HM Hva), <- Zmult_mod. rewrite Ea. apply Z.mod_mod. lia.
Qed.

(** Montgomery reduction of a double-width value T < M * N given as (lo, hi) *)
Lemma wide_red_canon lo hi T : wf lo -> wf hi -> length lo = n -> length hi = n ->
  eval lo + N * eval hi = T -> T < M * N ->
  let r := montgomery_reduction lo hi m k in canon m r /\ (eval r * N) mod M = T mod M.
Proof.
  intros Wlo Whi Llo Lhi He HT. cbv zeta.
  destruct (mont_red_correct lo hi m k Wlo Whi Hm Llo Lhi Hn Hk) as (Wr & Lr & Br & Er).
  { nrm. lia. }
  nrm. split; [split; [assumption | split; [assumption | exact Br]]|]. rewrite Er, He. reflexivity.
Qed.
Lemma fixed_mul_canon a b : wf a -> wf b -> length a = n -> length b = n -> eval a * eval b < M * N ->
  let r := mul_montgomery_form a b m k in canon m r /\ (eval r * N) mod M = (eval a * eval b) mod M.
Proof.
  intros Wa Wb La Lb HT. cbv zeta. unfold mul_montgomery_form.
  destruct (uint_split_mul a b) as [lo hi] eqn:E.
  destruct (uint_split_mul_eval a b lo hi Wa Wb E) as (He & Wlo & Whi & Llo & Lhi).
  rewrite La in He. apply wide_red_canon; try assumption; lia.
Qed.
Lemma fixed_square_canon a : wf a -> length a = n -> eval a * eval a < M * N ->
  let r := square_montgomery_form a m k in canon m r /\ (eval r * N) mod M = (eval a * eval a) mod M.
Proof.
  intros Wa La HT. cbv zeta. unfold square_montgomery_form.
  destruct (uint_square_wide a) as [lo hi] eqn:E.
  destruct (uint_square_wide_eval a lo hi Wa E) as (He & Wlo & Whi & Llo & Lhi).
  rewrite La in He. apply wide_red_canon; try assumption; lia.
Qed.
Lemma prod_lt a b : 0 <= a < M -> 0 <= b < N -> a * b < M * N.
Proof. intros Ha Hb. pose proof M_pos. pose proof N_pos. assert (a * b <= (M - 1) * (N - 1)) by (apply Z.mul_le_mono_nonneg; lia). nia. Qed.

Lemma fixed_retrieve_canon a : canon m a ->
  let r := monty_retrieve a m k in wf r /\ length r = n /\ 0 <= eval r < M /\ (eval r * N) mod M = eval a mod M.
Proof.
  intros (Wa & La & Ba). cbv zeta. unfold monty_retrieve. pose proof N_pos. nrm.
  destruct (wide_red_canon a (zeros (length a)) (eval a) Wa (wf_zeros _) La ltac:(rewrite length_zeros; exact La))
    as ((Wr & Lr & Br) & Er).
  { rewrite eval_zeros. lia. }
  { nia. }
  split; [assumption|]. split; [assumption|]. split; assumption.
Qed.

Lemma canon_to_limbs v : 0 <= v < M -> canon m (to_limbs n v) /\ eval (to_limbs n v) = v.
Proof.
  intros Hv. pose proof M_lt_N.
  assert (Et : eval (to_limbs n v) = v) by (rewrite eval_to_limbs; apply Z.mod_small; nrm; lia).
  split; [|exact Et]. split; [apply wf_to_limbs|]. split; [apply length_to_limbs|]. rewrite Et. nrm. lia.
Qed.

(** halving through the (n+1)-limb sum s + N * carry = a + (a odd ? m : 0): shift right, the carry becomes the top bit *)
Lemma half_from_sum a s carry (odd : bool) : 0 <= a < M -> odd = Z.odd a -> 0 <= carry <= 1 -> 0 <= s ->
  s + N * carry = a + (if odd then M else 0) ->
  s / 2 + (if carry =? 0 then 0 else top_bit n) = half_mod M a.
Proof.
  intros Ba Hodd_a Hco Hs He. pose proof M_lt_N as HMN. pose proof (Bn_even (length m) Hn) as HN2. nrm.
  unfold half_mod. rewrite <- Z.negb_odd, <- Hodd_a. destruct odd; cbn [negb].
  - pose proof (Zmod_odd (a + M)) as Hpe. rewrite Z.odd_add, <- Hodd_a in Hpe.
    change (eval m) with M in Hodd. rewrite Hodd in Hpe. cbn in Hpe.
    pose proof (Z.div_mod (a + M) 2 ltac:(lia)) as D1.
    assert (carry = 0 \/ carry = 1) as [-> | ->] by lia.
    + change (0 =? 0) with true. cbv iota. rewrite Z.add_0_r. f_equal. lia.
    + change (1 =? 0) with false. cbv iota.
      pose proof (Z.div_mod s 2 ltac:(lia)) as D2.
      assert (s mod 2 = 0).
      { replace s with (a + M + (- top_bit n) * 2) by lia. rewrite Z.mod_add by lia. exact Hpe. }
      apply Z.mul_cancel_l with (p := 2); lia.
  - assert (carry = 0 \/ carry = 1) as [-> | ->] by lia; [|lia].
    change (0 =? 0) with true. cbv iota. rewrite Z.add_0_r. f_equal. lia.
Qed.

(** div_by_2: adc, two selects, shr1, set_bit(BITS-1) compute (a even ? a/2 : (a+m)/2) *)
Lemma div_by_2_val a : canon m a ->
  let h := div_by_2 a m in canon m h /\ eval h = half_mod M (eval a).
Proof.
  intros (Wa & La & Ba). cbv zeta. unfold div_by_2. pose proof M_pos as HM. pose proof M_lt_N as HMN. nrm.
  destruct (half_mod_correct M (eval a) Hodd HM Ba) as (Hb & Hh).
  rewrite land_1, (hd_parity a Wa).
  pose proof (Z.mod_pos_bound (eval a) 2 ltac:(lia)) as Hp.
  rewrite from_word_lsb_01 by lia.
  destruct (adc_limbs a m 0) as [if_odd carry] eqn:E.
  pose proof (adc_limbs_correct a m 0 if_odd carry Wa Hm La is_word_0 E) as (He & Wi & Li & Hco & Hsm).
  specialize (Hsm ltac:(lia)). unfold is_word in Hco. rewrite La in He. nrm.
  rewrite select_word_choice by (try apply is_word_0; unfold is_word; pose proof B_gt4; lia).
  rewrite select_limbs_choice by (auto; lia).
  assert (Hodd_a : (eval a mod 2 =? 1) = Z.odd (eval a)) by (rewrite Zmod_odd; destruct (Z.odd (eval a)); reflexivity).
  rewrite La, (half_from_sum (eval a) _ _ (eval a mod 2 =? 1) Ba Hodd_a).
  - apply canon_to_limbs. exact Hb.
  - destruct (eval a mod 2 =? 1); lia.
  - destruct (eval a mod 2 =? 1); [apply eval_nonneg; assumption | lia].
  - destruct (eval a mod 2 =? 1); lia.
Qed.

Theorem backend_fixed_ok p : mp_m p = m -> mp_k p = k ->
  canon m (mp_r2 p) -> eval (mp_r2 p) = (N * N) mod M -> backend_ok m (backend_fixed p).
Proof.
  intros Em Ek C2 E2. pose proof M_pos as HM. pose proof M_lt_N as HMN.
  constructor; cbn [backend_fixed be_new be_retrieve be_mul be_square be_sub_assign be_half be_select]; rewrite ?Em, ?Ek.
  - intros x Wx Lx. unfold monty_new. destruct C2 as (W2 & L2 & B2).
    destruct (fixed_mul_canon x (mp_r2 p) Wx W2 Lx L2) as (Cr & Er).
    { rewrite Z.mul_comm. apply prod_lt; [exact B2|]. pose proof (eval_bounds x Wx) as Bx. rewrite Lx in Bx. exact Bx. }
    apply (new_repr _ x (mp_r2 p)); assumption.
  - intros a v Ha. destruct (fixed_retrieve_canon a (repr_canon a v Ha)) as (Wr & Lr & Br & Er).
    apply limbs_of_val; try assumption. apply (retrieve_val _ a v); assumption.
  - intros a b va vb Ha Hb. pose proof Ha as (Ca & _). pose proof Hb as (Cb & _).
    destruct Ca as (Wa & La & Ba). destruct Cb as (Wb & Lb & Bb).
    destruct (fixed_mul_canon a b Wa Wb La Lb) as (Cr & Er). { apply prod_lt; [exact Ba | nrm; lia]. }
    apply (mul_repr _ a b); assumption.
  - intros a va Ha. pose proof Ha as (Ca & _). destruct Ca as (Wa & La & Ba).
    destruct (fixed_square_canon a Wa La) as (Cr & Er). { apply prod_lt; [exact Ba | nrm; lia]. }
    apply (mul_repr _ a a); assumption.
  - intros a b va vb Ha Hb. apply sub_repr; assumption.
  - intros a va Ha. destruct (div_by_2_val a (repr_canon a va Ha)) as (Ch & Eh). apply (half_repr _ a); assumption.
  - intros c a b va vb Ha Hb. pose proof Ha as ((Wa & La & _) & _). pose proof Hb as ((Wb & Lb & _) & _).
    rewrite select_limbs_choice by (auto; lia). destruct (c =? 0); assumption.
Qed.

Lemma boxed_div_by_2_val a : canon m a ->
  let h := boxed_div_by_2 a m in canon m h /\ eval h = half_mod M (eval a).
Proof.
  intros (Wa & La & Ba). cbv zeta. unfold boxed_div_by_2. pose proof M_pos as HM. pose proof M_lt_N as HMN. nrm.
  destruct (half_mod_correct M (eval a) Hodd HM Ba) as (Hb & Hh).
  unfold conditional_adc_assign.
  replace (resize (length a) m) with m by (rewrite La; symmetry; apply resize_same).
  set (odd := Z.odd (hd 0 a)).
  assert (Hbm : is_borrow (if odd then MAXW else 0)) by (destruct odd; [right | left]; reflexivity).
  pose proof (bitand_limb_borrow m _ Hm Hbm) as (Hpe & Hpw & Hpl).
  destruct (adc_limbs a (bitand_limb m (if odd then MAXW else 0)) 0) as [s carry] eqn:E.
  pose proof (adc_limbs_correct a _ 0 s carry Wa Hpw ltac:(lia) is_word_0 E) as (He & Ws & Ls & Hco & Hsm).
  specialize (Hsm ltac:(lia)). unfold is_word in Hco. rewrite La, Hpe in He. nrm.
  assert (Hw1 : wand carry 1 = carry).
  { assert (carry = 0 \/ carry = 1) as [-> | ->] by lia; reflexivity. }
  rewrite Hw1.
  assert (Hbo : bout (if odd then MAXW else 0) = if odd then 1 else 0) by (destruct odd; [apply bout_MAXW | apply bout_0]).
  rewrite Hbo in He.
  assert (Hodd_a : odd = Z.odd (eval a)) by (apply hd_odd; assumption).
  rewrite La, (half_from_sum (eval a) (eval s) carry odd Ba Hodd_a) by (first [apply eval_nonneg; assumption | destruct odd; lia]).
  apply canon_to_limbs. exact Hb.
Qed.

Theorem backend_boxed_ok p : mp_m p = m -> mp_k p = k ->
  canon m (mp_r2 p) -> eval (mp_r2 p) = (N * N) mod M -> backend_ok m (backend_boxed p).
Proof.
  intros Em Ek C2 E2. pose proof M_pos as HM. pose proof M_lt_N as HMN.
  constructor; cbn [backend_boxed be_new be_retrieve be_mul be_square be_sub_assign be_half be_select]; rewrite ?Em, ?Ek.
  - intros x Wx Lx. unfold boxed_monty_new. destruct C2 as (W2 & L2 & B2).
    destruct (boxed_monty_mul_correct m k Hm Hn Hk x (mp_r2 p) Wx W2 Lx L2 HM ltac:(right; nrm; lia)) as (Wr & Lr & Br & Er).
    apply (new_repr _ x (mp_r2 p)); try assumption. split; [assumption | split; assumption].
  - intros a v Ha. pose proof Ha as ((Wa & La & Ba) & _). unfold boxed_monty_retrieve.
    destruct (amm_by_one_reduced m k Hm Hn Hk a Wa La ltac:(nrm; lia)) as (Wr & Lr & Br & Er).
    apply limbs_of_val; try assumption. apply (retrieve_val _ a v); assumption.
  - intros a b va vb Ha Hb. pose proof Ha as ((Wa & La & Ba) & _). pose proof Hb as ((Wb & Lb & Bb) & _).
    destruct (boxed_monty_mul_correct m k Hm Hn Hk a b Wa Wb La Lb HM ltac:(left; nrm; lia)) as (Wr & Lr & Br & Er).
    apply (mul_repr _ a b); try assumption. split; [assumption | split; assumption].
  - intros a va Ha. pose proof Ha as ((Wa & La & Ba) & _).
    change (boxed_monty_square a m k) with (boxed_monty_mul a a m k).
    destruct (boxed_monty_mul_correct m k Hm Hn Hk a a Wa Wa La La HM ltac:(left; nrm; lia)) as (Wr & Lr & Br & Er).
    apply (mul_repr _ a a); try assumption. split; [assumption | split; assumption].
  - intros a b va vb Ha Hb. pose proof Ha as ((Wa & La & Ba) & Hva & Ea). pose proof Hb as ((Wb & Lb & Bb) & Hvb & Eb).
    destruct (boxed_sub_assign_mod_with_carry_correct m Hm Hn a b Wa Wb La Lb ltac:(nrm; lia)) as (Wr & Lr & Er).
    apply (mod_repr _ _ _ Wr Lr Er). nrm. rewrite Ea, Eb, <- Zminus_mod. f_equal. ring.
  - intros a va Ha. destruct (boxed_div_by_2_val a (repr_canon a va Ha)) as (Ch & Eh). apply (half_repr _ a); assumption.
  - intros c a b va vb Ha Hb. destruct (c =? 0); assumption.
Qed.

Lemma params_one_correct : canon m (params_one m) /\ eval (params_one m) = N mod M.
Proof.
  pose proof M_pos as HM. pose proof M_lt_N as HMN. unfold params_one.
  destruct (wrapping_neg_facts m Hm) as (_ & _ & He). rewrite He. nrm.
  assert (E1 : (- M) mod N = N - M).
  { symmetry. apply (Z.mod_unique_pos _ N (-1)); lia. }
  rewrite E1. assert (E2 : (N - M) mod M = N mod M).
  { replace (N - M) with (N + (-1) * M) by ring. apply Z.mod_add. lia. }
  rewrite E2. apply canon_to_limbs. apply Z.mod_pos_bound. exact HM.
Qed.
Lemma params_r2_correct one : eval one = N mod M ->
  canon m (params_r2 one m) /\ eval (params_r2 one m) = (N * N) mod M.
Proof.
  intros E1. pose proof M_pos as HM. pose proof M_lt_N as HMN. unfold params_r2. rewrite E1, <- Zmult_mod. nrm.
  apply canon_to_limbs. apply Z.mod_pos_bound. exact HM.
Qed.
(** a canonical r with r * R = r2 * r2 (mod m) is R^3 mod m *)
Lemma r3_value r r2 : canon m r -> eval r2 = (N * N) mod M -> (eval r * N) mod M = (eval r2 * eval r2) mod M ->
  r = to_limbs n ((N * N * N) mod M).
Proof.
  intros (Wr & Lr & Br) E2 E. pose proof M_pos as HM. pose proof M_lt_N as HMN.
  apply limbs_of_val; try assumption.
  rewrite <- (Z.mod_small (eval r) M) by (nrm; lia).
  apply (cancel_mod_r N M); [assumption | apply rp_MN|]. rewrite E, E2, <- Zmult_mod. f_equal. ring.
Qed.
End Forms.

(** the derived word, stated on [mod_neg_inv_of] (never let conversion unfold the 64-step loop) *)
Lemma mod_neg_inv_of_ok m : Z.odd (hd 0 m) = true -> is_word (hd 0 m) ->
  is_word (mod_neg_inv_of m) /\ (hd 0 m * mod_neg_inv_of m + 1) mod B = 0.
Proof. intros Ho Hh. unfold mod_neg_inv_of. apply mod_neg_inv_of_correct; assumption. Qed.

(** both constructors differ in r3 only, and any canonical r3 with r3 * R = r2 * r2 (mod m) is the defined one *)
Lemma params_record_correct m r3 : wf m -> length m <> 0%nat -> Z.odd (eval m) = true ->
  let n := length m in let N := Bn n in let M := eval m in
  let r2 := params_r2 (params_one m) m in
  (canon m r2 -> eval r2 = (N * N) mod M -> (hd 0 m * mod_neg_inv_of m + 1) mod B = 0 ->
   canon m r3 /\ (eval r3 * N) mod M = (eval r2 * eval r2) mod M) ->
  {| mp_m := m; mp_one := params_one m; mp_r2 := r2; mp_r3 := r3; mp_k := mod_neg_inv_of m;
     mp_lz := mod_leading_zeros_of m |}
  = {| mp_m := m; mp_one := to_limbs n (N mod M); mp_r2 := to_limbs n ((N * N) mod M);
       mp_r3 := to_limbs n ((N * N * N) mod M); mp_k := spec_neg_inv (M mod B);
       mp_lz := Z.min (64 * Z.of_nat n - mt_bitlen M) 63 |}
  /\ (hd 0 m * mod_neg_inv_of m + 1) mod B = 0.
Proof.
  intros Hm Hn Hodd. cbv zeta. intros H3.
  pose proof (wf_hd m Hm) as Hh. pose proof (hd_odd m Hm) as Ho. rewrite Hodd in Ho.
  destruct (mod_neg_inv_of_ok m Ho Hh) as (Hkw & Hk).
  destruct (params_one_correct m Hm Hn Hodd) as (C1 & E1).
  destruct (params_r2_correct m Hm Hn Hodd (params_one m) E1) as (C2 & E2).
  destruct (H3 C2 E2 Hk) as (C3 & E3). pose proof C2 as (W2 & L2 & B2).
  split; [|exact Hk]. f_equal.
  - destruct C1 as (W1 & L1 & B1). apply limbs_of_val; assumption.
  - apply limbs_of_val; assumption.
  - apply (r3_value m Hm Hn Hodd _ (params_r2 (params_one m) m)); assumption.
  - unfold mod_neg_inv_of. rewrite <- (hd_eval_mod m Hm). apply neg_inv_model_eq_spec; assumption.
  - unfold mod_leading_zeros_of, lenZ. destruct (_ <? 63) eqn:E; [apply Z.ltb_lt in E | apply Z.ltb_ge in E]; lia.
Qed.

Theorem params_fixed_correct m : wf m -> length m <> 0%nat -> Z.odd (eval m) = true ->
  let n := length m in let N := Bn n in let M := eval m in
  params_fixed m = {| mp_m := m; mp_one := to_limbs n (N mod M); mp_r2 := to_limbs n ((N * N) mod M);
                      mp_r3 := to_limbs n ((N * N * N) mod M); mp_k := spec_neg_inv (M mod B);
                      mp_lz := Z.min (64 * Z.of_nat n - mt_bitlen M) 63 |}
  /\ (hd 0 m * mp_k (params_fixed m) + 1) mod B = 0.
Proof.
  intros Hm Hn Hodd. apply (params_record_correct m _ Hm Hn Hodd). intros (W2 & L2 & B2) E2 Hk.
  apply (fixed_square_canon m (mod_neg_inv_of m) Hm Hn Hk _ W2 L2).
  apply (prod_lt m Hm Hn Hodd); [exact B2|]. pose proof (M_lt_N m Hm Hn). lia.
Qed.

Theorem params_boxed_correct m : wf m -> length m <> 0%nat -> Z.odd (eval m) = true ->
  let n := length m in let N := Bn n in let M := eval m in
  params_boxed m = {| mp_m := m; mp_one := to_limbs n (N mod M); mp_r2 := to_limbs n ((N * N) mod M);
                      mp_r3 := to_limbs n ((N * N * N) mod M); mp_k := spec_neg_inv (M mod B);
                      mp_lz := Z.min (64 * Z.of_nat n - mt_bitlen M) 63 |}
  /\ (hd 0 m * mp_k (params_boxed m) + 1) mod B = 0.
Proof.
  intros Hm Hn Hodd. apply (params_record_correct m _ Hm Hn Hodd). intros (W2 & L2 & B2) E2 Hk.
  set (r2 := params_r2 (params_one m) m) in *. pose proof (M_pos m Hm Hn Hodd) as HM.
  change (boxed_monty_square r2 m (mod_neg_inv_of m)) with (boxed_monty_mul r2 r2 m (mod_neg_inv_of m)).
  destruct (boxed_monty_mul_correct m (mod_neg_inv_of m) Hm Hn Hk r2 r2 W2 W2 L2 L2 HM ltac:(left; lia)) as (W3 & L3 & B3 & E3).
  split; [|exact E3]. split; [assumption | split; assumption].
Qed.

(** MontyParams::new / new_vartime / impl_modulus! (one model: they differ only in which remainder routine is called)
    and BoxedMontyParams::new / new_vartime (r3 through the almost-Montgomery square) produce the same parameter set *)
Theorem params_constructors_agree m : wf m -> length m <> 0%nat -> Z.odd (eval m) = true ->
  params_fixed m = params_boxed m.
Proof.
  intros Hm Hn Hodd. destruct (params_fixed_correct m Hm Hn Hodd) as (E1 & _).
  destruct (params_boxed_correct m Hm Hn Hodd) as (E2 & _). cbv zeta in E1, E2. rewrite E1, E2. reflexivity.
Qed.
