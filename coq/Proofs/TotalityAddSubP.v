(** C11, area addsub (Model/AddSub.v, owner C04): on the spec's domain every entry of the model table returns what the
    spec entry returns (Proofs/AddSubTablesP.v), so a panic of the model -- the carry / borrow test of the operator
    forms -- is exactly the spec's range test. *)
From CB Require Import Model.Limbs Model.AddSub Proofs.LimbsP Proofs.TotalityP Proofs.AddSubTablesP.
From Coq Require Import ZArith Lia List String Bool.
Open Scope Z_scope.
Notation length := List.length.

Lemma addsub_cover : covers addsub_keys ops_addsub_model = true.
Proof. vm_compute. reflexivity. Qed.

Lemma addsub_quiet : quiet_keys_ok ops_addsub_model ops_addsub_spec addsub_quiet_keys.
Proof. unfold addsub_quiet_keys. quiet_tac ops_addsub_model ops_addsub_spec. Qed.

(* the typing side conditions of [addsub_ty] give the boolean ones of [addsub_tbl_ty] *)
Lemma limb2_b a : limb2 a -> ty_limb2 a = true.
Proof. intros [H0 H1]. apply andb_true_intro. split; apply Nat.eqb_eq; assumption. Qed.
Lemma same_len_b a : same_len a -> ty_same2 a = true.
Proof. intros H. apply Nat.eqb_eq. exact H. Qed.

Lemma key_limb_add : key_ok ops_addsub_model ops_addsub_spec addsub_ty "limb.add".
Proof. apply key_of_eq. intros dbg a Hwf Hty. exact (tbl_limb_add dbg a Hwf (limb2_b a Hty)). Qed.
Lemma key_limb_sub : key_ok ops_addsub_model ops_addsub_spec addsub_ty "limb.sub".
Proof. apply key_of_eq. intros dbg a Hwf Hty. exact (tbl_limb_sub dbg a Hwf (limb2_b a Hty)). Qed.
Lemma key_uint_add : key_ok ops_addsub_model ops_addsub_spec addsub_ty "uint.add".
Proof. apply key_of_eq. intros dbg a Hwf Hty. exact (tbl_uint_add dbg a Hwf (same_len_b a Hty)). Qed.
Lemma key_uint_sub : key_ok ops_addsub_model ops_addsub_spec addsub_ty "uint.sub".
Proof. apply key_of_eq. intros dbg a Hwf Hty. exact (tbl_uint_sub dbg a Hwf (same_len_b a Hty)). Qed.
Lemma key_boxed_add : key_ok ops_addsub_model ops_addsub_spec addsub_ty "boxed.add".
Proof. apply key_of_eq. intros dbg a Hwf Hty. exact (tbl_boxed_add dbg a Hwf eq_refl). Qed.
Lemma key_boxed_sub : key_ok ops_addsub_model ops_addsub_spec addsub_ty "boxed.sub".
Proof. apply key_of_eq. intros dbg a Hwf Hty. exact (tbl_boxed_sub dbg a Hwf eq_refl). Qed.
Lemma key_boxed_add_assign : key_ok ops_addsub_model ops_addsub_spec addsub_ty "boxed.add_assign".
Proof. apply key_of_eq. intros dbg a Hwf Hty. exact (tbl_boxed_add_assign dbg a Hwf eq_refl). Qed.
Lemma key_boxed_sub_assign : key_ok ops_addsub_model ops_addsub_spec addsub_ty "boxed.sub_assign".
Proof. apply key_of_eq. intros dbg a Hwf Hty. exact (tbl_boxed_sub_assign dbg a Hwf eq_refl). Qed.

#[export] Hint Resolve key_limb_add key_limb_sub key_uint_add key_uint_sub key_boxed_add key_boxed_sub
  key_boxed_add_assign key_boxed_sub_assign : c11keys.
