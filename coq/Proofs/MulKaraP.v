(** C03 proofs, part 3: fixed-size Karatsuba multiplication (kmul) and squaring (ksq), every level. *)
From CB Require Import Model.Limbs Model.AddSub Model.Mul Proofs.WordP Proofs.LimbsP Proofs.AddSubP
  Proofs.MulBaseP Proofs.MulSqP.
From Coq Require Import ZArith Lia List.
Open Scope Z_scope.

Lemma wadd_small a b : 0 <= a -> 0 <= b -> a + b < B -> wadd a b = a + b.
Proof. intros. unfold wadd, wrap. apply Z.mod_small. lia. Qed.

Lemma is_mask_0 : is_mask 0 = false. Proof. reflexivity. Qed.
Lemma is_mask_MAXW : is_mask MAXW = true. Proof. vm_compute. reflexivity. Qed.

(** |a - b| by subtract, then conditional two's-complement negation on borrow *)
Lemma abs_diff a b d bo :
  wf a -> wf b -> length a = length b -> sbb_limbs a b 0 = (d, bo) ->
  wf (sel_limbs (is_mask bo) d (uint_wrapping_neg d)) /\
  length (sel_limbs (is_mask bo) d (uint_wrapping_neg d)) = length a /\
  eval (sel_limbs (is_mask bo) d (uint_wrapping_neg d)) = (if is_mask bo then eval b - eval a else eval a - eval b).
Proof.
  intros Ha Hb Hl E.
  destruct (sbb_limbs_correct a b 0 d bo Ha Hb Hl is_word_0 E) as (Hw & Hld & [(Hz & -> & ->)|(Hnz & Hib & He)]).
  - rewrite is_mask_0. cbn [sel_limbs]. destruct a; [|discriminate]. destruct b; [|discriminate].
    split; [apply wf_nil|]. split; reflexivity.
  - rewrite bin_0 in He. destruct Hib as [-> | ->].
    + rewrite is_mask_0. cbn [sel_limbs]. rewrite bout_0 in He. split; [assumption|]. split; [assumption|]. lia.
    + rewrite is_mask_MAXW. cbn [sel_limbs]. rewrite bout_MAXW in He.
      unfold uint_wrapping_neg. destruct (neg_limbs d 1) as [r co] eqn:En. cbn [fst].
      destruct (neg_limbs_correct d 1 r co Hw ltac:(lia) En) as (Hn & Hwr & Hlr & Hco).
      rewrite Hld in *.
      pose proof (eval_bounds a Ha) as Hba. pose proof (eval_bounds b Hb) as Hbb. rewrite <- Hl in Hbb.
      pose proof (eval_bounds d Hw) as Hbd. rewrite Hld in Hbd.
      pose proof (eval_bounds r Hwr) as Hbr. rewrite Hlr in Hbr.
      split; [assumption|]. split; [lia|].
      assert (co = 0 \/ co = 1) as [-> | ->] by lia; lia.
Qed.

Lemma lnot_limbs_correct l : wf l ->
  eval (lnot_limbs l) = Bn (length l) - 1 - eval l /\ wf (lnot_limbs l) /\ length (lnot_limbs l) = length l.
Proof.
  induction l as [|x l IH]; intros Hl.
  - cbn. rewrite Bn_0. split; [lia|]. split; [apply wf_nil | reflexivity].
  - apply wf_cons in Hl. destruct Hl as [Hx Hl]. destruct (IH Hl) as (I1 & I2 & I3).
    unfold lnot_limbs in *. cbn [map eval length]. rewrite Bn_S, I1, I3.
    unfold wnot. pose proof MAXW_val. unfold is_word in Hx.
    split; [lia|]. split; [|reflexivity]. apply wf_cons. split; [unfold is_word; lia | assumption].
Qed.

Lemma sel_lnot s l : wf l ->
  wf (sel_limbs s l (lnot_limbs l)) /\ length (sel_limbs s l (lnot_limbs l)) = length l /\
  eval (sel_limbs s l (lnot_limbs l)) = (if s then Bn (length l) - 1 - eval l else eval l).
Proof.
  intros Hl. destruct (lnot_limbs_correct l Hl) as (A & C & D). destruct s; cbn [sel_limbs]; auto.
Qed.

(** one carry chain over h limbs, with the bounds on the outgoing carry that the recombination needs *)
Lemma adc_h h a b c r co : wf a -> wf b -> length a = h -> length b = h -> 0 <= c <= 4 ->
  adc_limbs a b c = (r, co) ->
  eval r + Bn h * co = eval a + eval b + c /\ wf r /\ length r = h /\ 0 <= co /\
  (c <= 1 -> co <= 1) /\ (c <= 2 -> co <= 2).
Proof.
  intros Ha Hb Hla Hlb Hc E.
  assert (Hcw : is_word c) by (unfold is_word; pose proof B_gt4; lia).
  destruct (adc_limbs_correct a b c r co Ha Hb ltac:(lia) Hcw E) as (H1 & H2 & H3 & H4 & H5).
  pose proof (eval_bounds a Ha) as Hba. pose proof (eval_bounds b Hb) as Hbb. pose proof (eval_bounds r H2) as Hbr.
  rewrite H3 in Hbr. rewrite Hla in *. rewrite Hlb in *. unfold is_word in H4.
  split; [assumption|]. split; [assumption|]. split; [assumption|]. split; [lia|]. split; [assumption|].
  intros Hc2. pose proof (Bn_pos h).
  destruct (Z_le_gt_dec co 2); [assumption|].
  assert (Bn h * 3 <= Bn h * co) by (apply Z.mul_le_mono_nonneg_l; lia). lia.
Qed.

(** the multi-carry recombination, as pure arithmetic: nothing is lost except the last carry c8 *)
Lemma kara_recomb H R0 R1 R2 R3 cin z0lo z0hi z2lo z2hi r0a r1a r1b r1c r2a r2b r2c r3a c1 c2 c3 c4 c5 c6 c7 c8 :
  r0a + H * c1 = R0 + z0lo + cin ->
  r1a + H * c2 = R1 + z0hi + c1 ->
  r1b + H * c3 = r1a + z0lo + 0 ->
  r2a + H * c4 = R2 + z0hi + (c2 + c3) ->
  r1c + H * c5 = r1b + z2lo + 0 ->
  r2b + H * c6 = r2a + z2hi + c5 ->
  r2c + H * c7 = r2b + z2lo + 0 ->
  r3a + H * c8 = R3 + z2hi + (c4 + c6 + c7) ->
  (r0a + H * r1c) + H * H * (r2c + H * r3a) + H * H * H * H * c8 =
    (R0 + H * R1 + H * H * R2 + H * H * H * R3) + cin
    + (z0lo + H * z0hi) * (1 + H) + (z2lo + H * z2hi) * (H + H * H).
Proof.
  intros E1 E2 E3 E4 E5 E6 E7 E8.
  apply Z.add_move_r in E1, E2, E3, E4, E5, E6, E7, E8. subst r0a r1a r1b r2a r1c r2b r2c r3a.
  ring.
Qed.

Lemma split_halves h l l0 l1 : wf l -> length l = (2 * h)%nat -> split_at h l = (l0, l1) ->
  eval l = eval l0 + Bn h * eval l1 /\ wf l0 /\ wf l1 /\ length l0 = h /\ length l1 = h.
Proof.
  intros Hw Hl E. destruct (split_at_eval h l l0 l1 Hw ltac:(lia) E) as (A & C & D & F & G).
  repeat split; auto; lia.
Qed.

Lemma prod_lt a b M N : 0 <= a < M -> 0 <= b < N -> 0 <= a * b < M * N.
Proof.
  intros Ha Hb. split; [apply Z.mul_nonneg_nonneg; lia|]. apply Z.mul_lt_mono_nonneg; lia.
Qed.

Lemma eval_pair_bounds lo hi n m : wf lo -> wf hi -> length lo = n -> length hi = m ->
  0 <= eval lo + Bn n * eval hi < Bn n * Bn m.
Proof.
  intros Hl Hh Ln Lm. pose proof (eval_bounds (lo ++ hi) ltac:(apply wf_app; auto)) as Hb.
  rewrite eval_app, app_length, Bn_add, Ln, Lm in Hb. exact Hb.
Qed.

Lemma signed_mid (s0 s1 : bool) x0 x1 y0 y1 a0 a1 :
  a0 = (if s0 then x1 - x0 else x0 - x1) -> a1 = (if s1 then y0 - y1 else y1 - y0) ->
  (x0 - x1) * (y1 - y0) = if xorb s0 s1 then - (a0 * a1) else a0 * a1.
Proof. intros -> ->. destruct s0, s1; cbn [xorb]; ring. Qed.

(** the last step of every Karatsuba variant: the recombined value and the product agree up to multiples
    of H^4, and both lie below H^4 *)
Lemma kara_final H x0 x1 y0 y1 res c t :
  0 <= res < H * H * (H * H) -> 0 <= x0 + H * x1 < H * H -> 0 <= y0 + H * y1 < H * H ->
  res + H * H * H * H * c =
    x0 * y0 * (1 + H) + x1 * y1 * (H + H * H) + H * ((x0 - x1) * (y1 - y0)) + H * H * H * H * t ->
  res = (x0 + H * x1) * (y0 + H * y1).
Proof.
  intros Hr Hx Hy E. pose proof (prod_lt _ _ _ _ Hx Hy) as Hp.
  apply (divmod_uniq (H * H * (H * H)) c res t ((x0 + H * x1) * (y0 + H * y1)) Hr Hp).
  apply Z.add_move_r in E. rewrite E. ring.
Qed.

(** the recombination of [kmul]: eight carry chains over four h-limb blocks *)
Definition kmul_recombine (R0 R1 R2 R3 z0lo z0hi z2lo z2hi : list Z) (cin : Z) : list Z * list Z :=
  let '(r0, carry) := adc_limbs R0 z0lo cin in
  let '(r1, carry) := adc_limbs R1 z0hi carry in
  let '(r1, carry2) := adc_limbs r1 z0lo 0 in
  let '(r2, carry) := adc_limbs R2 z0hi (wadd carry carry2) in
  let '(r1, carry2) := adc_limbs r1 z2lo 0 in
  let '(r2, carry2) := adc_limbs r2 z2hi carry2 in
  let carry := wadd carry carry2 in
  let '(r2, carry2) := adc_limbs r2 z2lo 0 in
  let '(r3, _) := adc_limbs R3 z2hi (wadd carry carry2) in
  (r0 ++ r1, r2 ++ r3).

Lemma kmul_recombine_correct h R0 R1 R2 R3 z0lo z0hi z2lo z2hi cin lo hi :
  wf R0 -> wf R1 -> wf R2 -> wf R3 -> wf z0lo -> wf z0hi -> wf z2lo -> wf z2hi ->
  length R0 = h -> length R1 = h -> length R2 = h -> length R3 = h ->
  length z0lo = h -> length z0hi = h -> length z2lo = h -> length z2hi = h -> 0 <= cin <= 1 ->
  kmul_recombine R0 R1 R2 R3 z0lo z0hi z2lo z2hi cin = (lo, hi) ->
  wf lo /\ wf hi /\ length lo = (2 * h)%nat /\ length hi = (2 * h)%nat /\
  exists c8, eval lo + Bn (2 * h) * eval hi + Bn h * Bn h * Bn h * Bn h * c8 =
    (eval R0 + Bn h * eval R1 + Bn h * Bn h * eval R2 + Bn h * Bn h * Bn h * eval R3) + cin
    + (eval z0lo + Bn h * eval z0hi) * (1 + Bn h) + (eval z2lo + Bn h * eval z2hi) * (Bn h + Bn h * Bn h).
Proof.
  intros W0 W1 W2 W3 Wz0l Wz0h Wz2l Wz2h L0 L1 L2 L3 Lz0l Lz0h Lz2l Lz2h Hcin E.
  pose proof B_gt4 as HB4. unfold kmul_recombine in E.
  destruct (adc_limbs R0 z0lo cin) as [r0a c1] eqn:E1.
  destruct (adc_h h R0 z0lo cin r0a c1 W0 Wz0l L0 Lz0l ltac:(lia) E1) as (A1 & V1 & K1 & P1 & Q1 & _).
  destruct (adc_limbs R1 z0hi c1) as [r1a c2] eqn:E2.
  destruct (adc_h h R1 z0hi c1 r1a c2 W1 Wz0h L1 Lz0h ltac:(lia) E2) as (A2 & V2 & K2 & P2 & Q2 & _).
  destruct (adc_limbs r1a z0lo 0) as [r1b c3] eqn:E3.
  destruct (adc_h h r1a z0lo 0 r1b c3 V2 Wz0l K2 Lz0l ltac:(lia) E3) as (A3 & V3 & K3 & P3 & Q3 & _).
  rewrite (wadd_small c2 c3) in E by lia.
  destruct (adc_limbs R2 z0hi (c2 + c3)) as [r2a c4] eqn:E4.
  destruct (adc_h h R2 z0hi (c2 + c3) r2a c4 W2 Wz0h L2 Lz0h ltac:(lia) E4) as (A4 & V4 & K4 & P4 & _ & Q4).
  destruct (adc_limbs r1b z2lo 0) as [r1c c5] eqn:E5.
  destruct (adc_h h r1b z2lo 0 r1c c5 V3 Wz2l K3 Lz2l ltac:(lia) E5) as (A5 & V5 & K5 & P5 & Q5 & _).
  destruct (adc_limbs r2a z2hi c5) as [r2b c6] eqn:E6.
  destruct (adc_h h r2a z2hi c5 r2b c6 V4 Wz2h K4 Lz2h ltac:(lia) E6) as (A6 & V6 & K6 & P6 & Q6 & _).
  destruct (adc_limbs r2b z2lo 0) as [r2c c7] eqn:E7.
  destruct (adc_h h r2b z2lo 0 r2c c7 V6 Wz2l K6 Lz2l ltac:(lia) E7) as (A7 & V7 & K7 & P7 & Q7 & _).
  cbv zeta in E. rewrite (wadd_small c4 c6), (wadd_small (c4 + c6) c7) in E by lia.
  destruct (adc_limbs R3 z2hi (c4 + c6 + c7)) as [r3a c8] eqn:E8.
  destruct (adc_h h R3 z2hi (c4 + c6 + c7) r3a c8 W3 Wz2h L3 Lz2h ltac:(lia) E8) as (A8 & V8 & K8 & _).
  inv_pair E. rewrite !wf_app, !app_length, !eval_app, K1, K5, K7, K8, Bn_double.
  split; [auto|]. split; [auto|]. split; [lia|]. split; [lia|]. exists c8.
  exact (kara_recomb (Bn h) _ _ _ _ _ _ _ _ _ _ _ _ _ _ _ _ _ _ _ _ _ _ _ _ _ A1 A2 A3 A4 A5 A6 A7 A8).
Qed.

Theorem kmul_correct l : forall x y lo hi m,
  wf x -> wf y -> length x = (2 ^ l * m)%nat -> length y = length x ->
  kmul l x y = (lo, hi) ->
  eval lo + Bn (length x) * eval hi = eval x * eval y /\ wf lo /\ wf hi /\
  length lo = length x /\ length hi = length x.
Proof.
  induction l as [|l IH]; intros x y lo hi m Hx Hy Hlx Hly E.
  - cbn [kmul] in E. destruct (schoolbook_split_correct x y lo hi Hx Hy E) as (A & C & D & F & G).
    repeat split; auto; lia.
  - (* one level: halves, |x0 - x1| and |y1 - y0| with their signs, three products by the IH, the middle one in
       ones' complement (carry-in 1) when negative, then the recombination and [kara_final] *)
    cbn [kmul] in E. cbv zeta in E.
    rewrite Nat.pow_succ_r', <- Nat.mul_assoc in Hlx.
    remember (2 ^ l * m)%nat as h eqn:Hh.
    rewrite Hlx, Nat.div2_double in E. rewrite Hlx in Hly. rewrite Hlx.
    destruct (split_at h x) as [x0 x1] eqn:Ex. destruct (split_at h y) as [y0 y1] eqn:Ey.
    destruct (split_halves h x x0 x1 Hx Hlx Ex) as (-> & Hx0 & Hx1 & Hlx0 & Hlx1).
    destruct (split_halves h y y0 y1 Hy Hly Ey) as (-> & Hy0 & Hy1 & Hly0 & Hly1).
    destruct (sbb_limbs x0 x1 0) as [l0 l0b] eqn:Es0.
    destruct (sbb_limbs y1 y0 0) as [l1 l1b] eqn:Es1.
    destruct (abs_diff x0 x1 l0 l0b Hx0 Hx1 ltac:(congruence) Es0) as (Hwa0 & Hla0 & Hea0).
    destruct (abs_diff y1 y0 l1 l1b Hy1 Hy0 ltac:(congruence) Es1) as (Hwa1 & Hla1 & Hea1).
    pose proof (signed_mid _ _ _ _ _ _ _ _ Hea0 Hea1) as Hmid.
    set (a0 := sel_limbs (is_mask l0b) l0 (uint_wrapping_neg l0)) in *.
    set (a1 := sel_limbs (is_mask l1b) l1 (uint_wrapping_neg l1)) in *.
    set (s := xorb (is_mask l0b) (is_mask l1b)) in *.
    rewrite Hlx0 in Hla0. rewrite Hly1 in Hla1.
    destruct (kmul l a0 a1) as [z1lo z1hi] eqn:Ez1.
    destruct (kmul l x0 y0) as [z0lo z0hi] eqn:Ez0.
    destruct (kmul l x1 y1) as [z2lo z2hi] eqn:Ez2.
    destruct (IH a0 a1 z1lo z1hi m Hwa0 Hwa1 ltac:(congruence) ltac:(congruence) Ez1) as (Hz1 & Hwz1l & Hwz1h & Hlz1l & Hlz1h).
    destruct (IH x0 y0 z0lo z0hi m Hx0 Hy0 ltac:(congruence) ltac:(congruence) Ez0) as (Hz0 & Hwz0l & Hwz0h & Hlz0l & Hlz0h).
    destruct (IH x1 y1 z2lo z2hi m Hx1 Hy1 ltac:(congruence) ltac:(congruence) Ez2) as (Hz2 & Hwz2l & Hwz2h & Hlz2l & Hlz2h).
    rewrite Hla0 in Hz1, Hlz1l, Hlz1h. rewrite Hlx0 in Hz0, Hlz0l, Hlz0h. rewrite Hlx1 in Hz2, Hlz2l, Hlz2h.
    (* the four initial blocks: +-(0, z1lo, z1hi, 0) in ones' complement *)
    destruct (sel_lnot s (zeros h) (wf_zeros h)) as (HwR0 & HlR0 & HeR0).
    destruct (sel_lnot s z1lo Hwz1l) as (HwR1 & HlR1 & HeR1).
    destruct (sel_lnot s z1hi Hwz1h) as (HwR2 & HlR2 & HeR2).
    rewrite length_zeros, eval_zeros in *. rewrite Hlz1l in *. rewrite Hlz1h in *.
    set (R0 := sel_limbs s (zeros h) (lnot_limbs (zeros h))) in *.
    set (R1 := sel_limbs s z1lo (lnot_limbs z1lo)) in *.
    set (R2 := sel_limbs s z1hi (lnot_limbs z1hi)) in *.
    set (cin := if s then 1 else 0) in *.
    assert (Hcin : 0 <= cin <= 1) by (unfold cin; destruct s; lia).
    destruct (kmul_recombine_correct h R0 R1 R2 R0 z0lo z0hi z2lo z2hi cin lo hi)
      as (Hwlo & Hwhi & Hllo & Hlhi & c8 & Hrec); auto.
    split; [|auto].
    pose proof (eval_pair_bounds _ _ _ _ Hwlo Hwhi Hllo Hlhi) as Hb.
    rewrite Bn_double in Hb, Hrec |- *.
    apply (kara_final (Bn h) _ _ _ _ _ c8 (if s then 1 else 0) Hb).
    + exact (eval_pair_bounds x0 x1 h h Hx0 Hx1 Hlx0 Hlx1).
    + exact (eval_pair_bounds y0 y1 h h Hy0 Hy1 Hly0 Hly1).
    + rewrite Hrec, HeR0, HeR1, HeR2, Hz0, Hz2, Hmid, <- Hz1. unfold cin. destruct s; ring.
Qed.

(** one borrow chain over h limbs (h = 0 included) *)
Lemma sbb_h h a b bw r bo : wf a -> wf b -> length a = h -> length b = h -> is_borrow bw ->
  sbb_limbs a b bw = (r, bo) ->
  eval r - Bn h * bout bo = eval a - eval b - bout bw /\ wf r /\ length r = h /\ is_borrow bo.
Proof.
  intros Ha Hb Hla Hlb Hbw E.
  destruct (sbb_limbs_correct a b bw r bo Ha Hb ltac:(lia) (is_borrow_word _ Hbw) E)
    as (Hw & Hl & [(Hz & -> & ->)|(Hnz & Hib & He)]).
  - destruct a; [|simpl in Hz; lia]. simpl in Hla. subst h. destruct b; [|simpl in Hlb; lia].
    cbn [eval]. rewrite Bn_0. split; [lia|]. split; [apply wf_nil|]. split; [reflexivity | assumption].
  - rewrite Hla in *. rewrite (bin_bout _ Hbw) in He. auto.
Qed.

Lemma ksq_recomb H z0lo z0hi z2lo z2hi z1lo z1hi r1a r1b r1c r2a r2b r2c r3a r3b c1 c2 c3 c4 c5 b1 b2 b3 :
  r1a + H * c1 = z0hi + z0lo + 0 ->
  r2a + H * c2 = z0hi + z2lo + c1 ->
  r1b + H * c3 = r1a + z2lo + 0 ->
  r2b + H * c4 = r2a + z2hi + c3 ->
  r3a + H * c5 = z2hi + 0 + (c2 + c4) ->
  r1c - H * b1 = r1b - z1lo - 0 ->
  r2c - H * b2 = r2b - z1hi - b1 ->
  r3b - H * b3 = r3a - 0 - b2 ->
  (z0lo + H * r1c) + H * H * (r2c + H * r3b) + H * H * H * H * c5 =
    (z0lo + H * z0hi) * (1 + H) + (z2lo + H * z2hi) * (H + H * H) - H * (z1lo + H * z1hi)
    + H * H * H * H * b3.
Proof.
  intros E1 E2 E3 E4 E5 E6 E7 E8.
  apply Z.add_move_r in E1, E2, E3, E4, E5. apply -> Z.sub_move_r in E6. apply -> Z.sub_move_r in E7. apply -> Z.sub_move_r in E8.
  subst r1a r2a r1b r2b r3a r1c r2c r3b.
  ring.
Qed.

(** the recombination of [ksq]: five carry chains, then z1 is subtracted by three borrow chains *)
Definition ksq_recombine (h : nat) (z0lo z0hi z2lo z2hi z1lo z1hi : list Z) : list Z * list Z :=
  let '(r1, carry) := adc_limbs z0hi z0lo 0 in
  let '(r2, carry) := adc_limbs z0hi z2lo carry in
  let '(r1, carry2) := adc_limbs r1 z2lo 0 in
  let '(r2, carry2) := adc_limbs r2 z2hi carry2 in
  let '(r3, _) := adc_limbs z2hi (zeros h) (wadd carry carry2) in
  let '(r1, bw) := sbb_limbs r1 z1lo 0 in
  let '(r2, bw) := sbb_limbs r2 z1hi bw in
  let '(r3, _) := sbb_limbs r3 (zeros h) bw in
  (z0lo ++ r1, r2 ++ r3).

Lemma ksq_recombine_correct h z0lo z0hi z2lo z2hi z1lo z1hi lo hi :
  wf z0lo -> wf z0hi -> wf z2lo -> wf z2hi -> wf z1lo -> wf z1hi ->
  length z0lo = h -> length z0hi = h -> length z2lo = h -> length z2hi = h ->
  length z1lo = h -> length z1hi = h ->
  ksq_recombine h z0lo z0hi z2lo z2hi z1lo z1hi = (lo, hi) ->
  wf lo /\ wf hi /\ length lo = (2 * h)%nat /\ length hi = (2 * h)%nat /\
  exists c5 b3, eval lo + Bn (2 * h) * eval hi + Bn h * Bn h * Bn h * Bn h * c5 =
    (eval z0lo + Bn h * eval z0hi) * (1 + Bn h) + (eval z2lo + Bn h * eval z2hi) * (Bn h + Bn h * Bn h)
    - Bn h * (eval z1lo + Bn h * eval z1hi) + Bn h * Bn h * Bn h * Bn h * b3.
Proof.
  intros Wz0l Wz0h Wz2l Wz2h Wz1l Wz1h Lz0l Lz0h Lz2l Lz2h Lz1l Lz1h E.
  pose proof B_gt4 as HB4. unfold ksq_recombine in E.
  destruct (adc_limbs z0hi z0lo 0) as [r1a c1] eqn:E1.
  destruct (adc_h h z0hi z0lo 0 r1a c1 Wz0h Wz0l Lz0h Lz0l ltac:(lia) E1) as (A1 & V1 & K1 & P1 & Q1 & _).
  destruct (adc_limbs z0hi z2lo c1) as [r2a c2] eqn:E2.
  destruct (adc_h h z0hi z2lo c1 r2a c2 Wz0h Wz2l Lz0h Lz2l ltac:(lia) E2) as (A2 & V2 & K2 & P2 & Q2 & _).
  destruct (adc_limbs r1a z2lo 0) as [r1b c3] eqn:E3.
  destruct (adc_h h r1a z2lo 0 r1b c3 V1 Wz2l K1 Lz2l ltac:(lia) E3) as (A3 & V3 & K3 & P3 & Q3 & _).
  destruct (adc_limbs r2a z2hi c3) as [r2b c4] eqn:E4.
  destruct (adc_h h r2a z2hi c3 r2b c4 V2 Wz2h K2 Lz2h ltac:(lia) E4) as (A4 & V4 & K4 & P4 & Q4 & _).
  rewrite (wadd_small c2 c4) in E by lia.
  destruct (adc_limbs z2hi (zeros h) (c2 + c4)) as [r3a c5] eqn:E5.
  destruct (adc_h h z2hi (zeros h) (c2 + c4) r3a c5 Wz2h (wf_zeros h) Lz2h (length_zeros h) ltac:(lia) E5)
    as (A5 & V5 & K5 & _).
  destruct (sbb_limbs r1b z1lo 0) as [r1c b1] eqn:E6.
  destruct (sbb_h h r1b z1lo 0 r1c b1 V3 Wz1l K3 Lz1l (or_introl eq_refl) E6) as (A6 & V6 & K6 & B6).
  destruct (sbb_limbs r2b z1hi b1) as [r2c b2] eqn:E7.
  destruct (sbb_h h r2b z1hi b1 r2c b2 V4 Wz1h K4 Lz1h B6 E7) as (A7 & V7 & K7 & B7).
  destruct (sbb_limbs r3a (zeros h) b2) as [r3b b3] eqn:E8.
  destruct (sbb_h h r3a (zeros h) b2 r3b b3 V5 (wf_zeros h) K5 (length_zeros h) B7 E8) as (A8 & V8 & K8 & _).
  rewrite eval_zeros in A5, A8. rewrite bout_0 in A6.
  inv_pair E. rewrite !wf_app, !app_length, !eval_app, Lz0l, K6, K7, K8, Bn_double.
  split; [auto|]. split; [auto|]. split; [lia|]. split; [lia|]. exists c5, (bout b3).
  exact (ksq_recomb (Bn h) _ _ _ _ _ _ _ _ _ _ _ _ _ _ _ _ _ _ _ _ _ _ A1 A2 A3 A4 A5 A6 A7 A8).
Qed.

Theorem ksq_correct l : forall x lo hi m,
  wf x -> length x = (2 ^ l * m)%nat -> ksq l x = (lo, hi) ->
  eval lo + Bn (length x) * eval hi = eval x * eval x /\ wf lo /\ wf hi /\
  length lo = length x /\ length hi = length x.
Proof.
  induction l as [|l IH]; intros x lo hi m Hx Hlx E.
  - cbn [ksq] in E. destruct (schoolbook_sq_correct x Hx) as (A & C & D).
    destruct (split_at_eval (length x) (schoolbook_sq x) lo hi C ltac:(lia) E) as (A' & C' & D' & F' & G').
    repeat split; auto; lia.
  - cbn [ksq] in E. cbv zeta in E.
    rewrite Nat.pow_succ_r', <- Nat.mul_assoc in Hlx.
    remember (2 ^ l * m)%nat as h eqn:Hh.
    rewrite Hlx, Nat.div2_double in E. rewrite Hlx.
    destruct (split_at h x) as [x0 x1] eqn:Ex.
    destruct (split_halves h x x0 x1 Hx Hlx Ex) as (-> & Hx0 & Hx1 & Hlx0 & Hlx1).
    destruct (ksq l x0) as [z0lo z0hi] eqn:Ez0.
    destruct (ksq l x1) as [z2lo z2hi] eqn:Ez2.
    destruct (IH x0 z0lo z0hi m Hx0 ltac:(congruence) Ez0) as (Hz0 & Hwz0l & Hwz0h & Hlz0l & Hlz0h).
    destruct (IH x1 z2lo z2hi m Hx1 ltac:(congruence) Ez2) as (Hz2 & Hwz2l & Hwz2h & Hlz2l & Hlz2h).
    rewrite Hlx0 in Hz0, Hlz0l, Hlz0h. rewrite Hlx1 in Hz2, Hlz2l, Hlz2h.
    destruct (sbb_limbs x0 x1 0) as [l0 l0b] eqn:Es0.
    destruct (abs_diff x0 x1 l0 l0b Hx0 Hx1 ltac:(congruence) Es0) as (Hwa0 & Hla0 & Hea0).
    set (a0 := sel_limbs (is_mask l0b) l0 (uint_wrapping_neg l0)) in *.
    rewrite Hlx0 in Hla0.
    destruct (ksq l a0) as [z1lo z1hi] eqn:Ez1.
    destruct (IH a0 z1lo z1hi m Hwa0 ltac:(congruence) Ez1) as (Hz1 & Hwz1l & Hwz1h & Hlz1l & Hlz1h).
    rewrite Hla0 in Hz1, Hlz1l, Hlz1h.
    destruct (ksq_recombine_correct h z0lo z0hi z2lo z2hi z1lo z1hi lo hi)
      as (Hwlo & Hwhi & Hllo & Hlhi & c5 & b3 & Hrec); auto.
    split; [|auto].
    pose proof (eval_pair_bounds _ _ _ _ Hwlo Hwhi Hllo Hlhi) as Hb.
    rewrite Bn_double in Hb, Hrec |- *.
    pose proof (eval_pair_bounds x0 x1 h h Hx0 Hx1 Hlx0 Hlx1) as Hbx.
    apply (kara_final (Bn h) _ _ _ _ _ c5 b3 Hb Hbx Hbx).
    rewrite Hrec, Hz0, Hz2, Hz1, Hea0. destruct (is_mask l0b); ring.
Qed.
