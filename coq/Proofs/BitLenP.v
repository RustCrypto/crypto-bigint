(** [bitlen x] = 0 for x <= 0 and [Z.log2 x + 1] otherwise, over ZArith only, with its order and range lemmas.
    The proof files of the areas whose model has a bit-length function of this body take its lemmas from here, by conversion. *)
From Coq Require Import ZArith Lia.
Open Scope Z_scope.

Definition bitlen (x : Z) : Z := if x <=? 0 then 0 else Z.log2 x + 1.

Lemma bitlen_0 : bitlen 0 = 0. Proof. reflexivity. Qed.
Lemma bitlen_pos x : 0 < x -> bitlen x = Z.log2 x + 1.
Proof. intros. unfold bitlen. destruct (Z.leb_spec x 0); [lia | reflexivity]. Qed.
Lemma bitlen_nonneg x : 0 <= bitlen x.
Proof. unfold bitlen. destruct (Z.leb_spec x 0); [lia|]. pose proof (Z.log2_nonneg x). lia. Qed.
(** at most k bits = below 2^k (for negative k both sides are false: 2^k = 0) *)
Lemma bitlen_le_iff x k : 0 <= x -> bitlen x <= k <-> x < 2 ^ k.
Proof.
  intros Hx. pose proof (bitlen_nonneg x). destruct (Z.ltb_spec k 0); [rewrite Z.pow_neg_r by assumption; lia|].
  destruct (Z.eq_dec x 0) as [->|]; [rewrite bitlen_0; pose proof (Z.pow_pos_nonneg 2 k); lia|].
  rewrite bitlen_pos, (Z.log2_lt_pow2 x k) by lia. lia.
Qed.
Lemma bitlen_range x : 0 < x -> 0 < bitlen x /\ 2 ^ (bitlen x - 1) <= x < 2 ^ bitlen x.
Proof.
  intros H. pose proof (bitlen_le_iff x (bitlen x)). pose proof (bitlen_le_iff x (bitlen x - 1)).
  pose proof (bitlen_le_iff x 0). change (2 ^ 0) with 1 in *. lia.
Qed.
Lemma bitlen_unique x k : 2 ^ (k - 1) <= x < 2 ^ k -> 0 < x -> bitlen x = k.
Proof. intros Hk Hx. pose proof (bitlen_le_iff x k). pose proof (bitlen_le_iff x (k - 1)). lia. Qed.
Lemma bitlen_shift lo h k : 0 <= k -> 0 <= lo < 2 ^ k -> 0 < h -> bitlen (lo + 2 ^ k * h) = k + bitlen h.
Proof.
  intros Hk Hlo Hh. destruct (bitlen_range h Hh) as (Hb & H1 & H2). assert (0 < 2 ^ k) by (apply Z.pow_pos_nonneg; lia).
  assert (2 ^ k * 2 ^ (bitlen h - 1) <= 2 ^ k * h) by (apply Z.mul_le_mono_nonneg_l; lia).
  assert (2 ^ k * (h + 1) <= 2 ^ k * 2 ^ bitlen h) by (apply Z.mul_le_mono_nonneg_l; lia).
  apply bitlen_unique; [|lia]. replace (k + bitlen h - 1) with (k + (bitlen h - 1)) by lia. rewrite !Z.pow_add_r by lia. lia.
Qed.
