(** C01 — the leakage twins of Model/Leak.v: twins whose trace depends on the width only, the public traces of
    div_rem and sqrt, and witnesses that the documented variable-time controls and safegcd's jump do vary. *)
From CB Require Import Model.Leak Proofs.BitLenP Proofs.WordP Proofs.LimbsP.
From Coq Require Import ZArith List Lia Bool.
Import ListNotations.
Open Scope Z_scope.
(** [lk_bits_of] is [bitlen] of Proofs/BitLenP.v *)
Lemma bits_of_pos v : 0 < v ->
  0 < lk_bits_of v /\ 2 ^ (lk_bits_of v - 1) <= v < 2 ^ lk_bits_of v.
Proof. exact (bitlen_range v). Qed.
Lemma bits_of_le v k : 0 < v < 2 ^ k -> lk_bits_of v <= k.
Proof. intros Hv. apply (bitlen_le_iff v k); lia. Qed.

Lemma nth_to_limbs n : forall i w, (i < n)%nat -> nthz (to_limbs n w) i = (w / Bn i) mod B.
Proof.
  induction n as [|n IH]; intros i w Hi; [lia|].
  destruct i as [|i]; cbn [to_limbs nthz nth].
  - rewrite Bn_0, Z.div_1_r. reflexivity.
  - change (nth i (to_limbs n (w / B)) 0) with (nthz (to_limbs n (w / B)) i).
    rewrite IH by lia. rewrite Bn_S, Z.div_div by (pose proof B_pos; pose proof (Bn_pos i); lia). reflexivity.
Qed.

(** the normalised divisor of div_rem has a non-zero top limb (in fact its top bit is set) *)
Lemma normalised_top_nonzero n y :
  wf y -> length y = n -> 0 < eval y -> (1 <= n)%nat ->
  nthz (to_limbs n ((eval y * 2 ^ (BITSn n - lk_bits_of (eval y))) mod Bn n)) (n - 1) <> 0.
Proof.
  intros Hwf Hlen Hpos Hn.
  pose proof (eval_bounds y Hwf) as Hb. rewrite Hlen, Bn_pow2 in Hb. fold (BITSn n) in Hb.
  destruct (bits_of_pos _ Hpos) as (Hd0 & Hlo & Hhi). set (d := lk_bits_of (eval y)) in *.
  assert (Hdle : d <= BITSn n) by (apply bits_of_le; lia).
  (* w = eval y * 2^(BITS - d) has exactly BITS bits, so it is at least Bn (n - 1) and below Bn n = B * Bn (n - 1) *)
  set (s := BITSn n - d). assert (Hs : 0 < 2 ^ s) by (apply Z.pow_pos_nonneg; lia).
  assert (Hw : 2 ^ (d - 1) * 2 ^ s <= eval y * 2 ^ s < 2 ^ d * 2 ^ s)
    by (split; [apply Z.mul_le_mono_nonneg_r | apply Z.mul_lt_mono_pos_r]; lia).
  rewrite <- !Z.pow_add_r in Hw by lia. replace (d + s) with (BITSn n) in Hw by lia.
  assert (Hlow : Bn (n - 1) <= 2 ^ (d - 1 + s)) by (rewrite Bn_pow2; apply Z.pow_le_mono_r; unfold BITSn in *; lia).
  set (w := eval y * 2 ^ s) in *. pose proof (Bn_pos (n - 1)).
  assert (HBn : Bn n = B * Bn (n - 1)) by (rewrite <- Bn_S; f_equal; lia).
  rewrite nth_to_limbs, (Z.mod_small w (Bn n)) by (rewrite ?Bn_pow2; fold (BITSn n); lia).
  assert (1 <= w / Bn (n - 1) < B).
  { split; [apply Z.div_le_lower_bound; lia | apply Z.div_lt_upper_bound; [lia|]]. rewrite Z.mul_comm, <- HBn, Bn_pow2. apply Hw. }
  rewrite Z.mod_small by lia. lia.
Qed.
(** [same_shape]: the public part of a limb-list operand is its length *)
Definition same_shape (a b : list Z) : Prop := length a = length b.

Lemma lk_uint_select_ni a1 b1 c1 a2 b2 c2 : same_shape a1 a2 -> lk_uint_select a1 b1 c1 = lk_uint_select a2 b2 c2.
Proof. unfold same_shape, lk_uint_select. intros ->. reflexivity. Qed.
Lemma lk_is_nonzero_ni a1 a2 : same_shape a1 a2 -> lk_is_nonzero a1 = lk_is_nonzero a2.
Proof. unfold same_shape, lk_is_nonzero. intros ->. reflexivity. Qed.
Lemma lk_adc_ni a1 b1 c1 a2 b2 c2 : same_shape a1 a2 -> lk_adc a1 b1 c1 = lk_adc a2 b2 c2.
Proof. unfold same_shape, lk_adc. intros ->. reflexivity. Qed.
Lemma lk_sbb_ni a1 b1 c1 a2 b2 c2 : same_shape a1 a2 -> lk_sbb a1 b1 c1 = lk_sbb a2 b2 c2.
Proof. unfold same_shape, lk_sbb. intros ->. reflexivity. Qed.
Lemma lk_gt_ni a1 b1 a2 b2 : same_shape b1 b2 -> lk_gt a1 b1 = lk_gt a2 b2.
Proof. intros. apply lk_sbb_ni; assumption. Qed.
Lemma lk_bitand_limb_ni a1 m1 a2 m2 : same_shape a1 a2 -> lk_bitand_limb a1 m1 = lk_bitand_limb a2 m2.
Proof. unfold same_shape, lk_bitand_limb. intros ->. reflexivity. Qed.
Lemma lk_shr1_ni a1 a2 : same_shape a1 a2 -> lk_shr1 a1 = lk_shr1 a2.
Proof. unfold same_shape, lk_shr1. intros ->. reflexivity. Qed.
Lemma lk_shl1_ni a1 a2 : same_shape a1 a2 -> lk_shl1 a1 = lk_shl1 a2.
Proof. unfold same_shape, lk_shl1. intros ->. reflexivity. Qed.
Lemma lk_shl_limb_ni x1 s1 x2 s2 : same_shape x1 x2 -> lk_shl_limb x1 s1 = lk_shl_limb x2 s2.
Proof. unfold same_shape, lk_shl_limb. intros ->. reflexivity. Qed.
Lemma lk_leading_zeros_ni x1 x2 : same_shape x1 x2 -> lk_leading_zeros x1 = lk_leading_zeros x2.
Proof. unfold same_shape, lk_leading_zeros. intros ->. reflexivity. Qed.
Lemma lk_bits_ni x1 x2 : same_shape x1 x2 -> lk_bits x1 = lk_bits x2.
Proof. apply lk_leading_zeros_ni. Qed.
Lemma lk_trailing_ones_ni x1 x2 : same_shape x1 x2 -> lk_trailing_ones x1 = lk_trailing_ones x2.
Proof. unfold same_shape, lk_trailing_ones. intros ->. reflexivity. Qed.
Lemma lk_set_bit_ni x1 i1 v1 x2 i2 v2 : same_shape x1 x2 -> lk_set_bit x1 i1 v1 = lk_set_bit x2 i2 v2.
Proof. unfold same_shape, lk_set_bit. intros ->. reflexivity. Qed.
Lemma lk_div3by2_ni a1 b1 c1 d1 a2 b2 c2 d2 : lk_div3by2 a1 b1 c1 d1 = lk_div3by2 a2 b2 c2 d2. Proof. reflexivity. Qed.
Lemma lk_recip_new_ni d1 d2 : lk_recip_new d1 = lk_recip_new d2. Proof. reflexivity. Qed.
(** the vartime shifts: the shift amount is public, the value is not *)
Lemma lk_overflowing_shl_vartime_ni x1 x2 s : same_shape x1 x2 ->
  lk_overflowing_shl_vartime x1 s = lk_overflowing_shl_vartime x2 s.
Proof. unfold same_shape, lk_overflowing_shl_vartime. intros ->. reflexivity. Qed.
Lemma lk_overflowing_shr_vartime_ni x1 x2 s : same_shape x1 x2 ->
  lk_overflowing_shr_vartime x1 s = lk_overflowing_shr_vartime x2 s.
Proof. unfold same_shape, lk_overflowing_shr_vartime. intros ->. reflexivity. Qed.

(** the ladder: constant in the value AND in the shift amount *)
Lemma lk_overflowing_shl_ni x1 s1 x2 s2 : same_shape x1 x2 -> lk_overflowing_shl x1 s1 = lk_overflowing_shl x2 s2.
Proof. unfold same_shape, lk_overflowing_shl, lk_overflowing_shl_vartime, lk_uint_select. intros ->. reflexivity. Qed.
Lemma lk_overflowing_shr_ni x1 s1 x2 s2 : same_shape x1 x2 -> lk_overflowing_shr x1 s1 = lk_overflowing_shr x2 s2.
Proof. unfold same_shape, lk_overflowing_shr, lk_overflowing_shr_vartime, lk_uint_select. intros ->. reflexivity. Qed.
(** shl / shr panic on an oversized shift: constant for in-range shifts (the documented domain) *)
Lemma lk_shl_in_range x s : s < BITSn (length x) -> lk_shl x s = lk_overflowing_shl x s ++ [Br true].
Proof. intros H. apply Z.ltb_lt in H. unfold lk_shl. rewrite H. reflexivity. Qed.
Lemma lk_shr_in_range x s : s < BITSn (length x) -> lk_shr x s = lk_overflowing_shr x s ++ [Br true].
Proof. intros H. apply Z.ltb_lt in H. unfold lk_shr. rewrite H. reflexivity. Qed.
Lemma lk_boxed_ct_assign_ni a1 b1 c1 a2 b2 c2 : same_shape a1 a2 -> lk_boxed_ct_assign a1 b1 c1 = lk_boxed_ct_assign a2 b2 c2.
Proof. unfold same_shape, lk_boxed_ct_assign. intros ->. reflexivity. Qed.
Lemma lk_boxed_overflowing_shl_ni x1 s1 x2 s2 : same_shape x1 x2 ->
  lk_boxed_overflowing_shl x1 s1 = lk_boxed_overflowing_shl x2 s2.
Proof.
  unfold same_shape, lk_boxed_overflowing_shl, lk_boxed_clone, lk_boxed_set_zero, lk_boxed_shl_vartime_into, lk_overflowing_shl_vartime, lk_boxed_ct_assign, lenZ. intros ->. reflexivity.
Qed.
Lemma lk_div_rem_limb_ni u1 d1 u2 d2 : same_shape u1 u2 -> lk_div_rem_limb u1 d1 = lk_div_rem_limb u2 d2.
Proof. unfold same_shape, lk_div_rem_limb, lk_div_rem_limb_with_reciprocal, lk_shl_limb. intros ->. reflexivity. Qed.
(** the public trace of div_rem at width n: every data-dependent test has its only possible outcome *)
Definition pub_div_rem (n : nat) : trace :=
  let z := zeros n in
  Br (n =? 1)%nat ::
  if (n =? 1)%nat then Ix 0 :: Br true :: lk_div_rem_limb z 1 ++ [Ix 0]
  else
    lk_bits z ++ Br true ::
    (lk_overflowing_shl z 0 ++ [Br true]) ++
    lk_shl_limb z 0 ++ [ix (n - 1)] ++
    ix (n - 1) :: Br true ::
    lk_recip_new 1 ++
    lk_for_down 1 (n - 1) (lk_div_rem_body n) ++
    (lk_div2by1 0 0 ++ [Ix 0; Ix 0; Ix 0; Ix 0] ++
     lk_for 1 (n - 1) (fun i => [ix i; ix i; ix i; ix i]) ++
     (lk_overflowing_shr z 0 ++ [Br true]) ++ (lk_overflowing_shr z 0 ++ [Br true])).

Lemma dbits_facts n v : 0 < v < 2 ^ BITSn n -> (1 <= n)%nat ->
  let d := lk_bits_of v in
  0 < d /\ BITSn n - d < BITSn n /\ ((d + 63) / 64 - 1) * 64 < BITSn n /\ (64 - d mod 64) mod 64 < BITSn n.
Proof.
  intros Hv Hn d.
  destruct (bits_of_pos v (proj1 Hv)) as [Hd0 _]. fold d in Hd0.
  assert (Hdle : d <= BITSn n) by (apply bits_of_le; exact Hv).
  unfold BITSn in *.
  assert (H1 : (d + 63) / 64 < Z.of_nat n + 1).
  { apply Z.div_lt_upper_bound; lia. }
  pose proof (Z.mod_pos_bound (64 - d mod 64) 64 ltac:(lia)).
  repeat split; lia.
Qed.

Lemma lk_div_rem_pub x y :
  same_shape x y -> wf y -> 0 < eval y -> lk_div_rem x y = pub_div_rem (length x).
Proof.
  unfold same_shape. intros Hlen Hwf Hpos. set (n := length x) in *.
  assert (Hx : same_shape x (zeros n)) by (symmetry; apply length_zeros).
  assert (Hy : same_shape y (zeros n)) by (unfold same_shape; rewrite length_zeros; auto).
  unfold lk_div_rem, pub_div_rem. fold n. cbv zeta.
  destruct (Nat.eqb_spec n 1) as [En|En].
  - (* one limb: the divisor limb itself is non-zero *)
    destruct y as [|y0 [|y1 r]]; cbn [length] in Hlen; try lia.
    cbn [eval] in Hpos. unfold nthz. cbn [nth].
    assert (Hy0 : (y0 =? 0) = false) by (apply Z.eqb_neq; lia).
    rewrite Hy0, (lk_div_rem_limb_ni x y0 (zeros n) 1 Hx). reflexivity.
  - assert (Hn2 : (2 <= n)%nat).
    { destruct y as [|y0 [|y1 r]]; cbn [length] in Hlen; cbn [eval] in Hpos; lia. }
    pose proof (eval_bounds y Hwf) as Hb. rewrite <- Hlen, Bn_pow2 in Hb. fold (BITSn n) in Hb.
    destruct (dbits_facts n (eval y) ltac:(lia) ltac:(lia)) as (Hd0 & Hs1 & Hs2 & Hs3).
    pose proof (normalised_top_nonzero n y Hwf (eq_sym Hlen) Hpos ltac:(lia)) as Htop.
    set (d := lk_bits_of (eval y)) in *.
    apply Z.ltb_lt in Hd0. apply Z.eqb_neq in Htop. rewrite Hd0, Htop. cbn [negb].
    unfold lk_div_rem_tail. rewrite lk_shl_in_range, !lk_shr_in_range by (rewrite <- ?Hlen; assumption).
    rewrite (lk_bits_ni y _ Hy), (lk_shl_limb_ni x _ _ 0 Hx), (lk_overflowing_shl_ni y _ _ 0 Hy),
      (lk_overflowing_shr_ni x _ _ 0 Hx), (lk_overflowing_shr_ni y _ _ 0 Hy).
    reflexivity.
Qed.

(** Noninterference of Uint::div_rem / rem / wrapping_div: for non-zero divisors (the NonZero precondition)
    the trace depends on the width only — neither on the dividend nor on the divisor *)
Lemma lk_div_rem_ni x1 y1 x2 y2 :
  same_shape x1 x2 -> same_shape x1 y1 -> same_shape x2 y2 ->
  wf y1 -> wf y2 -> 0 < eval y1 -> 0 < eval y2 ->
  lk_div_rem x1 y1 = lk_div_rem x2 y2.
Proof.
  intros Hx H1 H2 W1 W2 P1 P2.
  rewrite (lk_div_rem_pub x1 y1 H1 W1 P1), (lk_div_rem_pub x2 y2 H2 W2 P2). unfold same_shape in Hx.
  rewrite Hx. reflexivity.
Qed.
Lemma lk_double_mod_ni a1 p1 a2 p2 : same_shape a1 a2 -> same_shape p1 p2 ->
  lk_double_mod a1 p1 = lk_double_mod a2 p2.
Proof. unfold same_shape, lk_double_mod, lk_shl1, lk_sbb, lk_bitand_limb, lk_wrapping_add, lk_adc. intros -> ->. reflexivity. Qed.
Fixpoint pub_sqrt_rounds (cnt n : nat) : trace :=
  match cnt with
  | O => []
  | S c =>
      let z := zeros n in
      lk_is_nonzero z ++ lk_uint_select z z 0 ++ pub_div_rem n ++
      lk_wrapping_add z z ++ lk_shr1 z ++ lk_uint_select z z 0 ++ pub_sqrt_rounds c n
  end.

Lemma Bn_gt1 n : (1 <= n)%nat -> 1 < Bn n.
Proof.
  intros H. destruct n; [lia|]. rewrite Bn_S. pose proof B_gt1. pose proof (Bn_pos n). nia.
Qed.

Lemma lk_sqrt_rounds_pub cnt : forall self x,
  (1 <= length self)%nat -> 0 <= x < Bn (length self) ->
  lk_sqrt_rounds cnt self x = pub_sqrt_rounds cnt (length self).
Proof.
  induction cnt as [|c IH]; intros self x Hn Hx; [reflexivity|].
  cbn [lk_sqrt_rounds pub_sqrt_rounds]. cbv zeta.
  set (n := length self) in *.
  assert (Hl : forall v, same_shape (to_limbs n v) (zeros n))
    by (intros; unfold same_shape; rewrite length_to_limbs, length_zeros; reflexivity).
  rewrite (lk_is_nonzero_ni _ _ (Hl x)).
  rewrite (lk_uint_select_ni _ (to_limbs n x) 0 _ (zeros n) 0 (Hl x)).
  unfold lk_wrapping_add. rewrite (lk_adc_ni _ (to_limbs n x) 0 _ (zeros n) 0 (Hl x)).
  rewrite (lk_shr1_ni _ _ (Hl x)).
  assert (Hd : lk_div_rem self (to_limbs n (if x =? 0 then 1 else x)) = pub_div_rem n).
  { apply lk_div_rem_pub.
    - unfold same_shape. rewrite length_to_limbs. reflexivity.
    - apply wf_to_limbs.
    - rewrite eval_to_limbs. pose proof (Bn_gt1 n Hn).
      destruct (x =? 0) eqn:E; [rewrite Z.mod_small; lia|].
      apply Z.eqb_neq in E. rewrite Z.mod_small; lia. }
  rewrite Hd.
  rewrite IH; [reflexivity | exact Hn |].
  unfold lk_sqrt_step. fold n. destruct (x =? 0); [pose proof (Bn_pos n); lia|].
  pose proof (Z.mod_pos_bound (x + eval self / x) (Bn n) (Bn_pos n)).
  split; [apply Z.div_pos; lia | apply Z.div_lt_upper_bound; lia].
Qed.

Definition pub_sqrt (n : nat) : trace :=
  let z := zeros n in
  lk_bits z ++ lk_overflowing_shl z 0 ++ Br true :: Ln (Z.of_nat (lk_log2_bits n + 2)) ::
  pub_sqrt_rounds (lk_log2_bits n + 2) n ++ lk_gt z z ++ lk_uint_select z z 0.

Lemma lk_sqrt_pub s : wf s -> (1 <= length s)%nat -> lk_sqrt s = pub_sqrt (length s).
Proof.
  intros W Hn. unfold lk_sqrt, pub_sqrt. cbv zeta. set (n := length s) in *.
  assert (Hz : same_shape s (zeros n)) by (symmetry; apply length_zeros).
  pose proof (eval_bounds s W) as Hb. fold n in Hb. rewrite Bn_pow2 in Hb. fold (BITSn n) in Hb.
  assert (Hsh : (lk_bits_of (eval s) + 1) / 2 < BITSn n).
  { assert (lk_bits_of (eval s) <= BITSn n).
    { destruct (Z.eq_dec (eval s) 0) as [E|E]; [rewrite E; change (lk_bits_of 0) with 0; unfold BITSn; lia|].
      apply bits_of_le. lia. }
    apply Z.div_lt_upper_bound; unfold BITSn in *; lia. }
  apply Z.ltb_lt in Hsh. rewrite Hsh. cbn [negb].
  rewrite lk_sqrt_rounds_pub; [| fold n; lia | fold n; apply Z.mod_pos_bound, Bn_pos]. fold n.
  rewrite (lk_bits_ni _ _ Hz), (lk_overflowing_shl_ni s _ _ 0 Hz), (lk_gt_ni s s (zeros n) _ Hz),
    (lk_uint_select_ni s s 0 _ (zeros n) 0 Hz).
  reflexivity.
Qed.

(** Noninterference of Uint::sqrt: fixed number of Newton rounds, every division by a non-zero (selected) divisor *)
Lemma lk_sqrt_ni s1 s2 : same_shape s1 s2 -> wf s1 -> wf s2 -> lk_sqrt s1 = lk_sqrt s2.
Proof.
  unfold same_shape. intros Hlen W1 W2. destruct s1 as [|a1 r1].
  - destruct s2; [reflexivity | discriminate].
  - rewrite (lk_sqrt_pub _ W1), (lk_sqrt_pub s2 W2), Hlen by (rewrite <- ?Hlen; cbn [length]; lia). reflexivity.
Qed.
Lemma lk_montgomery_reduction_ni l1 u1 m1 l2 u2 m2 : same_shape u1 u2 -> same_shape m1 m2 ->
  lk_montgomery_reduction l1 u1 m1 = lk_montgomery_reduction l2 u2 m2.
Proof. unfold same_shape, lk_montgomery_reduction, lk_sbb, lk_bitand_limb, lk_wrapping_add, lk_adc. intros -> ->. reflexivity. Qed.
Lemma lk_mul_wide_ni a1 b1 a2 b2 : same_shape a1 a2 -> same_shape b1 b2 -> lk_mul_wide a1 b1 = lk_mul_wide a2 b2.
Proof. unfold same_shape, lk_mul_wide. intros -> ->. reflexivity. Qed.
Lemma lk_mul_montgomery_form_ni a1 b1 m1 a2 b2 m2 : same_shape a1 a2 -> same_shape b1 b2 -> same_shape m1 m2 ->
  lk_mul_montgomery_form a1 b1 m1 = lk_mul_montgomery_form a2 b2 m2.
Proof.
  intros. unfold lk_mul_montgomery_form.
  rewrite (lk_mul_wide_ni a1 b1 a2 b2), (lk_montgomery_reduction_ni a1 a1 m1 a2 a2 m2); auto.
Qed.
(** pow / pow_bounded_exp: [exponent_bits] is public ("leaked in the time pattern"), and the trace does vary with it *)
Lemma lk_pow_varies_with_exponent_bits : exists x e m b1 b2, lk_pow x e m b1 <> lk_pow x e m b2.
Proof. exists [1], [1], [3], 1, 5. vm_compute. discriminate. Qed.
Lemma lk_trailing_zeros_vartime_varies : exists x1 x2, same_shape x1 x2 /\ lk_trailing_zeros_vartime x1 <> lk_trailing_zeros_vartime x2.
Proof. exists [0; 1], [1; 1]. split; [reflexivity|]. vm_compute. discriminate. Qed.
(** [jump] (62 divsteps on the low limbs) branches on the bits of g and on delta: two secrets g with the same
    public f and delta give different traces. inv_mod, inv_odd_mod, gcd, Inverter::invert and the
    Montgomery-form inversions run this loop on secret operands although they are not marked vartime.
    Already the first test of the loop, [min(steps, g.trailing_zeros())], separates an even from an odd g. *)
Lemma lk_jump_even_odd : nth 2 (lk_jump [5] [0] 1) (Ln 0) <> nth 2 (lk_jump [5] [3] 1) (Ln 0).
Proof. vm_compute. discriminate. Qed.
Lemma lk_jump_first_test : exists f g1 g2 delta,
  nth 2 (lk_jump f g1 delta) (Ln 0) <> nth 2 (lk_jump f g2 delta) (Ln 0).
Proof. exists [5], [0], [3], 1. exact lk_jump_even_odd. Qed.
