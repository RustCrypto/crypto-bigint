(** C09 proofs, part 6: from integers to (as_montgomery(), retrieve()).  The model entries of the op table, instantiated
    with the value-level Montgomery multiplication / AMM, return exactly the limb lists of the specification:
    base^(exponent mod 2^k) mod m, the product of the powers, the sum of the products. *)
From CB Require Import Model.Limbs Model.AddSub Model.ModArith Model.Cmp Model.Pow
  Proofs.WordP Proofs.LimbsP Proofs.AddSubP Proofs.PowMathP Proofs.PowLadderP Proofs.PowFixedP Proofs.PowBoxedP
  Proofs.PowLincombP.
From Coq Require Import ZArith Lia List Bool.
Open Scope Z_scope.
Notation length := List.length.

Section Api.
Variable mL : list Z.
Hypothesis HmL : wf mL.
Hypothesis Hn : length mL <> 0%nat.
Hypothesis Hodd : Z.odd (eval mL) = true.
Notation n := (length mL).
Notation m := (eval mL).
Notation rinv := (mg_rinv n m).
Notation R := (Bn n).
Notation V := (V m rinv).
Notation mm := (mmul_v n m rinv).
Notation one := (to_limbs n (mg_one n m)).

Lemma m_range : 0 < m <= R.
Proof.
  pose proof (eval_bounds mL HmL). split; [|lia].
  destruct (Z.eq_dec m 0) as [E|E]; [rewrite E in Hodd; discriminate | lia].
Qed.
Lemma m_pos : 0 < m. Proof. apply m_range. Qed.

Lemma mm_mul x y : Mf n m x -> Mf n m y -> Mf n m (mm x y) /\ eval (mm x y) mod m = (eval x * eval y * rinv) mod m.
Proof. intros _ _. apply mmul_v_ok. apply m_range. Qed.
Lemma mm_sq x : Mf n m x -> Mf n m (mm x x) /\ eval (mm x x) mod m = (eval x * eval x * rinv) mod m.
Proof. intros _. apply mmul_v_ok. apply m_range. Qed.

(** the outcome of an API call whose Montgomery form [z] is canonical and has value [v] *)
Lemma api_out_spec z v : Mf n m z -> V z = v mod m -> api_out n m rinv z = sp_out n m (v mod m).
Proof.
  intros Hz Hv. destruct (canonical_out n m m_range Hodd z v Hz Hv) as [E1 E2].
  unfold api_out, sp_out. rewrite E2. rewrite E1 at 1. reflexivity.
Qed.

(** pow / pow_bounded_exp of MontyForm and ConstMontyForm *)
Theorem api_pow_fixed_correct x e k : wf x -> wf e -> 0 <= k <= bitsZ e ->
  api_pow_fixed mL x e k = sp_out n m ((eval x ^ (eval e mod 2 ^ k)) mod m).
Proof.
  intros Hx He Hk. unfold api_pow_fixed.
  replace (bitsZ e <? k) with false by (symmetry; apply Z.ltb_ge; lia).
  destruct (V_one n m m_range Hodd) as [H1 V1]. destruct (V_to_monty n m m_range Hodd x) as [Hxm Vx].
  destruct (pow_ladder_correct n m rinv m_pos mm (fun z => mm z z) mm_mul mm_sq one H1 V1 (to_monty_v n m x) e k ltac:(lia) Hxm He)
    as [Hz Vz].
  apply api_out_spec; [exact Hz|]. rewrite Vz, Vx. apply powmod_mod.
  apply Z.mod_pos_bound. apply Z.pow_pos_nonneg; lia.
Qed.

(** BoxedMontyForm::pow_bounded_exp *)
Theorem api_pow_boxed_correct x e k : wf x -> wf e -> 0 <= k <= bitsZ e ->
  api_pow_boxed mL x e k = sp_out n m ((eval x ^ (eval e mod 2 ^ k)) mod m).
Proof.
  intros Hx He Hk. unfold api_pow_boxed.
  replace (bitsZ e <? k) with false by (symmetry; apply Z.ltb_ge; lia).
  destruct (V_one n m m_range Hodd) as [H1 V1]. destruct (V_to_monty n m m_range Hodd x) as [Hxm Vx].
  destruct (boxed_pow_reduced n m rinv m_pos Hn (amm_v n m (mg_neg_inv_full n m))
              (fun a b Ha Hb => amm_v_ok n m a b m_range Hodd Ha Hb) mL (conj HmL eq_refl) eq_refl one H1 V1
              (to_monty_v n m x) e k ltac:(lia) Hxm He) as [Hz Vz].
  apply api_out_spec; [exact Hz|]. rewrite Vz, Vx. apply powmod_mod.
  apply Z.mod_pos_bound. apply Z.pow_pos_nonneg; lia.
Qed.

Fixpoint prod_spec (bes : list (list Z * list Z)) (k : Z) : Z :=
  match bes with [] => 1 | be :: r => eval (fst be) ^ (eval (snd be) mod 2 ^ k) * prod_spec r k end.

Lemma prod_pow_map bes k : 0 <= k ->
  prod_pow m rinv (map (fun be => (to_monty_v n m (fst be), snd be)) bes) k mod m = prod_spec bes k mod m.
Proof.
  intros Hk. induction bes as [|be r IH]; [reflexivity|].
  cbn [map prod_pow prod_spec fst snd]. apply mul_cong; [|exact IH].
  destruct (V_to_monty n m m_range Hodd (fst be)) as [_ Vx]. rewrite Vx. apply powmod_mod.
  apply Z.mod_pos_bound. apply Z.pow_pos_nonneg; lia.
Qed.

Lemma existsb_forallb_false {A} (f g : A -> bool) l : (forall x, g x = true -> f x = false) -> forallb g l = true -> existsb f l = false.
Proof.
  intros H. induction l as [|x l IH]; [reflexivity|]. cbn [forallb existsb]. intros E. apply andb_prop in E. destruct E as [E1 E2].
  rewrite (H x E1), (IH E2). reflexivity.
Qed.

Theorem api_multiexp_correct slice k bes : 0 <= k ->
  Forall (fun be => wf (fst be) /\ wf (snd be) /\ k <= bitsZ (snd be)) bes ->
  api_multiexp_fixed slice mL k bes = sp_out n m (prod_spec bes k mod m).
Proof.
  intros Hk Hb. unfold api_multiexp_fixed.
  replace (existsb (fun be => bitsZ (snd be) <? k) bes) with false.
  2:{ symmetry. apply (existsb_forallb_false _ (fun be => k <=? bitsZ (snd be))).
      - intros be E. apply Z.leb_le in E. apply Z.ltb_ge. assumption.
      - apply forallb_forall. intros be Hin. rewrite Forall_forall in Hb. apply Z.leb_le. apply (Hb be Hin). }
  rewrite andb_false_r.
  destruct (V_one n m m_range Hodd) as [H1 V1].
  set (bes' := map (fun be => (to_monty_v n m (fst be), snd be)) bes).
  assert (Hok : Forall (be_ok n m) bes').
  { unfold bes'. apply Forall_forall. intros be' Hin. apply in_map_iff in Hin. destruct Hin as (be & <- & Hin).
    rewrite Forall_forall in Hb. destruct (Hb be Hin) as (_ & He & _). split; [apply (V_to_monty n m m_range Hodd) | exact He]. }
  assert (Hres : Mf n m (multi_exp_array mm (fun z => mm z z) one bes' k) /\
                 V (multi_exp_array mm (fun z => mm z z) one bes' k) = prod_pow m rinv bes' k mod m).
  { apply (multi_exp_array_correct n m rinv m_pos mm (fun z => mm z z) mm_mul mm_sq one H1 V1 bes' k Hk Hok). }
  destruct Hres as [Hz Vz].
  replace ((if slice then multi_exp_slice else multi_exp_array) mm (fun z => mm z z) one bes' k)
    with (multi_exp_array mm (fun z => mm z z) one bes' k) by (destruct slice; [symmetry; apply slice_is_array | reflexivity]).
  apply api_out_spec; [exact Hz|]. rewrite Vz. unfold bes'. apply prod_pow_map. assumption.
Qed.

(** lincomb_vartime *)
Lemma mg_lz_spec : 0 <= mg_lz n m <= 63 /\ m * 2 ^ mg_lz n m <= R.
Proof.
  pose proof m_range as Hm. pose proof (eval_bounds mL HmL) as Hb. unfold mg_lz, zbits.
  replace (m <=? 0) with false by (symmetry; apply Z.leb_gt; lia).
  pose proof (Z.log2_spec m ltac:(lia)) as [Hlo Hhi].
  rewrite Bn_pow2 in *. set (N := 64 * Z.of_nat n) in *.
  assert (HN : Z.log2 m < N) by (apply Z.log2_lt_pow2; lia).
  assert (H0 : 0 <= Z.log2 m) by apply Z.log2_nonneg.
  set (lz := Z.min 63 (N - (Z.log2 m + 1))).
  assert (Hlz : 0 <= lz <= 63 /\ lz <= N - (Z.log2 m + 1)) by (unfold lz; lia).
  split; [lia|].
  apply Z.le_trans with (2 ^ Z.succ (Z.log2 m) * 2 ^ lz).
  - apply Z.mul_le_mono_nonneg_r; [apply Z.pow_nonneg; lia | lia].
  - rewrite <- Z.pow_add_r by lia. apply Z.pow_le_mono_r; lia.
Qed.

Lemma lin_sum_map terms :
  (lin_sum (map (fun ab => (to_monty_v n m (fst ab), to_monty_v n m (snd ab))) terms) * (rinv * rinv)) mod m
  = sum_prods terms mod m.
Proof.
  induction terms as [|[a b] r IH]; [reflexivity|].
  cbn [map lin_sum sum_prods fst snd]. rewrite Z.mul_add_distr_r. apply add_cong; [|exact IH].
  destruct (V_to_monty n m m_range Hodd a) as [_ Va]. destruct (V_to_monty n m m_range Hodd b) as [_ Vb].
  unfold PowLadderP.V in Va, Vb.
  replace (eval (to_monty_v n m a) * eval (to_monty_v n m b) * (rinv * rinv))
    with (eval (to_monty_v n m a) * rinv * (eval (to_monty_v n m b) * rinv)) by ring.
  rewrite <- mulmod_both, Va, Vb, mulmod_both. reflexivity.
Qed.

Theorem api_lincomb_correct boxed dbg terms : terms <> [] ->
  Forall (fun ab => wf (fst ab) /\ wf (snd ab)) terms ->
  api_lincomb boxed dbg mL terms = sp_out n m (sum_prods terms mod m).
Proof.
  intros Hne Ht. unfold api_lincomb. destruct terms as [|t0 tr] eqn:Et; [contradiction|]. rewrite <- Et in *.
  set (prods := map (fun ab => (to_monty_v n m (fst ab), to_monty_v n m (snd ab))) terms).
  destruct (mg_neg_inv_spec m m_pos Hodd) as [Hnw Hni]. destruct mg_lz_spec as [Hlz Hlzm].
  assert (Hp : Forall (mterm_ok n mL) prods).
  { unfold prods. apply Forall_forall. intros ab' Hin. apply in_map_iff in Hin. destruct Hin as (ab & <- & _).
    split; apply (V_to_monty n m m_range Hodd). }
  destruct (lincomb_fixed_correct n mL (mg_neg_inv m) (mg_lz n m) HmL eq_refl Hn Hni m_pos Hlz Hlzm dbg prods Hp)
    as (z & Hz & Hzm & Hzc).
  assert (Hsel : (if boxed then lincomb_boxed else lincomb_fixed) dbg prods mL (mg_neg_inv m) (mg_lz n m) = Some z).
  { destruct boxed; [|exact Hz].
    rewrite (lincomb_boxed_correct n mL (mg_neg_inv m) (mg_lz n m) HmL eq_refl Hn Hni m_pos Hlz Hlzm dbg prods Hp). exact Hz. }
  fold prods. rewrite Hsel. apply api_out_spec; [exact Hzm|].
  destruct (mg_rinv_spec n m m_pos Hodd) as [_ Hr].
  unfold PowLadderP.V. rewrite <- lin_sum_map. fold prods.
  (* z = z * (R * rinv) and z * R = lin_sum (mod m) *)
  transitivity ((eval z * R * (rinv * rinv)) mod m).
  - replace (eval z * R * (rinv * rinv)) with (eval z * rinv * (R * rinv)) by ring.
    rewrite <- (mulmod_r (eval z * rinv) (R * rinv)), Hr, mulmod_r, Z.mul_1_r. reflexivity.
  - rewrite <- (mulmod_l (eval z * R)), Hzc, mulmod_l. reflexivity.
Qed.
End Api.
