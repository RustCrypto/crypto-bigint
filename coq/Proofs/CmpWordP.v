(** The `subtle` primitives (u64::ct_eq, u64::conditional_select, Choice operators) and the limb parity test
    used by the C06 model, for all words. *)
From CB Require Import Model.Word Model.Limbs Model.Cmp Proofs.WordP.
From CB Require Export Proofs.WordPredP.
From Coq Require Import ZArith Lia List Bool.
Open Scope Z_scope.

Lemma to_choice_choice b : to_choice (choice_of_bool b) = b2z b.
Proof. destruct b; reflexivity. Qed.

Lemma cc_true_choice b : cc_true (choice_of_bool b) = b.
Proof. destruct b; reflexivity. Qed.

(** subtle: u64::ct_eq *)
Lemma st_ct_eq_spec x y : is_word x -> is_word y -> st_ct_eq x y = b2z (x =? y).
Proof.
  intros Hx Hy. unfold st_ct_eq, wxor, wor. cbv zeta.
  assert (Hd := is_word_lxor x y Hx Hy).
  rewrite msb_div by (apply is_word_lor; auto using is_word_wneg).
  rewrite msbb_lor by auto using is_word_wneg. rewrite (wneg_val _ Hd).
  destruct (Z.eqb_spec x y) as [->|Hne].
  - rewrite Z.lxor_nilpotent. reflexivity.
  - assert (Hnz : Z.lxor x y <> 0) by (intros E; apply Z.lxor_eq in E; contradiction).
    destruct (Z.eqb_spec (Z.lxor x y) 0) as [|_]; [contradiction|].
    unfold is_word in Hd. word_facts. unfold msbb.
    destruct (Z.leb_spec (2 ^ 63) (Z.lxor x y)), (Z.leb_spec (2 ^ 63) (B - Z.lxor x y)); simpl; try reflexivity; lia.
Qed.

(** subtle: u64::conditional_select with a Choice 0 / 1 *)
Lemma st_select_spec a b (c : bool) : is_word a -> is_word b -> st_select a b (b2z c) = if c then b else a.
Proof.
  intros Ha Hb. unfold st_select.
  replace (wneg (b2z c)) with (choice_of_bool c) by (destruct c; reflexivity).
  apply select_word_choice; assumption.
Qed.

Lemma ch_not_b2z b : ch_not (b2z b) = b2z (negb b).
Proof. destruct b; reflexivity. Qed.

Lemma ch_and_b2z a b : ch_and (b2z a) (b2z b) = b2z (a && b).
Proof. destruct a, b; reflexivity. Qed.

(** parity of a limb: (x as u8) & 1 *)
Lemma limb_is_odd_spec x : limb_is_odd x = b2z (Z.odd x).
Proof.
  unfold limb_is_odd, wand. change 1 with (Z.ones 1). rewrite Z.land_ones by lia.
  change (2 ^ 1) with 2. change (2 ^ 8) with 256.
  rewrite <- (Znumtheory.Zmod_div_mod 2 256 x) by (try lia; exists 128; reflexivity).
  rewrite Zmod_odd. destruct (Z.odd x); reflexivity.
Qed.
