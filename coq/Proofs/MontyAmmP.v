(** C08 proofs, part 2: the boxed almost-Montgomery multiplication (CIOS with the ts / ts1 carries, reduction only on
    overflow of 2^BITS), almost_montgomery_mul_by_one, sub_assign_mod_with_carry, and the fully reduced products of
    BoxedMontyMultiplier; for every limb count.
    The source states its three properties of AMM as "discovered via randomized tests, not proven".  Proved here:
      R * (AMM x y + e * m) = x * y + U * m,  e in {0,1}, U < R, AMM x y < R                        (amm_correct)
      floor(AMM x y / m) <= min(floor(x / m), floor(y / m)) + 1            (claim 1)                 (amm_bound)
      x < m -> AMM x 1 < m                                                 (claim 2 for canonical x) (amm_by_one_reduced)
      claim 2 as stated ("regardless of f(x)") is false: AMM m 1 = m       (C08_amm_by_one_remark_refuted, Props/C08.v) *)
From CB Require Import Model.Limbs Model.AddSub Model.Mul Model.Div Model.ModArith Model.Monty
  Proofs.WordP Proofs.WordPredP Proofs.LimbsP Proofs.AddSubP Proofs.ModArithP Proofs.MontyRedP.
From Coq Require Import ZArith Lia List Bool.
Open Scope Z_scope.

Lemma overflowing_add_exact a b r c : is_word a -> is_word b -> overflowing_add a b = (r, c) ->
  r + B * c = a + b /\ is_word r /\ 0 <= c <= 1.
Proof.
  unfold overflowing_add, is_word. intros Ha Hb E. inv_pair E. pose proof B_pos.
  pose proof (Z.div_mod (a + b) B ltac:(lia)). pose proof (Z.mod_pos_bound (a + b) B ltac:(lia)).
  repeat split; try lia.
  - apply Z.div_pos; lia.
  - apply Z.lt_succ_r. apply Z.div_lt_upper_bound; lia.
Qed.

Section Amm.
Variables (m : list Z) (k : Z).
Hypothesis Hm : wf m.
Hypothesis Hn : length m <> 0%nat.
Hypothesis Hk : (hd 0 m * k + 1) mod B = 0.
Let n := length m.
Let N := Bn (length m).
Let M := eval m.
Ltac nrm := repeat match goal with
  | H : context [Bn n] |- _ => progress change (Bn n) with N in H
  | H : context [Bn (length m)] |- _ => progress change (Bn (length m)) with N in H
  | H : context [eval m] |- _ => progress change (eval m) with M in H
  | H : context [length m] |- _ => progress change (length m) with n in H
  end; try change (Bn n) with N; try change (Bn (length m)) with N; try change (eval m) with M.

(** the second half of a CIOS iteration: (z1 + N c + N ts + t m) / B, exactly *)
Lemma amm_tail_correct z1 c ts z' ts' :
  wf z1 -> length z1 = n -> is_word c -> is_word ts ->
  amm_tail z1 c ts m k = (z', ts') ->
  wf z' /\ length z' = n /\ is_word ts' /\
  exists t, 0 <= t < B /\ B * (eval z' + N * ts') = eval z1 + N * c + N * ts + t * M.
Proof.
  intros Hz1 Hl1 Hc Hts E. unfold amm_tail, add_mul_carry_and_shift in E.
  destruct (overflowing_add ts c) as [ts0 ts1] eqn:E1.
  set (t := wmul (hd 0 z1) k) in *.
  destruct (mac_by_limb z1 m t 0) as [row c2] eqn:E2.
  destruct (overflowing_add ts0 c2) as [top c3] eqn:E3.
  inv_pair E.
  pose proof (overflowing_add_exact _ _ _ _ Hts Hc E1) as (H1 & Hts0 & Hts1).
  destruct (red_row_exact m k Hm Hn Hk z1 row c2 Hz1 Hl1 E2) as (Hwr & Hlr & Hc2 & Hrow). fold t in Hrow.
  pose proof (overflowing_add_exact _ _ _ _ Hts0 Hc2 E3) as (H3 & Htop & Hc3).
  assert (Hadd : wadd ts1 c3 = ts1 + c3).
  { unfold wadd, wrap. apply Z.mod_small. pose proof B_gt4. lia. }
  rewrite Hadd. pose proof B_gt4.
  split; [apply wf_app; split; [assumption | apply wf_cons; split; [assumption | apply wf_nil]]|].
  split; [rewrite app_length, Hlr; cbn [length]; subst n; lia|]. split; [unfold is_word; lia|].
  exists t. split; [apply is_word_wmul|].
  rewrite eval_snoc, Hlr. subst N n. rewrite (Bn_pred _ Hn) in *. fold M in Hrow. lia.
Qed.

Lemma amm_step_correct z ts x yi z' ts' :
  wf z -> length z = n -> wf x -> length x = n -> is_word yi -> is_word ts ->
  amm_step z ts x yi m k = (z', ts') ->
  wf z' /\ length z' = n /\ is_word ts' /\
  exists t, 0 <= t < B /\ B * (eval z' + N * ts') = eval z + N * ts + eval x * yi + t * M.
Proof.
  intros Hz Hlz Hx Hlx Hy Hts E. unfold amm_step, add_mul_carry in E.
  destruct (mac_by_limb z x yi 0) as [z1 c] eqn:E1.
  pose proof (mac_by_limb_correct z x yi 0 z1 c Hz Hx ltac:(lia) Hy is_word_0 E1) as (H1 & Hz1 & Hl1 & Hc).
  rewrite Hlz in H1, Hl1. change (Bn n) with N in H1.
  destruct (amm_tail_correct z1 c ts z' ts' Hz1 Hl1 Hc Hts E) as (A & C & D & t & Ht & HE).
  split; [assumption|]. split; [assumption|]. split; [assumption|]. exists t. split; [assumption|]. lia.
Qed.

Lemma amm_loop_correct x : wf x -> length x = n -> forall ys z ts z' ts',
  wf ys -> wf z -> length z = n -> is_word ts ->
  amm_loop ys z ts x m k = (z', ts') ->
  wf z' /\ length z' = n /\ is_word ts' /\
  exists U, 0 <= U < Bn (length ys) /\
    Bn (length ys) * (eval z' + N * ts') = eval z + N * ts + eval x * eval ys + U * M.
Proof.
  intros Hx Hlx. induction ys as [|yi r IH]; intros z ts z' ts' Hys Hz Hlz Hts E.
  - cbn [amm_loop] in E. inv_pair E. split; [assumption|]. split; [assumption|]. split; [assumption|].
    exists 0. cbn [length eval]. rewrite Bn_0. lia.
  - apply wf_cons in Hys. destruct Hys as [Hyi Hr]. cbn [amm_loop] in E.
    destruct (amm_step z ts x yi m k) as [z1 ts1] eqn:E1.
    destruct (amm_step_correct _ _ _ _ _ _ Hz Hlz Hx Hlx Hyi Hts E1) as (Hz1 & Hl1 & Hts1 & t & Ht & HE1).
    destruct (IH _ _ _ _ Hr Hz1 Hl1 Hts1 E) as (A & C & D & U' & HU' & HE).
    split; [assumption|]. split; [assumption|]. split; [assumption|]. exists (t + B * U'). cbn [length eval]. rewrite Bn_S.
    destruct (quot_chain B (Bn (length r)) t U' _ _ _ _ M Ht HU' HE1 HE) as [HU HE2].
    split; [exact HU|]. rewrite HE2. ring.
Qed.

(** conditional_sub after the loop: V = z + N ts < N + m, ts in {0,1}  ->  result = V - ts * m < N *)
Lemma conditional_sub_correct z ts :
  wf z -> length z = n -> 0 <= ts <= 1 -> eval z + N * ts < N + M -> 0 < M ->
  let r := conditional_sub z m (from_word_lsb ts) in
  wf r /\ length r = n /\ eval r = eval z + N * ts - ts * M.
Proof.
  intros Hz Hlz Hts HV HM. cbv zeta. unfold conditional_sub.
  rewrite from_word_lsb_01 by assumption.
  assert (Hb : is_borrow (choice_of_bool (ts =? 1))) by (destruct (ts =? 1); [right | left]; reflexivity).
  pose proof (bitand_limb_borrow m _ Hm Hb) as (Hpe & Hpw & Hpl).
  destruct (sbb_limbs z (bitand_limb m (choice_of_bool (ts =? 1))) 0) as [r bo] eqn:E. cbn [fst].
  pose proof (sbb_limbs_correct z _ 0 r bo Hz Hpw ltac:(subst n; lia) is_word_0 E) as (Hwr & Hlr & [(Hz0 & _)|(_ & Hib & He)]).
  { subst n. lia. }
  rewrite bin_0, Hpe, Hlz in He. fold N M in He.
  pose proof (eval_bounds r Hwr) as Br. rewrite Hlr, Hlz in Br. fold N in Br.
  pose proof (eval_bounds z Hz) as Bz. rewrite Hlz in Bz. fold N in Bz.
  pose proof (eval_bounds m Hm) as Bm. nrm.
  split; [assumption|]. split; [lia|].
  assert (ts = 0 \/ ts = 1) as [-> | ->] by lia.
  - change (0 =? 1) with false in He. cbn [choice_of_bool] in He. rewrite bout_0 in He.
    destruct Hib as [-> | ->]; rewrite ?bout_0, ?bout_MAXW in He; lia.
  - change (1 =? 1) with true in He. cbn [choice_of_bool] in He. rewrite bout_MAXW in He.
    destruct Hib as [-> | ->]; rewrite ?bout_0, ?bout_MAXW in He; lia.
Qed.

Theorem amm_correct x y :
  wf x -> wf y -> length x = n -> length y = n -> 0 < M ->
  let a := almost_montgomery_mul x y m k in
  wf a /\ length a = n /\ 0 <= eval a < N /\
  exists U e, 0 <= U < N /\ 0 <= e <= 1 /\ N * (eval a + e * M) = eval x * eval y + U * M.
Proof.
  intros Hx Hy Hlx Hly HM. cbv zeta. unfold almost_montgomery_mul.
  destruct (amm_loop y (zeros (length m)) 0 x m k) as [z ts] eqn:E.
  destruct (amm_loop_correct x Hx Hlx y _ 0 z ts Hy (wf_zeros _) (length_zeros _) is_word_0 E)
    as (Hz & Hlz & Hts & U & HU & HE).
  rewrite eval_zeros in HE. rewrite Hly in HE, HU.
  pose proof (Bn_pos (length m)) as HN.
  pose proof (eval_bounds x Hx) as Bx. pose proof (eval_bounds y Hy) as By. pose proof (eval_bounds z Hz) as Bz.
  pose proof (eval_bounds m Hm) as Bm. rewrite Hlx in Bx. rewrite Hly in By. rewrite Hlz in Bz. nrm.
  assert (Hxy : eval x * eval y <= (N - 1) * (N - 1)).
  { apply Z.mul_le_mono_nonneg; lia. }
  assert (HUM : U * M <= (N - 1) * M) by (apply Z.mul_le_mono_nonneg_r; lia).
  assert (HV : eval z + N * ts < N + M).
  { apply Z.mul_lt_mono_pos_l with (p := N); [lia|]. nia. }
  assert (Hts1 : 0 <= ts <= 1).
  { unfold is_word in Hts. split; [lia|]. destruct (Z_le_gt_dec ts 1); [assumption|].
    assert (N * 2 <= N * ts) by (apply Z.mul_le_mono_nonneg_l; lia). lia. }
  destruct (conditional_sub_correct z ts Hz Hlz Hts1 HV HM) as (Hwr & Hlr & Her).
  split; [assumption|]. split; [assumption|].
  pose proof (eval_bounds _ Hwr) as Br. rewrite Hlr in Br. nrm. split; [exact Br|].
  exists U, ts. split; [lia|]. split; [assumption|]. rewrite Her.
  replace (eval z + N * ts - ts * M + ts * M) with (eval z + N * ts) by ring. lia.
Qed.

Corollary amm_congr x y :
  wf x -> wf y -> length x = n -> length y = n -> 0 < M ->
  (eval (almost_montgomery_mul x y m k) * N) mod M = (eval x * eval y) mod M.
Proof.
  intros Hx Hy Hlx Hly HM.
  destruct (amm_correct x y Hx Hy Hlx Hly HM) as (_ & _ & _ & U & e & HU & He & HE).
  replace (eval (almost_montgomery_mul x y m k) * N) with (eval x * eval y + (U - N * e) * M) by lia.
  apply Z.mod_add. lia.
Qed.

(** AMM x y < x*y/R + m; in particular below 2m as soon as one operand is canonical *)
Theorem amm_lt_2m x y :
  wf x -> wf y -> length x = n -> length y = n -> 0 < M -> (eval x < M \/ eval y < M) ->
  eval (almost_montgomery_mul x y m k) < 2 * M.
Proof.
  intros Hx Hy Hlx Hly HM Hcan.
  destruct (amm_correct x y Hx Hy Hlx Hly HM) as (_ & _ & Ba & U & e & HU & He & HE).
  pose proof (eval_bounds x Hx) as Bx. pose proof (eval_bounds y Hy) as By.
  rewrite Hlx in Bx. rewrite Hly in By.
  pose proof (eval_bounds m Hm) as Bm. nrm.
  set (A := eval (almost_montgomery_mul x y m k)) in *.
  assert (Hxy : eval x * eval y <= (M - 1) * (N - 1)).
  { destruct Hcan; [apply Z.mul_le_mono_nonneg; lia|].
    rewrite (Z.mul_comm (M - 1)). apply Z.mul_le_mono_nonneg; lia. }
  assert (HUM : U * M <= (N - 1) * M) by (apply Z.mul_le_mono_nonneg_r; lia).
  assert (e = 0 \/ e = 1) as [-> | ->] by lia.
  - apply Z.mul_lt_mono_pos_l with (p := N); [lia|]. nia.
  - assert (N * (A + 1 * M) < N * (2 * M)) by nia.
    assert (A + 1 * M < 2 * M) by (apply Z.mul_lt_mono_pos_l with (p := N); lia). lia.
Qed.

(** claim 1 of the source: f(AMM(x, y)) <= min(f(x), f(y)) + 1 with f(v) = floor(v / m) *)
Theorem amm_bound x y :
  wf x -> wf y -> length x = n -> length y = n -> 0 < M ->
  eval (almost_montgomery_mul x y m k) / M <= Z.min (eval x / M) (eval y / M) + 1.
Proof.
  intros Hx Hy Hlx Hly HM.
  destruct (amm_correct x y Hx Hy Hlx Hly HM) as (_ & _ & Ba & U & e & HU & He & HE).
  pose proof (eval_bounds x Hx) as Bx. pose proof (eval_bounds y Hy) as By.
  rewrite Hlx in Bx. rewrite Hly in By. nrm.
  set (A := eval (almost_montgomery_mul x y m k)) in *.
  assert (Hgen : forall u v, 0 <= u < N -> 0 <= v < N -> u * v = eval x * eval y -> A / M <= v / M + 1).
  { intros u v Hu Hv Huv.
    pose proof (Z.div_mod v M ltac:(lia)) as Dv. pose proof (Z.mod_pos_bound v M HM) as Mv.
    set (f := v / M) in *.
    assert (Hf0 : 0 <= f) by (apply Z.div_pos; lia).
    (* u * v < N * (f + 1) * M *)
    assert (Hv1 : v <= (f + 1) * M - 1) by lia.
    assert (u * v <= (N - 1) * ((f + 1) * M - 1)) by (apply Z.mul_le_mono_nonneg; lia).
    assert (HUM : U * M <= (N - 1) * M) by (apply Z.mul_le_mono_nonneg_r; lia).
    assert (0 <= e * M) by (apply Z.mul_nonneg_nonneg; lia).
    assert (HA : N * A < N * ((f + 2) * M)).
    { assert (0 <= (f + 1) * M) by (apply Z.mul_nonneg_nonneg; lia). nia. }
    assert (A < (f + 2) * M) by (apply Z.mul_lt_mono_pos_l with (p := N); lia).
    apply Z.lt_succ_r. apply Z.div_lt_upper_bound; lia. }
  apply Z.min_case.
  - apply (Hgen (eval y) (eval x)); try lia.
  - apply (Hgen (eval x) (eval y)); try lia.
Qed.

(** almost_montgomery_mul_by_one *)
Lemma amm1_loop_correct x : wf x -> length x = n -> forall cnt first z ts z' ts',
  wf z -> length z = n -> is_word ts ->
  amm1_loop cnt first z ts x m k = (z', ts') ->
  wf z' /\ length z' = n /\ is_word ts' /\
  exists U, 0 <= U < Bn cnt /\
    Bn cnt * (eval z' + N * ts') = eval z + N * ts + (if first then match cnt with O => 0 | _ => eval x end else 0) + U * M.
Proof.
  intros Hx Hlx. induction cnt as [|c IH]; intros first z ts z' ts' Hz Hlz Hts E.
  - cbn [amm1_loop] in E. inv_pair E. split; [assumption|]. split; [assumption|]. split; [assumption|].
    exists 0. rewrite Bn_0. destruct first; lia.
  - cbn [amm1_loop] in E.
    destruct (if first then add_mul_carry z x 1 else (z, 0)) as [z1 cy] eqn:E0.
    destruct (amm_tail z1 cy ts m k) as [z2 ts2] eqn:E1.
    assert (H0 : wf z1 /\ length z1 = n /\ is_word cy /\ eval z1 + N * cy = eval z + (if first then eval x else 0)).
    { destruct first.
      - unfold add_mul_carry in E0.
        pose proof (mac_by_limb_correct z x 1 0 z1 cy Hz Hx ltac:(lia) WordPredP.is_word_1 is_word_0 E0) as (H1 & Hz1 & Hl1 & Hc).
        rewrite Hlz in H1, Hl1. change (Bn n) with N in H1.
        split; [assumption|]. split; [assumption|]. split; [assumption|]. lia.
      - inv_pair E0. split; [assumption|]. split; [assumption|]. split; [apply is_word_0 | lia]. }
    destruct H0 as (Hz1 & Hl1 & Hcy & H1).
    destruct (amm_tail_correct z1 cy ts z2 ts2 Hz1 Hl1 Hcy Hts E1) as (Hz2 & Hl2 & Hts2 & t & Ht & HE1).
    destruct (IH false _ _ _ _ Hz2 Hl2 Hts2 E) as (A & C & D & U' & HU' & HE).
    split; [assumption|]. split; [assumption|]. split; [assumption|]. exists (t + B * U'). rewrite Bn_S.
    destruct (quot_chain B (Bn c) t U' _ _ _ 0 M Ht HU' HE1 ltac:(rewrite HE; ring)) as [HU HE2].
    split; [exact HU|]. rewrite HE2. destruct first; lia.
Qed.

(** retrieve: for a canonical operand the result is canonical without any subtraction (claim 2, for x < m) *)
Theorem amm_by_one_reduced x :
  wf x -> length x = n -> eval x < M ->
  let a := almost_montgomery_mul_by_one x m k in
  wf a /\ length a = n /\ 0 <= eval a < M /\ (eval a * N) mod M = eval x mod M.
Proof.
  intros Hx Hlx HxM. cbv zeta. unfold almost_montgomery_mul_by_one.
  destruct (amm1_loop (length m) true (zeros (length m)) 0 x m k) as [z ts] eqn:E.
  destruct (amm1_loop_correct x Hx Hlx _ true _ 0 z ts (wf_zeros _) (length_zeros _) is_word_0 E)
    as (Hz & Hlz & Hts & U & HU & HE).
  rewrite eval_zeros in HE.
  assert (Hne : match length m with O => 0 | _ => eval x end = eval x) by (destruct (length m); [contradiction | reflexivity]).
  cbv iota in HE. rewrite Hne in HE.
  pose proof (Bn_pos (length m)) as HN.
  pose proof (eval_nonneg x Hx) as Bx. pose proof (eval_bounds z Hz) as Bz. rewrite Hlz in Bz.
  pose proof (eval_bounds m Hm) as Bm. nrm.
  assert (HM : 0 < M) by lia.
  assert (HUM : U * M <= (N - 1) * M) by (apply Z.mul_le_mono_nonneg_r; lia).
  assert (HV : eval z + N * ts < M).
  { apply Z.mul_lt_mono_pos_l with (p := N); [lia|]. lia. }
  assert (Hts0 : ts = 0).
  { unfold is_word in Hts. destruct (Z.eq_dec ts 0); [assumption|].
    assert (N * 1 <= N * ts) by (apply Z.mul_le_mono_nonneg_l; lia). lia. }
  subst ts.
  destruct (conditional_sub_correct z 0 Hz Hlz ltac:(lia) ltac:(lia) HM) as (Hwr & Hlr & Her).
  split; [assumption|]. split; [assumption|]. rewrite Her. split; [lia|].
  replace ((eval z + N * 0 - 0 * M) * N) with (eval x + U * M) by lia.
  apply Z.mod_add. lia.
Qed.

(** BoxedUint::sub_assign_mod_with_carry and the fully reduced products *)
Lemma conditional_adc_assign_val a (choice : bool) :
  wf a -> length a = n ->
  let r := fst (conditional_adc_assign a m choice) in
  wf r /\ length r = n /\ eval r = (eval a + (if choice then M else 0)) mod N.
Proof.
  intros Ha Hla. cbv zeta. unfold conditional_adc_assign.
  replace (resize (length a) m) with m by (rewrite Hla; subst n; symmetry; apply resize_same).
  assert (Hb : is_borrow (if choice then MAXW else 0)) by (destruct choice; [right | left]; reflexivity).
  pose proof (bitand_limb_borrow m _ Hm Hb) as (Hpe & Hpw & Hpl).
  destruct (adc_limbs a (bitand_limb m (if choice then MAXW else 0)) 0) as [r c] eqn:E. cbn [fst].
  pose proof (adc_limbs_correct a _ 0 r c Ha Hpw ltac:(subst n; lia) is_word_0 E) as (He & Hw & Hlr & Hco & _).
  split; [assumption|]. split; [lia|].
  pose proof (eval_bounds r Hw) as Br. rewrite Hlr, Hla in Br.
  rewrite Hla, Hpe in He. nrm.
  assert (Hbo : bout (if choice then MAXW else 0) = if choice then 1 else 0) by (destruct choice; [apply bout_MAXW | apply bout_0]).
  rewrite Hbo in He. unfold is_word in Hco.
  apply (Z.mod_unique_pos _ N c); [lia|]. destruct choice; lia.
Qed.

Theorem boxed_sub_assign_mod_with_carry_correct a b :
  wf a -> wf b -> length a = n -> length b = n ->
  - M <= eval a - eval b < M ->
  let r := boxed_sub_assign_mod_with_carry a 0 b m in
  wf r /\ length r = n /\ eval r = (eval a - eval b) mod M.
Proof.
  intros Ha Hb Hla Hlb HD. cbv zeta. unfold boxed_sub_assign_mod_with_carry.
  destruct (sbb_limbs a b 0) as [out borrow] eqn:E.
  pose proof (sbb_limbs_correct a b 0 out borrow Ha Hb ltac:(lia) is_word_0 E) as (Hwo & Hlo & [(Hz & _)|(_ & Hib & He)]).
  { subst n. lia. }
  rewrite bin_0, Hla in He. nrm.
  rewrite carry_mask_0 by (apply is_borrow_word; assumption).
  destruct (conditional_adc_assign_val out (negb (borrow =? 0)) Hwo ltac:(lia)) as (Hwr & Hlr & Her).
  split; [assumption|]. split; [assumption|]. rewrite Her.
  pose proof (eval_bounds a Ha) as Ba. pose proof (eval_bounds b Hb) as Bb. pose proof (eval_bounds out Hwo) as Bo.
  pose proof (eval_bounds m Hm) as Bm. rewrite Hla in Ba. rewrite Hlb in Bb. rewrite Hlo, Hla in Bo. nrm.
  destruct Hib as [-> | ->]; rewrite ?bout_0, ?bout_MAXW in He.
  - change (negb (0 =? 0)) with false. cbv iota.
    rewrite Z.add_0_r, (Z.mod_small (eval out)) by lia. rewrite Z.mod_small by lia. lia.
  - assert (HMx : negb (MAXW =? 0) = true) by reflexivity. rewrite HMx.
    rewrite (mod_neg_once (eval a - eval b)) by lia.
    symmetry. apply (Z.mod_unique_pos _ N 1); lia.
Qed.

(** BoxedMontyMultiplier::mul / mul_assign / square / square_assign, BoxedMontyForm::new: one canonical operand is
    enough for a canonical result (AMM < 2m, then one conditional subtraction) *)
Theorem boxed_monty_mul_correct x y :
  wf x -> wf y -> length x = n -> length y = n -> 0 < M -> (eval x < M \/ eval y < M) ->
  let r := boxed_monty_mul x y m k in
  wf r /\ length r = n /\ 0 <= eval r < M /\ (eval r * N) mod M = (eval x * eval y) mod M.
Proof.
  intros Hx Hy Hlx Hly HM Hcan. cbv zeta. unfold boxed_monty_mul.
  destruct (amm_correct x y Hx Hy Hlx Hly HM) as (Hwa & Hla & Ba & _).
  pose proof (amm_lt_2m x y Hx Hy Hlx Hly HM Hcan) as H2.
  pose proof (amm_congr x y Hx Hy Hlx Hly HM) as Hc.
  set (A := almost_montgomery_mul x y m k) in *.
  destruct (boxed_sub_assign_mod_with_carry_correct A m Hwa Hm Hla eq_refl ltac:(fold M; lia)) as (Hwr & Hlr & Her).
  split; [assumption|]. split; [assumption|]. rewrite Her. fold M.
  pose proof (Z.mod_pos_bound (eval A - M) M HM). split; [lia|].
  rewrite Zmult_mod, Z.mod_mod, <- Zmult_mod by lia.
  replace ((eval A - M) * N) with (eval A * N + (- N) * M) by ring.
  rewrite Z.mod_add by lia. exact Hc.
Qed.
End Amm.
