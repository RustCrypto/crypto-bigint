(** C11: the debug assertions inside div2by1 / div3by2 (src/uint/div_limb.rs:125-126, 140, 161-162) hold at every call
    that satisfies the functions' preconditions, including the masked "discarded" calls.  Part 1 is the word-level fact
    for a generic base: the third assertion `r < d || q1 < Word::MAX` sits between the two masked corrections of the
    Moeller-Granlund step, and follows from the correctness of the whole step (Proofs/Div2by1G.v). *)
From Coq Require Import ZArith Lia.
From CB Require Import Proofs.Div2by1G.
Open Scope Z_scope.

Section D.
Variable B : Z.
Hypothesis HB : 2 <= B.

(* (q1, r) after the first masked correction, as computed by the code *)
Definition div2by1_mid_g (u1 u0 d v : Z) : Z * Z :=
  let q := v * u1 + (u1 * B + u0) in
  let q1 := (q / B) mod B in
  let q0 := q mod B in
  let q1 := (q1 + 1) mod B in
  let r := (u0 - q1 * d) mod B in
  if q0 <? r then ((q1 - 1) mod B, (r + d) mod B) else (q1, r).

Lemma div2by1_mid_range u1 u0 d v : let '(q1, r) := div2by1_mid_g u1 u0 d v in 0 <= q1 < B /\ 0 <= r < B.
Proof. unfold div2by1_mid_g. cbv zeta. destruct (_ <? _); split; apply Z.mod_pos_bound; lia. Qed.

(* a dividend below the divisor: the candidate 1 is one too large, and the first correction gives (0, u0) *)
Lemma div2by1_mid_small u0 d v : 0 <= u0 < d -> d < B -> div2by1_mid_g 0 u0 d v = (0, u0).
Proof.
  intros Hu0 Hd. unfold div2by1_mid_g. cbv zeta.
  rewrite Z.mul_0_r, Z.mul_0_l, !Z.add_0_l, (Z.div_small u0 B), (Z.mod_small u0 B), Z.mod_0_l, Z.add_0_l by lia.
  rewrite (Z.mod_small 1 B), Z.mul_1_l, (mod_add_B B (u0 - d)) by lia.
  replace (u0 <? u0 - d + B) with true by (symmetry; apply Z.ltb_lt; lia).
  rewrite Z.sub_diag, Z.mod_0_l by lia. replace (u0 - d + B + d) with (u0 + 1 * B) by ring.
  rewrite Z.mod_add, (Z.mod_small u0 B) by lia. reflexivity.
Qed.

Lemma div2by1_mid_ok u1 u0 d v :
  B <= 2 * d -> d < B -> 0 <= u1 < d -> 0 <= u0 < B ->
  v = (B * B - 1) / d - B ->
  let '(q1, r) := div2by1_mid_g u1 u0 d v in r < d \/ q1 < B - 1.
Proof.
  intros Hd1 Hd2 Hu1 Hu0 Hv.
  pose proof (div2by1_correct B HB u1 u0 d v Hd1 Hd2 Hu1 Hu0 Hv) as Hc.
  change (div2by1_g B u1 u0 d v) with
    (let '(q1, r) := div2by1_mid_g u1 u0 d v in if d <=? r then ((q1 + 1) mod B, (r - d) mod B) else (q1, r)) in Hc.
  pose proof (div2by1_mid_range u1 u0 d v) as Hr.
  destruct (div2by1_mid_g u1 u0 d v) as [q1 r] eqn:E.
  destruct (Z.leb_spec d r) as [Hdr|]; [right | left; assumption].
  destruct (Z.eq_dec q1 (B - 1)) as [->|]; [exfalso | lia].
  (* the second correction would wrap the quotient to 0, so the dividend is below d: not with q1 = B - 1 *)
  replace (B - 1 + 1) with B in Hc by ring. rewrite Z.mod_same, Z.mul_0_l, Z.add_0_l in Hc by lia.
  assert (u1 = 0) by nia. subst u1.
  rewrite div2by1_mid_small in E by lia. injection E as E0 _. lia.
Qed.
End D.
