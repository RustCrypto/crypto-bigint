(** C19 (tables): the model table and the spec table of Model/Rand.v agree on EVERY key (11 of 11), for all
    well-formed argument lists, in both profiles, wherever the spec entry is defined.  No typing side condition is
    needed in this area: every scalar (limb count, bit length, precision, fallible / mode selector) may be any word.
    [run_tab t k dbg a] is the table lookup of Model/Api.v (Proofs/TotalityP.v). *)
From CB Require Import Model.Limbs Model.AddSub Model.Rand Proofs.BitsP Proofs.WordP Proofs.LimbsP Proofs.RandBaseP Proofs.RandBitsP
  Proofs.RandModP Proofs.RandMiscP Proofs.TotalityP.
From Coq Require Import ZArith Lia List String Bool.
Open Scope Z_scope.
Notation length := List.length.

Definition tbl_ok (k : string) : Prop :=
  forall dbg a, wf_args a -> run_tab ops_rand_spec k dbg a <> Unsupported ->
    run_tab ops_rand_model k dbg a = run_tab ops_rand_spec k dbg a.

Ltac start_tbl :=
  let dbg := fresh "dbg" in let a := fresh "a" in
  let Hwf := fresh "Hwf" in let Hdom := fresh "Hdom" in
  intros dbg a Hwf Hdom; revert Hdom; open_tabs ops_rand_model ops_rand_spec; intros Hdom.

(* ------------------------------------------------------------------ the outcome wrappers *)
(** a sampler that agrees with its specification from a fresh RNG (counters 0) prints the same outcome *)
Lemma agrees_out n ws f o s : rnd_agrees n ws 0 0 0 o s -> rnd_out f o = rnd_sp_out n f s.
Proof.
  destruct o as [[v [rest nw nb]]|]; destruct s as [x k b|]; cbn [rnd_agrees rnd_out rnd_sp_out];
    intros H; try contradiction; [|reflexivity].
  destruct H as (-> & _ & -> & -> & _). rewrite !Z.add_0_l. reflexivity.
Qed.
Lemma agrees1_out ws f o s : rnd_agrees1 ws 0 0 0 o s -> (forall x k b, s = SpOk x k b -> 0 <= x < B) ->
  rnd_out1 f o = rnd_sp_out 1 f s.
Proof.
  destruct o as [[v [rest nw nb]]|]; destruct s as [x k b|]; cbn [rnd_agrees1 rnd_out1 rnd_sp_out];
    intros H Hr; try contradiction; [|reflexivity].
  destruct H as (-> & -> & -> & _). rewrite !Z.add_0_l.
  specialize (Hr x k b eq_refl).
  rewrite to_limbs_1, Z.mod_small by exact Hr. reflexivity.
Qed.

(** the value of the byte-wise Limb sampler is a word *)
Lemma sp_limb_mod_loop_word m k : 0 <= k <= 64 -> forall ws cnt x c b,
  sp_limb_mod_loop m k ws cnt = SpOk x c b -> 0 <= x < B.
Proof.
  intros Hk. induction ws as [|w ws IH]; intros cnt x c b E; cbn [sp_limb_mod_loop] in E; [discriminate|].
  destruct (w mod 2 ^ k <? m).
  - injection E as <- _ _. apply (rnd_mod_pow_word w k Hk).
  - exact (IH _ _ _ _ E).
Qed.

(* the domain test of the modulus argument *)
Lemma nonzero_arg_dom m : rnd_nonzero_arg m = true -> wf m /\ 0 < eval m.
Proof.
  unfold rnd_nonzero_arg. intros H. apply andb_prop in H. destruct H as [H1 H2].
  assert (Hw : wf m).
  { unfold wfb in H2. unfold wf. rewrite forallb_forall in H2. apply Forall_forall. intros x Hx. specialize (H2 x Hx).
    unfold is_wordb in H2. apply andb_prop in H2. destruct H2 as [A C]. apply Z.leb_le in A. apply Z.ltb_lt in C.
    unfold is_word. lia. }
  split; [assumption|]. rewrite rnd_all_zero_spec in H1 by assumption.
  apply negb_true_iff, Z.eqb_neq in H1. pose proof (eval_nonneg m Hw). lia.
Qed.

(* ------------------------------------------------------------------ Random *)
Lemma tbl_limb_random : tbl_ok "limb.random".
Proof.
  start_tbl. unfold rnd_of, limb_random, rnd_u64, sp_random.
  pose proof (wf_arg 0 a Hwf) as Hws.
  destruct (arg 0 a) as [|w ws]; [reflexivity|].
  apply wf_cons in Hws. destruct Hws as [Hw _].
  cbn [length Nat.ltb Nat.leb firstn rnd_out1 rnd_sp_out]. rewrite !Z.add_0_l.
  rewrite eval_one, to_limbs_1, Z.mod_small by exact Hw. reflexivity.
Qed.

(** the next n words are the limbs (n = 0 included: the empty value, nothing consumed) *)
Lemma tbl_uint_random : tbl_ok "uint.random".
Proof.
  start_tbl. cbv zeta. unfold rnd_of. pose proof (wf_arg 0 a Hwf) as Hws.
  rewrite uint_random_spec by assumption. unfold sp_random.
  set (n := Z.to_nat (sarg 1 a)). set (ws := arg 0 a) in *.
  destruct (Nat.ltb_spec (length ws) n) as [Hs|Hl]; [reflexivity|].
  cbn [rnd_out rnd_sp_out]. rewrite !Z.add_0_l.
  destruct (rnd_firstn_block n ws Hws Hl) as (_ & _ & -> & _). reflexivity.
Qed.

(* ------------------------------------------------------------------ RandomBits *)
(** the documented behaviour after the length / precision checks, printed *)
Lemma bits_expected_out n ws bl mode :
  rnd_out_bits mode (rnd_bits_expected n ws 0 0 bl) = rnd_sp_out_bits n mode (sp_random_bits ws bl).
Proof.
  unfold rnd_bits_expected. destruct (sp_random_bits ws bl) as [v k b|]; cbn [rnd_out_bits rnd_sp_out_bits].
  - rewrite !Z.add_0_l. reflexivity.
  - reflexivity.
Qed.
Lemma bits_err_out mode c f1 f2 : rnd_out_bits mode (RErr c f1 f2) = rnd_sp_err mode c f1 f2.
Proof. reflexivity. Qed.

Lemma tbl_uint_random_bits : tbl_ok "uint.random_bits".
Proof.
  start_tbl. cbv zeta in *. unfold rnd_of.
  pose proof (sarg_word 1 a Hwf) as [Hn _]. pose proof (sarg_word 2 a Hwf) as [Hbl _].
  rewrite uint_random_bits_spec by (try assumption; apply wf_arg; assumption).
  rewrite Z2Nat.id by assumption.
  destruct (Z.eqb_spec (sarg 3 a) (64 * sarg 1 a)) as [Hp|Hp]; cbn [negb]; [|apply bits_err_out].
  rewrite <- Hp.
  destruct (sarg 3 a <? sarg 2 a); [apply bits_err_out|].
  apply bits_expected_out.
Qed.

Lemma boxed_limbs_eq prec : rnd_boxed_limbs prec = sp_boxed_limbs prec.
Proof. unfold rnd_boxed_limbs, sp_boxed_limbs. rewrite rnd_sp_ceil64. reflexivity. Qed.

Lemma tbl_boxed_random_bits : tbl_ok "boxed.random_bits".
Proof.
  start_tbl. cbv zeta in *. unfold rnd_of.
  pose proof (sarg_word 1 a Hwf) as [Hbl _].
  rewrite boxed_random_bits_spec by (try assumption; apply wf_arg; assumption).
  destruct (sarg 2 a <? sarg 1 a); [apply bits_err_out|].
  destruct (rnd_small (sarg 2 a)); [|contradiction Hdom; reflexivity].
  rewrite boxed_limbs_eq. apply bits_expected_out.
Qed.

(* ------------------------------------------------------------------ RandomMod *)
Lemma tbl_uint_random_mod : tbl_ok "uint.random_mod".
Proof.
  start_tbl. destruct (rnd_nonzero_arg (arg 1 a)) eqn:E; [|contradiction Hdom; reflexivity].
  apply nonzero_arg_dom in E. destruct E as [Hm Hp]. unfold rnd_of, ev, ln.
  apply (agrees_out _ (arg 0 a)). apply uint_random_mod_spec; try assumption. apply wf_arg; assumption.
Qed.
Lemma tbl_boxed_random_mod : tbl_ok "boxed.random_mod".
Proof.
  start_tbl. destruct (rnd_nonzero_arg (arg 1 a)) eqn:E; [|contradiction Hdom; reflexivity].
  apply nonzero_arg_dom in E. destruct E as [Hm Hp]. unfold rnd_of, ev, ln.
  apply (agrees_out _ (arg 0 a)). apply boxed_random_mod_spec; try assumption. apply wf_arg; assumption.
Qed.
Lemma tbl_limb_random_mod : tbl_ok "limb.random_mod".
Proof.
  start_tbl. destruct (rnd_nonzero_arg [sarg 1 a]) eqn:E; [|contradiction Hdom; reflexivity].
  apply nonzero_arg_dom in E. destruct E as [Hm Hp]. cbn [eval] in Hp. apply wf_cons in Hm. destruct Hm as [Hm _].
  unfold is_word in Hm. unfold rnd_of.
  apply (agrees1_out (arg 0 a)).
  - apply limb_random_mod_spec; [lia | apply wf_arg; assumption].
  - unfold sp_limb_random_mod. intros x k b Es.
    refine (sp_limb_mod_loop_word (sarg 1 a) (rnd_bitlen (sarg 1 a)) _ _ _ _ _ _ Es).
    split; [apply rnd_bitlen_nonneg|]. apply rnd_bitlen_lt. rewrite <- B_val. lia.
Qed.

(* ------------------------------------------------------------------ NonZero, Odd *)
Lemma tbl_nonzero_uint_random : tbl_ok "nonzero_uint.random".
Proof.
  start_tbl. cbv zeta in *. destruct (Z.ltb_spec 0 (sarg 1 a)) as [Hn|Hn]; [|contradiction Hdom; reflexivity].
  unfold rnd_of. apply (agrees_out _ (arg 0 a)).
  apply nonzero_uint_random_spec; [lia | apply wf_arg; assumption].
Qed.
Lemma tbl_nonzero_monty_random : tbl_ok "nonzero_monty.random".
Proof.
  start_tbl. destruct (rnd_nonzero_arg (arg 1 a)) eqn:E; [|contradiction Hdom; reflexivity].
  apply nonzero_arg_dom in E. destruct E as [Hm Hp]. unfold rnd_of, ev, ln.
  apply (agrees_out _ (arg 0 a)). apply nonzero_mod_random_spec; try assumption. apply wf_arg; assumption.
Qed.
Lemma tbl_odd_uint_random : tbl_ok "odd_uint.random".
Proof.
  start_tbl. cbv zeta in *. destruct (Z.ltb_spec 0 (sarg 1 a)) as [Hn|Hn]; [|contradiction Hdom; reflexivity].
  unfold rnd_of. apply (agrees_out _ (arg 0 a)).
  apply odd_uint_random_spec; [apply wf_arg; assumption | lia].
Qed.

(** Odd<BoxedUint>::random(rng, bit_length >= 1): the RandomBits sample with bit 0 forced to one; the RNG error panics *)
Lemma tbl_odd_boxed_random : tbl_ok "odd_boxed.random".
Proof.
  start_tbl. cbv zeta in *. unfold rnd_of.
  destruct (Z.ltb_spec 0 (sarg 1 a)) as [Hbl|Hbl]; cbn [andb] in *; [|contradiction Hdom; reflexivity].
  destruct (rnd_small (sarg 1 a)); [|contradiction Hdom; reflexivity].
  set (bl := sarg 1 a) in *. set (ws := arg 0 a). pose proof (wf_arg 0 a Hwf) as Hws. fold ws in Hws.
  unfold odd_boxed_random, boxed_random_bits. rewrite boxed_random_bits_spec, Z.ltb_irrefl by (assumption || lia).
  rewrite <- boxed_limbs_eq. pose proof (rnd_boxed_limbs_ge bl ltac:(lia)) as Hge. set (n := rnd_boxed_limbs bl) in *.
  unfold rnd_bits_expected, sp_random_bits.
  destruct (Z.of_nat (length ws) <? rnd_ceil bl 64); [reflexivity|].
  set (v := eval (firstn (Z.to_nat (rnd_ceil bl 64)) ws) mod 2 ^ bl).
  assert (Hv : 0 <= v < Bn n).
  { pose proof (Z.mod_pos_bound (eval (firstn (Z.to_nat (rnd_ceil bl 64)) ws)) (2 ^ bl) (pow2_pos bl ltac:(lia))).
    rewrite Bn_pow2. pose proof (pow2_le bl (64 * Z.of_nat n) ltac:(lia)). fold v in H. lia. }
  (* forcing bit 0 of the limbs of v gives the limbs of the forced value *)
  assert (Hne : to_limbs n v <> []).
  { intros E. apply (f_equal (@length Z)) in E. rewrite length_to_limbs in E. cbn [length] in E. lia. }
  destruct (rnd_set_lsb_spec _ (wf_to_limbs n v) Hne) as (ls' & -> & Hw' & Hl' & He' & _).
  rewrite length_to_limbs in Hl'. rewrite to_limbs_small in He' by assumption.
  cbn [sp_odd_sample rnd_sp_out]. rewrite !Z.add_0_l, <- He', <- Hl', (to_limbs_eval ls' Hw'). reflexivity.
Qed.

(* ------------------------------------------------------------------ the area theorem *)
Create HintDb c19tbl.
#[export] Hint Resolve tbl_limb_random tbl_uint_random tbl_uint_random_bits tbl_boxed_random_bits tbl_uint_random_mod
  tbl_boxed_random_mod tbl_limb_random_mod tbl_nonzero_uint_random tbl_nonzero_monty_random tbl_odd_uint_random
  tbl_odd_boxed_random : c19tbl.

(** the key list of C11 IS the key set of both tables (in table order) *)
Lemma rand_table_keys : map fst ops_rand_model = rand_keys.
Proof. reflexivity. Qed.
Lemma rand_table_keys_spec : map fst ops_rand_spec = rand_keys.
Proof. reflexivity. Qed.
Lemma rand_table_keys_count : length rand_keys = 11%nat.
Proof. reflexivity. Qed.

Lemma rand_all_keys_ok : forall k, In k rand_keys -> tbl_ok k.
Proof.
  intros k Hin. unfold rand_keys, rand_quiet_keys, rand_panic_keys in Hin. cbn [app In] in Hin.
  repeat (destruct Hin as [<- | Hin]; [solve [eauto with nocore c19tbl] |]); contradiction.
Qed.

Theorem rand_tables_agree : forall k dbg a,
  In k rand_keys -> wf_args a -> run_tab ops_rand_spec k dbg a <> Unsupported ->
  run_tab ops_rand_model k dbg a = run_tab ops_rand_spec k dbg a.
Proof. intros k dbg a Hin. exact (rand_all_keys_ok k Hin dbg a). Qed.

(** where the spec entries are defined: exactly the documented domains (non-zero modulus made of words; at least one
    limb for NonZero / Odd; a u32 precision / bit length for the boxed forms; everything else everywhere) *)
Definition rand_dom (k : string) (a : list (list Z)) : bool :=
  if (String.eqb k "uint.random_mod" || String.eqb k "boxed.random_mod" || String.eqb k "nonzero_monty.random")%bool
  then rnd_nonzero_arg (arg 1 a)
  else if String.eqb k "limb.random_mod" then rnd_nonzero_arg [sarg 1 a]
  else if (String.eqb k "nonzero_uint.random" || String.eqb k "odd_uint.random")%bool then 0 <? sarg 1 a
  else if String.eqb k "boxed.random_bits" then (sarg 2 a <? sarg 1 a) || rnd_small (sarg 2 a)
  else if String.eqb k "odd_boxed.random" then (0 <? sarg 1 a) && rnd_small (sarg 1 a)
  else true.

Lemma rnd_sp_out_def n f s : rnd_sp_out n f s <> Unsupported.
Proof. destruct s; cbn [rnd_sp_out]; [discriminate|]. unfold rnd_exh. destruct (f =? 0); discriminate. Qed.
Lemma rnd_sp_out_bits_def n m s : rnd_sp_out_bits n m s <> Unsupported.
Proof.
  destruct s; cbn [rnd_sp_out_bits]; [destruct (m =? 2); discriminate|].
  destruct (m =? 0); [discriminate|]. destruct (m =? 1); discriminate.
Qed.
Lemma rnd_sp_err_def m c f1 f2 : rnd_sp_err m c f1 f2 <> Unsupported.
Proof. unfold rnd_sp_err. destruct (m =? 0); [discriminate|]. destruct (m =? 1); discriminate. Qed.

Theorem rand_spec_defined_iff : forall k dbg a, In k rand_keys ->
  (run_tab ops_rand_spec k dbg a <> Unsupported <-> rand_dom k a = true).
Proof.
  intros k dbg a Hin. unfold rand_keys, rand_quiet_keys, rand_panic_keys in Hin. cbn [app In] in Hin.
  repeat (destruct Hin as [<- | Hin];
    [ open_tabs ops_rand_model ops_rand_spec;
      unfold rand_dom; lazy beta iota delta [String.eqb Ascii.eqb Bool.eqb orb]; cbv zeta;
      repeat match goal with
             | |- context [if ?c then _ else _] =>
                 lazymatch c with
                 | _ =? _ => fail
                 | _ => destruct c eqn:?
                 end
             end;
      cbn [orb andb negb];
      split; intros H; try reflexivity; try discriminate H; try (contradiction H; reflexivity);
      first [ apply rnd_sp_out_def | apply rnd_sp_out_bits_def | apply rnd_sp_err_def | idtac ] |]).
  contradiction.
Qed.
