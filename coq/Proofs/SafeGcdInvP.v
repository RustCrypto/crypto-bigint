(** C10 proofs: the safegcd entry points on Uint / BoxedUint values: [sg_inv] (SafeGcdInverter::inv,
    inv_vartime, BoxedSafeGcdInverter::invert, invert_vartime) and [sg_gcd].  Convergence of the divsteps iteration
    within the iteration count (Bernstein-Yang, Theorem 11.2) is the named hypothesis [sg_conv]. *)
From CB Require Import Model.Limbs Model.AddSub Model.SafeGcd Proofs.WordP Proofs.LimbsP Proofs.BitsP
  Proofs.SafeGcdArithP Proofs.SafeGcdJumpP Proofs.SafeGcdUnsatP Proofs.SafeGcdStepP Proofs.SafeGcdDivstepsP
  Proofs.SafeGcdCoreP Proofs.InvMod2kP Proofs.LimbConvertP.
From Coq Require Import ZArith Lia List Bool Znumtheory Zdiv Setoid Morphisms.
Open Scope Z_scope.

Lemma unsat_nlimbs_ge n : 64 * Z.of_nat n + 64 <= 62 * Z.of_nat (unsat_nlimbs n).
Proof.
  unfold unsat_nlimbs. set (x := 64 * Z.of_nat n + 64).
  assert (0 <= (x + 61) / 62) by (apply Z.div_pos; unfold x; lia).
  rewrite Z2Nat.id by assumption. pose proof (Z.div_mod (x + 61) 62 ltac:(lia)). pose proof (Z.mod_pos_bound (x + 61) 62 ltac:(lia)). lia.
Qed.
Lemma unsat_nlimbs_le n : Z.of_nat (unsat_nlimbs n) <= 2 * Z.of_nat n + 3.
Proof.
  unfold unsat_nlimbs. set (x := 64 * Z.of_nat n + 64).
  assert (0 <= (x + 61) / 62) by (apply Z.div_pos; unfold x; lia).
  rewrite Z2Nat.id by assumption. apply Z.lt_succ_r. apply Z.div_lt_upper_bound; unfold x; lia.
Qed.
Lemma unsat_nlimbs_pos n : (0 < unsat_nlimbs n)%nat.
Proof. pose proof (unsat_nlimbs_ge n). lia. Qed.
Lemma small_L_unsat n : Z.of_nat n <= 2 ^ 32 -> small_L (unsat_nlimbs n).
Proof. intros H. unfold small_L. pose proof (unsat_nlimbs_le n). change (2 ^ 32) with 4294967296 in H. unfold P62. lia. Qed.
Lemma M62_ge_Bn n L : 64 * Z.of_nat n + 64 <= 62 * Z.of_nat L -> Bn n * P64 <= M62 L.
Proof.
  intros H. rewrite M62_pow2, Bn_pow2, P64_pow, <- Z.pow_add_r by lia. apply Z.pow_le_mono_r; lia.
Qed.

Lemma from_uint_sval L x : wf x -> 64 * lenZ x + 64 <= 62 * Z.of_nat L ->
  wf62 (from_uint L x) /\ length (from_uint L x) = L /\ sval (from_uint L x) = eval x.
Proof.
  intros W H. destruct (from_uint_spec L x W ltac:(lia)) as (W1 & L1 & E1).
  repeat split; [assumption | assumption |].
  pose proof (eval_bounds x W) as Bx. pose proof (M62_ge_Bn (length x) L H) as HM. pose proof (Bn_pos (length x)).
  destruct (sval_cases (from_uint L x)) as [[-> _]|[_ C]]; [exact E1|]. rewrite L1, E1 in C. unfold P64 in HM. lia.
Qed.

Lemma unsat_room n : Bn n * P64 <= M62 (unsat_nlimbs n).
Proof. apply M62_ge_Bn, unsat_nlimbs_ge. Qed.
Lemma from_uint_unsat n x : wf x -> length x = n ->
  wf62 (from_uint (unsat_nlimbs n) x) /\ length (from_uint (unsat_nlimbs n) x) = unsat_nlimbs n /\
  sval (from_uint (unsat_nlimbs n) x) = eval x /\ 0 <= eval x < Bn n.
Proof.
  intros W Lx. pose proof (unsat_nlimbs_ge n) as HL. pose proof (eval_bounds x W) as B. rewrite Lx in B.
  destruct (from_uint_sval (unsat_nlimbs n) x W ltac:(unfold lenZ; rewrite Lx; exact HL)) as (W1 & L1 & S1).
  repeat split; assumption || lia.
Qed.

Lemma eval_cg_P62 m : wf m -> cg P62 (eval m) (hd 0 m).
Proof.
  destruct m as [|x r]; intros W; cbn [eval hd]; [reflexivity|].
  apply cg_divide; [pfacts; lia|]. exists (4 * eval r). rewrite B_P64, P64_P62. ring.
Qed.
Lemma odd_eval_hd m : wf m -> Z.odd (eval m) = Z.odd (hd 0 m).
Proof.
  destruct m as [|x r]; intros W; cbn [eval hd]; [reflexivity|].
  rewrite odd_add_even; [reflexivity|]. rewrite B_P64. apply even_mul_l. reflexivity.
Qed.
Lemma hd_word m : wf m -> 0 <= hd 0 m < P64.
Proof.
  destruct m as [|x r]; intros W; cbn [hd]; [unfold P64; lia|].
  inversion W as [|? ? Hx _]; subst. unfold is_word in Hx. rewrite B_P64 in Hx. assumption.
Qed.

(** the inverse of the low 64-bit limb serves the low 62-bit limb of the converted modulus *)
Lemma from_uint_inverse L m : wf m -> wf62 (from_uint L m) -> (0 < length (from_uint L m))%nat ->
  sval (from_uint L m) = eval m -> Z.odd (eval m) = true ->
  (hd 0 (from_uint L m) * inv_mod2_62 (hd 0 m)) mod P62 = 1.
Proof.
  intros Wm Wf0 HL Sf0 Om.
  destruct (inv_mod2_62_correct (hd 0 m) (hd_word m Wm)) as (_ & EI); [rewrite <- odd_eval_hd by assumption; assumption|].
  assert (EI' : cg P62 (hd 0 m * inv_mod2_62 (hd 0 m)) 1) by (apply cg_iff; rewrite EI; reflexivity).
  pose proof (sval_cg_P62 (from_uint L m) Wf0 HL) as C1. rewrite Sf0 in C1.
  assert (C : cg P62 (hd 0 (from_uint L m) * inv_mod2_62 (hd 0 m)) 1) by (rewrite <- C1, (eval_cg_P62 m Wm); exact EI').
  apply cg_iff in C. rewrite C. reflexivity.
Qed.

Section Inv.
  Context (m a adj : list Z) (n : nat) (ub : Z).
  Context (Wm : wf m) (Wa : wf a) (Wadj : wf adj) (Lm : length m = n) (La : length a = n) (Ladj : length adj = n)
          (Hn : (0 < n)%nat) (Hn32 : Z.of_nat n <= 2 ^ 32) (Om : Z.odd (eval m) = true)
          (Hub : eval m - 1 <= ub <= eval m) (HA : eval adj <= ub).
  Let L := unsat_nlimbs n.
  Let mv := eval m. Let av := eval a. Let A := eval adj.

  Lemma sg_inv_body vartime boxed d f conv :
    sg_core vartime boxed (from_uint L adj) (from_uint L m) (from_uint L a) (inv_mod2_62 (hd 0 m)) = Some (d, f, conv) ->
    let antiunit := u_eq f (u_minus_one L) in
    let ret := sg_norm (from_uint L m) d antiunit in
    let is_some := u_eq f (u_one L) || antiunit in
    u_is_negative ret = false /\ wf (to_uint n ret) /\ length (to_uint n ret) = n /\
    0 <= eval (to_uint n ret) <= ub /\
    (is_some = true -> Z.gcd av mv = 1 /\ (av * eval (to_uint n ret)) mod mv = A mod mv) /\
    (conv = true -> Z.gcd av mv = 1 -> is_some = true).
  Proof.
    intros E antiunit ret is_some.
    pose proof (unsat_nlimbs_ge n) as HLn. pose proof (unsat_nlimbs_pos n) as HL. pose proof (small_L_unsat n Hn32) as HS.
    pose proof (unsat_room n) as HM.
    destruct (from_uint_unsat n m Wm Lm) as (Wf0 & Lf0 & Sf0 & Bm).
    destruct (from_uint_unsat n a Wa La) as (Wg & Lg & Sg & Ba).
    destruct (from_uint_unsat n adj Wadj Ladj) as (We & Le & Se & BA).
    fold L in HLn, HL, HS, HM, Wf0, Lf0, Sf0, Wg, Lg, Sg, We, Le, Se. fold mv in Sf0, Bm. fold av in Sg, Ba. fold A in Se, BA.
    pose proof P64_P62 as P4. pfacts.
    assert (Hm : 0 < mv) by (destruct (Z.eq_dec mv 0) as [Z0|Z0]; [unfold mv in Z0; rewrite Z0 in Om; discriminate | lia]).
    fold mv in Hub, Om. fold A in HA.
    assert (HM2 : 2 * P62 * (Bn n - 1) < M62 L) by (clear - HM; pose proof (Bn_pos n); unfold P64, P62 in *; lia).
    assert (Fit : 4 * P62 * mv <= M62 L).
    { assert (HH : P64 * mv <= P64 * Bn n) by (apply Z.mul_le_mono_nonneg_l; lia). clear - HH HM. unfold P64, P62 in *. lia. }
    pose proof (from_uint_inverse L m Wm Wf0 ltac:(lia) Sf0 Om) as Hinv.
    destruct (sg_core_fg vartime boxed _ _ _ _ d f conv L (Bn n - 1) Wf0 Wg Lf0 Lg HL HS ltac:(lia) ltac:(lia) HM2
                ltac:(unfold PRE; left; rewrite Sf0; assumption) E) as (Wf & Lf & Bf & G' & GC & HG').
    rewrite Sf0, Sg in GC.
    destruct (sg_core_de (from_uint L m) (inv_mod2_62 (hd 0 m)) mv A ub L Wf0 Lf0 HL HS Sf0 Hm Om Fit Hinv Hub
                vartime boxed _ _ d f conv (Bn n - 1) Wg Lg We Le Se ltac:(lia) ltac:(lia) ltac:(lia) HM2 E) as (Wd & Ld & Rd & Cd).
    rewrite Sg in Cd.
    assert (Eau : antiunit = (sval f =? -1)) by (apply u_eq_minus_one; assumption).
    assert (Eone : u_eq f (u_one L) = (sval f =? 1)) by (apply u_eq_one; assumption).
    assert (Fit8 : 8 * mv <= M62 (length (from_uint L m))) by (rewrite Lf0; clear - Fit Hm; unfold P62 in *; lia).
    destruct (sg_norm_spec (from_uint L m) d antiunit mv ub Wf0 Wd ltac:(congruence) ltac:(lia) Sf0 Hm Fit8 Hub Rd)
      as (Wr & Lr & Rr & Nr & Cr). fold ret in Wr, Lr, Rr, Nr, Cr.
    destruct (to_uint_spec n ret Wr ltac:(unfold lenZ; rewrite Lr, Lf0; lia)) as (Wx & Lx & Ex).
    assert (Ex' : eval (to_uint n ret) = sval ret).
    { rewrite Ex, <- (sval_nonneg_uval ret Wr) by lia. apply Z.mod_small. lia. }
    split; [assumption|]. split; [assumption|]. split; [assumption|]. split; [lia|]. split.
    - intros Hs. unfold is_some in Hs. rewrite Eone, Eau in Hs.
      assert (Hf : sval f = 1 \/ sval f = -1).
      { apply orb_true_iff in Hs. destruct Hs as [Hs|Hs]; apply Z.eqb_eq in Hs; lia. }
      assert (G1 : Z.gcd av mv = 1).
      { rewrite Z.gcd_comm, <- GC. destruct Hf as [-> | ->]; [apply Z.gcd_1_l | rewrite (Z.gcd_opp_l 1 G' : Z.gcd (-1) G' = Z.gcd 1 G'); apply Z.gcd_1_l]. }
      split; [assumption|]. apply cg_iff. rewrite Ex', Cr.
      destruct Hf as [Hf|Hf]; rewrite Eau, Hf in *; cbn [Z.eqb Pos.eqb] in *.
      + rewrite Z.mul_comm, Cd. apply cg_of_eq. ring.
      + transitivity (- (sval d * av)); [apply cg_of_eq; ring|]. rewrite Cd. apply cg_of_eq. ring.
    - intros Hc G1. specialize (HG' Hc). subst G'. rewrite Z.gcd_0_r in GC.
      rewrite Z.gcd_comm in G1. unfold is_some. rewrite Eone, Eau.
      apply orb_true_iff. destruct (Z.eqb_spec (sval f) 1); [left; reflexivity|]. right. apply Z.eqb_eq. lia.
  Qed.

  (** SafeGcdInverter::inv / inv_vartime, BoxedSafeGcdInverter::invert / invert_vartime under convergence *)
  Theorem sg_inv_partial dbg vartime boxed :
    sg_conv vartime boxed (from_uint L adj) (from_uint L m) (from_uint L a) (inv_mod2_62 (hd 0 m)) ->
    exists x some, sg_inv dbg vartime boxed adj m a = SgOk x some /\ wf x /\ length x = n /\ 0 <= eval x <= ub /\
      (some = true <-> Z.gcd av mv = 1) /\ (some = true -> (av * eval x) mod mv = A mod mv).
  Proof.
    intros (d & f & E). destruct (sg_inv_body vartime boxed d f true E) as (Nr & Wx & Lx & Rx & Hs & Hc). cbv zeta in Nr, Wx, Lx, Rx, Hs, Hc.
    unfold sg_inv. rewrite Lm. fold L. rewrite E. cbn [negb]. rewrite !andb_false_r. rewrite Nr. cbn [andb].
    eexists. eexists. split; [reflexivity|]. split; [assumption|]. split; [assumption|]. split; [assumption|]. split.
    - split; [intros H; apply Hs; assumption | intros H; apply Hc; [reflexivity | assumption]].
    - intros H. apply Hs. assumption.
  Qed.

  (** without any convergence assumption: a returned inverse is an inverse *)
  Theorem sg_inv_sound dbg vartime boxed x :
    sg_inv dbg vartime boxed adj m a = SgOk x true ->
    wf x /\ length x = n /\ 0 <= eval x <= ub /\ Z.gcd av mv = 1 /\ (av * eval x) mod mv = A mod mv.
  Proof.
    unfold sg_inv. rewrite Lm. fold L.
    destruct (sg_core vartime boxed (from_uint L adj) (from_uint L m) (from_uint L a) (inv_mod2_62 (hd 0 m))) as [[[d f] conv]|] eqn:E; [|discriminate].
    destruct (sg_inv_body vartime boxed d f conv E) as (Nr & Wx & Lx & Rx & Hs & Hc). cbv zeta in Nr, Wx, Lx, Rx, Hs, Hc.
    destruct (dbg && negb vartime && negb boxed && negb conv); [discriminate|].
    rewrite Nr. cbn [andb]. intros H. inversion H as [[H1 H2]]. rewrite H2 in *. specialize (Hs eq_refl).
    repeat split; try assumption; try lia; apply Hs.
  Qed.
End Inv.

Section Gcd.
  Context (f g : list Z) (n : nat).
  Context (Wf : wf f) (Wg : wf g) (Lf : length f = n) (Lg : length g = n)
          (Hn : (0 < n)%nat) (Hn32 : Z.of_nat n <= 2 ^ 32)
          (Hpre : Z.odd (eval f) = true \/ Z.odd (eval g) = true \/ eval g = 0).
  Let L := unsat_nlimbs n.

  Lemma sg_gcd_body vartime boxed e inverse d f' conv :
    sg_core vartime boxed e (from_uint L f) (from_uint L g) inverse = Some (d, f', conv) ->
    let r := if u_is_negative f' then u_neg f' else f' in
    u_is_negative r = false /\ wf (to_uint n r) /\ length (to_uint n r) = n /\
    (conv = true -> eval (to_uint n r) = Z.gcd (eval f) (eval g)).
  Proof.
    intros E r.
    pose proof (unsat_nlimbs_ge n) as HLn. pose proof (unsat_nlimbs_pos n) as HL. pose proof (small_L_unsat n Hn32) as HS.
    pose proof (unsat_room n) as HM.
    destruct (from_uint_unsat n f Wf Lf) as (Wf0 & Lf0 & Sf0 & Bf).
    destruct (from_uint_unsat n g Wg Lg) as (Wg0 & Lg0 & Sg0 & Bg).
    fold L in HLn, HL, HS, HM, Wf0, Lf0, Sf0, Wg0, Lg0, Sg0.
    assert (HM2 : 2 * P62 * (Bn n - 1) < M62 L) by (clear - HM; pose proof (Bn_pos n); unfold P64, P62 in *; lia).
    assert (HM3 : 4 * Bn n <= M62 L) by (clear - HM; pose proof (Bn_pos n); unfold P64 in *; lia).
    assert (HP : PRE (sval (from_uint L f)) (sval (from_uint L g)) 1).
    { rewrite Sf0, Sg0. unfold PRE. destruct Hpre as [H|[H|H]]; [left; assumption | right; left; split; [lia | assumption] | right; right; assumption]. }
    destruct (sg_core_fg vartime boxed _ _ _ _ d f' conv L (Bn n - 1) Wf0 Wg0 Lf0 Lg0 HL HS ltac:(lia) ltac:(lia) HM2 HP E)
      as (Wf' & Lf' & Bf' & G' & GC & HG').
    rewrite Sf0, Sg0 in GC.
    assert (R : wf62 r /\ length r = L /\ sval r = Z.abs (sval f')).
    { unfold r. rewrite u_is_negative_sval by (try apply nonempty_len; (assumption || lia)).
      destruct (Z.ltb_spec (sval f') 0).
      - destruct (u_neg_sval f' Wf') as (W & Ln & E1); [rewrite Lf'; lia|]. rewrite E1. repeat split; try assumption; lia.
      - repeat split; try assumption; lia. }
    destruct R as (Wr & Lr & Sr).
    destruct (to_uint_spec n r Wr ltac:(unfold lenZ; rewrite Lr; lia)) as (Wx & Lx & Ex).
    assert (Ex' : eval (to_uint n r) = Z.abs (sval f')).
    { rewrite Ex, <- (sval_nonneg_uval r Wr) by lia. rewrite Sr. apply Z.mod_small. lia. }
    split; [|split; [assumption | split; [assumption|]]].
    - rewrite u_is_negative_sval by (try apply nonempty_len; (assumption || lia)). apply Z.ltb_ge. lia.
    - intros Hc. specialize (HG' Hc). subst G'. rewrite Z.gcd_0_r in GC. rewrite Ex'. assumption.
  Qed.

  (** SafeGcdInverter::gcd / gcd_vartime and the boxed twins under convergence *)
  Theorem sg_gcd_partial dbg vartime boxed :
    sg_conv vartime boxed (u_one L) (from_uint L f) (from_uint L g) (inv_mod2_62 (hd 0 f)) ->
    sg_gcd dbg vartime boxed f g = SgOk (to_limbs n (Z.gcd (eval f) (eval g))) true.
  Proof.
    intros (d & f' & E). destruct (sg_gcd_body vartime boxed _ _ d f' true E) as (Nr & Wx & Lx & Ex). cbv zeta in Nr, Wx, Lx, Ex.
    unfold sg_gcd. rewrite Lf, Lg, Nat.max_id.
    replace (unsat_nlimbs (if boxed then n else n)) with L by (destruct boxed; reflexivity).
    rewrite E. cbn [negb]. rewrite !andb_false_r. rewrite Nr. cbn [andb].
    fold L. rewrite Nat.eqb_refl. cbn [negb]. rewrite !andb_false_r.
    f_equal. set (x := to_uint n (if u_is_negative f' then u_neg f' else f')) in *.
    transitivity (to_limbs (length x) (eval x)); [symmetry; apply to_limbs_eval; assumption | rewrite Lx, (Ex eq_refl); reflexivity].
  Qed.
End Gcd.
