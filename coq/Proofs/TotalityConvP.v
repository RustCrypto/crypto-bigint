(** C11, area conv (Model/Conv.v, owner C16): decoders and constructors.  On the spec's
    domain every entry of the model table returns what the spec entry returns (Proofs/ConvTablesP.v), so it panics exactly
    where the spec says: the length assertions of the fixed-size decoders (`copy_from_slice` / `assert_eq!` on the input
    size), the const-hex parser (wrong size or a non-hex character), the width assertions of from_u128 / from_i128 /
    widen / shorten, and `Odd::new(..).expect`.  The two from_prim keys with a width tag are proved directly: the table
    theorem restricts the tag, this statement does not. *)
From CB Require Import Model.Limbs Model.Conv Proofs.WordP Proofs.LimbsP Proofs.ConvDigitsP Proofs.ConvBytesP
  Proofs.ConvHexP Proofs.ConvBoxedP Proofs.ConvP Proofs.TotalityP Proofs.ConvTablesP.
From Coq Require Import ZArith Lia List String Bool.
Open Scope Z_scope.
Notation length := List.length.

Lemma conv_cover : covers conv_keys ops_conv_model = true.
Proof. vm_compute. reflexivity. Qed.
Lemma conv_quiet : quiet_keys_ok ops_conv_model ops_conv_spec conv_quiet_keys.
Proof. unfold conv_quiet_keys. quiet_tac ops_conv_model ops_conv_spec. Qed.

Local Ltac start := start_key ops_conv_model ops_conv_spec conv_ty.

Lemma vpanic_iff o : vpanic o = PanicV <-> o = None.
Proof. apply expect_iff. discriminate. Qed.
Lemma ltb_panic_iff (x y : nat) v : (if Nat.ltb x y then PanicV else Val v) = PanicV <-> (x < y)%nat.
Proof. rewrite refute_iff by discriminate. apply Nat.ltb_lt. Qed.

Lemma hex_fixed_iff (h : hexres) m cs :
  match h with
  | HexLen => length cs <> m
  | HexInvalid => length cs = m /\ hexvals cs = None
  | HexOk _ => length cs = m /\ exists ds, hexvals cs = Some ds
  end -> (hex_fixed h = PanicV <-> length cs <> m \/ hexvals cs = None).
Proof.
  destruct h as [r| |]; cbn [hex_fixed]; [|tauto|tauto].
  intros (Hl & ds & Hd). split; [discriminate|]. intros [H|H]; [contradiction | rewrite Hd in H; discriminate].
Qed.
Lemma hexres_panic_iff (h : hexres) n cs :
  match h with
  | HexLen => length cs <> n
  | HexInvalid => length cs = n /\ hexvals cs = None
  | HexOk r => length cs = n /\ exists ds, hexvals cs = Some ds /\ wf r /\ length r = (n / 16)%nat /\ True
  end -> (hex_fixed h = PanicV <-> length cs <> n \/ hexvals cs = None).
Proof. intros H. apply hex_fixed_iff. destruct h; [destruct H as (Hl & ds & Hd & _); eauto | exact H | exact H]. Qed.

Lemma key_uint_from_be_slice : key_ok ops_conv_model ops_conv_spec conv_ty "uint.from_be_slice".
Proof. apply key_of_eq. intros dbg a Hwf _. exact (tbl_uint_from_be_slice dbg a Hwf eq_refl). Qed.
Lemma key_uint_from_le_slice : key_ok ops_conv_model ops_conv_spec conv_ty "uint.from_le_slice".
Proof. apply key_of_eq. intros dbg a Hwf _. exact (tbl_uint_from_le_slice dbg a Hwf eq_refl). Qed.
Lemma key_uint_from_be_hex : key_ok ops_conv_model ops_conv_spec conv_ty "uint.from_be_hex".
Proof. apply key_of_eq. intros dbg a Hwf _. exact (tbl_uint_from_be_hex dbg a Hwf eq_refl). Qed.
Lemma key_uint_from_le_hex : key_ok ops_conv_model ops_conv_spec conv_ty "uint.from_le_hex".
Proof. apply key_of_eq. intros dbg a Hwf _. exact (tbl_uint_from_le_hex dbg a Hwf eq_refl). Qed.
Lemma key_boxed_from_be_hex : key_ok ops_conv_model ops_conv_spec conv_ty "boxed.from_be_hex".
Proof. apply key_of_eq. intros dbg a Hwf _. exact (tbl_boxed_from_be_hex dbg a Hwf eq_refl). Qed.
Lemma key_nonzero_from_be_bytes : key_ok ops_conv_model ops_conv_spec conv_ty "nonzero.from_be_bytes".
Proof. apply key_of_eq. intros dbg a Hwf _. exact (tbl_nonzero_from_be_bytes dbg a Hwf eq_refl). Qed.
Lemma key_nonzero_from_le_bytes : key_ok ops_conv_model ops_conv_spec conv_ty "nonzero.from_le_bytes".
Proof. apply key_of_eq. intros dbg a Hwf _. exact (tbl_nonzero_from_le_bytes dbg a Hwf eq_refl). Qed.
Lemma key_nonzero_from_le_byte_array : key_ok ops_conv_model ops_conv_spec conv_ty "nonzero.from_le_byte_array".
Proof. apply key_of_eq. intros dbg a Hwf _. exact (tbl_nonzero_from_le_byte_array dbg a Hwf eq_refl). Qed.
Lemma key_odd_from_be_hex : key_ok ops_conv_model ops_conv_spec conv_ty "odd.from_be_hex".
Proof. apply key_of_eq. intros dbg a Hwf _. exact (tbl_odd_from_be_hex dbg a Hwf eq_refl). Qed.
Lemma key_odd_from_le_hex : key_ok ops_conv_model ops_conv_spec conv_ty "odd.from_le_hex".
Proof. apply key_of_eq. intros dbg a Hwf _. exact (tbl_odd_from_le_hex dbg a Hwf eq_refl). Qed.
Lemma key_uint_from_prim : key_ok ops_conv_model ops_conv_spec conv_ty "uint.from_prim".
Proof.
  start. cbv zeta in *. destruct (negb (sp_prim_fits _ _)); [contradiction Hdom; reflexivity|].
  rewrite ltb_panic_iff. unfold m_uint_from_prim.
  destruct (sarg 1 a =? 128); cbn [orb].
  - rewrite vpanic_iff, uint_from_u128_none. tauto.
  - destruct (sarg 1 a =? 129).
    + rewrite vpanic_iff, uint_from_wide_none. tauto.
    + rewrite vpanic_iff, uint_from_small_none. tauto.
Qed.
Lemma key_int_from_prim : key_ok ops_conv_model ops_conv_spec conv_ty "int.from_prim".
Proof.
  start. cbv zeta in *. destruct (negb (sp_prim_fits _ _)); [contradiction Hdom; reflexivity|].
  rewrite ltb_panic_iff. unfold m_int_from_prim.
  destruct (sarg 1 a =? 128).
  - rewrite vpanic_iff, int_from_i128_none. tauto.
  - rewrite vpanic_iff, int_from_small_none. tauto.
Qed.
Lemma key_boxed_from_prim : key_ok ops_conv_model ops_conv_spec conv_ty "boxed.from_prim".
Proof. apply key_of_eq. intros dbg a Hwf _. exact (tbl_boxed_from_prim dbg a Hwf eq_refl). Qed.
Lemma key_boxed_widen : key_ok ops_conv_model ops_conv_spec conv_ty "boxed.widen".
Proof. apply key_of_eq. intros dbg a Hwf _. exact (tbl_boxed_widen dbg a Hwf eq_refl). Qed.
Lemma key_boxed_shorten : key_ok ops_conv_model ops_conv_spec conv_ty "boxed.shorten".
Proof. apply key_of_eq. intros dbg a Hwf _. exact (tbl_boxed_shorten dbg a Hwf eq_refl). Qed.
Lemma key_uint_serde_de : key_ok ops_conv_model ops_conv_spec conv_ty "uint.serde_de".
Proof. apply key_of_eq. intros dbg a Hwf _. exact (tbl_uint_serde_de dbg a Hwf eq_refl). Qed.

Lemma uint_serde_de_never_panics n bs : uint_serde_de n bs <> PanicV.
Proof.
  unfold uint_serde_de. destruct (Nat.ltb _ 8); [discriminate|]. cbv zeta.
  destruct (Z.ltb_spec (Z.of_nat (length (skipn 8 bs))) (word_from_le_bytes (firstn 8 bs))) as [|Hge]; [discriminate|].
  destruct (Z.eqb_spec (word_from_le_bytes (firstn 8 bs)) (Z.of_nat (8 * n))) as [E|E]; cbn [negb]; [|discriminate].
  destruct (uint_from_le_slice n (firstn (8 * n) (skipn 8 bs))) eqn:F; [discriminate|].
  exfalso. apply from_le_slice_none in F. apply F. rewrite firstn_length. lia.
Qed.

#[export] Hint Resolve key_uint_from_be_slice key_uint_from_le_slice key_uint_from_be_hex key_uint_from_le_hex
  key_boxed_from_be_hex key_nonzero_from_be_bytes key_nonzero_from_le_bytes key_nonzero_from_le_byte_array
  key_odd_from_be_hex key_odd_from_le_hex key_uint_from_prim key_int_from_prim key_boxed_from_prim key_boxed_widen
  key_boxed_shorten key_uint_serde_de : c11keys.

