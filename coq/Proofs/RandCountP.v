(** C19, part 5: uniformity as COUNTING theorems. For one acceptance round the map from raw RNG words to
    the candidate value has, for every admissible value, the same number of preimages (an explicit
    bijection with an index set that does not depend on the value); rejected rounds restart the sampler
    on the rest of the stream. *)
From CB Require Import Model.Limbs Model.AddSub Model.Rand Proofs.BitsP Proofs.WordP Proofs.LimbsP Proofs.AddSubP
  Proofs.RandBaseP Proofs.RandModP Proofs.RandBitsP.
From Coq Require Import ZArith Lia List Bool.
Open Scope Z_scope. Open Scope list_scope.

(** [0, 2^N) is in bijection with [0, 2^k) x [0, 2^(N-k)) through  x |-> (x mod 2^k, x / 2^k) *)
Lemma rnd_split_bij N k : 0 <= k <= N ->
  (forall v j, 0 <= v < 2 ^ k -> 0 <= j < 2 ^ (N - k) ->
     0 <= v + j * 2 ^ k < 2 ^ N /\ (v + j * 2 ^ k) mod 2 ^ k = v /\ (v + j * 2 ^ k) / 2 ^ k = j) /\
  (forall x, 0 <= x < 2 ^ N ->
     x = x mod 2 ^ k + (x / 2 ^ k) * 2 ^ k /\ 0 <= x mod 2 ^ k < 2 ^ k /\ 0 <= x / 2 ^ k < 2 ^ (N - k)).
Proof.
  intros Hk. assert (Hp : 2 ^ N = 2 ^ (N - k) * 2 ^ k) by (rewrite <- pow2_split by lia; f_equal; lia).
  pose proof (pow2_pos k ltac:(lia)). pose proof (pow2_pos (N - k) ltac:(lia)).
  split.
  - intros v j Hv Hj.
    assert (j * 2 ^ k <= (2 ^ (N - k) - 1) * 2 ^ k) by (apply Z.mul_le_mono_nonneg_r; lia).
    assert (0 <= j * 2 ^ k) by (apply Z.mul_nonneg_nonneg; lia).
    split; [lia|].
    destruct (div_mod_unique_pos (2 ^ k) j v (v + j * 2 ^ k)) as [Hq Hr]; [lia | ring | auto].
  - intros x Hx. pose proof (Z.div_mod x (2 ^ k) ltac:(lia)). pose proof (Z.mod_pos_bound x (2 ^ k) ltac:(lia)).
    split; [lia|]. split; [assumption|]. split; [apply Z.div_pos; lia|].
    apply Z.div_lt_upper_bound; lia.
Qed.
(** integer-level shape of a positive modulus: p + 1 significant words, top word h with tb bits *)
Lemma sp_shape_of M : 0 < M ->
  exists p h tb, Z.to_nat (rnd_ceil (rnd_bitlen M) 64) = S p /\ tb = rnd_bitlen M - 64 * Z.of_nat p /\
    Bn p <= M < Bn (S p) /\ h = M / Bn p /\ 0 < h < B /\ tb = rnd_bitlen h /\ 1 <= tb <= 64.
Proof.
  intros HM. set (n := Z.to_nat (rnd_bitlen M)).
  pose proof (rnd_bitlen_spec M HM) as (? & _ & Hub).
  assert (Hfit : 0 <= M < Bn n).
  { split; [lia|]. rewrite Bn_pow2. eapply Z.lt_le_trans; [exact Hub|]. apply pow2_le. lia. }
  set (m := to_limbs n M). assert (He : eval m = M) by (apply to_limbs_small; assumption).
  destruct (rnd_shape_of m (wf_to_limbs n M) ltac:(lia)) as (p & h & tb & Hnl & Hsh).
  rewrite He in *. destruct Hsh as [? ? ? ? ? ? ? ? Hbits]. rewrite He in *.
  exists p, h, tb. rewrite rnd_sp_ceil64. repeat split; try assumption; lia.
Qed.

Theorem sp_random_mod_counting M : 0 < M ->
  let k := rnd_bitlen M in
  let p := (Z.to_nat (rnd_ceil k 64) - 1)%nat in
  let tb := k - 64 * Z.of_nat p in
  1 <= tb <= 64 /\
  forall v, 0 <= v < M ->
  (* each index j < 2^(64 - tb) gives a raw candidate (top word, p low words) that is accepted with value v *)
  (forall j, 0 <= j < 2 ^ (64 - tb) ->
     let w0 := v / Bn p + j * 2 ^ tb in
     is_word w0 /\ wf (to_limbs p v) /\ length (to_limbs p v) = p /\
     sp_mod_candidate tb p w0 (to_limbs p v) = v /\ w0 / 2 ^ tb = j /\ w0 mod 2 ^ tb <= M / Bn p) /\
  (* and these are all the raw candidates with value v *)
  (forall w0 lows, is_word w0 -> wf lows -> length lows = p -> sp_mod_candidate tb p w0 lows = v ->
     lows = to_limbs p v /\ w0 = v / Bn p + (w0 / 2 ^ tb) * 2 ^ tb /\ 0 <= w0 / 2 ^ tb < 2 ^ (64 - tb)).
Proof.
  intros HM k p tb. destruct (sp_shape_of M HM) as (p' & h & tb' & Hnl & Htb' & HB & Hh & Hhw & Htbh & Htbr).
  assert (Hp : p = p') by (unfold p, k; lia). subst p'. assert (Ht : tb = tb') by (unfold tb, k; lia). subst tb'.
  split; [assumption|]. intros v Hv.
  pose proof (Bn_pos p) as HBp. pose proof (rnd_bitlen_spec h ltac:(lia)) as (_ & _ & Hhub). rewrite <- Htbh in Hhub.
  assert (Hvh : 0 <= v / Bn p <= h).
  { split; [apply Z.div_pos; lia | rewrite Hh; apply Z.div_le_mono; lia]. }
  pose proof (Z.div_mod v (Bn p) ltac:(lia)) as Hdm. pose proof (Z.mod_pos_bound v (Bn p) ltac:(lia)) as Hmb.
  destruct (rnd_split_bij 64 tb ltac:(lia)) as [Hfwd Hbwd].
  assert (Hvr : 0 <= v / Bn p < 2 ^ tb) by (destruct Hvh; split; [assumption|]; eapply Z.le_lt_trans; eassumption).
  split.
  - intros j Hj w0. destruct (Hfwd (v / Bn p) j Hvr Hj) as (Hr & Hmo & Hd).
    split; [apply rnd_lt_word; assumption|]. split; [apply wf_to_limbs|]. split; [apply length_to_limbs|].
    unfold sp_mod_candidate. fold w0 in Hmo, Hd. rewrite Hmo, eval_to_limbs. repeat split; try assumption; lia.
  - intros w0 lows Hw0 Hwl Hll Hc. unfold sp_mod_candidate in Hc.
    pose proof (eval_bounds lows Hwl) as Hb. rewrite Hll in Hb.
    destruct (div_mod_unique_pos (Bn p) (w0 mod 2 ^ tb) (eval lows) v) as [Hq Hr]; [lia | lia |].
    apply rnd_word_lt in Hw0. destruct (Hbwd w0 Hw0) as (Hx & _ & Hqb).
    split; [apply to_limbs_unique; auto|]. split; [lia | assumption].
Qed.
Definition rnd_sp_shift (d : Z) (s : rnd_sp) : rnd_sp :=
  match s with SpOk v k b => SpOk v (k + d) (b + 8 * d) | SpExhausted => SpExhausted end.

Lemma sp_mod_loop_fuel M nl tb : forall f1 f2 ws cnt, (length ws <= f1)%nat -> (length ws <= f2)%nat ->
  sp_mod_loop f1 M nl tb ws cnt = sp_mod_loop f2 M nl tb ws cnt.
Proof.
  induction f1 as [|f1 IH]; intros f2 ws cnt H1 H2.
  - destruct ws; [|cbn in H1; lia]. destruct f2; reflexivity.
  - destruct f2 as [|f2]; [destruct ws; [reflexivity | cbn in H2; lia]|].
    cbn [sp_mod_loop]. destruct ws as [|w ws]; [reflexivity|]. cbn [length] in H1, H2.
    destruct (w mod 2 ^ tb >? M / Bn (nl - 1)); [apply IH; lia|].
    destruct (length ws <? nl - 1)%nat; [reflexivity|].
    destruct (_ <? M); [reflexivity|]. apply IH; rewrite skipn_length; lia.
Qed.

Lemma sp_mod_loop_shift M nl tb d : forall f ws cnt,
  sp_mod_loop f M nl tb ws (cnt + d) = rnd_sp_shift d (sp_mod_loop f M nl tb ws cnt).
Proof.
  induction f as [|f IH]; intros ws cnt; [reflexivity|].
  cbn [sp_mod_loop]. destruct ws as [|w ws]; [reflexivity|].
  destruct (w mod 2 ^ tb >? M / Bn (nl - 1)).
  - replace (cnt + d + 1) with (cnt + 1 + d) by lia. apply IH.
  - destruct (length ws <? nl - 1)%nat; [reflexivity|].
    destruct (_ <? M).
    + cbn [rnd_sp_shift]. f_equal; lia.
    + replace (cnt + d + Z.of_nat nl) with (cnt + Z.of_nat nl + d) by lia. apply IH.
Qed.

(** The sampler is "rounds until acceptance": an early-rejected top word costs one word, a complete
    candidate p + 1 words; an accepted candidate is returned, a rejected one restarts the sampler on the
    rest of the stream (only the consumption counters are carried over). *)
Theorem sp_random_mod_rounds M : 0 < M ->
  let k := rnd_bitlen M in
  let p := (Z.to_nat (rnd_ceil k 64) - 1)%nat in
  let tb := k - 64 * Z.of_nat p in
  (forall w0 rest, w0 mod 2 ^ tb > M / Bn p ->
     sp_random_mod M (w0 :: rest) = rnd_sp_shift 1 (sp_random_mod M rest)) /\
  (forall w0 lows rest, length lows = p -> w0 mod 2 ^ tb <= M / Bn p ->
     sp_random_mod M (w0 :: lows ++ rest) =
       if sp_mod_candidate tb p w0 lows <? M
       then SpOk (sp_mod_candidate tb p w0 lows) (Z.of_nat (S p)) (8 * Z.of_nat (S p))
       else rnd_sp_shift (Z.of_nat (S p)) (sp_random_mod M rest)).
Proof.
  intros HM k p tb. destruct (sp_shape_of M HM) as (p' & h & tb' & Hnl & Htb' & _).
  assert (Hp : p = p') by (unfold p, k; lia). subst p'. assert (Ht : tb = tb') by (unfold tb, k; lia). subst tb'.
  unfold sp_random_mod. rewrite Hnl.
  replace (Z.of_nat (S p) - 1) with (Z.of_nat p) by lia. change (rnd_bitlen M - 64 * Z.of_nat p) with tb. split.
  - intros w0 rest Hgt. cbn [length sp_mod_loop]. replace (S p - 1)%nat with p by lia.
    destruct (Z.gtb_spec (w0 mod 2 ^ tb) (M / Bn p)); [|lia].
    change (0 + 1) with (0 + 1). rewrite (sp_mod_loop_shift M (S p) tb 1 (length rest) rest 0). reflexivity.
  - intros w0 lows rest Hl Hle. cbn [length sp_mod_loop]. replace (S p - 1)%nat with p by lia.
    destruct (Z.gtb_spec (w0 mod 2 ^ tb) (M / Bn p)); [lia|].
    rewrite app_length. destruct (Nat.ltb_spec (length lows + length rest) p); [lia|].
    assert (Hf : firstn p (lows ++ rest) = lows).
    { rewrite <- Hl. rewrite firstn_app, Nat.sub_diag, firstn_all, firstn_O, app_nil_r. reflexivity. }
    assert (Hs : skipn p (lows ++ rest) = rest).
    { rewrite <- Hl. rewrite skipn_app, Nat.sub_diag, skipn_all. reflexivity. }
    rewrite Hf, Hs.
    unfold sp_mod_candidate. destruct (_ <? M); [f_equal; lia|].
    rewrite (sp_mod_loop_shift M (S p) tb (Z.of_nat (S p)) _ rest 0).
    f_equal. apply sp_mod_loop_fuel; lia.
Qed.
