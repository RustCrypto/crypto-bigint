(** C16 (tables): the model table and the spec table of Model/Conv.v agree on EVERY key (37 of 37), for all
    well-formed argument lists that satisfy the typing side condition of the key (only the two [from_prim] keys
    with a width tag have one), in both profiles, wherever the spec entry is defined.
    [run_tab t k dbg a] is the table lookup of Model/Api.v (Proofs/TotalityP.v). *)
From CB Require Import Model.Limbs Model.Conv Proofs.WordP Proofs.LimbsP Proofs.ConvDigitsP Proofs.ConvBytesP
  Proofs.ConvHexP Proofs.ConvBoxedP Proofs.ConvCopyP Proofs.ConvP Proofs.TotalityP.
From Coq Require Import ZArith Lia List String Bool.
Import ListNotations.
Open Scope Z_scope.
Notation length := List.length.

(* ------------------------------------------------------------------ typing side conditions (boolean) *)
Definition btyping := list (string * (list (list Z) -> bool)).
Definition typedb (t : btyping) (k : string) (a : list (list Z)) : bool :=
  match lookup k t with Some P => P a | None => true end.

(* The second argument of "uint.from_prim" / "int.from_prim" is a tag that names the Rust source type of the
   conversion (it selects the function that is called: from_u8 .. from_u64, from_word (65), Limb (1), from_u128
   (128), from_wide_word (129); from_i8 .. from_i64, from_i128): an unsigned source type is at most 64 bits wide
   or one of the two 128-bit kinds; a signed source type is i2 .. i64 or i128.  The spec's own domain test
   ([sp_prim_fits]: the value fits the named type) does the rest. *)
Definition ty_uint_prim (a : list (list Z)) : bool :=
  let k := sarg 1 a in (k <=? 65) || (k =? 128) || (k =? 129).
Definition ty_int_prim (a : list (list Z)) : bool :=
  let k := sarg 1 a in ((2 <=? k) && (k <=? 64)) || (k =? 128).

Open Scope string_scope.
Definition conv_tbl_ty : btyping :=
  [("uint.from_prim", ty_uint_prim); ("int.from_prim", ty_int_prim)].
Open Scope Z_scope.

Definition tbl_ok (k : string) : Prop :=
  forall dbg a, wf_args a -> typedb conv_tbl_ty k a = true ->
    run_tab ops_conv_spec k dbg a <> Unsupported ->
    run_tab ops_conv_model k dbg a = run_tab ops_conv_spec k dbg a.

Ltac open_typedb H :=
  unfold typedb in H;
  lazy beta iota delta [lookup conv_tbl_ty String.eqb Ascii.eqb Bool.eqb] in H.
Ltac start_tbl :=
  let dbg := fresh "dbg" in let a := fresh "a" in
  let Hwf := fresh "Hwf" in let Hty := fresh "Hty" in let Hdom := fresh "Hdom" in
  intros dbg a Hwf Hty Hdom; open_typedb Hty; revert Hdom; open_tabs ops_conv_model ops_conv_spec; intros Hdom.
(* ------------------------------------------------------------------ the domain tests and the `None`s of the decoders *)
Lemma bytes_ok_wfd bs : bytes_ok bs = true <-> wfd 256 bs.
Proof.
  unfold bytes_ok. induction bs as [|c r IH]; cbn [forallb]; [split; [intros; apply wfd_nil | reflexivity]|].
  rewrite andb_true_iff, IH, wfd_cons, andb_true_iff, Z.leb_le, Z.ltb_lt. tauto.
Qed.
Lemma bytes_dom bs o : sp_bytes_arg bs o <> Unsupported -> wfd 256 bs /\ sp_bytes_arg bs o = o.
Proof.
  unfold sp_bytes_arg. destruct (bytes_ok bs) eqn:E; [|intros H; contradiction H; reflexivity].
  intros _. split; [apply bytes_ok_wfd; assumption | reflexivity].
Qed.
Lemma from_be_slice_none n bs : uint_from_be_slice n bs = None <-> length bs <> (8 * n)%nat.
Proof. unfold uint_from_be_slice. destruct (Nat.eqb_spec (length bs) (8 * n)); split; intros H; try discriminate; tauto. Qed.
Lemma from_le_slice_none n bs : uint_from_le_slice n bs = None <-> length bs <> (8 * n)%nat.
Proof. unfold uint_from_le_slice. destruct (Nat.eqb_spec (length bs) (8 * n)); split; intros H; try discriminate; tauto. Qed.
Lemma sp_hex_value_none le m cs : sp_hex_value le m cs = None <-> length cs <> m \/ hexvals cs = None.
Proof.
  unfold sp_hex_value. destruct (Nat.eqb_spec (length cs) m) as [E|E].
  - destruct (hexvals cs); split; intros H; try discriminate; try tauto. destruct H as [H|H]; [contradiction|discriminate].
  - tauto.
Qed.
Lemma sp_odd_be n cs ds : length cs = (16 * n)%nat -> hexvals cs = Some ds ->
  (match sp_hex_value false (16 * n) cs with
   | Some v => if Z.odd v then Val [to_limbs n v] else PanicV | None => PanicV end) =
  (if Z.odd (evalb 16 (rev ds)) then Val [to_limbs n (evalb 16 (rev ds))] else PanicV).
Proof. intros Hl Hd. unfold sp_hex_value. rewrite Hl, Nat.eqb_refl, Hd, horner_evalb. reflexivity. Qed.
Lemma sp_odd_le n cs ds : length cs = (16 * n)%nat -> hexvals cs = Some ds ->
  (match sp_hex_value true (16 * n) cs with
   | Some v => if Z.odd v then Val [to_limbs n v] else PanicV | None => PanicV end) =
  (if Z.odd (evalb 256 (nib_pairs ds)) then Val [to_limbs n (evalb 256 (nib_pairs ds))] else PanicV).
Proof. intros Hl Hd. unfold sp_hex_value. rewrite Hl, Nat.eqb_refl, Hd, horner_evalb, rev_involutive. reflexivity. Qed.
Lemma sp_odd_bad le n cs : length cs <> (16 * n)%nat \/ hexvals cs = None ->
  (match sp_hex_value le (16 * n) cs with
   | Some v => if Z.odd v then Val [to_limbs n v] else PanicV | None => PanicV end) = PanicV.
Proof. intros H. apply (proj2 (sp_hex_value_none le (16 * n) cs)) in H. rewrite H. reflexivity. Qed.
Lemma uint_from_small_none n v : uint_from_small n v = None <-> (n < 1)%nat.
Proof. destruct n; cbn; split; intros H; try discriminate; try lia; reflexivity. Qed.
Lemma uint_from_wide_none n v : uint_from_wide_word n v = None <-> (n < 2)%nat.
Proof. unfold uint_from_wide_word. destruct (Nat.ltb_spec n 2); split; intros H'; try discriminate; try lia; reflexivity. Qed.
Lemma uint_from_u128_none n v : uint_from_u128 n v = None <-> (n < 2)%nat.
Proof. unfold uint_from_u128. destruct (Nat.ltb_spec n 2); split; intros H'; try discriminate; try lia; reflexivity. Qed.
Lemma int_from_small_none k n v : int_from_small k n v = None <-> (n < 1)%nat.
Proof. destruct n; cbn; split; intros H; try discriminate; try lia; reflexivity. Qed.
Lemma int_from_i128_none n v : int_from_i128 n v = None <-> (n < 2)%nat.
Proof. unfold int_from_i128. destruct (Nat.ltb_spec n 2); split; intros H'; try discriminate; try lia; reflexivity. Qed.

Lemma bytes_dom' bs o : sp_bytes_arg bs o <> Unsupported -> wfd 256 bs /\ sp_bytes_arg bs o = o /\ o <> Unsupported.
Proof.
  intros H. destruct (bytes_dom bs o H) as [Hb Hd]. rewrite Hd in H. auto.
Qed.
(* opens the byte-string domain test of a spec entry: Hb : wfd 256 bs, Hdom : the rest <> Unsupported *)
Ltac bdom := match goal with Hdom : sp_bytes_arg _ _ <> Unsupported |- _ =>
  let Hb := fresh "Hb" in let Hd := fresh "Hd" in
  apply bytes_dom' in Hdom; destruct Hdom as (Hb & Hd & Hdom); rewrite Hd; clear Hd end.
(* [if c then X else Unsupported <> Unsupported] gives c = true *)
Ltac dom_if H :=
  match type of H with
  | (if ?c then _ else _) <> Unsupported =>
      let E := fresh "E" in destruct c eqn:E; [|try (contradiction H; reflexivity)]
  end.

(* ------------------------------------------------------------------ small facts *)
Lemma horner_rev b ds : horner b (rev ds) = evalb b ds.
Proof. rewrite horner_evalb, rev_involutive. reflexivity. Qed.

(* ------------------------------------------------------------------ positional digit lists *)
Lemma nth_ext_Z (l1 l2 : list Z) : length l1 = length l2 ->
  (forall i, (i < length l1)%nat -> nth i l1 0 = nth i l2 0) -> l1 = l2.
Proof. intros Hl H. apply (nth_ext l1 l2 0 0 Hl H). Qed.
Lemma length_sp_le_digits b m x : length (sp_le_digits b m x) = m.
Proof. unfold sp_le_digits. rewrite map_length, seq_length. reflexivity. Qed.
Lemma length_sp_be_digits b m x : length (sp_be_digits b m x) = m.
Proof. unfold sp_be_digits. rewrite map_length, seq_length. reflexivity. Qed.
Lemma nth_map_seq (f : nat -> Z) m i : (i < m)%nat -> nth i (map f (seq 0 m)) 0 = f i.
Proof.
  intros H. rewrite (nth_indep _ 0 (f 0%nat)) by (rewrite map_length, seq_length; exact H).
  rewrite map_nth, seq_nth by exact H. reflexivity.
Qed.
Lemma digits_le b k x : 0 < b -> digits b k x = sp_le_digits b k x.
Proof.
  intros Hb. apply nth_ext_Z.
  - rewrite length_digits, length_sp_le_digits. reflexivity.
  - rewrite length_digits. intros i Hi. rewrite nth_digits by assumption.
    unfold sp_le_digits. rewrite nth_map_seq by exact Hi. reflexivity.
Qed.
Lemma digits_be b k x : 0 < b -> rev (digits b k x) = sp_be_digits b k x.
Proof.
  intros Hb. apply nth_ext_Z.
  - rewrite rev_length, length_digits, length_sp_be_digits. reflexivity.
  - rewrite rev_length, length_digits. intros i Hi.
    rewrite nth_rev_lt by (rewrite length_digits; exact Hi). rewrite length_digits.
    rewrite nth_digits by (assumption || lia).
    unfold sp_be_digits. rewrite nth_map_seq by exact Hi. f_equal. f_equal. f_equal. lia.
Qed.

(* ------------------------------------------------------------------ Limb / Uint <-> bytes *)
Lemma tbl_limb_to_be_bytes : tbl_ok "limb.to_be_bytes".
Proof. start_tbl. unfold word_to_be_bytes. rewrite digits_be by reflexivity. reflexivity. Qed.
Lemma tbl_limb_to_le_bytes : tbl_ok "limb.to_le_bytes".
Proof. start_tbl. unfold word_to_le_bytes. rewrite digits_le by reflexivity. reflexivity. Qed.
Lemma tbl_limb_from_be_bytes : tbl_ok "limb.from_be_bytes".
Proof.
  start_tbl. bdom. dom_if Hdom. unfold word_from_be_bytes. rewrite horner_evalb. reflexivity.
Qed.
Lemma tbl_limb_from_le_bytes : tbl_ok "limb.from_le_bytes".
Proof.
  start_tbl. bdom. dom_if Hdom. unfold word_from_le_bytes. rewrite horner_rev. reflexivity.
Qed.
Lemma tbl_limb_from_prim : tbl_ok "limb.from_prim".
Proof.
  start_tbl. dom_if Hdom. rewrite to_limbs_1. pose proof (sarg_word 0 a Hwf).
  rewrite Z.mod_small by assumption. reflexivity.
Qed.

Lemma tbl_uint_to_be_bytes : tbl_ok "uint.to_be_bytes".
Proof.
  start_tbl. pose proof (wf_arg 0 a Hwf) as Hw. unfold cv_ln, cv_ev.
  rewrite uint_to_be_bytes_rev, uint_to_le_bytes_digits by exact Hw. rewrite digits_be by reflexivity. reflexivity.
Qed.
Lemma tbl_uint_to_le_bytes : tbl_ok "uint.to_le_bytes".
Proof.
  start_tbl. pose proof (wf_arg 0 a Hwf) as Hw. unfold cv_ln, cv_ev.
  rewrite uint_to_le_bytes_digits by exact Hw. rewrite digits_le by reflexivity. reflexivity.
Qed.

Lemma tbl_uint_from_be_slice : tbl_ok "uint.from_be_slice".
Proof.
  start_tbl. bdom. unfold cv_ln. destruct (uint_from_be_slice (cv_nat 1 a) (arg 0 a)) as [r|] eqn:E; cbn [vpanic].
  - destruct (from_be_slice_spec _ _ _ Hb E) as (Hl & Hw & Hlr & He). rewrite Hl, Nat.eqb_refl.
    rewrite horner_evalb, <- He. f_equal. f_equal. apply limbs_of_val; auto.
  - apply from_be_slice_none in E. apply Nat.eqb_neq in E. rewrite E. reflexivity.
Qed.
Lemma tbl_uint_from_le_slice : tbl_ok "uint.from_le_slice".
Proof.
  start_tbl. bdom. unfold cv_ln. destruct (uint_from_le_slice (cv_nat 1 a) (arg 0 a)) as [r|] eqn:E; cbn [vpanic].
  - destruct (from_le_slice_spec _ _ _ Hb E) as (Hl & Hw & Hlr & He). rewrite Hl, Nat.eqb_refl.
    rewrite horner_rev, <- He. f_equal. f_equal. apply limbs_of_val; auto.
  - apply from_le_slice_none in E. apply Nat.eqb_neq in E. rewrite E. reflexivity.
Qed.

(* ------------------------------------------------------------------ strict hex decoders *)
Lemma sp_hex_be_ok n cs ds : length cs = (16 * n)%nat -> hexvals cs = Some ds ->
  sp_hex_value false (16 * n) cs = Some (evalb 16 (rev ds)).
Proof. intros Hl Hd. unfold sp_hex_value. rewrite Hl, Nat.eqb_refl, Hd, horner_evalb. reflexivity. Qed.
Lemma sp_hex_le_ok n cs ds : length cs = (16 * n)%nat -> hexvals cs = Some ds ->
  sp_hex_value true (16 * n) cs = Some (evalb 256 (nib_pairs ds)).
Proof. intros Hl Hd. unfold sp_hex_value. rewrite Hl, Nat.eqb_refl, Hd, horner_rev. reflexivity. Qed.
Lemma sp_hex_bad le n cs : length cs <> (16 * n)%nat \/ hexvals cs = None -> sp_hex_value le (16 * n) cs = None.
Proof. intros H. apply (proj2 (sp_hex_value_none le (16 * n) cs)). exact H. Qed.

Lemma tbl_uint_from_be_hex : tbl_ok "uint.from_be_hex".
Proof.
  start_tbl. unfold sp_hex_fixed in *. bdom.
  pose proof (from_be_hex_spec (cv_nat 1 a) (arg 0 a) Hb) as H.
  destruct (uint_from_be_hex (cv_nat 1 a) (arg 0 a)) as [r| |]; cbn [hex_fixed].
  - destruct H as (Hl & ds & Hd & Hw & Hlr & He). rewrite (sp_hex_be_ok _ _ ds Hl Hd), <- He.
    f_equal. f_equal. apply limbs_of_val; auto.
  - destruct H as (Hl & Hd). rewrite sp_hex_bad by tauto. reflexivity.
  - rewrite sp_hex_bad by tauto. reflexivity.
Qed.
Lemma tbl_uint_from_le_hex : tbl_ok "uint.from_le_hex".
Proof.
  start_tbl. unfold sp_hex_fixed in *. bdom.
  pose proof (from_le_hex_spec (cv_nat 1 a) (arg 0 a) Hb) as H.
  destruct (uint_from_le_hex (cv_nat 1 a) (arg 0 a)) as [r| |]; cbn [hex_fixed].
  - destruct H as (Hl & ds & Hd & Hw & Hlr & He). rewrite (sp_hex_le_ok _ _ ds Hl Hd), <- He.
    f_equal. f_equal. apply limbs_of_val; auto.
  - destruct H as (Hl & Hd). rewrite sp_hex_bad by tauto. reflexivity.
  - rewrite sp_hex_bad by tauto. reflexivity.
Qed.

(* ------------------------------------------------------------------ formatting *)
Lemma hexchar_sp u d : hexchar u d = sp_hexchar u d.
Proof. unfold hexchar, sp_hexchar. destruct (d <? 10); [reflexivity|]. destruct u; lia. Qed.
Lemma fmt_hex_eq u ls : wf ls -> uint_fmt_hex u ls = sp_fmt_digits 16 u (16 * length ls) (eval ls).
Proof.
  intros Hw. rewrite uint_fmt_hex_digits by exact Hw. unfold sp_fmt_digits. rewrite digits_be by reflexivity.
  apply map_ext. intros d. apply hexchar_sp.
Qed.
Lemma fmt_bin_eq ls : wf ls -> uint_fmt_bin ls = sp_fmt_digits 2 false (64 * length ls) (eval ls).
Proof.
  intros Hw. rewrite uint_fmt_bin_digits by exact Hw. unfold sp_fmt_digits. rewrite <- digits_be by reflexivity.
  apply map_ext_in. intros d Hd.
  assert (Hwd : wfd 2 (rev (digits 2 (64 * length ls) (eval ls)))) by (apply wfd_rev, wfd_digits; reflexivity).
  unfold wfd in Hwd. rewrite Forall_forall in Hwd. specialize (Hwd d Hd).
  unfold sp_hexchar. destruct (Z.ltb_spec d 10); [reflexivity | lia].
Qed.
Lemma fmt_kind_eq name kind ls : wf ls -> fmt_kind name kind ls = sp_fmt name kind (length ls) (eval ls).
Proof.
  intros Hw. unfold fmt_kind, sp_fmt. rewrite !fmt_hex_eq, fmt_bin_eq by exact Hw.
  repeat match goal with |- context[if ?c then _ else _] => destruct c; [reflexivity|] end. reflexivity.
Qed.

Lemma tbl_limb_fmt : tbl_ok "limb.fmt".
Proof.
  start_tbl. rewrite fmt_kind_eq by (apply wf_one, sarg_word; exact Hwf). rewrite eval_one. reflexivity.
Qed.
Lemma tbl_uint_fmt : tbl_ok "uint.fmt".
Proof. start_tbl. rewrite fmt_kind_eq by (apply wf_arg; exact Hwf). reflexivity. Qed.
Lemma tbl_int_fmt : tbl_ok "int.fmt".
Proof. start_tbl. rewrite fmt_kind_eq by (apply wf_arg; exact Hwf). reflexivity. Qed.
Lemma tbl_boxed_fmt : tbl_ok "boxed.fmt".
Proof.
  start_tbl. unfold boxed_fmt, cv_ln, cv_ev. pose proof (wf_arg 0 a Hwf) as Hw.
  destruct (arg 0 a) as [|x r] eqn:E.
  - rewrite fmt_kind_eq by (apply wf_one; unfold is_word; pose proof B_pos; lia). reflexivity.
  - rewrite fmt_kind_eq by exact Hw. reflexivity.
Qed.

(* ------------------------------------------------------------------ words / limbs *)
Lemma tbl_uint_words_id : tbl_ok "uint.words_id".
Proof. start_tbl. unfold cv_ln, cv_ev. rewrite to_limbs_eval by (apply wf_arg; exact Hwf). reflexivity. Qed.
Lemma tbl_boxed_from_vec : tbl_ok "boxed.from_vec".
Proof.
  start_tbl. unfold vec_into_boxed, cv_ln, cv_ev. pose proof (wf_arg 0 a Hwf) as Hw.
  destruct (arg 0 a) as [|x r] eqn:E.
  - cbn [length Nat.max eval]. rewrite to_limbs_1, Z.mod_0_l by (pose proof B_pos; lia). reflexivity.
  - change (Nat.max 1 (length (x :: r))) with (length (x :: r)). rewrite to_limbs_eval by exact Hw. reflexivity.
Qed.

(* ------------------------------------------------------------------ primitives *)
Lemma nthz_word l i : wf l -> is_word (nthz l i).
Proof.
  unfold nthz. revert i. induction l as [|x r IH]; intros i Hw.
  - destruct i; cbn [nth]; unfold is_word; pose proof B_pos; lia.
  - apply wf_cons in Hw. destruct Hw as [Hx Hr]. destruct i; cbn [nth]; [exact Hx | apply IH; exact Hr].
Qed.
Lemma prim_val_bounds l : wf l -> 0 <= prim_val l < B * B.
Proof.
  intros Hw. unfold prim_val. pose proof (nthz_word l 0 Hw) as H0. pose proof (nthz_word l 1 Hw) as H1.
  unfold is_word in *. nia.
Qed.
Lemma prim_val_low l : wf l -> prim_val l mod B = nthz l 0.
Proof.
  intros Hw. unfold prim_val. pose proof (nthz_word l 0 Hw) as H0. unfold is_word in H0.
  rewrite Z.mul_comm, Z_mod_plus_full. apply Z.mod_small. exact H0.
Qed.
Lemma prim_val_high l : wf l -> (prim_val l / B) mod B = nthz l 1.
Proof.
  intros Hw. unfold prim_val. pose proof (nthz_word l 0 Hw) as H0. pose proof (nthz_word l 1 Hw) as H1.
  unfold is_word in *.
  destruct (div_mod_unique_pos B (nthz l 1) (nthz l 0) (nthz l 0 + B * nthz l 1) H0 ltac:(lia)) as [Hq _].
  rewrite Hq. apply Z.mod_small. exact H1.
Qed.
Lemma sp_prim_fits_range kind v : sp_prim_fits kind v = true ->
  0 <= v < 2 ^ (if kind =? 129 then 128 else if kind =? 65 then 64 else if kind =? 1 then 64 else kind).
Proof. unfold sp_prim_fits. intros H. apply andb_prop in H. destruct H as [H1 H2]. apply Z.leb_le in H1. apply Z.ltb_lt in H2. lia. Qed.
Lemma pow2_le_B k : k <= 64 -> 2 ^ k <= B.
Proof.
  intros H. rewrite B_val. destruct (Z.le_gt_cases 0 k).
  - apply Z.pow_le_mono_r; lia.
  - rewrite Z.pow_neg_r by lia. apply Z.pow_nonneg. lia.
Qed.

Lemma uint_from_wide_word_spec n v r : 0 <= v < B * B -> uint_from_wide_word n v = Some r ->
  (2 <= n)%nat /\ wf r /\ length r = n /\ eval r = v.
Proof.
  unfold uint_from_wide_word. intros Hv. destruct (Nat.ltb_spec n 2) as [|Hn]; [discriminate|].
  intros E. injection E as <-. pose proof B_pos as HB.
  assert (Hq : 0 <= v / B < B).
  { split; [apply Z.div_pos; lia | apply Z.div_lt_upper_bound; lia]. }
  split; [exact Hn|]. split; [|split].
  - apply wf_cons. split; [apply Z.mod_pos_bound; lia|]. apply wf_cons. split; [apply Z.mod_pos_bound; lia | apply wf_zeros].
  - cbn [length]. rewrite length_zeros. lia.
  - cbn [eval]. rewrite eval_zeros. rewrite (Z.mod_small (v / B)) by exact Hq.
    pose proof (Z.div_mod v B ltac:(lia)). lia.
Qed.

(* a constructor that panics exactly below k limbs and otherwise returns the limbs of y *)
Lemma vpanic_limbs (o : option (list Z)) (n k : nat) y :
  (o = None <-> (n < k)%nat) -> (forall r, o = Some r -> r = to_limbs n y) ->
  vpanic o = if Nat.ltb n k then PanicV else Val [to_limbs n y].
Proof.
  intros Hn Hs. destruct (Nat.ltb_spec n k) as [Hlt|Hge].
  - apply Hn in Hlt. rewrite Hlt. reflexivity.
  - destruct o as [r|]; [rewrite (Hs r eq_refl); reflexivity|]. pose proof (proj1 Hn eq_refl). lia.
Qed.

Lemma tbl_uint_from_prim : tbl_ok "uint.from_prim".
Proof.
  start_tbl. cbv zeta in *. unfold ty_uint_prim in Hty. cbv zeta in Hty.
  set (kind := sarg 1 a) in *. set (n := cv_nat 2 a) in *. set (v := prim_val (arg 0 a)) in *.
  destruct (sp_prim_fits kind v) eqn:Ef; cbn [negb] in *; [|contradiction Hdom; reflexivity].
  pose proof (prim_val_bounds (arg 0 a) (wf_arg 0 a Hwf)) as Hv. fold v in Hv.
  apply sp_prim_fits_range in Ef. unfold m_uint_from_prim.
  destruct (Z.eqb_spec kind 128) as [E128|N128]; cbn [orb].
  - apply vpanic_limbs; [apply uint_from_u128_none|]. intros r E.
    destruct (uint_from_u128_spec n v r Hv E) as (_ & Hw & Hl & He). apply limbs_of_val; auto.
  - destruct (Z.eqb_spec kind 129) as [E129|N129].
    + apply vpanic_limbs; [apply uint_from_wide_none|]. intros r E.
      destruct (uint_from_wide_word_spec n v r Hv E) as (_ & Hw & Hl & He). apply limbs_of_val; auto.
    + assert (Hword : is_word v).
      { unfold is_word. rewrite !orb_false_r in Hty. apply Z.leb_le in Hty.
        destruct (Z.eqb_spec kind 65); [rewrite B_val; exact Ef|]. destruct (kind =? 1); [rewrite B_val; exact Ef|].
        pose proof (pow2_le_B kind). lia. }
      apply vpanic_limbs; [apply uint_from_small_none|]. intros r E.
      destruct (uint_from_small_spec n v r Hword E) as (_ & Hw & Hl & He). apply limbs_of_val; auto.
Qed.

Lemma tbl_int_from_prim : tbl_ok "int.from_prim".
Proof.
  start_tbl. cbv zeta in *. unfold ty_int_prim in Hty. cbv zeta in Hty.
  set (kind := sarg 1 a) in *. set (n := cv_nat 2 a) in *. set (v := prim_val (arg 0 a)) in *.
  destruct (sp_prim_fits kind v) eqn:Ef; cbn [negb] in *; [|contradiction Hdom; reflexivity].
  apply sp_prim_fits_range in Ef. unfold m_int_from_prim, to_limbs_s.
  destruct (Z.eqb_spec kind 128) as [E128|N128].
  - rewrite E128 in *. change (128 =? 129) with false in Ef. change (128 =? 65) with false in Ef.
    change (128 =? 1) with false in Ef. cbv iota in Ef.
    apply vpanic_limbs; [apply int_from_i128_none|]. intros r E.
    destruct (int_from_i128_spec n v r Ef E) as (_ & Hw & Hl & He). apply limbs_of_mod; auto.
  - rewrite orb_false_r in Hty. apply andb_prop in Hty. destruct Hty as [Hk1 Hk2].
    apply Z.leb_le in Hk1. apply Z.leb_le in Hk2.
    replace (kind =? 129) with false in Ef by (symmetry; apply Z.eqb_neq; lia).
    replace (kind =? 65) with false in Ef by (symmetry; apply Z.eqb_neq; lia).
    replace (kind =? 1) with false in Ef by (symmetry; apply Z.eqb_neq; lia).
    apply vpanic_limbs; [apply int_from_small_none|]. intros r E.
    destruct (int_from_small_spec kind n v r ltac:(lia) Ef E) as (_ & Hw & Hl & He). apply limbs_of_mod; auto.
Qed.

Lemma tbl_boxed_from_prim : tbl_ok "boxed.from_prim".
Proof.
  start_tbl. cbv zeta in *.
  set (kind := sarg 1 a) in *. set (v := prim_val (arg 0 a)) in *.
  destruct (sp_prim_fits kind v) eqn:Ef; cbn [negb] in *; [|contradiction Hdom; reflexivity].
  pose proof (wf_arg 0 a Hwf) as Hw0.
  pose proof (prim_val_bounds (arg 0 a) Hw0) as Hv. fold v in Hv.
  destruct (kind =? 128).
  - destruct (uint_from_u128 2 v) as [r|] eqn:E; cbn [vpanic].
    + destruct (uint_from_u128_spec 2 v r Hv E) as (Hn & Hw & Hl & He). f_equal. f_equal. apply limbs_of_val; auto.
    + apply uint_from_u128_none in E. lia.
  - rewrite to_limbs_1. unfold v. rewrite prim_val_low by exact Hw0. reflexivity.
Qed.

Lemma tbl_uint_to_prim : tbl_ok "uint.to_prim".
Proof.
  start_tbl. cbv zeta in *. unfold m_uint_to_prim, cv_ln, cv_ev in *. pose proof (wf_arg 0 a Hwf) as Hw.
  destruct (sarg 1 a =? 128).
  - dom_if Hdom. apply Nat.eqb_eq in E. destruct (arg 0 a) as [|lo [|hi [|? ?]]]; try discriminate E.
    apply wf_cons in Hw. destruct Hw as [Hlo Hw]. apply wf_cons in Hw. destruct Hw as [Hhi _].
    cbv zeta. rewrite (u128_of_limbs_spec lo hi Hlo Hhi).
    unfold is_word in *. destruct (div_mod_unique_pos B hi lo (lo + B * hi) Hlo ltac:(lia)) as [Hq Hm].
    rewrite Hq, Hm. f_equal. f_equal. apply limbs_of_val; [|reflexivity|reflexivity].
    apply wf_cons. split; [exact Hlo|]. apply wf_one. exact Hhi.
  - dom_if Hdom. apply Nat.eqb_eq in E. destruct (arg 0 a) as [|x [|? ?]]; try discriminate E.
    apply wf_cons in Hw. destruct Hw as [Hx _]. unfold nthz. cbn [nth].
    rewrite eval_one, to_limbs_1, Z.mod_small by exact Hx. reflexivity.
Qed.

(* ------------------------------------------------------------------ concat / split / resize *)
Lemma tbl_uint_concat : tbl_ok "uint.concat".
Proof.
  start_tbl. unfold cv_ln, cv_ev. pose proof (wf_arg 0 a Hwf) as Hw0. pose proof (wf_arg 1 a Hwf) as Hw1.
  destruct (concat_spec (arg 0 a) (arg 1 a)) as [Ea Ee]. rewrite Ea in *.
  f_equal. f_equal. apply limbs_of_val; [apply wf_app; split; assumption | apply app_length | exact Ee].
Qed.
Lemma tbl_uint_split : tbl_ok "uint.split".
Proof.
  start_tbl. cbv zeta in *. unfold cv_ln, cv_ev in *. pose proof (wf_arg 0 a Hwf) as Hw.
  destruct (Nat.ltb_spec (length (arg 0 a)) (cv_nat 1 a)) as [|Hl]; [contradiction Hdom; reflexivity|].
  destruct (uint_split_mixed (arg 0 a) (cv_nat 1 a) (length (arg 0 a) - cv_nat 1 a)) as [lo hi] eqn:E.
  destruct (split_spec _ _ lo hi Hw Hl E) as (Hllo & Hlhi & Hwlo & Hwhi & Helo & Hehi & _).
  f_equal. f_equal; [|f_equal].
  - apply limbs_of_mod; auto.
  - apply limbs_of_val; auto.
Qed.
Lemma tbl_uint_resize : tbl_ok "uint.resize".
Proof.
  start_tbl. unfold cv_ev. destruct (uint_resize_spec (arg 0 a) (cv_nat 1 a) (wf_arg 0 a Hwf)) as (Hw & Hl & He).
  f_equal. f_equal. apply limbs_of_mod; auto.
Qed.
Lemma tbl_int_resize : tbl_ok "int.resize".
Proof.
  start_tbl. unfold cv_ln in *. destruct (Nat.eqb_spec (length (arg 0 a)) 0) as [|Hn]; [contradiction Hdom; reflexivity|].
  destruct (int_resize_spec (arg 0 a) (cv_nat 1 a) (wf_arg 0 a Hwf) ltac:(lia)) as (Hw & Hl & He).
  unfold to_limbs_s. f_equal. f_equal. apply limbs_of_mod; auto.
Qed.

(* ------------------------------------------------------------------ BoxedUint widen / shorten *)
Lemma sp_limbs_for_pos p : 1 <= p -> sp_limbs_for p = limbs_for_precision p.
Proof.
  intros Hp. unfold sp_limbs_for. replace (p =? 0) with false by (symmetry; apply Z.eqb_neq; lia).
  rewrite limbs_for_precision_eq. reflexivity.
Qed.
Lemma tbl_boxed_widen : tbl_ok "boxed.widen".
Proof.
  start_tbl. cbv zeta in *. unfold cv_ln, cv_ev in *. pose proof (wf_arg 0 a Hwf) as Hw.
  destruct (Nat.eqb_spec (length (arg 0 a)) 0) as [|Hn]; [contradiction Hdom; reflexivity|].
  destruct (boxed_widen (arg 0 a) (sarg 1 a)) as [r|] eqn:E; cbn [vpanic].
  - destruct (boxed_widen_spec _ _ r Hw ltac:(lia) E) as (Hp & Hwr & Hl & He).
    destruct (Z.ltb_spec (sarg 1 a) (64 * Z.of_nat (length (arg 0 a)))); [lia|].
    rewrite sp_limbs_for_pos by lia. f_equal. f_equal. apply limbs_of_val; auto.
  - apply boxed_widen_panics in E; [|lia]. apply Z.ltb_lt in E. rewrite E. reflexivity.
Qed.
Lemma tbl_boxed_shorten : tbl_ok "boxed.shorten".
Proof.
  start_tbl. cbv zeta in *. unfold cv_ln, cv_ev in *. pose proof (wf_arg 0 a Hwf) as Hw.
  destruct (Nat.eqb_spec (length (arg 0 a)) 0) as [|Hn]; [contradiction Hdom; reflexivity|].
  pose proof (sarg_word 1 a Hwf) as [Hp _].
  destruct (Z.eq_dec (sarg 1 a) 0) as [E0|E0].
  - rewrite E0. unfold boxed_shorten, lenZ.
    destruct (Z.ltb_spec (64 * Z.of_nat (length (arg 0 a))) (0)); [lia|].
    change (length (zero_with_precision 0)) with 1%nat. change (sp_limbs_for 0) with 1%nat.
    destruct (Nat.ltb_spec (length (arg 0 a)) 1); [lia|].
    cbn [vpanic]. f_equal. f_equal. apply limbs_of_mod.
    + apply wf_firstn. exact Hw.
    + apply firstn_length_le. lia.
    + apply eval_firstn; [exact Hw | lia].
  - destruct (boxed_shorten (arg 0 a) (sarg 1 a)) as [r|] eqn:E; cbn [vpanic].
    + assert (Hp1 : 1 <= sarg 1 a) by lia.
      destruct (boxed_shorten_spec _ _ r Hw Hp1 E) as (Hp' & Hwr & Hl & He).
      destruct (Z.ltb_spec (64 * Z.of_nat (length (arg 0 a))) (sarg 1 a)); [lia|].
      rewrite sp_limbs_for_pos by lia. f_equal. f_equal. apply limbs_of_mod; auto.
    + apply boxed_shorten_panics in E; [|lia]. apply Z.ltb_lt in E. rewrite E. reflexivity.
Qed.

(* ------------------------------------------------------------------ BoxedUint decoders *)
Lemma boxed_slice_entry (be : bool) bs p : wfd 256 bs -> 0 <= p ->
  boxed_from_slice be bs p =
  (let v := horner 256 (if be then bs else rev bs) in
   if 8 * Z.of_nat (length bs) >? 8 * ((p + 7) / 8) then ErrV E_InputSize
   else if 2 ^ p <=? v then ErrV E_Precision
   else Val [to_limbs (sp_limbs_for p) v]).
Proof.
  intros Hb Hp. rewrite (boxed_from_slice_spec be bs p Hb Hp). cbv zeta.
  assert (Ev : horner 256 (if be then bs else rev bs) = evalb 256 (if be then rev bs else bs)).
  { destruct be; [apply horner_evalb | apply horner_rev]. }
  rewrite Ev, Z.gtb_ltb. set (v := evalb 256 (if be then rev bs else bs)).
  destruct (Nat.eqb_spec (length bs) 0) as [E0|N0]; cbn [andb].
  - destruct (Z.eqb_spec p 0) as [Ep|Np].
    + assert (Hv : v = 0). { unfold v. destruct bs; [|discriminate E0]. destruct be; reflexivity. }
      rewrite Hv, Ep, E0. change (sp_limbs_for 0) with 1%nat. rewrite to_limbs_1, Z.mod_0_l by (pose proof B_pos; lia).
      reflexivity.
    + rewrite sp_limbs_for_pos, E0 by lia.
      assert (0 <= (p + 7) / 8) by (apply Z.div_pos; lia).
      destruct (Z.ltb_spec ((p + 7) / 8) (Z.of_nat 0)); [lia|].
      destruct (Z.ltb_spec (8 * ((p + 7) / 8)) (8 * Z.of_nat 0)); [lia|].
      reflexivity.
  - destruct (Z.ltb_spec ((p + 7) / 8) (Z.of_nat (length bs))) as [Hlt|Hge].
    + destruct (Z.ltb_spec (8 * ((p + 7) / 8)) (8 * Z.of_nat (length bs))); [|lia].
      reflexivity.
    + destruct (Z.ltb_spec (8 * ((p + 7) / 8)) (8 * Z.of_nat (length bs))); [lia|].
      assert (1 <= p).
      { destruct (Z.eq_dec p 0) as [->|]; [|lia]. change ((0 + 7) / 8) with 0 in Hge. lia. }
      rewrite sp_limbs_for_pos by assumption. reflexivity.
Qed.
Lemma tbl_boxed_from_be_slice : tbl_ok "boxed.from_be_slice".
Proof.
  start_tbl. unfold sp_boxed_from_slice in *. bdom. pose proof (sarg_word 1 a Hwf) as [Hp _].
  apply boxed_slice_entry; assumption.
Qed.
Lemma tbl_boxed_from_le_slice : tbl_ok "boxed.from_le_slice".
Proof.
  start_tbl. unfold sp_boxed_from_slice in *. bdom. pose proof (sarg_word 1 a Hwf) as [Hp _].
  apply boxed_slice_entry; assumption.
Qed.

Lemma tbl_boxed_from_be_hex : tbl_ok "boxed.from_be_hex".
Proof.
  start_tbl. cbv zeta in *. bdom.
  pose proof (boxed_from_be_hex_spec (sarg 1 a) (arg 0 a) Hb) as H. cbv zeta in H.
  set (n := Z.to_nat ((sarg 1 a + 63) / 64)) in *.
  destruct (boxed_from_be_hex (sarg 1 a) (arg 0 a)) as [r| |]; cbn [hex_boxed].
  - destruct H as (Hl & ds & Hd & Hw & Hlr & He). revert Hdom. rewrite Hl, Nat.eqb_refl. cbn [negb].
    rewrite (sp_hex_be_ok _ _ ds Hl Hd). destruct (Nat.eqb n 0); [intros Hdom; contradiction Hdom; reflexivity|].
    intros _. rewrite <- He. f_equal. f_equal. apply limbs_of_val; auto.
  - destruct H as (Hl & Hd). rewrite Hl, Nat.eqb_refl. cbn [negb]. rewrite sp_hex_bad by tauto. reflexivity.
  - apply Nat.eqb_neq in H. rewrite H. reflexivity.
Qed.

(* ------------------------------------------------------------------ serde payloads *)
Lemma tbl_uint_serde_ser : tbl_ok "uint.serde_ser".
Proof.
  start_tbl. unfold uint_serde_ser, cv_ln, cv_ev. pose proof (wf_arg 0 a Hwf) as Hw. cbv zeta.
  rewrite length_uint_to_le_bytes by exact Hw. rewrite uint_to_le_bytes_digits by exact Hw.
  rewrite !digits_le by reflexivity. rewrite Nat2Z.inj_mul. reflexivity.
Qed.

Lemma tbl_uint_serde_de : tbl_ok "uint.serde_de".
Proof.
  start_tbl. cbv zeta in *. bdom. set (n := cv_nat 1 a) in *. set (bs := arg 0 a) in *.
  revert Hdom. unfold uint_serde_de, word_from_le_bytes. rewrite horner_rev.
  set (L := evalb 256 (firstn 8 bs)). cbv zeta. rewrite skipn_length. rewrite Nat2Z.inj_mul. change (Z.of_nat 8) with 8.
  destruct (Nat.ltb_spec (length bs) 8) as [H8|H8].
  { destruct (Nat.ltb_spec (length bs) (8 + 8 * n)); [|lia]. reflexivity. }
  destruct (Nat.ltb_spec (length bs) (8 + 8 * n)) as [Hlt|Hge].
  - intros _. destruct (Z.ltb_spec (Z.of_nat (length bs - 8)) L) as [|HL]; [reflexivity|].
    destruct (Z.eqb_spec L (8 * Z.of_nat n)) as [EL|NL]; cbn [negb]; [lia | reflexivity].
  - destruct (Z.eqb_spec L (8 * Z.of_nat n)) as [EL|NL]; cbn [negb].
    + destruct (Z.ltb_spec (Z.of_nat (length bs - 8)) (L)); [lia|].
      destruct (Nat.eqb_spec (length bs) (8 + 8 * n)) as [El|Nl]; [|intros Hdom; contradiction Hdom; reflexivity].
      intros _. rewrite firstn_all2 by (rewrite skipn_length; lia).
      destruct (uint_from_le_slice n (skipn 8 bs)) as [r|] eqn:E.
      * destruct (from_le_slice_spec n _ r (wfd_skipn 256 8 bs Hb) E) as (_ & Hw & Hlr & He).
        rewrite horner_rev, <- He. f_equal. f_equal. apply limbs_of_val; auto.
      * apply from_le_slice_none in E. rewrite skipn_length in E. lia.
    + intros _. destruct (Z.ltb_spec (Z.of_nat (length bs - 8)) L); reflexivity.
Qed.

(* ------------------------------------------------------------------ NonZero / Odd decoders *)
Lemma nonzero_new_entry (o : option (list Z)) n (bs : list Z) v :
  (o = None <-> length bs <> (8 * n)%nat) -> (forall r, o = Some r -> wf r /\ length r = n /\ eval r = v) ->
  nonzero_new o = if Nat.eqb (length bs) (8 * n) then if v =? 0 then NoneV else Val [to_limbs n v] else PanicV.
Proof.
  intros Hn Hs. unfold nonzero_new. destruct (Nat.eqb_spec (length bs) (8 * n)) as [Hl|Hl].
  - destruct o as [r|]; [|contradiction (proj1 Hn eq_refl Hl)]. destruct (Hs r eq_refl) as (Hw & Hlr & He). rewrite <- He.
    pose proof (is_zero_limbs_eval r Hw) as Z0. destruct (is_zero_limbs r).
    + rewrite (proj1 Z0 eq_refl). reflexivity.
    + destruct (Z.eqb_spec (eval r) 0) as [E0|]; [apply Z0 in E0; discriminate|]. f_equal. f_equal. apply limbs_of_val; auto.
  - apply Hn in Hl. rewrite Hl. reflexivity.
Qed.
Lemma tbl_nonzero_be n bs : wfd 256 bs ->
  nonzero_from_be n bs =
  (if Nat.eqb (length bs) (8 * n) then let v := horner 256 bs in if v =? 0 then NoneV else Val [to_limbs n v] else PanicV).
Proof.
  intros Hb. cbv zeta. rewrite horner_evalb. apply nonzero_new_entry; [apply from_be_slice_len|].
  intros r E. apply (from_be_slice_spec n bs r Hb E).
Qed.
Lemma tbl_nonzero_le n bs : wfd 256 bs ->
  nonzero_from_le n bs =
  (if Nat.eqb (length bs) (8 * n) then let v := horner 256 (rev bs) in if v =? 0 then NoneV else Val [to_limbs n v] else PanicV).
Proof.
  intros Hb. cbv zeta. rewrite horner_rev. apply nonzero_new_entry; [apply from_le_slice_len|].
  intros r E. apply (from_le_slice_spec n bs r Hb E).
Qed.
Lemma tbl_nonzero_from_be_bytes : tbl_ok "nonzero.from_be_bytes".
Proof. start_tbl. unfold sp_nonzero in *. bdom. apply tbl_nonzero_be. exact Hb. Qed.
Lemma tbl_nonzero_from_le_bytes : tbl_ok "nonzero.from_le_bytes".
Proof. start_tbl. unfold sp_nonzero in *. bdom. apply tbl_nonzero_le. exact Hb. Qed.
Lemma tbl_nonzero_from_le_byte_array : tbl_ok "nonzero.from_le_byte_array".
Proof. start_tbl. unfold sp_nonzero in *. bdom. apply tbl_nonzero_le. exact Hb. Qed.

Lemma tbl_odd_from_be_hex : tbl_ok "odd.from_be_hex".
Proof.
  start_tbl. unfold sp_odd in *. bdom. pose proof (odd_from_be_hex_spec (cv_nat 1 a) (arg 0 a) Hb) as H.
  destruct (odd_from_be_hex (cv_nat 1 a) (arg 0 a)) as [vs| | | |]; try contradiction.
  - destruct vs as [|r [|? ?]]; try contradiction. destruct H as (Hl & ds & Hd & Hw & Hlr & He & Ho).
    rewrite (sp_odd_be _ _ ds Hl Hd), <- He, Ho. f_equal. f_equal. apply limbs_of_val; auto.
  - symmetry. destruct H as [H|[H|(ds & Hd & Ho)]].
    + apply sp_odd_bad. tauto.
    + apply sp_odd_bad. tauto.
    + destruct (Nat.eq_dec (length (arg 0 a)) (16 * cv_nat 1 a)) as [Hl|Hl]; [|apply sp_odd_bad; tauto].
      rewrite (sp_odd_be _ _ ds Hl Hd), Ho. reflexivity.
Qed.
Lemma tbl_odd_from_le_hex : tbl_ok "odd.from_le_hex".
Proof.
  start_tbl. unfold sp_odd in *. bdom. pose proof (odd_from_le_hex_spec (cv_nat 1 a) (arg 0 a) Hb) as H.
  destruct (odd_from_le_hex (cv_nat 1 a) (arg 0 a)) as [vs| | | |]; try contradiction.
  - destruct vs as [|r [|? ?]]; try contradiction. destruct H as (Hl & ds & Hd & Hw & Hlr & He & Ho).
    rewrite (sp_odd_le _ _ ds Hl Hd), <- He, Ho. f_equal. f_equal. apply limbs_of_val; auto.
  - symmetry. destruct H as [H|[H|(ds & Hd & Ho)]].
    + apply sp_odd_bad. tauto.
    + apply sp_odd_bad. tauto.
    + destruct (Nat.eq_dec (length (arg 0 a)) (16 * cv_nat 1 a)) as [Hl|Hl]; [|apply sp_odd_bad; tauto].
      rewrite (sp_odd_le _ _ ds Hl Hd), Ho. reflexivity.
Qed.

(* ------------------------------------------------------------------ the area theorem *)
Create HintDb c16tbl.
#[export] Hint Resolve tbl_limb_to_be_bytes tbl_limb_to_le_bytes tbl_limb_from_be_bytes tbl_limb_from_le_bytes
  tbl_limb_fmt tbl_limb_from_prim tbl_uint_to_be_bytes tbl_uint_to_le_bytes tbl_uint_from_be_slice
  tbl_uint_from_le_slice tbl_uint_from_be_hex tbl_uint_from_le_hex tbl_uint_fmt tbl_int_fmt tbl_boxed_fmt
  tbl_uint_words_id tbl_boxed_from_vec tbl_uint_from_prim tbl_uint_to_prim tbl_int_from_prim tbl_boxed_from_prim
  tbl_uint_concat tbl_uint_split tbl_uint_resize tbl_int_resize tbl_boxed_widen tbl_boxed_shorten
  tbl_boxed_from_be_slice tbl_boxed_from_le_slice tbl_boxed_from_be_hex tbl_uint_serde_ser tbl_uint_serde_de
  tbl_nonzero_from_be_bytes tbl_nonzero_from_le_bytes tbl_nonzero_from_le_byte_array tbl_odd_from_be_hex
  tbl_odd_from_le_hex : c16tbl.

(** the list of keys IS the key set of the table (in table order) *)
Definition conv_table_keys : list string := map fst ops_conv_model.
Lemma conv_table_keys_spec : map fst ops_conv_spec = conv_table_keys.
Proof. reflexivity. Qed.
Lemma conv_table_keys_count : length conv_table_keys = 37%nat.
Proof. reflexivity. Qed.

Lemma conv_all_keys_ok : forall k, In k conv_table_keys -> tbl_ok k.
Proof.
  intros k Hin. unfold conv_table_keys in Hin. cbn [map fst ops_conv_model In] in Hin.
  repeat (destruct Hin as [<- | Hin]; [solve [eauto with nocore c16tbl] |]); contradiction.
Qed.

Theorem conv_tables_agree : forall k dbg a,
  In k (map fst ops_conv_model) -> wf_args a -> typedb conv_tbl_ty k a = true ->
  run_tab ops_conv_spec k dbg a <> Unsupported ->
  run_tab ops_conv_model k dbg a = run_tab ops_conv_spec k dbg a.
Proof. intros k dbg a Hin. exact (conv_all_keys_ok k Hin dbg a). Qed.

(** the same over the key list of C11 (Proofs/TotalityP.v), which is the same set of 37 keys *)
Lemma conv_keys_in_table : forall k, In k conv_keys -> In k (map fst ops_conv_model).
Proof. apply sublist_In. vm_compute. reflexivity. Qed.
Lemma table_in_conv_keys : forall k, In k (map fst ops_conv_model) -> In k conv_keys.
Proof. apply sublist_In. vm_compute. reflexivity. Qed.

